(* Proofs/RouteProofs.v — what Log/Route.v's building blocks decide: level filters are monotone,
   the code's prefix matcher and the specification's are the same relation [mp], under which
   equal lengths mean equal names, and the two selections (last / first maximum) return the
   maximum when keys are unique.  Used by RouteThm.v. *)
From Fibre Require Import Common.Base Log.Route.
From Coq Require Import Arith.

Lemma rank_pos lv : (1 <= rank lv)%nat.
Proof. destruct lv; cbn; lia. Qed.

Lemma admits_OFF lv : admits OFF lv = false.
Proof. unfold admits. cbn [frank]. pose proof (rank_pos lv). apply Nat.leb_gt. lia. Qed.

Lemma admits_mono f g lv : (frank f <= frank g)%nat -> admits f lv = true -> admits g lv = true.
Proof. unfold admits. intros H H1. apply Nat.leb_le in H1. apply Nat.leb_le. lia. Qed.

Lemma fmax_ge_l a b : (frank a <= frank (fmax a b))%nat.
Proof. unfold fmax. destruct (Nat.leb_spec (frank a) (frank b)); lia. Qed.

Lemma fmax_ge_r a b : (frank b <= frank (fmax a b))%nat.
Proof. unfold fmax. destruct (Nat.leb_spec (frank a) (frank b)); lia. Qed.

Lemma fold_fmax_ge_init d l : (frank d <= frank (fold_right fmax d l))%nat.
Proof.
  induction l as [|x t IH]; cbn [fold_right]; [lia|].
  pose proof (fmax_ge_r x (fold_right fmax d t)). lia.
Qed.

Lemma fold_fmax_ge_in d l x : In x l -> (frank x <= frank (fold_right fmax d l))%nat.
Proof.
  induction l as [|y t IH]; cbn [fold_right]; intros Hin; [destruct Hin|].
  destruct Hin as [->|Hin].
  - apply fmax_ge_l.
  - pose proof (fmax_ge_r y (fold_right fmax d t)). specialize (IH Hin). lia.
Qed.

Lemma name_eqb_eq a b : name_eqb a b = true <-> a = b.
Proof.
  revert b. induction a as [|x a IH]; intros [|y b]; cbn [name_eqb]; split; intros H;
    try reflexivity; try discriminate.
  - apply andb_true_iff in H. destruct H as [H1 H2]. apply N.eqb_eq in H1. apply IH in H2.
    subst. reflexivity.
  - inversion H; subst. apply andb_true_iff. split; [apply N.eqb_refl | apply IH; reflexivity].
Qed.

Lemma name_eqb_refl a : name_eqb a a = true.
Proof. apply name_eqb_eq. reflexivity. Qed.

Lemma name_eqb_neq a b : name_eqb a b = false <-> a <> b.
Proof.
  split; intros H.
  - intros E. apply name_eqb_eq in E. congruence.
  - destruct (name_eqb a b) eqn:E; [|reflexivity]. apply name_eqb_eq in E. contradiction.
Qed.

Lemma strip_prefix_Some p t r : strip_prefix p t = Some r <-> t = p ++ r.
Proof.
  revert t. induction p as [|a p IH]; intros t; cbn [strip_prefix app].
  - split; intros H; [inversion H | subst]; reflexivity.
  - destruct t as [|b t].
    + split; intros H; discriminate.
    + destruct (N.eqb_spec a b) as [->|Hn].
      * rewrite IH. split; intros H; [subst | inversion H]; reflexivity.
      * split; intros H; [discriminate | inversion H; congruence].
Qed.

Lemma is_prefix_spec p t : is_prefix p t = true <-> exists r, t = p ++ r.
Proof.
  revert t. induction p as [|a p IH]; intros t; cbn [is_prefix app].
  - split; [intros _; exists t; reflexivity | reflexivity].
  - destruct t as [|b t].
    + split; [discriminate | intros [r H]; discriminate].
    + rewrite andb_true_iff, IH, N.eqb_eq. split.
      * intros [-> [r ->]]. exists r. reflexivity.
      * intros [r H]. inversion H; subst. split; [reflexivity | exists r; reflexivity].
Qed.

(* the relation both formulations decide: p is t or a module-path ancestor of t *)
Definition mp (p t : name) : Prop := t = p \/ exists r, t = p ++ sep ++ r.

Lemma starts_with_sep_spec r : starts_with_sep r = true <-> exists r', r = sep ++ r'.
Proof.
  unfold starts_with_sep, sep. destruct r as [|a [|b r]]; cbn [app].
  - split; [discriminate | intros [r' H]; discriminate].
  - split; [discriminate | intros [r' H]; discriminate].
  - rewrite andb_true_iff, !N.eqb_eq. split.
    + intros [-> ->]. exists r. reflexivity.
    + intros [r' H]. inversion H. split; reflexivity.
Qed.

Lemma target_matches_prefix_mp t p : target_matches_prefix t p = true <-> mp p t.
Proof.
  unfold target_matches_prefix, mp.
  destruct (strip_prefix p t) as [r|] eqn:E.
  - apply strip_prefix_Some in E. subst t. destruct r as [|x r].
    + split; [intros _; left; apply app_nil_r | reflexivity].
    + rewrite starts_with_sep_spec. split.
      * intros [r' H]. right. exists r'. rewrite H. reflexivity.
      * intros [H | [r' H]].
        -- exfalso. apply (f_equal (@length N)) in H. rewrite app_length in H. cbn in H. lia.
        -- apply app_inv_head in H. exists r'. exact H.
  - split; [discriminate|]. intros [H | [r' H]]; [rewrite <- (app_nil_r p) in H|];
      apply strip_prefix_Some in H; congruence.
Qed.

Lemma module_prefix_mp p t : module_prefix p t = true <-> mp p t.
Proof.
  unfold module_prefix, mp. rewrite orb_true_iff, name_eqb_eq, is_prefix_spec.
  split; intros [H | [r H]]; [left; exact H | right; exists r | left; exact H | right; exists r].
  - rewrite H, app_assoc. reflexivity.
  - rewrite H, app_assoc. reflexivity.
Qed.

(* the code's matcher and the specification's definition agree *)
Lemma matches_agree t p : target_matches_prefix t p = module_prefix p t.
Proof.
  destruct (target_matches_prefix t p) eqn:E1, (module_prefix p t) eqn:E2; try reflexivity.
  - apply target_matches_prefix_mp, module_prefix_mp in E1. congruence.
  - apply module_prefix_mp, target_matches_prefix_mp in E2. congruence.
Qed.

Lemma mp_firstn p t : mp p t -> p = firstn (length p) t.
Proof.
  intros [H | [r H]]; subst t.
  - symmetry. apply firstn_all.
  - rewrite firstn_app, Nat.sub_diag, firstn_all. cbn [firstn]. symmetry. apply app_nil_r.
Qed.

(* longest-prefix choice is unique: two matching logger names of the same length are equal *)
Lemma mp_same_len p q t : mp p t -> mp q t -> length p = length q -> p = q.
Proof.
  intros Hp Hq Hl. rewrite (mp_firstn p t Hp), (mp_firstn q t Hq), Hl. reflexivity.
Qed.

Lemma matches_unique t p q :
  target_matches_prefix t p = true -> target_matches_prefix t q = true ->
  length p = length q -> p = q.
Proof.
  intros Hp Hq. apply mp_same_len with t; apply target_matches_prefix_mp; assumption.
Qed.

(* the boundary: a strict extension matches only across "::" *)
Lemma matches_boundary p x r :
  target_matches_prefix (p ++ x :: r) p = true -> exists r', x :: r = 58 :: 58 :: r'.
Proof.
  intros H. apply target_matches_prefix_mp in H. destruct H as [H | [r' H]].
  - exfalso. apply (f_equal (@length N)) in H. rewrite app_length in H. cbn in H. lia.
  - apply app_inv_head in H. exists r'. exact H.
Qed.

Section MaxFacts.
  Variable A : Type.
  Variable key : A -> nat.

  Definition is_max (l : list A) (x : A) : Prop := In x l /\ forall y, In y l -> (key y <= key x)%nat.
  Definition uniq_key (l : list A) : Prop :=
    forall x y, In x l -> In y l -> key x = key y -> x = y.

  (* [max_by_key_from] and [longest_from] are the same scan; they differ in the comparison that
     decides whether a later element replaces the best so far *)
  Lemma scan_max (cmp : nat -> nat -> bool) (f : A -> list A -> A) :
    (forall a b, if cmp a b then (a <= b)%nat else (b <= a)%nat) ->
    (forall b, f b [] = b) ->
    (forall b x t, f b (x :: t) = if cmp (key b) (key x) then f x t else f b t) ->
    forall l b, is_max (b :: l) (f b l).
  Proof.
    intros Hcmp Hnil Hcons. induction l as [|x t IH]; intros b.
    - rewrite Hnil. split; [left; reflexivity|]. intros y [<-|[]]. lia.
    - rewrite Hcons. specialize (Hcmp (key b) (key x)).
      destruct (cmp (key b) (key x)); [destruct (IH x) as [Hin Hmax] | destruct (IH b) as [Hin Hmax]].
      + split; [right; exact Hin|]. intros y [<-|Hy]; [|apply Hmax, Hy].
        specialize (Hmax x (or_introl eq_refl)). lia.
      + split; [destruct Hin as [<-|Hin]; [left; reflexivity | right; right; exact Hin]|].
        intros y [<-|[<-|Hy]]; [apply Hmax; left; reflexivity | | apply Hmax; right; exact Hy].
        specialize (Hmax b (or_introl eq_refl)). lia.
  Qed.

  Lemma max_by_key_Some l x : max_by_key key l = Some x -> is_max l x.
  Proof.
    destruct l as [|b t]; cbn [max_by_key]; intros [= <-].
    apply (scan_max Nat.leb); try reflexivity. intros a c. destruct (Nat.leb_spec a c); lia.
  Qed.

  Lemma longest_Some l x : longest key l = Some x -> is_max l x.
  Proof.
    destruct l as [|b t]; cbn [longest]; intros [= <-].
    apply (scan_max Nat.ltb); try reflexivity. intros a c. destruct (Nat.ltb_spec a c); lia.
  Qed.

  Lemma max_by_key_None l : max_by_key key l = None <-> l = [].
  Proof. destruct l; cbn [max_by_key]; split; intros H; try reflexivity; discriminate. Qed.

  Lemma longest_None l : longest key l = None <-> l = [].
  Proof. destruct l; cbn [longest]; split; intros H; try reflexivity; discriminate. Qed.

  Lemma is_max_unique l x y : uniq_key l -> is_max l x -> is_max l y -> x = y.
  Proof.
    intros U [Hx Mx] [Hy My]. apply U; try assumption.
    specialize (Mx y Hy). specialize (My x Hx). lia.
  Qed.

  (* with unique keys either selection returns the maximum *)
  Lemma is_max_sel (sel : list A -> option A) l x :
    (forall y, sel l = Some y -> is_max l y) -> (sel l = None <-> l = []) ->
    uniq_key l -> is_max l x -> sel l = Some x.
  Proof.
    intros HS HN U Hm. destruct (sel l) as [y|] eqn:E.
    - f_equal. apply (is_max_unique l); auto.
    - rewrite (proj1 HN eq_refl) in Hm. destruct Hm as [[] _].
  Qed.

  Lemma is_max_longest l x : uniq_key l -> is_max l x -> longest key l = Some x.
  Proof. apply (is_max_sel (longest key)); [apply longest_Some | apply longest_None]. Qed.

  Lemma is_max_max_by_key l x : uniq_key l -> is_max l x -> max_by_key key l = Some x.
  Proof. apply (is_max_sel (max_by_key key)); [apply max_by_key_Some | apply max_by_key_None]. Qed.

  (* the two tie-breaking rules coincide on lists with the same members and unique keys *)
  Lemma max_by_key_longest l1 l2 :
    (forall x, In x l1 <-> In x l2) -> uniq_key l1 -> max_by_key key l1 = longest key l2.
  Proof.
    intros Hm U. destruct (max_by_key key l1) as [x|] eqn:E.
    - apply max_by_key_Some in E. symmetry. apply is_max_longest.
      + intros a b Ha Hb. apply U; apply Hm; assumption.
      + destruct E as [Hin Hmax]. split; [apply Hm; exact Hin|].
        intros y Hy. apply Hmax. apply Hm. exact Hy.
    - apply max_by_key_None in E. subst. symmetry. apply longest_None.
      destruct l2 as [|b t]; [reflexivity|]. exfalso. apply (Hm b). left. reflexivity.
  Qed.
End MaxFacts.
Arguments is_max {A}.
Arguments uniq_key {A}.

Lemma max_by_key_from_map {A B} (f : A -> B) (kb : B -> nat) b l :
  max_by_key_from kb (f b) (map f l) = f (max_by_key_from (fun x => kb (f x)) b l).
Proof.
  revert b. induction l as [|x t IH]; intros b; cbn [map max_by_key_from]; [reflexivity|].
  destruct (Nat.leb (kb (f b)) (kb (f x))); apply IH.
Qed.

Lemma max_by_key_map {A B} (f : A -> B) (kb : B -> nat) l :
  max_by_key kb (map f l) = option_map f (max_by_key (fun x => kb (f x)) l).
Proof.
  destruct l as [|b t]; cbn [map max_by_key option_map]; [reflexivity|].
  f_equal. apply max_by_key_from_map.
Qed.

Lemma filter_map_comm {A B} (f : A -> B) (P : B -> bool) l :
  filter P (map f l) = map f (filter (fun x => P (f x)) l).
Proof.
  induction l as [|x t IH]; cbn [map filter]; [reflexivity|].
  destruct (P (f x)); cbn [map]; rewrite IH; reflexivity.
Qed.
