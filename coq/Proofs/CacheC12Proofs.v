(* Proofs/CacheC12Proofs.v — C12: nothing expired is served; on an unbounded cache
   nothing unexpired disappears (with the F-16 patch), and the refutations on the
   current code (F-15, F-16, F-33). *)
From Fibre Require Import Common.Base Cache.PolicySpec Cache.PolicyLru Cache.AMap Cache.CacheOps Cache.CacheSpec
     Proofs.AMapProofs Proofs.CacheCoreProofs Proofs.CacheStepProofs.

Section C12.
  Set Default Proof Using "All".
  Variable P : policy.
  Variable c : cfg.
  Hypothesis Hn : 0 < c_shards c.

  Notation state := (state P).
  Notation find := (find P c).
  Notation wfp := (wfp P c).

  Lemma expired_live now e : expired c now e = false <-> live c now e.
  Proof.
    unfold expired, live. split.
    - intros H. apply orb_false_iff in H. destruct H as [H1 H2]. split.
      + destruct (N.eqb_spec (e_exp e) 0) as [->|Hne]; [left; reflexivity|]. cbn [negb andb] in H1.
        right. apply N.leb_gt in H1. exact H1.
      + intros d Hd. rewrite Hd in H2. apply N.leb_gt in H2. exact H2.
    - intros [H1 H2]. apply orb_false_iff. split.
      + destruct H1 as [->|H1]; [reflexivity|]. apply andb_false_iff. right. apply N.leb_gt. exact H1.
      + destruct (c_tti c) as [d|]; [|reflexivity]. apply N.leb_gt. apply H2. reflexivity.
  Qed.

  Lemma visible_live s k v :
    option_map e_val (visible P c s k) = Some v ->
    exists e, find s k = Some e /\ e_val e = v /\ live c (st_now P s) e.
  Proof.
    destruct (visible P c s k) as [e|] eqn:Ev; [|discriminate]. intros Hv. inversion Hv.
    apply (visible_Some P c Hn) in Ev. destruct Ev as [Hf Hx].
    exists e. split; [exact Hf|]. split; [reflexivity|]. apply expired_live. exact Hx.
  Qed.

  (** ** served => live *)
  Lemma c12_served_gen s o k v :
    served P c s o k v ->
    (is_entry_op o = true -> fix_f15 (c_fix c) = true) ->
    (is_compute_op o = true -> fix_f33 (c_fix c) = true) ->
    exists e, find s k = Some e /\ e_val e = v /\ live c (st_now P s) e.
  Proof.
    intros Hs He Hc.
    assert (Hread : forall hit, snd (step P c s o) = ROpt (snd (do_read P c hit s k)) ->
                                snd (step P c s o) = ROpt (Some v) ->
                                exists e, find s k = Some e /\ e_val e = v /\ live c (st_now P s) e).
    { intros hit H1 H2. rewrite H1, (proj2 (do_read_rd_ok P c Hn hit s k)) in H2. apply visible_live. congruence. }
    assert (Hocc : forall e, occupied P c s k = Some e -> e_val e = v -> is_entry_op o = true ->
                             exists e, find s k = Some e /\ e_val e = v /\ live c (st_now P s) e).
    { intros e Ho Hv Hop. pose proof (occupied_spec P c Hn s k) as H. rewrite Ho in H. destruct H as [Hf Hx].
      exists e. split; [exact Hf|]. split; [exact Hv|]. apply expired_live. auto. }
    assert (Hmget : forall rd ks, rd_ok P c rd -> In (k, v) (snd (do_multiget_gen P rd s ks [])) ->
                                  exists e, find s k = Some e /\ e_val e = v /\ live c (st_now P s) e).
    { intros rd ks Hrd Hi. destruct (multiget_gen_spec P c Hn rd Hrd ks s []) as [_ [Hin _]].
      destruct (Hin k v Hi) as [[]|[_ Hv]]. apply visible_live. exact Hv. }
    destruct o; cbn [served] in Hs; try contradiction.
    - destruct Hs as [-> Hs]. apply (Hread true); [apply snd_let | exact Hs].
    - destruct Hs as [-> Hs]. apply (Hread true); [apply snd_let | exact Hs].
    - destruct Hs as [-> Hs]. apply (Hread false); [apply snd_let | exact Hs].
    - destruct Hs as [-> [e [Ho Hv]]]. apply (Hocc e Ho Hv). reflexivity.
    - destruct Hs as [-> Hs]. cbn [step snd] in Hs. destruct (occupied P c s k) as [e|] eqn:Ho; [|discriminate].
      apply (Hocc e eq_refl); [congruence | reflexivity].
    - destruct Hs as [-> Hs]. cbn [step] in Hs. rewrite snd_let in Hs.
      pose proof (do_compute_ueff P c s k f) as H. cbn zeta in H. pose proof (computable_spec P c Hn s k) as Hcs.
      destruct (computable P c s k) as [e|]; [|rewrite H in Hs; discriminate].
      destruct H as [_ [Hr _]], Hcs as [Hf Hx]. exists e. split; [exact Hf|]. split; [congruence|].
      apply expired_live. auto.
    - destruct Hs as [l [Hs Hi]]. cbn [step] in Hs. rewrite snd_let in Hs. inversion Hs; subst l.
      apply (Hmget _ ks (do_read_rd_ok P c Hn true) Hi).
    - destruct Hs as [l [Hs Hi]]. cbn [step] in Hs. rewrite snd_let in Hs. inversion Hs; subst l.
      apply (Hmget _ ks (do_read_direct_rd_ok P c Hn) Hi).
  Qed.

  (** ** what an operation can do to an entry it does not overwrite *)
  Definition same_inc (s : state) (o : op) (k : N) (e e' : entry) : Prop :=
    e_id e' = e_id e /\ e_exp e' = e_exp e /\ e_cost e' = e_cost e
    /\ (e_la e' = e_la e
        \/ (e_la e' = st_now P s /\ live c (st_now P s) e /\ refreshes o k = true)).

  Lemma same_inc_refl s o k e : same_inc s o k e e.
  Proof. repeat split; auto. Qed.

  Lemma upd_same_inc s o k e e' : upd P c (refreshes o) s k e e' -> same_inc s o k e e'.
  Proof.
    intros H. destruct (upd_fields P c Hn _ _ _ _ _ H) as [_ [Hi [Hx [Hc Hl]]]]. repeat split; auto.
    destruct Hl as [Hl|[Hl [Hu Hr]]]; [left; exact Hl | right]. split; [exact Hl|]. split; [apply expired_live; exact Hu | exact Hr].
  Qed.

  (* An entry that [o] does not overwrite keeps its incarnation, deadline and cost.  It stays,
     unless [o] removes the key or is a maintenance pass; and maintenance drops only what it may:
     expired entries (with the F-16 patch) or, on a bounded cache, victims. *)
  Lemma c12_keep s o k e :
    wfp s -> find s k = Some e -> silent o k = false ->
    let s' := fst (step P c s o) in
    (forall e', find s' k = Some e' -> same_inc s o k e e')
    /\ (removes o k = false ->
        is_maint o = false \/ (c_cap c = U64_MAX /\ fix_f16 (c_fix c) = true /\ live c (st_now P s') e) ->
        exists e', find s' k = Some e').
  Proof.
    intros Hw Hf Hsil. cbn zeta.
    assert (Hsame : forall s' (X : Prop), find s' k = Some e ->
              (forall e', find s' k = Some e' -> same_inc s o k e e') /\ (removes o k = false -> X -> exists e', find s' k = Some e')).
    { intros s' X H. rewrite H. split; [|eauto]. intros e' He'. inversion He'; subst. apply same_inc_refl. }
    destruct (step_kind P c Hn s o Hw) as [H | H | k0 e0 v Hf0 H | D dcc H Hrs _ | Ho _ | M _ _ _ _].
    - apply Hsame. rewrite (writes_frame P c Hn o _ _ k H Hsil). exact Hf.
    - destruct (refr_fwd P c Hn _ _ _ k e H Hf) as [e' [He' Hu]]. rewrite He'. split; [|eauto].
      intros e2 He2. inversion He2; subst. apply upd_same_inc. exact Hu.
    - rewrite (find_ueff_aset P c Hn _ _ _ _ _ _ k H). destruct (N.eqb_spec k k0) as [->|]; [|apply Hsame; exact Hf].
      rewrite Hf0. rewrite Hf in Hf0. inversion Hf0; subst e0. split; [|eauto].
      intros e' He'. inversion He'; subst. repeat split; auto.
    - rewrite (find_mstep P c Hn _ _ _ _ k (proj1 H)). destruct (mem k (dkeys (shard_of c k) D)) eqn:Em; [|apply Hsame; exact Hf].
      split; [discriminate|]. intros Hrm Hx. exfalso.
      apply mem_In, In_dkeys in Em. destruct Em as [d [Hd [Hs Hk]]].
      destruct H as [[_ [_ [Nw [_ [_ [_ F]]]]]] [Hok _]]. specialize (F d Hd). rewrite Hs, Hk, <- find_smap, Hf in F.
      inversion F as [He]. rewrite Forall_forall in Hok, Hrs.
      destruct (Hok d Hd) as [_ Hr]. specialize (Hrs d Hd). unfold reason_ok in Hrs. rewrite Hk in Hrs.
      destruct (d_rsn d); [| |congruence]; (destruct Hx as [Hx|[Hcap [Hfix Hl]]]; [congruence|]).
      + unfold U64_MAX in *. lia.
      + rewrite Nw, He in Hl. apply expired_live in Hl. rewrite (Hr Hfix) in Hl. discriminate.
    - subst o. discriminate.
    - apply Hsame. rewrite (find_same P c Hn _ _ k M). exact Hf.
  Qed.

  Lemma c12_kept s o k e :
    wfp s -> find s k = Some e -> removes o k = false -> silent o k = false ->
    is_maint o = false \/ (c_cap c = U64_MAX /\ fix_f16 (c_fix c) = true /\ live c (st_now P (fst (step P c s o))) e) ->
    exists e', find (fst (step P c s o)) k = Some e' /\ e_id e' = e_id e /\ e_exp e' = e_exp e.
  Proof.
    intros Hw Hf Hrm Hsil Hx. destruct (c12_keep s o k e Hw Hf Hsil) as [A B].
    destruct (B Hrm Hx) as [e' He']. exists e'. split; [exact He'|]. destruct (A e' He') as [H1 [H2 _]]. auto.
  Qed.

  Theorem c12_present : fix_f16 (c_fix c) = true -> C12_present P c.
  Proof.
    intros Hfix Hcap s o k e Hwf Hpl Hf Hl Hrm Hsil. apply c12_kept; auto. split; assumption.
  Qed.

  (* an entry that is there and live is returned by every read path *)
  Theorem c12_live_is_served s k e :
    find s k = Some e -> live c (st_now P s) e ->
    (forall hit, snd (do_read P c hit s k) = Some (e_val e))
    /\ snd (do_read_direct P c s k) = Some (e_val e)
    /\ occupied P c s k = Some e
    /\ computable P c s k = Some e
    /\ (forall ks, In k ks -> In k (map fst (snd (do_multiget_gen P (do_read P c true) s ks []))))
    /\ (forall ks, In k ks -> In k (map fst (snd (do_multiget_gen P (do_read_direct P c) s ks [])))).
  Proof.
    intros Hf Hl. apply expired_live in Hl.
    assert (Hm : forall rd, rd_ok P c rd -> forall ks, In k ks -> In k (map fst (snd (do_multiget_gen P rd s ks [])))).
    { intros rd Hrd ks Hi. destruct (multiget_gen_spec P c Hn rd Hrd ks s []) as [_ [_ [Hc _]]].
      apply Hc; [exact Hi|]. unfold visible. rewrite Hf, Hl. discriminate. }
    split; [|split; [|split; [|split; [|split]]]].
    - intros hit. unfold do_read. rewrite Hf, Hl. reflexivity.
    - unfold do_read_direct. rewrite Hf, Hl. reflexivity.
    - unfold occupied. rewrite Hf, Hl, andb_false_r. reflexivity.
    - unfold computable. rewrite Hf, Hl, andb_false_r. reflexivity.
    - apply Hm, do_read_rd_ok; exact Hn.
    - apply Hm, do_read_direct_rd_ok; exact Hn.
  Qed.

  (* the deadline of a fresh incarnation: TTL from insertion, idle timer from now *)
  Theorem c12_deadline_set s k v cost :
    (exists h, find (do_insert P c s k v cost) k
               = Some (mkE v cost (ttl_exp c (st_now P s)) (la0 P c s) h (st_eid P s)))
    /\ (forall d, exists h, find (do_insert_ttl P c s k v cost d) k
                            = Some (mkE v cost (st_now P s + d) (la0 P c s) h (st_eid P s)))
    /\ (occupied P c s k = None ->
        find (fst (do_or_insert P c s k v cost)) k
        = Some (mkE v cost (ttl_exp c (st_now P s)) (la0 P c s) None (st_eid P s))).
  Proof.
    split; [|split].
    - destruct (opp_insert_write P c Hn s k v cost (ttl_exp c (st_now P s)) (c_ttl c)) as [h H]. exists h. unfold do_insert.
      rewrite (find_write P c Hn _ _ _ _ k H), N.eqb_refl. reflexivity.
    - intros d. destruct (opp_insert_write P c Hn s k v cost (st_now P s + d) (Some d)) as [h H]. exists h. unfold do_insert_ttl.
      rewrite (find_write P c Hn _ _ _ _ k H), N.eqb_refl. reflexivity.
    - intros Ho. unfold do_or_insert. rewrite Ho. cbn [fst].
      rewrite (find_write P c Hn _ _ _ _ k (vacant_insert_write P c Hn s k v cost)), N.eqb_refl. reflexivity.
  Qed.
End C12.

(** * refutations on the code as found (no_fixes) *)
Definition c12_cfg (fx : fixes) : cfg := mkCfg 1 U64_MAX (Some 5) None 60 1 false true false false fx.

(* F-15 / F-33: insert with TTL 5, advance 5: the entry is expired, not yet collected *)
Definition c12_s0 (fx : fixes) : state LruP := state_after LruP (c12_cfg fx) 1000 [OInsert 1 100 1; OAdvance 5].

Lemma c12_served_refuted_F15 : ~ C12_served_live LruP (c12_cfg no_fixes).
Proof.
  intros H. destruct (H (c12_s0 no_fixes) (OEntryGet 1) 1 100) as [e [Hf [_ [Hl _]]]].
  - split; [reflexivity | vm_compute; reflexivity].
  - vm_compute in Hf. inversion Hf; subst. vm_compute in Hl. destruct Hl as [Hl|Hl]; discriminate.
Qed.

Lemma c12_served_refuted_F15_or_insert : ~ C12_served_live LruP (c12_cfg no_fixes).
Proof.
  intros H. destruct (H (c12_s0 no_fixes) (OEntryOrInsert 1 7 1) 1 100) as [e [Hf [_ [Hl _]]]].
  - split; [reflexivity|]. eexists. split; [vm_compute; reflexivity | reflexivity].
  - vm_compute in Hf. inversion Hf; subst. vm_compute in Hl. destruct Hl as [Hl|Hl]; discriminate.
Qed.

Lemma c12_served_refuted_F33 : ~ C12_served_live LruP (c12_cfg no_fixes).
Proof.
  intros H. destruct (H (c12_s0 no_fixes) (OComputeVal 1 FKeep) 1 100) as [e [Hf [_ [Hl _]]]].
  - split; [reflexivity | vm_compute; reflexivity].
  - vm_compute in Hf. inversion Hf; subst. vm_compute in Hl. destruct Hl as [Hl|Hl]; discriminate.
Qed.

(* F-16: TTL 5 (5 ticks); the sixth maintenance pass removes the entry at the instant it was inserted *)
Definition c12_s1 (fx : fixes) : state LruP :=
  state_after LruP (c12_cfg fx) 1000 [OInsert 1 100 1; OMaint []; OMaint []; OMaint []; OMaint []; OMaint []].

Lemma c12_present_refuted_F16 : ~ C12_present LruP (c12_cfg no_fixes).
Proof.
  intros H.
  assert (Hw : wfp LruP (c12_cfg no_fixes) (c12_s1 no_fixes)).
  { apply reachable_wfp; [reflexivity|]. exists 1000. eexists. reflexivity. }
  destruct (H eq_refl (c12_s1 no_fixes) (OMaint []) 1
              (mkE 100 1 1005 0 (Some 0) 0) (proj1 Hw) (proj2 Hw)) as [e' [Hf _]]; try reflexivity.
  - vm_compute. split; [right; reflexivity | intros d Hd; discriminate].
  - vm_compute in Hf. discriminate.
Qed.
