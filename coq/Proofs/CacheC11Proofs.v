(* Proofs/CacheC11Proofs.v — C11: the cache refines the per-key register that may forget. *)
From Fibre Require Import Common.Base Cache.PolicySpec Cache.AMap Cache.CacheOps Cache.CacheSpec
     Proofs.AMapProofs Proofs.CacheCoreProofs Proofs.CacheStepProofs.

Section C11.
  Set Default Proof Using "All".
  Variable P : policy.
  Variable c : cfg.
  Hypothesis Hn : 0 < c_shards c.

  Notation state := (state P).
  Notation find := (find P c).
  Notation wfp := (wfp P c).

  (* what the cache holds is what the register holds *)
  Definition inv11 (s : state) (r : reg) : Prop :=
    forall k e, find s k = Some e -> r k = Some (e_val e).

  Lemma inv11_sub s s' r :
    (forall k e', find s' k = Some e' -> exists e, find s k = Some e /\ e_val e = e_val e') ->
    inv11 s r -> inv11 s' r.
  Proof. intros H I k e' Hf. destruct (H k e' Hf) as [e [Hf0 <-]]. apply I. exact Hf0. Qed.

  Lemma inv11_refr R s s' r : refr P c R s s' -> inv11 s r -> inv11 s' r.
  Proof.
    intros Hr. apply inv11_sub. intros k e' Hf.
    destruct (refr_back P c Hn R s s' k e' Hr Hf) as [e [H1 H2]]. exists e. split; [exact H1|].
    symmetry. apply (upd_fields P c Hn _ _ _ _ _ H2).
  Qed.

  Lemma inv11_mstep s s' D dcc r : mstep P c s s' D dcc -> inv11 s r -> inv11 s' r.
  Proof.
    intros Hm. apply inv11_sub. intros k e' Hf. rewrite (find_mstep P c Hn _ _ _ _ k Hm) in Hf.
    destruct (mem k (dkeys (shard_of c k) D)); [discriminate | eauto].
  Qed.

  Lemma inv11_same s s' r : (forall j, smap P s' j = smap P s j) -> inv11 s r -> inv11 s' r.
  Proof. intros M. apply inv11_sub. intros k e' Hf. rewrite (find_same P c Hn _ _ k M) in Hf. eauto. Qed.

  Lemma inv11_write s s' r k e :
    write P c s s' k e -> inv11 s r -> inv11 s' (rset r k (Some (e_val e))).
  Proof.
    intros H I k' e' Hf. rewrite (find_write P c Hn _ _ _ _ k' H) in Hf. unfold rset.
    destruct (N.eqb_spec k' k) as [->|Hne]; [inversion Hf; subst; reflexivity | apply I; exact Hf].
  Qed.

  Lemma rset_fold_notin ks : forall (r : reg) k, ~ In k ks -> fold_left (fun r k => rset r k None) ks r k = r k.
  Proof.
    induction ks as [|k0 t IH]; intros r k Hni; cbn [fold_left]; [reflexivity|].
    rewrite IH by (intros Hi; apply Hni; right; exact Hi). unfold rset.
    destruct (N.eqb_spec k k0) as [->|]; [exfalso; apply Hni; left; reflexivity | reflexivity].
  Qed.

  Lemma c11_multi_insert items : forall s r,
    wfp s -> inv11 s r ->
    inv11 (do_multi_insert P c s items)
          (fold_left (fun r it => rset r (fst (fst it)) (Some (snd (fst it)))) items r).
  Proof.
    unfold do_multi_insert. induction items as [|[[k v] cost] t IH]; intros s r Hw HI; cbn [fold_left fst snd]; [exact HI|].
    destruct (insert_core_write P c Hn s k v cost (ttl_exp c (st_now P s)) (c_ttl c)) as [h [_ H]].
    apply IH.
    - eapply (write_wfp P c Hn); eassumption.
    - apply (inv11_write _ _ _ _ _ H HI).
  Qed.

  Lemma inv11_visible s r k : inv11 s r -> reads_ok r k (option_map e_val (visible P c s k)).
  Proof.
    intros HI. destruct (visible P c s k) as [e|] eqn:Ev; [|exact I].
    apply HI. apply (visible_Some P c Hn). exact Ev.
  Qed.

  Lemma c11_read hit s r k :
    inv11 s r ->
    reads_ok r k (snd (do_read P c hit s k)) /\ inv11 (fst (do_read P c hit s k)) r.
  Proof.
    intros HI. destruct (do_read_rd_ok P c Hn hit s k) as [Hr ->].
    split; [apply inv11_visible; exact HI | eapply inv11_refr; eassumption].
  Qed.

  Lemma c11_remove s r k :
    inv11 s r ->
    reads_ok r k (snd (do_remove P c s k))
    /\ (snd (do_remove P c s k) <> None -> r k <> None)
    /\ inv11 (fst (do_remove P c s k)) (rset r k None).
  Proof.
    intros HI. destruct (do_remove_spec P c s k Hn) as [[H _] ->].
    split; [|split].
    - destruct (find s k) as [e|] eqn:Ef; [apply HI; exact Ef | exact I].
    - destruct (find s k) as [e|] eqn:Ef; [rewrite (HI k e Ef); discriminate | intros Hx; contradiction].
    - intros k' e' Hf'. rewrite (find_rdrops P c Hn _ _ _ _ k' H) in Hf'. unfold rset.
      destruct (N.eqb k' k); [discriminate | apply HI; exact Hf'].
  Qed.

  (* compute / try_compute(_val): read-modify-write of one key on one state *)
  Lemma c11_compute_rmw s k f :
    match snd (do_compute P c s k f) with
    | Some old =>
        exists e, find s k = Some e /\ e_val e = old
                  /\ find (fst (do_compute P c s k f)) k
                     = Some (mkE (capply f old) (e_cost e) (e_exp e) (e_la e) (e_timer e) (e_id e))
                  /\ forall k', k' <> k -> find (fst (do_compute P c s k f)) k' = find s k'
    | None => fst (do_compute P c s k f) = s
    end.
  Proof.
    pose proof (do_compute_ueff P c s k f) as H. cbn zeta in H.
    destruct (computable P c s k) as [e|].
    - destruct (do_compute P c s k f) as [s' o]. cbn [fst snd] in *. destruct H as [H [-> Hf]].
      exists e. split; [exact Hf|]. split; [reflexivity|]. split.
      + rewrite (find_ueff_aset P c Hn _ _ _ _ _ _ k H), N.eqb_refl, Hf. reflexivity.
      + intros k' Hne. rewrite (find_ueff_aset P c Hn _ _ _ _ _ _ k' H).
        destruct (N.eqb_spec k' k); [contradiction | reflexivity].
    - rewrite H. reflexivity.
  Qed.

  Lemma c11_compute s r k f :
    inv11 s r ->
    match snd (do_compute P c s k f) with
    | Some old => r k = Some old /\ inv11 (fst (do_compute P c s k f)) (rset r k (Some (capply f old)))
    | None => fst (do_compute P c s k f) = s
    end.
  Proof.
    intros HI. pose proof (c11_compute_rmw s k f) as H. destruct (snd (do_compute P c s k f)) as [old|]; [|exact H].
    destruct H as [e [Hf [Hv [Hk Hfr]]]]. split; [rewrite <- Hv; apply HI; exact Hf|].
    intros k' e' Hf'. unfold rset. destruct (N.eqb_spec k' k) as [->|Hne].
    - rewrite Hk in Hf'. inversion Hf'. reflexivity.
    - apply HI. rewrite <- (Hfr k' Hne). exact Hf'.
  Qed.

  Lemma c11_multiget rd s r ks :
    rd_ok P c rd -> inv11 s r ->
    pairs_ok r ks (snd (do_multiget_gen P rd s ks [])) /\ inv11 (fst (do_multiget_gen P rd s ks [])) r.
  Proof.
    intros Hrd HI. destruct (multiget_gen_spec P c Hn rd Hrd ks s []) as [Hr [Hin _]].
    split; [|eapply inv11_refr; eassumption].
    intros k v Hi. destruct (Hin k v Hi) as [[]|[Hk Hv]]. split; [exact Hk|].
    pose proof (inv11_visible s r k HI) as Hx. rewrite Hv in Hx. exact Hx.
  Qed.

  Lemma c11_multi_remove s r ks :
    inv11 s r ->
    pairs_ok r ks (snd (do_multi_remove P c s ks []))
    /\ inv11 (fst (do_multi_remove P c s ks [])) (fold_left (fun r k => rset r k None) ks r).
  Proof.
    intros HI. destruct (do_multi_remove_spec P c Hn ks s []) as [D [[H _] [HD [-> Hgone]]]].
    split.
    - intros k v Hi. cbn [rev app] in Hi. apply in_map_iff in Hi. destruct Hi as [d [Hd Hi]]. inversion Hd; subst.
      rewrite Forall_forall in HD. destruct (HD d Hi) as [_ [Hk Hf]]. split; [exact Hk | apply HI; exact Hf].
    - intros k' e' Hf'. assert (Hni : ~ In k' ks) by (intros Hi; rewrite (Hgone k' Hi) in Hf'; discriminate).
      rewrite rset_fold_notin by exact Hni. apply HI.
      rewrite (find_mstep P c Hn _ _ _ _ k' H) in Hf'. destruct (mem k' _); [discriminate | exact Hf'].
  Qed.

  Lemma c11_step s r o :
    wfp s -> inv11 s r ->
    let '(s', x) := step P c s o in
    let '(r', ok) := reg_step r o x in
    ok /\ inv11 s' r'.
  Proof.
    intros Hw HI. destruct (is_maint o) eqn:Em.
    { (* maintenance, janitor passes and expiry only delete *)
      destruct (maint_mpassed P c Hn s o Em Hw) as [D [dcc [[H _] _]]]. pose proof (inv11_mstep _ _ _ _ r H HI) as HI'.
      destruct o; try discriminate Em; (split; [reflexivity | exact HI']). }
    destruct o; try discriminate Em; cbn [step reg_step].
    - destruct (opp_insert_write P c Hn s k v c0 (ttl_exp c (st_now P s)) (c_ttl c)) as [h H]. split; [reflexivity|].
      apply (inv11_write _ _ _ _ _ H HI).
    - destruct (opp_insert_write P c Hn s k v c0 (st_now P s + d) (Some d)) as [h H]. split; [reflexivity|].
      apply (inv11_write _ _ _ _ _ H HI).
    - pose proof (c11_read true s r k HI) as H. destruct (do_read P c true s k). exact H.
    - pose proof (c11_read true s r k HI) as H. destruct (do_read P c true s k). exact H.
    - pose proof (c11_read false s r k HI) as H. destruct (do_read P c false s k). exact H.
    - (* or_insert *)
      unfold do_or_insert. pose proof (occupied_spec P c Hn s k) as Ho.
      destruct (occupied P c s k) as [e|].
      + destruct Ho as [Hf _]. rewrite (HI k e Hf), N.eqb_refl. split; [exact I | exact HI].
      + pose proof (inv11_write _ _ _ _ _ (vacant_insert_write P c Hn s k v c0) HI) as HI'. cbn [e_val] in HI'.
        destruct (r k) as [w|] eqn:Er; [destruct (N.eqb_spec w v) as [->|Hne]|].
        * split; [exact I|]. intros k' e' Hf. specialize (HI' k' e' Hf). unfold rset in HI'.
          destruct (N.eqb_spec k' k) as [->|]; congruence.
        * split; [reflexivity | exact HI'].
        * split; [reflexivity | exact HI'].
    - pose proof (occupied_spec P c Hn s k) as Ho. destruct (occupied P c s k) as [e|]; cbn [reads_ok].
      + split; [apply HI; apply Ho | exact HI].
      + split; [exact I | exact HI].
    - pose proof (c11_compute s r k f HI) as H. destruct (do_compute P c s k f) as [s' [old|]]; cbn [fst snd] in H.
      + destruct H as [Hr H]. rewrite Hr. cbn [option_map]. split; [discriminate | exact H].
      + subst s'. split; [exact I | exact HI].
    - pose proof (c11_compute s r k f HI) as H. destruct (do_compute P c s k f) as [s' [old|]]; cbn [fst snd] in H.
      + destruct H as [Hr H]. split; [exact Hr | exact H].
      + subst s'. split; [exact I | exact HI].
    - pose proof (c11_remove s r k HI) as H. destruct (do_remove P c s k) as [s' o]. cbn [fst snd] in H. tauto.
    - pose proof (c11_remove s r k HI) as H. destruct (do_remove P c s k) as [s' o]. cbn [fst snd] in H.
      destruct H as [_ [H1 H2]]. split; [|exact H2]. intros Hb. apply H1. destruct o; [discriminate | discriminate Hb].
    - split; [reflexivity|]. intros k e Hf. rewrite (do_clear_find P c Hn) in Hf. discriminate.
    - pose proof (c11_multiget _ s r ks (do_read_rd_ok P c Hn true) HI) as H.
      destruct (do_multiget_gen P (do_read P c true) s ks []). exact H.
    - pose proof (c11_multiget _ s r ks (do_read_direct_rd_ok P c Hn) HI) as H.
      destruct (do_multiget_gen P (do_read_direct P c) s ks []). exact H.
    - split; [reflexivity | apply c11_multi_insert; assumption].
    - pose proof (c11_multi_remove s r ks HI) as H. destruct (do_multi_remove P c s ks []). exact H.
    - pose proof (c11_multi_remove s r ks HI) as H. destruct (do_multi_remove P c s ks []). cbn [fst snd] in *.
      split; [reflexivity | apply H].
    - split; [reflexivity|]. eapply inv11_same; [|exact HI]. intros j. reflexivity.
    - split; [exact I|]. eapply inv11_same; [|exact HI]. apply (flush_intro_idle P c Hn).
    - split; [reflexivity|]. eapply inv11_same; [|exact HI]. apply (do_deliver_idle P c Hn).
  Qed.

  Theorem c11_accepts ops : forall s r,
    wfp s -> inv11 s r -> accepts r (combine ops (snd (run P c s ops))).
  Proof.
    induction ops as [|o t IH]; intros s r Hw HI; cbn [run]; [exact I|].
    pose proof (c11_step s r o Hw HI) as H1. pose proof (step_wfp P c Hn s o Hw) as Hw1.
    destruct (step P c s o) as [s1 x]. cbn [fst] in Hw1.
    specialize (IH s1). destruct (run P c s1 t) as [s2 xs] eqn:Er. cbn [snd combine accepts] in *.
    destruct (reg_step r o x) as [r' ok]. destruct H1 as [Hok HI1]. split; [exact Hok|].
    apply IH; assumption.
  Qed.

  Theorem c11_seq now0 ops :
    accepts (fun _ => None) (combine ops (snd (run P c (init P now0) ops))).
  Proof.
    apply c11_accepts; [apply init_wfp; exact Hn|]. intros k e Hf. discriminate.
  Qed.

  (* or_insert: an entry that a read would return is never overwritten, the state is untouched *)
  Lemma c11_or_insert_once s k v cost hit old :
    snd (do_read P c hit s k) = Some old ->
    do_or_insert P c s k v cost = (s, RVal old).
  Proof.
    intros Hr. unfold do_or_insert, occupied. unfold do_read in Hr.
    destruct (find s k) as [e|]; [|discriminate].
    destruct (expired c (st_now P s) e); [discriminate|]. rewrite andb_false_r.
    cbn [snd] in Hr. inversion Hr; subst. reflexivity.
  Qed.
End C11.
