(* Proofs/OnceCellProofs.v — the once-cell protocol (Ioc/OnceCell.v) under every schedule.
   The invariant [OInv] is stated thread by thread: each program counter [agrees] with the cell (the
   thread in the closure is the one the cell names, a returned value is the cell's value); a step
   changes one thread and moves the cell without naming another ([upd_all], [agrees_other]). *)
From Fibre Require Import Common.Base Ioc.OnceCell.

Definition running (s : ost) : N := match ocell s with Running _ => 1 | _ => 0 end.

(* program counter [p] of thread [u] agrees with cell [c]: the thread inside the closure is the
   one the cell names, and a value is returned only out of the cell *)
Definition agrees (c : cell) (u : N) (p : pc) : Prop :=
  (p = InFactory <-> c = Running u) /\ (forall v, p = Done v -> c = Init v).

Definition OInv (s : ost) : Prop :=
  runs s = fails s + completions s + running s /\
  completions s = match ocell s with Init _ => 1 | _ => 0 end /\
  forall t, agrees (ocell s) t (opc s t).

Lemma upd_eq f t x : upd f t x t = x.
Proof. unfold upd. rewrite N.eqb_refl. reflexivity. Qed.

Lemma upd_neq f t x u : u <> t -> upd f t x u = f u.
Proof. unfold upd. intros H. destruct (N.eqb_spec u t); [contradiction | reflexivity]. Qed.

Lemma upd_all (P : N -> pc -> Prop) f t x :
  (forall u, u <> t -> P u (f u)) -> P t x -> forall u, P u (upd f t x u).
Proof. intros H Ht u. unfold upd. destruct (N.eqb_spec u t) as [->|Hn]; auto. Qed.

(* while the cell is empty or run by [t], the other threads are neither in the closure nor done,
   and stay in agreement when the cell moves on without naming one of them *)
Lemma agrees_other c c' t u p :
  agrees c u p -> u <> t -> c = Uninit \/ c = Running t -> (forall w, c' = Running w -> w = t) ->
  agrees c' u p.
Proof.
  intros (A & B) Hn Hc Hc'. split; [split; intros H | intros v H].
  - apply A in H. destruct Hc; congruence.
  - apply Hc' in H. congruence.
  - apply B in H. destruct Hc; congruence.
Qed.

Lemma oinv_init : OInv oinit.
Proof. repeat split; cbn; intros; discriminate. Qed.

Lemma oinv_enter s t : OInv s -> opc s t <> InFactory -> OInv (enter s t).
Proof.
  intros (HR & HC & HA) Ht. unfold enter, OInv, running in *.
  destruct (ocell s) as [|t0|v] eqn:Ec; cbn [ocell opc runs fails completions]; rewrite ?Ec.
  - split; [lia|]. split; [exact HC|]. apply upd_all.
    + intros u Hn. apply (agrees_other Uninit _ t); auto. congruence.
    + split; [tauto | discriminate].
  - split; [exact HR|]. split; [exact HC|]. apply upd_all; [auto|].
    split; [split; [discriminate|] | discriminate]. intros [= ->]. exfalso. apply Ht, HA. reflexivity.
  - split; [exact HR|]. split; [exact HC|]. apply upd_all; [auto|].
    split; [split; discriminate | congruence].
Qed.

Lemma oinv_step s e : OInv s -> OInv (ostep s e).
Proof.
  intros I. destruct e as [t|t]; cbn [ostep]; destruct (opc s t) eqn:Et; try exact I;
    try (apply oinv_enter; [exact I | congruence]);
    destruct I as (HR & HC & HA); unfold OInv, running in *;
    pose proof (proj1 (proj1 (HA t)) Et) as Ec; rewrite Ec in *; cbn [ocell opc runs fails completions].
  - split; [lia|]. split; [lia|]. apply upd_all.
    + intros u Hn. apply (agrees_other (Running t) _ t); auto. discriminate.
    + split; [split; discriminate | congruence].
  - split; [lia|]. split; [exact HC|]. apply upd_all.
    + intros u Hn. apply (agrees_other (Running t) _ t); auto. discriminate.
    + split; [split; discriminate | discriminate].
Qed.

Lemma oinv_run_from s sched : OInv s -> OInv (fold_left ostep sched s).
Proof.
  revert s. induction sched as [|e t IH]; intros s I; cbn [fold_left]; [exact I|].
  apply IH. apply oinv_step. exact I.
Qed.

Lemma oinv_run sched : OInv (orun sched).
Proof. apply oinv_run_from. apply oinv_init. Qed.

Lemma fails_zero_from s sched :
  forallb (fun e => negb (is_fail e)) sched = true -> fails (fold_left ostep sched s) = fails s.
Proof.
  revert s. induction sched as [|e t IH]; intros s H; cbn [fold_left forallb] in *; [reflexivity|].
  apply andb_true_iff in H as [H1 H2]. rewrite (IH _ H2).
  destruct e as [u|u]; cbn [is_fail negb] in H1; [|discriminate]. cbn [ostep].
  destruct (opc s u); try reflexivity; unfold enter; destruct (ocell s); reflexivity.
Qed.

(** For ALL schedules: at most one closure run completes; every caller that returned got the same
    value, which is the value in the cell; closure invocations <= panicked invocations + 1. *)
Theorem once_all_schedules sched :
  let s := orun sched in
  completions s <= 1 /\
  (forall t1 t2 v1 v2, opc s t1 = Done v1 -> opc s t2 = Done v2 -> v1 = v2) /\
  (forall t v, opc s t = Done v -> ocell s = Init v) /\
  runs s <= fails s + 1.
Proof.
  cbn zeta. pose proof (oinv_run sched) as (HR & HC & HA). unfold running in HR.
  assert (HD : forall t v, opc (orun sched) t = Done v -> ocell (orun sched) = Init v)
    by (intros t; apply HA).
  split; [destruct (ocell (orun sched)); lia|]. split; [|split; [exact HD | destruct (ocell (orun sched)); lia]].
  intros t1 t2 v1 v2 H1 H2. apply HD in H1, H2. congruence.
Qed.

(** If no closure panics, the closure is invoked at most once whatever the interleaving. *)
Theorem once_no_panic sched :
  forallb (fun e => negb (is_fail e)) sched = true -> runs (orun sched) <= 1.
Proof.
  intros H. pose proof (once_all_schedules sched) as (_ & _ & _ & R). cbn zeta in R.
  unfold orun in *. rewrite (fails_zero_from oinit sched H) in R. cbn [oinit fails] in R. lia.
Qed.

(** no lost wake-up, as a safety statement: a blocked caller that gets to run once the cell is
    initialised returns the stored value; if the runner panicked it becomes the next runner. *)
Theorem blocked_returns s t v :
  opc s t = Blocked -> ocell s = Init v -> opc (ostep s (Step t)) t = Done v.
Proof. intros Hp Hc. cbn [ostep]. rewrite Hp. unfold enter. rewrite Hc. cbn [opc]. apply upd_eq. Qed.

Theorem blocked_takes_over s t :
  opc s t = Blocked -> ocell s = Uninit ->
  opc (ostep s (Step t)) t = InFactory /\ ocell (ostep s (Step t)) = Running t.
Proof.
  intros Hp Hc. cbn [ostep]. rewrite Hp. unfold enter. rewrite Hc. cbn [opc ocell].
  split; [apply upd_eq | reflexivity].
Qed.
