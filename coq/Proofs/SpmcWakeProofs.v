(* Proofs/SpmcWakeProofs.v — C06 for the broadcast SPMC channel: wake-up accounting of pending futures
   in the K2 model Chan/SpmcOps.v, for ALL op histories.  The invariant `J` is carried in the form `Jg true`
   (`J_Jg`); each case of `stepR` (SpmcOpsProofs) preserves it, given the channel invariant `InvC`. *)
From Fibre Require Import Common.Base Chan.SpmcOps Proofs.SpmcOpsProofs.
From Coq Require Import ZifyBool ZifyNat ZifyN.
Ltac Zify.zify_post_hook ::= Z.div_mod_to_equations.

(* a batch send future keeps `sent + |rest| = total` *)
Definition fut_wf (k : fkind) : Prop :=
  match k with FSendB rest sent total => sent + lenN rest = total | _ => True end.

(* what must hold of a future whose last poll returned Pending (waker w) and whose waker has not been
   invoked since: it is still registered where the notifier will look, and it cannot make progress —
   except for the two recorded defects: its receiver handle was closed meanwhile (nothing wakes the
   handle's own futures), or another send future replaced the single producer waker slot *)
Definition Pw (s : st) (x : fut) (w : N) : Prop :=
  match fut_rx (f_kind x) with
  | Some r => exists y, get (rxs s) r = Some y /\
               (r_closed y = true \/ r_taint y = true \/
                (has_reg (r_cur y mod cap s) w (regs s) = true /\ head s <= r_cur y /\ pdrop s = false))
  | None => f_disp x = true \/ (pw s = Some w /\ s_closed s = false /\ space s = Some 0)
  end.

Definition J (s : st) : Prop :=
  forall f x, get (futs s) f = Some x -> f_live x = true ->
    fut_wf (f_kind x) /\ (forall w, f_wait x = Some w -> f_woken x = false -> Pw s x w).

Lemma mark_fst w p : fst (mark w p) = fst p.
Proof.
  destruct p as [k x]. unfold mark. destruct (f_wait x) as [w'|]; [destruct (N.eqb w w')|]; reflexivity.
Qed.

(* a map over the futures table that keeps the keys acts on each entry *)
Lemma get_map_keyed {A} (g : N * A -> N * A) l f :
  (forall p, fst (g p) = fst p) ->
  get (map g l) f = match get l f with Some x => Some (snd (g (f, x))) | None => None end.
Proof.
  intros Hk. induction l as [|[k x] t IH]; cbn [map get]; [reflexivity|].
  pose proof (Hk (k, x)) as Hf. destruct (g (k, x)) as [k' x'] eqn:E. cbn [fst] in Hf. subst k'.
  cbn [get]. destruct (N.eqb_spec f k) as [->|Hn]; [rewrite E; reflexivity | exact IH].
Qed.

Lemma get_map_mark w l f :
  get (map (mark w) l) f = match get l f with Some x => Some (snd (mark w (f, x))) | None => None end.
Proof. apply get_map_keyed, mark_fst. Qed.

Lemma mark_fields w f x :
  f_kind (snd (mark w (f, x))) = f_kind x /\ f_live (snd (mark w (f, x))) = f_live x /\
  f_wait (snd (mark w (f, x))) = f_wait x /\ f_disp (snd (mark w (f, x))) = f_disp x /\
  (f_woken (snd (mark w (f, x))) = false -> snd (mark w (f, x)) = x /\ f_wait x <> Some w).
Proof.
  unfold mark. destruct (f_wait x) as [w'|] eqn:Ew.
  - destruct (N.eqb_spec w w') as [->|Hn]; cbn [snd f_kind f_live f_wait f_disp f_woken].
    + repeat split; auto; discriminate.
    + repeat split; auto. congruence.
  - cbn [snd]. repeat split; auto. congruence.
Qed.
(* ------------------------------------------------------------------ a weaker intermediate form:
   between a cursor update and the wake_producer call that follows it, send futures are registered
   but "cannot make progress" is no longer known *)
Definition Pw' (strict : bool) (s : st) (x : fut) (w : N) : Prop :=
  match fut_rx (f_kind x) with
  | Some r => exists y, get (rxs s) r = Some y /\
               (r_closed y = true \/ r_taint y = true \/
                (has_reg (r_cur y mod cap s) w (regs s) = true /\ head s <= r_cur y /\ pdrop s = false))
  | None => f_disp x = true \/
            (pw s = Some w /\ (strict = true -> s_closed s = false /\ space s = Some 0))
  end.

Definition Jg (strict : bool) (s : st) : Prop :=
  forall f x, get (futs s) f = Some x -> f_live x = true ->
    fut_wf (f_kind x) /\ (forall w, f_wait x = Some w -> f_woken x = false -> Pw' strict s x w).

Lemma J_Jg s : J s <-> Jg true s.
Proof.
  unfold J, Jg, Pw, Pw'. split; intros H f x Hg Hl; destruct (H f x Hg Hl) as [A B]; (split; [exact A|]);
    intros w Hw Hk; specialize (B w Hw Hk); destruct (fut_rx (f_kind x)); auto.
  - destruct B as [B|(B1 & B2 & B3)]; [left; exact B|right; split; [exact B1|intros _; split; assumption]].
  - destruct B as [B|(B1 & B2)]; [left; exact B|right]. destruct (B2 eq_refl). auto.
Qed.

Lemma Jg_weaken s : Jg true s -> Jg false s.
Proof.
  intros H f x Hg Hl. destruct (H f x Hg Hl) as [A B]. split; [exact A|]. intros w Hw Hk.
  specialize (B w Hw Hk). unfold Pw' in *. destruct (fut_rx (f_kind x)); [exact B|].
  destruct B as [B|[B1 _]]; [left; exact B|right; split; [exact B1|discriminate]].
Qed.

(* the part of the state the receive-side clause reads *)
Definition same_rx_view (s s' : st) : Prop :=
  cap s' = cap s /\ log s' = log s /\ pdrop s' = pdrop s /\ rxs s' = rxs s /\ regs s' = regs s.

(* ------------------------------------------------------------------ waking.  Every place where the
   model changes what a sleeping future relies on also invokes wakers: it is enough that each future whose
   clause breaks waits on one of the wakers about to be invoked *)
Lemma Jg_wake_list strict ws : forall s,
  (forall f x, get (futs s) f = Some x -> f_live x = true ->
     fut_wf (f_kind x) /\
     (forall w, f_wait x = Some w -> f_woken x = false -> Pw' strict s x w \/ In w ws)) ->
  Jg strict (wake_list ws s).
Proof.
  induction ws as [|w0 t IH]; intros s H.
  - intros f x Hg Hl. destruct (H f x Hg Hl) as [A B]. split; [exact A|].
    intros w Hw Hk. destruct (B w Hw Hk) as [?|[]]. assumption.
  - cbn [wake_list fold_left]. change (Jg strict (wake_list t (wake w0 s))). apply IH. intros f x Hg Hl.
    unfold wake in Hg. cbn [set_futs set_wlog futs] in Hg. rewrite get_map_mark in Hg.
    destruct (get (futs s) f) as [x0|] eqn:E0; [|discriminate].
    assert (Hx : x = snd (mark w0 (f, x0))) by (inversion Hg; reflexivity). clear Hg. subst x.
    destruct (mark_fields w0 f x0) as (Hk & Hlv & Hw & _ & Hun).
    rewrite Hlv in Hl. destruct (H f x0 E0 Hl) as [A B]. rewrite Hk. split; [exact A|].
    intros w Hw0 Hwk. destruct (Hun Hwk) as [Heq Hne]. rewrite Heq in *.
    destruct (B w Hw0 Hwk) as [P|[->|Hin]]; [left; exact P | congruence | right; exact Hin].
Qed.

Lemma J_wake_list ws : forall s, J s -> J (wake_list ws s).
Proof.
  intros s Hj. apply J_Jg, Jg_wake_list. intros f x Hg Hl.
  destruct (proj1 (J_Jg s) Hj f x Hg Hl) as [A B]. split; auto.
Qed.

Lemma wake_list_add_drops ws : forall s l, wake_list ws (add_drops s l) = add_drops (wake_list ws s) l.
Proof.
  induction ws as [|w t IH]; intros s l; [reflexivity|]. cbn [wake_list fold_left].
  change (wake_list t (add_drops (wake w s) l) = add_drops (wake_list t (wake w s)) l). apply IH.
Qed.

(* wake_producer re-establishes the strict form: every registered send future gets woken *)
Lemma Jg_wake_producer s : Jg false s -> Jg true (wake_producer s).
Proof.
  intros Hj. unfold wake_producer. destruct (pw s) as [w0|] eqn:Epw.
  - change (Jg true (wake_list [w0] (set_pw s None))). apply Jg_wake_list.
    intros f x Hg Hl. destruct (Hj f x Hg Hl) as [A B]. split; [exact A|].
    intros w Hw Hk. specialize (B w Hw Hk). unfold Pw' in *. destruct (fut_rx (f_kind x)); [left; exact B|].
    destruct B as [B|[B _]]; [left; left; exact B|right]. left. congruence.
  - intros f x Hg Hl. destruct (Hj f x Hg Hl) as [A B]. split; [exact A|].
    intros w Hw Hk. specialize (B w Hw Hk). unfold Pw' in *. destruct (fut_rx (f_kind x)); [exact B|].
    destruct B as [B|[B _]]; [left; exact B|congruence].
Qed.
Lemma no_live_rx_fut s r f x :
  rx_busy s r = false -> get (futs s) f = Some x -> f_live x = true -> fut_rx (f_kind x) <> Some r.
Proof.
  unfold rx_busy. intros Hb Hg Hl He. apply get_In in Hg.
  assert (Ht : existsb (fun p => f_live (snd p) &&
            match fut_rx (f_kind (snd p)) with Some r' => N.eqb r r' | None => false end) (futs s) = true).
  { apply existsb_exists. exists (f, x). split; [exact Hg|]. cbn [snd]. rewrite Hl, He, N.eqb_refl. reflexivity. }
  congruence.
Qed.

Lemma no_live_tx_fut s f x :
  tx_busy s = false -> get (futs s) f = Some x -> f_live x = true -> fut_rx (f_kind x) <> None.
Proof.
  unfold tx_busy. intros Hb Hg Hl He. apply get_In in Hg.
  assert (Ht : existsb (fun p => f_live (snd p) &&
            match fut_rx (f_kind (snd p)) with Some _ => false | None => true end) (futs s) = true).
  { apply existsb_exists. exists (f, x). split; [exact Hg|]. cbn [snd]. rewrite Hl, He. reflexivity. }
  congruence.
Qed.

(* one receiver record is replaced (or added): the futures on it keep their clause, or there are none;
   for the strict form a blocked sender stays blocked *)
Definition parked (s : st) (y : rx) (w : N) : Prop :=
  r_closed y = true \/ r_taint y = true \/
  (has_reg (r_cur y mod cap s) w (regs s) = true /\ head s <= r_cur y /\ pdrop s = false).

Lemma Jg_set_rx strict s r y' :
  Jg true s ->
  (rx_busy s r = false \/ forall y w, get (rxs s) r = Some y -> parked s y w -> parked s y' w) ->
  (strict = true -> space s = Some 0 -> space (set_rx s r y') = Some 0) ->
  Jg strict (set_rx s r y').
Proof.
  intros Hj Hrx Hsp f x Hg Hl. cbn [set_rx set_rxs futs] in Hg. destruct (Hj f x Hg Hl) as [Hwf Hp].
  split; [exact Hwf|]. intros w Hw Hk. specialize (Hp w Hw Hk). unfold Pw' in *.
  destruct (fut_rx (f_kind x)) as [r0|] eqn:Ek.
  - destruct Hp as (y0 & Hg0 & Hp). cbn [set_rx set_rxs rxs]. destruct (N.eq_dec r0 r) as [->|Hne].
    + exists y'. split; [apply get_set_eq|]. destruct Hrx as [Hb|Hq]; [|exact (Hq y0 w Hg0 Hp)].
      exfalso. exact (no_live_rx_fut s r f x Hb Hg Hl Ek).
    + exists y0. split; [rewrite get_set_neq by exact Hne; exact Hg0|exact Hp].
  - destruct Hp as [Hp|(Hp1 & Hp2)]; [left; exact Hp|right]. split; [exact Hp1|].
    intros Hs. destruct (Hp2 eq_refl) as [Hc Hs0]. split; [exact Hc|]. apply Hsp; assumption.
Qed.

(* a receive on r: the cursor was strictly below head, so only a tainted handle had a sleeper *)
Lemma Jg_set_rx_adv s r y k :
  Jg true s -> get (rxs s) r = Some y -> r_closed y = false -> r_cur y < head s ->
  Jg false (set_rx s r (adv y k)).
Proof.
  intros Hj Hg Hc Hlt. apply Jg_set_rx; [exact Hj| |discriminate]. right. intros y0 w Hg0 Hp.
  rewrite Hg in Hg0. injection Hg0 as <-.
  destruct Hp as [Hp|[Hp|(_ & Hp & _)]]; [congruence|right; left; exact Hp|lia].
Qed.

Lemma Jg_set_rx_unreg s r y : Jg true s -> Jg false (set_rx s r (rx_unreg y)).
Proof. intros Hj. apply Jg_set_rx; [exact Hj|right; intros; left; reflexivity|discriminate]. Qed.

(* flag updates of a receiver no live future refers to, cursor list unchanged *)
Lemma cursors_set_same l r y y' :
  get l r = Some y -> r_reg y' = r_reg y -> r_cur y' = r_cur y ->
  map (fun p => r_cur (snd p)) (filter (fun p => r_reg (snd p)) (set l r y')) =
  map (fun p => r_cur (snd p)) (filter (fun p => r_reg (snd p)) l).
Proof.
  intros Hg Hr Hc. induction l as [|[k a] t IH]; cbn [get] in Hg; [discriminate|].
  cbn [set]. destruct (N.eqb_spec r k) as [->|Hn].
  - inversion Hg; subst a. cbn [filter snd]. rewrite Hr. destruct (r_reg y); cbn [map snd]; rewrite ?Hc; reflexivity.
  - cbn [filter snd]. destruct (r_reg a); cbn [map]; rewrite IH by exact Hg; reflexivity.
Qed.

Lemma Jg_set_rx_quiet s r y y' :
  Jg true s -> get (rxs s) r = Some y -> rx_busy s r = false ->
  r_reg y' = r_reg y -> r_cur y' = r_cur y -> Jg true (set_rx s r y').
Proof.
  intros Hj Hgy Hb Hr Hc. apply Jg_set_rx; [exact Hj|left; exact Hb|]. intros _ Hs. rewrite <- Hs.
  unfold space, cursors. cbn [set_rx set_rxs rxs cap]. rewrite (cursors_set_same _ _ _ _ Hgy Hr Hc). reflexivity.
Qed.

(* Clone adds a receiver no future knows yet; one more cursor cannot make room *)
Lemma set_fresh {A} (l : list (N * A)) k a : get l k = None -> set l k a = l ++ [(k, a)].
Proof.
  induction l as [|[k' a'] t IH]; cbn [get set app]; intros H; [reflexivity|].
  destruct (N.eqb_spec k k'); [discriminate|]. rewrite IH by exact H. reflexivity.
Qed.

Lemma minl_app_one l a :
  minl (l ++ [a]) = match minl l with Some m => Some (N.min m a) | None => Some a end.
Proof.
  induction l as [|x t IH]; cbn [app minl]; [reflexivity|]. rewrite IH.
  destruct (minl t) as [m|]; f_equal; lia.
Qed.

Lemma Jg_clone s c xc :
  Jg true s -> get (rxs s) c = None -> Jg true (set_rx s c xc).
Proof.
  intros Hj Hn. apply Jg_set_rx; [exact Hj|right; intros y w Hg; congruence|]. intros _.
  unfold space, cursors. cbn [set_rx set_rxs rxs cap].
  rewrite (set_fresh _ _ _ Hn), filter_app, map_app. cbn [filter snd].
  destruct (r_reg xc); cbn [map app]; [|rewrite app_nil_r; auto].
  rewrite minl_app_one.
  destruct (minl (map (fun p => r_cur (snd p)) (filter (fun p => r_reg (snd p)) (rxs s)))) as [m|]; [|discriminate].
  intros Hs. injection Hs as Hs. f_equal. cbn [snd]. change (head (set_rx s c xc)) with (head s). lia.
Qed.

Lemma has_reg_in slot w l : has_reg slot w l = true -> In w (map snd (filter (fun p => N.eqb (fst p) slot) l)).
Proof.
  unfold has_reg. intros H. apply existsb_exists in H. destruct H as ([a b] & Hin & Hb).
  cbn [fst snd] in Hb. apply andb_true_iff in Hb. destruct Hb as [H1 H2].
  apply N.eqb_eq in H1. apply N.eqb_eq in H2. subst.
  apply in_map_iff. exists (slot, w). split; [reflexivity|]. apply filter_In. split; [exact Hin|].
  cbn [fst]. apply N.eqb_refl.
Qed.

Lemma has_reg_in_all slot w l : has_reg slot w l = true -> In w (map snd l).
Proof.
  unfold has_reg. intros H. apply existsb_exists in H. destruct H as ([a b] & Hin & Hb).
  cbn [fst snd] in Hb. apply andb_true_iff in Hb. destruct Hb as [_ H2]. apply N.eqb_eq in H2. subst.
  apply in_map_iff. exists (a, w). split; [reflexivity|exact Hin].
Qed.

Definition cur_le_head (s : st) : Prop :=
  forall r y, get (rxs s) r = Some y -> r_taint y = false -> r_closed y = false -> r_cur y <= head s.

(* one write at index head: the receive futures parked at head are exactly those in the drained slot's list,
   and no send future can be asleep on a full ring when there is room *)
Lemma Jg_write1 v s sp :
  Jg true s ->
  cur_le_head s ->
  space s = Some sp -> 1 <= sp -> Jg true (write1 v s).
Proof.
  intros Hj Hcur Hsp Hge. rewrite write1_eq. unfold drain. apply Jg_wake_list. intros f x Hg Hl.
  destruct (Hj f x Hg Hl) as [A B]. split; [exact A|]. intros w Hw Hk. specialize (B w Hw Hk).
  unfold Pw' in *. cbn [set_regs set_log add_drops rxs cap regs pdrop pw s_closed].
  destruct (fut_rx (f_kind x)) as [r0|].
  - destruct B as (y0 & Hg0 & B).
    destruct (r_closed y0) eqn:Ec; [left; exists y0; auto|].
    destruct (r_taint y0) eqn:Et; [left; exists y0; auto|].
    destruct B as [B|[B|(B1 & B2 & _)]]; [discriminate B|discriminate B|]. right.
    replace (r_cur y0) with (head s) in B1 by (specialize (Hcur r0 y0 Hg0 Et Ec); lia).
    apply has_reg_in. exact B1.
  - left. destruct B as [B|(_ & B)]; [left; exact B|].
    destruct (B eq_refl) as [_ B3]. rewrite Hsp in B3. injection B3 as ->. lia.
Qed.
(* exact space after a batch write *)
Lemma space_write_many vs s m :
  minl (cursors s) = Some m ->
  space (write_many vs s) = Some (cap s - N.min (head s + lenN vs - m) (cap s)).
Proof.
  intros Hm. pose proof (proj_write_many vs s) as Hp. unfold space.
  change (cursors (write_many vs s)) with (c_cursors (proj (write_many vs s))). rewrite Hp.
  change (c_cursors (with_log (proj s) (log s ++ vs))) with (cursors s). rewrite Hm.
  change (cap (write_many vs s)) with (c_cap (proj (write_many vs s))).
  change (head (write_many vs s)) with (c_head (proj (write_many vs s))). rewrite Hp.
  unfold c_head. cbn [with_log c_log c_cap proj]. rewrite lenN_app. reflexivity.
Qed.

Lemma space_write1 v s sp :
  space s = Some sp -> exists sp', space (write1 v s) = Some sp' /\ sp <= sp' + 1.
Proof.
  unfold space at 1. destruct (minl (cursors s)) as [m|] eqn:Em; [|discriminate]. intros Hs. injection Hs as <-.
  eexists. split; [apply (space_write_many [v] s m Em)|]. change (lenN [v]) with 1. lia.
Qed.

Lemma Jg_write_many vs : forall s sp,
  Jg true s ->
  cur_le_head s ->
  space s = Some sp -> lenN vs <= sp -> Jg true (write_many vs s).
Proof.
  induction vs as [|v t IH]; intros s sp Hj Hcur Hsp Hle; [exact Hj|].
  cbn [write_many fold_left]. change (Jg true (write_many t (write1 v s))).
  assert (Hlen : lenN (v :: t) = lenN t + 1) by (unfold lenN; cbn [length]; lia).
  destruct (space_write1 v s sp Hsp) as (sp' & Hsp' & Hle').
  apply (IH (write1 v s) sp').
  - apply (Jg_write1 v s sp); auto. lia.
  - intros r y Hg Ht Hc. pose proof (proj_write1 v s) as Hp.
    change (rxs (write1 v s)) with (c_rxs (proj (write1 v s))) in Hg. rewrite Hp in Hg.
    change (head (write1 v s)) with (c_head (proj (write1 v s))). rewrite Hp.
    unfold c_head. cbn [with_log c_log]. rewrite lenN_app. specialize (Hcur r y Hg Ht Hc). unfold head in Hcur. lia.
  - exact Hsp'.
  - lia.
Qed.

(* the sender's close_internal: producer_dropped is set and every registered waker is invoked *)
Lemma Jg_sender_close s a c y t :
  Jg true s -> tx_busy s = false -> Jg true (wake_all (set_sender s a c y t true)).
Proof.
  intros Hj Hb. unfold wake_all. apply Jg_wake_list. intros f x Hg Hl.
  destruct (Hj f x Hg Hl) as [A B]. split; [exact A|]. intros w Hw Hk. specialize (B w Hw Hk).
  unfold Pw' in *. cbn [set_regs set_sender rxs cap regs pdrop pw s_closed].
  destruct (fut_rx (f_kind x)) as [r0|] eqn:Ek.
  - destruct B as (y0 & Hg0 & [B|[B|(B1 & _)]]); [left; exists y0; auto|left; exists y0; auto|].
    right. apply has_reg_in_all in B1. exact B1.
  - exfalso. exact (no_live_tx_fut s f x Hb Hg Hl Ek).
Qed.
(* sender flag updates while no send future is alive, producer_dropped unchanged *)
Lemma Jg_set_sender s a c y t :
  Jg true s -> tx_busy s = false -> Jg true (set_sender s a c y t (pdrop s)).
Proof.
  intros Hj Hb f x Hg Hl. cbn [set_sender futs] in Hg. destruct (Hj f x Hg Hl) as [A B]. split; [exact A|].
  intros w Hw Hk. specialize (B w Hw Hk). unfold Pw' in *. cbn [set_sender rxs cap regs pdrop pw].
  change (head (set_sender s a c y t (pdrop s))) with (head s).
  destruct (fut_rx (f_kind x)) as [r0|] eqn:Ek; [exact B|].
  exfalso. apply (no_live_tx_fut s f x Hb Hg Hl). exact Ek.
Qed.

Lemma get_set_fut s f x g : get (futs (set_fut s f x)) g = if N.eqb g f then Some x else get (futs s) g.
Proof.
  cbn [set_fut set_futs futs]. destruct (N.eqb_spec g f) as [->|Hn]; [apply get_set_eq|apply get_set_neq; exact Hn].
Qed.

Lemma Pw'_set_fut strict s f x0 x w : Pw' strict (set_fut s f x0) x w <-> Pw' strict s x w.
Proof. unfold Pw', space, cursors, head. cbn [set_fut set_futs rxs cap regs pdrop pw s_closed log]. tauto. Qed.

Lemma Jg_set_fut_quiet s f x0 :
  Jg true s -> fut_wf (f_kind x0) -> (f_live x0 = true -> f_wait x0 = None) -> Jg true (set_fut s f x0).
Proof.
  intros Hj Hwf Hq g x Hg Hl. rewrite get_set_fut in Hg. destruct (N.eqb_spec g f) as [->|Hn].
  - inversion Hg; subst x. split; [exact Hwf|]. intros w Hw. rewrite (Hq Hl) in Hw. discriminate.
  - destruct (Hj g x Hg Hl) as [A B]. split; [exact A|]. intros w Hw Hk. apply Pw'_set_fut. auto.
Qed.

Lemma Jg_kill s f x : Jg true s -> Jg true (kill s f x).
Proof.
  intros Hj g x1 Hg Hl. unfold kill in Hg. rewrite get_set_fut in Hg. destruct (N.eqb_spec g f) as [->|Hn].
  - inversion Hg; subst x1. cbn [f_live] in Hl. discriminate.
  - destruct (Hj g x1 Hg Hl) as [A B]. split; [exact A|]. intros w Hw Hk. apply Pw'_set_fut. auto.
Qed.

(* registering a waker only extends (or keeps) the slot lists *)
Lemma register_eq slot w s :
  exists l, register slot w s = set_regs s l /\ has_reg slot w l = true /\
            forall a b, has_reg a b (regs s) = true -> has_reg a b l = true.
Proof.
  unfold register. destruct (has_reg slot w (regs s)) eqn:E.
  - exists (regs s). split; [destruct s; reflexivity|auto].
  - exists (regs s ++ [(slot, w)]). split; [reflexivity|]. unfold has_reg.
    split; [|intros a b H]; rewrite existsb_app.
    + cbn [existsb fst snd]. rewrite !N.eqb_refl. apply orb_true_r.
    + rewrite H. reflexivity.
Qed.

Lemma Jg_register slot w s : Jg true s -> Jg true (register slot w s).
Proof.
  intros Hj. destruct (register_eq slot w s) as (l & -> & _ & Hmono).
  intros f x Hg Hl. destruct (Hj f x Hg Hl) as [A B]. split; [exact A|].
  intros w0 Hw Hk. specialize (B w0 Hw Hk). unfold Pw' in *. destruct (fut_rx (f_kind x)); [|exact B].
  destruct B as (y0 & Hg0 & B). exists y0. split; [exact Hg0|].
  destruct B as [B|[B|(B1 & B2 & B3)]]; auto.
Qed.

(* a receive future goes (back) to sleep: registered at its cursor's slot, nothing to read, sender there *)
Lemma Jg_pend_rx s f k w r y :
  Jg true s -> fut_rx k = Some r -> fut_wf k -> get (rxs s) r = Some y ->
  (r_closed y = true \/ r_taint y = true \/ (head s <= r_cur y /\ pdrop s = false)) ->
  Jg true (pend (register (r_cur y mod cap s) w s) f k w).
Proof.
  intros Hj Hk Hwf Hgy Hy. pose proof (Jg_register (r_cur y mod cap s) w s Hj) as Hj1.
  destruct (register_eq (r_cur y mod cap s) w s) as (l & E & Hin & _). rewrite E in *.
  intros g x Hg Hl. unfold pend in Hg. rewrite get_set_fut in Hg. destruct (N.eqb_spec g f) as [->|Hn].
  - injection Hg as <-. split; [exact Hwf|]. intros w0 Hw _. injection Hw as <-.
    unfold Pw'. cbn [f_kind]. rewrite Hk. exists y. split; [exact Hgy|].
    destruct Hy as [Hy|[Hy|[Hy1 Hy2]]]; auto.
  - destruct (Hj1 g x Hg Hl) as [A B]. split; [exact A|]. intros w0 Hw Hkk. apply Pw'_set_fut. auto.
Qed.

Lemma get_map_displace w f l g :
  get (map (displace w f) l) g =
  match get l g with Some x => Some (snd (displace w f (g, x))) | None => None end.
Proof.
  apply get_map_keyed. intros [k x]. unfold displace. destruct (N.eqb k f); [reflexivity|].
  destruct (fut_rx (f_kind x)); [reflexivity|]. destruct (f_wait x) as [w'|]; [destruct (N.eqb w w')|]; reflexivity.
Qed.

(* a send future goes (back) to sleep: it takes the single producer waker slot *)
Lemma Jg_pend_tx s f k w :
  Jg true s -> fut_rx k = None -> fut_wf k -> s_closed s = false -> space s = Some 0 ->
  Jg true (pend (reg_producer f w s) f k w).
Proof.
  intros Hj Hk Hwf Hc Hs g x Hg Hl. unfold pend in Hg. rewrite get_set_fut in Hg.
  destruct (N.eqb_spec g f) as [->|Hn].
  - inversion Hg; subst x. cbn [f_kind f_wait]. split; [exact Hwf|]. intros w0 Hw _. inversion Hw; subst w0.
    apply Pw'_set_fut. unfold Pw'. cbn [f_kind]. rewrite Hk. right.
    split; [reflexivity|]. intros _. split; [exact Hc|exact Hs].
  - unfold reg_producer in Hg. cbn [set_pw set_futs futs] in Hg. rewrite get_map_displace in Hg.
    destruct (get (futs s) g) as [x0|] eqn:E0; [|discriminate].
    assert (Hx : x = snd (displace w f (g, x0))) by (inversion Hg; reflexivity). clear Hg. subst x.
    unfold displace in *. destruct (N.eqb_spec g f) as [|_]; [contradiction|].
    destruct (fut_rx (f_kind x0)) as [r0|] eqn:Ek.
    + cbn [snd] in *. destruct (Hj g x0 E0 Hl) as [A B]. split; [exact A|]. intros w0 Hw Hkk.
      apply Pw'_set_fut. specialize (B w0 Hw Hkk). unfold Pw' in *. rewrite Ek in *. exact B.
    + destruct (f_wait x0) as [w'|] eqn:Ew.
      * destruct (N.eqb_spec w w') as [->|Hne]; cbn [snd] in *.
        -- destruct (Hj g x0 E0 Hl) as [A B]. split; [exact A|]. intros w0 Hw Hkk.
           apply Pw'_set_fut. specialize (B w0 Hw Hkk). unfold Pw' in *. rewrite Ek in *.
           destruct B as [B|(B1 & B2)]; [left; exact B|right]. rewrite Ew in Hw. inversion Hw; subst w0.
           split; [reflexivity|exact B2].
        -- cbn [f_live f_kind f_wait f_woken f_disp] in *. destruct (Hj g x0 E0 Hl) as [A _]. split; [exact A|].
           intros w0 Hw Hkk. apply Pw'_set_fut. unfold Pw'. cbn [f_kind f_disp]. rewrite Ek. left. reflexivity.
      * cbn [snd] in *. destruct (Hj g x0 E0 Hl) as [A B]. split; [exact A|]. intros w0 Hw. rewrite Ew in Hw. discriminate.
Qed.
(* busy flags only read liveness and kind, which waking never changes *)
Lemma existsb_mark w (g : fkind -> bool) l :
  existsb (fun p => f_live (snd p) && g (f_kind (snd p))) (map (mark w) l) =
  existsb (fun p => f_live (snd p) && g (f_kind (snd p))) l.
Proof.
  induction l as [|[k x] t IH]; [reflexivity|]. cbn [map existsb]. rewrite IH. f_equal.
  destruct (mark_fields w k x) as (Hk & Hl & _). rewrite Hk, Hl. reflexivity.
Qed.

Lemma rx_busy_wake w s r : rx_busy (wake w s) r = rx_busy s r.
Proof.
  unfold rx_busy, wake. cbn [set_futs set_wlog futs].
  apply (existsb_mark w (fun k => match fut_rx k with Some r' => N.eqb r r' | None => false end)).
Qed.

Lemma tx_busy_wake w s : tx_busy (wake w s) = tx_busy s.
Proof.
  unfold tx_busy, wake. cbn [set_futs set_wlog futs].
  apply (existsb_mark w (fun k => match fut_rx k with Some _ => false | None => true end)).
Qed.

Lemma tx_busy_wake_list ws : forall s, tx_busy (wake_list ws s) = tx_busy s.
Proof.
  induction ws as [|w t IH]; intros s; [reflexivity|]. cbn [wake_list fold_left].
  change (tx_busy (wake_list t (wake w s)) = tx_busy s). rewrite IH. apply tx_busy_wake.
Qed.

Lemma rx_busy_wake_producer s r : rx_busy (wake_producer s) r = rx_busy s r.
Proof. unfold wake_producer. destruct (pw s); [rewrite rx_busy_wake|]; reflexivity. Qed.

Lemma inv_cur_le_head s outs : InvC (proj s) outs -> cur_le_head s.
Proof. intros I r y Hg _ _. destruct (i_rx _ _ I r y Hg) as (_ & B & _). exact B. Qed.

Definition min_le_head (s : st) : Prop := forall m, minl (cursors s) = Some m -> m <= head s.

Lemma inv_min_le_head s outs : InvC (proj s) outs -> min_le_head s.
Proof.
  intros I m Hm. apply minl_in in Hm. change (cursors s) with (c_cursors (proj s)) in Hm.
  apply in_cursors in Hm; [|exact (i_nd _ _ I)]. destruct Hm as (r & x & Hg & _ & <-).
  destruct (i_rx _ _ I r x Hg) as (_ & B & _). exact B.
Qed.

Lemma Jg_ext strict s s' :
  futs s' = futs s -> rxs s' = rxs s -> cap s' = cap s -> log s' = log s -> regs s' = regs s ->
  pdrop s' = pdrop s -> pw s' = pw s -> s_closed s' = s_closed s -> Jg strict s -> Jg strict s'.
Proof.
  intros H1 H2 H3 H4 H5 H6 H7 H8 Hj f x Hg Hl. rewrite H1 in Hg. destruct (Hj f x Hg Hl) as [A B]. split; [exact A|].
  intros w Hw Hk. specialize (B w Hw Hk). unfold Pw', space, cursors, head in *.
  rewrite H2, H3, H4, H5, H6, H7, H8. exact B.
Qed.

Lemma Jg_add_drops strict s l : Jg strict s -> Jg strict (add_drops s l).
Proof. apply Jg_ext; reflexivity. Qed.

Lemma Jg_release s : Jg true s -> Jg true (release s).
Proof. unfold release. destruct (all_dead s); [apply Jg_add_drops|auto]. Qed.

Lemma Jg_retire pf s : Jg true s -> Jg true (retire pf s).
Proof. destruct pf as [[f y]|]; [apply Jg_kill|auto]. Qed.

Lemma skipnN_len {A} k (l : list A) : k <= lenN l -> lenN (skipnN k l) + k = lenN l.
Proof. unfold lenN, skipnN. intros H. rewrite skipn_length. lia. Qed.

(* a send future goes back to sleep only after filling the ring *)
Lemma resumes_wake k sp ws k' :
  fut_wf k -> resumes k sp ws k' -> fut_wf k' /\ fut_rx k' = None /\ lenN ws = sp.
Proof.
  destruct k as [| |v|rest sent total|rest sent]; cbn [resumes fut_wf]; try contradiction.
  - intros _ (-> & -> & ->). repeat split.
  - intros Hwf (-> & -> & Hne). rewrite firstnN_len.
    pose proof (skipnN_len (N.min sp (lenN rest)) rest). cbn [fut_wf fut_rx]. repeat split; lia.
  - intros _ (-> & -> & Hne). rewrite firstnN_len.
    pose proof (skipnN_len (N.min sp (lenN rest)) rest).
    assert (lenN (skipnN (N.min sp (lenN rest)) rest) <> 0).
    { destruct (skipnN (N.min sp (lenN rest)) rest); [congruence|]. unfold lenN. cbn [length]. lia. }
    cbn [fut_wf fut_rx]. repeat split. lia.
Qed.

Lemma send_blocked ws s sp :
  space s = Some sp -> min_le_head s -> lenN ws = sp -> space (write_many ws s) = Some 0.
Proof.
  unfold space at 1. intros Hs Hm Hl. destruct (minl (cursors s)) as [m|] eqn:Em; [|discriminate].
  specialize (Hm m Em). injection Hs as <-. rewrite (space_write_many _ s m Em). f_equal. lia.
Qed.

(* a receive that found nothing: unless the handle is tainted, its cursor is at head and the sender is there *)
Lemma asleep_rx s outs r y :
  InvC (proj s) outs -> get (rxs s) r = Some y -> r_closed y = false ->
  in_window s (r_cur y) = false -> pdrop s = false \/ r_cur y < head s ->
  r_taint y = true \/ (head s <= r_cur y /\ pdrop s = false).
Proof.
  intros I Hg Hc Hw Hp. destruct (r_taint y) eqn:Et; [left; reflexivity|right].
  destruct (i_rx _ _ I r y Hg) as (_ & _ & C & _ & E & _).
  assert (Hr : r_reg y = true) by (destruct (r_reg y); [reflexivity|specialize (E Et eq_refl); congruence]).
  specialize (C Et Hr). change (head s <= r_cur y + cap s) in C.
  assert (Hh : head s <= r_cur y).
  { destruct (N.lt_ge_cases (r_cur y) (head s)) as [Hlt|]; [|assumption].
    assert (in_window s (r_cur y) = true) by (apply in_window_spec; split; assumption). congruence. }
  split; [exact Hh|]. destruct Hp; [assumption|lia].
Qed.

Lemma new_kind_wf o f k : new_kind o = Some (f, k) -> fut_wf k.
Proof. destruct o; intros H; inversion H; cbn [fut_wf]; auto. Qed.

Lemma stepR_J s o x s' outs : Jg true s -> InvC (proj s) outs -> stepR s o x s' -> Jg true s'.
Proof.
  intros Hj I H. pose proof (inv_cur_le_head s outs I) as Hcl. pose proof (inv_min_le_head s outs I) as Hml.
  stepR_cases H.
  - exact Hj.
  - apply Jg_retire. exact Hj.
  - apply Jg_add_drops, Jg_retire. exact Hj.
  - apply Jg_add_drops, Jg_retire. apply (Jg_write_many ws s sp); assumption.
  - apply Jg_retire, Jg_wake_producer, Jg_add_drops. apply Jg_set_rx_adv; assumption.
  - apply (Jg_pend_rx s f (f_kind y) w r z); auto.
    + destruct (Hj f y Efut Elive) as [Hwf _]. exact Hwf.
    + destruct (asleep_rx s outs r z I Eget Eopen Ewin Epd); auto.
  - destruct (Hj f y Efut Elive) as [Hwf _]. destruct (resumes_wake _ _ _ _ Hwf Eres) as (Hwf' & Hk' & Hlen).
    apply Jg_pend_tx; auto.
    + apply (Jg_write_many ws s sp); auto. lia.
    + change (c_closed (proj (write_many ws s)) = false). rewrite proj_write_many. exact Eopen.
    + apply (send_blocked ws s sp); assumption.
  - apply Jg_register. exact Hj.
  - apply Jg_set_fut_quiet; auto. eapply new_kind_wf. eassumption.
  - apply Jg_wake_producer, Jg_set_rx_unreg, Hj.
  - apply Jg_release. destruct Ecase as [(Hc & -> & ->)|(Hc & -> & ->)].
    + apply (Jg_set_rx_quiet s r y); auto.
    + apply (Jg_set_rx_quiet _ r (rx_unreg y)); auto.
      * apply Jg_wake_producer, Jg_set_rx_unreg, Hj.
      * rewrite rxs_wake_producer. apply get_set_eq.
      * rewrite rx_busy_wake_producer. exact Eidle.
  - subst y'. apply (Jg_set_rx_quiet s r y); auto; destruct (fixedm s); reflexivity.
  - apply Jg_clone; assumption.
  - change (Jg true (wake_all (set_sender s true true (s_async s) (s_taint s) true))).
    apply Jg_sender_close; assumption.
  - apply Jg_release. subst s1. destruct (s_closed s).
    + apply Jg_set_sender; assumption.
    + apply Jg_set_sender; [apply Jg_sender_close; assumption|].
      unfold sender_close_internal, wake_all. rewrite tx_busy_wake_list. exact Eidle.
  - subst s'. destruct (fixedm s); apply Jg_set_sender; assumption.
Qed.

Lemma Jg_init fx c a : Jg true (init fx c a).
Proof. intros f x Hg. cbn [init futs get] in Hg. discriminate. Qed.

Lemma Jg_end_of ops : forall s outs, Jg true s -> InvC (proj s) outs -> Jg true (end_of s ops).
Proof.
  induction ops as [|o t IH]; intros s outs Hj I; [exact Hj|]. cbn [end_of].
  destruct (step s o) as [s1 x] eqn:Es. cbn [fst]. apply (IH s1 (outs ++ [x])).
  - eapply stepR_J; eauto. apply step_stepR, Es.
  - eapply inv_next; eauto.
Qed.

Theorem spmc_wake_invariant fx c a ops s outs :
  0 < c -> run fx c a ops = (s, outs) -> J s.
Proof.
  intros Hc Hr. rewrite run_outs in Hr. inversion Hr; subst. apply J_Jg.
  apply (Jg_end_of ops (init fx c a) []); [apply Jg_init|apply inv_init; exact Hc].
Qed.

(* ------------------------------------------------------------------ corollaries in terms of the model's
   own poll: a future that is still asleep would get Pending again *)
Theorem spmc_recv_future_asleep_means_pending fx c a ops s outs f x w r y w2 :
  0 < c -> run fx c a ops = (s, outs) ->
  get (futs s) f = Some x -> f_live x = true -> f_wait x = Some w -> f_woken x = false ->
  f_kind x = FRecv r -> get (rxs s) r = Some y -> r_closed y = false -> r_taint y = false ->
  snd (poll_fut s f x w2) = OPending /\ has_reg (r_cur y mod cap s) w (regs s) = true.
Proof.
  intros Hc Hr Hg Hl Hw Hk Hkind Hgy Hcl Ht.
  pose proof (spmc_wake_invariant _ _ _ _ _ _ Hc Hr) as Hj.
  destruct (Hj f x Hg Hl) as [_ Hp]. specialize (Hp w Hw Hk). unfold Pw in Hp. rewrite Hkind in Hp. cbn [fut_rx] in Hp.
  destruct Hp as (y0 & Hg0 & Hp). rewrite Hgy in Hg0. inversion Hg0; subst y0.
  destruct Hp as [Hp|[Hp|(H1 & H2 & H3)]]; [congruence|congruence|]. split; [|exact H1].
  unfold poll_fut. rewrite Hkind, Hgy, Hcl. unfold try_recv_core.
  assert (Hwin : in_window s (r_cur y) = false).
  { unfold in_window. destruct (N.ltb_spec (r_cur y) (head s)); [lia|reflexivity]. }
  rewrite Hwin, H3. reflexivity.
Qed.

Theorem spmc_send_future_asleep_means_pending fx c a ops s outs f x w v w2 :
  0 < c -> run fx c a ops = (s, outs) ->
  get (futs s) f = Some x -> f_live x = true -> f_wait x = Some w -> f_woken x = false ->
  f_kind x = FSend v -> f_disp x = false -> s_alive s = true ->
  snd (poll_fut s f x w2) = OPending /\ pw s = Some w.
Proof.
  intros Hc Hr Hg Hl Hw Hk Hkind Hd Ha.
  pose proof (spmc_wake_invariant _ _ _ _ _ _ Hc Hr) as Hj.
  destruct (Hj f x Hg Hl) as [_ Hp]. specialize (Hp w Hw Hk). unfold Pw in Hp. rewrite Hkind in Hp. cbn [fut_rx] in Hp.
  destruct Hp as [Hp|(H1 & H2 & H3)]; [congruence|]. split; [|exact H1].
  unfold poll_fut. rewrite Hkind, Ha, H2. cbn [negb]. unfold try_send_core. unfold space in H3.
  destruct (minl (cursors s)) as [m|]; [|discriminate]. inversion H3 as [H4].
  pose proof (inv_run _ _ _ _ _ _ Hc Hr) as I. pose proof (i_cap _ _ I) as Hcap. cbn [proj c_cap] in Hcap.
  destruct (N.leb_spec (cap s) (head s - m)); [reflexivity|lia].
Qed.

(* ------------------------------------------------------------------ the full statement and the two
   recorded defects *)
Definition spmc_wake_full (fx : bool) : Prop :=
  forall c a ops s outs f x w,
    0 < c -> run fx c a ops = (s, outs) ->
    get (futs s) f = Some x -> f_live x = true -> f_wait x = Some w -> f_woken x = false ->
    snd (poll_fut s f x w) = OPending.

(* a receive future is pending on r; r.close() (through &r from another task) makes it Ready(Disconnected)
   but invokes no waker *)
Definition witness_rx_close_no_wake : list op := [MkRecv 0 0; Poll 0 1; RClose 0].

Lemma spmc_wake_refuted_rx_close fx : ~ spmc_wake_full fx.
Proof.
  intros H.
  specialize (H 2 true witness_rx_close_no_wake
                (fst (run fx 2 true witness_rx_close_no_wake)) (snd (run fx 2 true witness_rx_close_no_wake))
                0 (mkFut (FRecv 0) true (Some 1) false false) 1 ltac:(lia)).
  assert (He : run fx 2 true witness_rx_close_no_wake =
               (fst (run fx 2 true witness_rx_close_no_wake), snd (run fx 2 true witness_rx_close_no_wake)))
    by (destruct (run fx 2 true witness_rx_close_no_wake); reflexivity).
  specialize (H He). clear He.
  destruct fx; vm_compute in H; specialize (H eq_refl eq_refl eq_refl eq_refl); discriminate H.
Qed.

(* two send futures with different wakers are pending on one sender: the second registration replaces
   the first in the single AtomicWaker; the receive that frees the slot wakes only the second *)
Definition witness_send_waker_displaced : list op :=
  [TrySend 1; MkSend 0 2; Poll 0 0; MkSend 1 3; Poll 1 1; TryRecv 0].

Lemma spmc_wake_refuted_displaced fx : ~ spmc_wake_full fx.
Proof.
  intros H.
  specialize (H 1 true witness_send_waker_displaced
                (fst (run fx 1 true witness_send_waker_displaced)) (snd (run fx 1 true witness_send_waker_displaced))
                0 (mkFut (FSend 2) true (Some 0) false true) 0 ltac:(lia)).
  assert (He : run fx 1 true witness_send_waker_displaced =
               (fst (run fx 1 true witness_send_waker_displaced), snd (run fx 1 true witness_send_waker_displaced)))
    by (destruct (run fx 1 true witness_send_waker_displaced); reflexivity).
  specialize (H He). clear He.
  destruct fx; vm_compute in H; specialize (H eq_refl eq_refl eq_refl eq_refl); discriminate H.
Qed.

(* ------------------------------------------------------------------ cancellation: dropping a future
   changes nothing in the channel, removes no registration and touches no other future *)
Theorem spmc_drop_future_harmless s f :
  let s' := fst (step s (DropF f)) in
  proj s' = proj s /\ regs s' = regs s /\ pw s' = pw s /\ wlog s' = wlog s /\
  (forall g, g <> f -> get (futs s') g = get (futs s) g) /\
  (Jg true s -> Jg true s').
Proof.
  assert (Hid : proj s = proj s /\ regs s = regs s /\ pw s = pw s /\ wlog s = wlog s /\
                (forall g, g <> f -> get (futs s) g = get (futs s) g) /\ (Jg true s -> Jg true s))
    by (split; [reflexivity|]; split; [reflexivity|]; split; [reflexivity|]; split; [reflexivity|]; split; auto).
  cbn [step]. destruct (get (futs s) f) as [x|] eqn:Eg; [|cbn [fst]; exact Hid].
  destruct (f_live x); cbn [fst]; [|exact Hid].
  split; [reflexivity|]. split; [reflexivity|]. split; [reflexivity|]. split; [reflexivity|]. split.
  - intros g Hne. cbn [add_drops kill set_fut set_futs futs]. apply get_set_neq. exact Hne.
  - intros Hj. apply Jg_add_drops, Jg_kill. exact Hj.
Qed.
