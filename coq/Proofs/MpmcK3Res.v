(* Proofs/MpmcK3Res.v — API results.  InvR1: ids named by a producer's results are its own and old or
   finished; failed sends never entered the ring.  InvR2: each producer's accepted ids = its Ok
   results (+ the one in flight); each consumer's pops = the values it returned (+ the one in hand). *)
From Coq Require Import List NArith Arith Bool Lia Sorted.
From Fibre Require Import Common.Conc Chan.MpmcK3 Proofs.MpmcK3Base Proofs.MpmcK3Queue.
Import ListNotations.

Record InvR1 (s : st) : Prop := {
  R_res : forall p r v, In (p, r) (results s) -> In v (res_ids r) ->
            fst v = p /\ (snd v < pseq s p \/ (snd v = pseq s p /\ unpushed (pcs s p) = false));
  R_failed : forall p r v, In (p, r) (results s) -> In v (res_failed r) -> ~ In v (accepted s) }.

(* what R_res says of an id stays true when the producer's sequence number stays, provided the
   producer does not return to a not-yet-pushed pc, or when the number goes up *)
Definition res_id_ok (s : st) (p : nat) (v : id) : Prop :=
  fst v = p /\ (snd v < pseq s p \/ (snd v = pseq s p /\ unpushed (pcs s p) = false)).

Lemma res_id_keep s s' t p' p v :
  pcs s' = upd (pcs s) t p' ->
  (pseq s' = pseq s /\ (unpushed p' = true -> unpushed (pcs s t) = true)) \/
  pseq s' = upd (pseq s) t (S (pseq s t)) ->
  res_id_ok s p v -> res_id_ok s' p v.
Proof.
  intros Hp Hs [F H]. split; [exact F|]. rewrite Hp. unfold upd.
  destruct Hs as [[-> Hu] | ->]; unfold upd; destruct (Nat.eqb_spec p t) as [->|N]; try exact H.
  - destruct H as [H|[H U]]; [left; exact H|right; split; [exact H|]].
    destruct (unpushed p'); [rewrite Hu in U by reflexivity; discriminate U|reflexivity].
  - left. destruct H as [H|[H _]]; lia.
Qed.

(* steps that return nothing *)
Lemma InvR1_keep s s' t p' :
  InvR1 s -> pcs s' = upd (pcs s) t p' -> results s' = results s -> accepted s' = accepted s ->
  (pseq s' = pseq s /\ (unpushed p' = true -> unpushed (pcs s t) = true)) \/
  pseq s' = upd (pseq s) t (S (pseq s t)) ->
  InvR1 s'.
Proof.
  intros [R1 R2] Hp Er Ea Hs. constructor; rewrite ?Er, ?Ea; [|exact R2].
  intros p r v Hin Hv. eapply res_id_keep; [exact Hp|exact Hs|]. eapply R1; eassumption.
Qed.

Lemma InvR1_push s s' t p' :
  InvR1 s -> unpushed (pcs s t) = true -> pcs s' = upd (pcs s) t p' -> unpushed p' = false ->
  results s' = results s -> accepted s' = accepted s ++ [(t, pseq s t)] -> pseq s' = pseq s -> InvR1 s'.
Proof.
  intros [R1 R2] Ut Hp Up Er Ea Es. constructor; rewrite ?Er, ?Ea.
  - intros p r v Hin Hv. eapply res_id_keep; [exact Hp|left; split; [exact Es|congruence]|]. eapply R1; eassumption.
  - intros p r v Hin Hv X. apply in_app_iff in X. destruct X as [X|[<-|[]]]; [exact (R2 _ _ _ Hin Hv X)|].
    assert (Hv' : In (t, pseq s t) (res_ids r)) by (apply in_app_iff; left; exact Hv).
    destruct (R1 _ _ _ Hin Hv') as [F [Lt|[_ U]]]; cbn [fst snd] in *; subst p; [lia|congruence].
Qed.

(* a call returns r: its ids are the caller's current id, and a failed one was never pushed *)
Lemma InvR1_ret s s' t r :
  InvR1 s -> pcs s' = upd (pcs s) t Idle -> results s' = results s ++ [(t, r)] -> accepted s' = accepted s ->
  pseq s' = pseq s \/ pseq s' = upd (pseq s) t (S (pseq s t)) ->
  (forall v, In v (res_ids r) -> v = (t, pseq s' t)) ->
  (forall v, In v (res_failed r) -> ~ In v (accepted s)) ->
  InvR1 s'.
Proof.
  intros [R1 R2] Hp Er Ea Hs Hid Hf. constructor; rewrite ?Er, ?Ea.
  - intros p r0 v Hin Hv. apply in_app_iff in Hin. destruct Hin as [Hin|[[= <- <-]|[]]].
    + eapply res_id_keep; [exact Hp| |eapply R1; eassumption].
      destruct Hs as [Hs|Hs]; [left; split; [exact Hs|discriminate]|right; exact Hs].
    + rewrite (Hid v Hv). split; [reflexivity|right; split; [reflexivity|]]. rewrite Hp, upd_eq. reflexivity.
  - intros p r0 v Hin Hv. apply in_app_iff in Hin. destruct Hin as [Hin|[[= <- <-]|[]]]; [eapply R2; eassumption|auto].
Qed.

Lemma InvR1_step cap cf s t s' : InvA s -> InvR1 s -> Step cap cf s t s' -> InvR1 s'.
Proof.
  intros HA HR HS. pose proof (A_fresh _ HA t) as F. destruct HS.
  all: try solve [ by_frame InvR1_keep; left; split; [reflexivity|];
                   try open_move; rewrite Epc; case_pc; cbn [unpushed]; auto ].
  (* a new send; the three pushes *)
  all: try solve [ by_frame InvR1_keep; right; reflexivity
                 | eapply InvR1_push; [eassumption|rewrite Epc; reflexivity|st_simpl; reflexivity|reflexivity..] ].
  (* returns: the ids of the result are the caller's current id, and a failed one was never pushed *)
  all: eapply InvR1_ret; [eassumption|st_simpl; reflexivity|reflexivity..|first [left; reflexivity|right; reflexivity]| |];
       st_simpl; rewrite ?upd_eq; try (intros v []).
  - intros v Hv. destruct o; destruct Hv as [<-|[]]; reflexivity.
  - intros v Hv X. assert (v = (t, S (pseq s t))) as -> by (destruct o; destruct Hv as [<-|[]]; reflexivity).
    apply (A_le _ HA) in X. lia.
  - intros v Hv. destruct M; cbn in Hv; first [contradiction|destruct Hv as [<-|[]]; reflexivity].
  - intros v Hv. rewrite Epc in F. destruct M; cbn in Hv; first [contradiction|destruct Hv as [<-|[]]; apply F; reflexivity].
Qed.

Record InvR2 (s : st) : Prop := {
  R_sent : forall p, from_prod p (accepted s) = sent_ok s p ++ (if in_flight (pcs s p) then [(p, pseq s p)] else []);
  R_got : forall c, of_thread c (popped s) = got s c ++ in_hand (pcs s c) }.

(* thread t appends `da` to the accepted ids, `dp` to its pops and `dr` to its results: the two
   accounts stay balanced if what goes in on one side goes in on the other *)
Lemma InvR2_delta s s' t p' da dp dr :
  InvR2 s -> pcs s' = upd (pcs s) t p' ->
  accepted s' = accepted s ++ map (pair t) da -> popped s' = popped s ++ map (pair t) dp ->
  results s' = results s ++ map (pair t) dr ->
  (forall u, u <> t -> pseq s' u = pseq s u) ->
  (if in_flight (pcs s t) then [(t, pseq s t)] else []) ++ map (pair t) da =
    flat_map res_ok dr ++ (if in_flight p' then [(t, pseq s' t)] else []) ->
  in_hand (pcs s t) ++ dp = flat_map res_val dr ++ in_hand p' ->
  InvR2 s'.
Proof.
  intros [R3 R4] Hp Ea Ep Er Es Hf Hh.
  assert (Ht : forall A (l : list A), of_thread t (map (pair t) l) = l).
  { intros A l. unfold of_thread. induction l as [|a l IH]; cbn; [reflexivity|]. rewrite Nat.eqb_refl. cbn. f_equal. exact IH. }
  assert (Hn : forall A (l : list A) u, u <> t -> of_thread u (map (pair t) l) = []).
  { intros A l u N. unfold of_thread. induction l as [|a l IH]; cbn; [reflexivity|]. destruct (Nat.eqb_spec t u); [congruence|exact IH]. }
  assert (Fn : forall l u, u <> t -> from_prod u (map (pair t) l) = []).
  { intros l u N. unfold from_prod. induction l as [|a l IH]; cbn; [reflexivity|]. destruct (Nat.eqb_spec t u); [congruence|exact IH]. }
  assert (Ft : forall l, from_prod t (map (pair t) l) = map (pair t) l).
  { intros l. unfold from_prod. induction l as [|a l IH]; cbn; [reflexivity|]. rewrite Nat.eqb_refl. f_equal. exact IH. }
  constructor; intros u; unfold sent_ok, got; rewrite Hp, ?Ea, ?Ep, Er, !of_thread_app, ?from_prod_app, flat_map_app; unfold upd;
    destruct (Nat.eqb_spec u t) as [->|N].
  - rewrite Ht, Ft, R3, <- !app_assoc. f_equal. exact Hf.
  - rewrite Hn, Fn, Es, !app_nil_r by exact N. apply R3.
  - rewrite !Ht, R4, <- !app_assoc. f_equal. exact Hh.
  - rewrite !Hn, !app_nil_r by exact N. apply R4.
Qed.

Lemma InvR2_step cap cf s t s' : InvR2 s -> Step cap cf s t s' -> InvR2 s'.
Proof.
  intros HR HS.
  assert (Hs : forall n u, u <> t -> upd (pseq s) t n u = pseq s u) by (intros n u N; apply upd_neq; exact N).
  destruct HS.
  (* nothing is appended; a call returns; the three pushes; the pop *)
  all: first [ eapply (InvR2_delta s _ t _ [] [] [] HR); [st_simpl; reflexivity|symmetry; apply app_nil_r..| | |]
             | eapply (InvR2_delta s _ t Idle [] [] [_] HR); [st_simpl; reflexivity|symmetry; apply app_nil_r|symmetry; apply app_nil_r|reflexivity| | |]
             | eapply (InvR2_delta s _ t _ [pseq s t] [] [] HR); [st_simpl; reflexivity|reflexivity|symmetry; apply app_nil_r|symmetry; apply app_nil_r| | |]
             | eapply (InvR2_delta s _ t _ [] [v] [] HR); [st_simpl; reflexivity|symmetry; apply app_nil_r|reflexivity|symmetry; apply app_nil_r| | |] ].
  all: try solve [reflexivity|apply Hs].
  all: st_simpl; cbn [map flat_map app]; rewrite ?app_nil_r; try open_move; rewrite ?Epc;
       repeat (cbn [in_flight in_hand];
               match goal with |- context [if ?b then _ else _] =>
                 lazymatch b with context [if _ then _ else _] => fail | _ => destruct b end end);
       cbn [in_flight in_hand res_ok res_val]; reflexivity.
Qed.
