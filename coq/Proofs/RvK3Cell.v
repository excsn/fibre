(* Proofs/RvK3Cell.v — payload cells and record liveness of the K3' rendezvous model (C09):
   a registered frame's cell content is determined by its state, nothing is ever written through
   a record whose frame is gone, no frame ends while its record is linked: `bad` stays false. *)
From Coq Require Import List NArith Arith Bool Lia.
From Fibre Require Import Common.Conc Chan.RvK3 Proofs.RvK3Base Proofs.RvK3Queue.
Import ListNotations.

Definition cellok (s : st) (u : nat) : Prop :=
  match qrel (pcs s u) with
  | QLS | QXS =>
      match wstate s u with
      | W | X => cell s u = Some (cur s u)     (* not taken: the sender still owns its payload *)
      | D => cell s u = None                  (* a receiver took it under the lock *)
      | C => False                            (* sync senders never cancel *)
      end
  | QLR | QXR =>
      match wstate s u with
      | D => cell s u <> None                 (* DONE implies the sender wrote the item *)
      | _ => cell s u = None
      end
  | QN => cell s u = None
  end.

Record CInv (s : st) : Prop := {
  C_ok : forall u, cellok s u;
  C_bad : bad s = false
}.

Lemma CInv_init cfg : CInv (init cfg).
Proof. split; [intros u; unfold cellok; cbn; reflexivity | reflexivity]. Qed.

Lemma linked_live p : qrel p <> QN -> live p = true.
Proof. pc_cases p; cbn; congruence. Qed.

Lemma in_sq_class s u : qok s u -> In u (sq s) -> qrel (pcs s u) = QLS /\ wstate s u = W.
Proof. unfold qok. destruct (qrel (pcs s u)); intuition. Qed.

Lemma in_rq_class s u : qok s u -> In u (rq s) -> qrel (pcs s u) = QLR /\ wstate s u = W.
Proof. unfold qok. destruct (qrel (pcs s u)); intuition. Qed.

(* the head of a queue, seen by a thread t that is not linked: its frame is live and WAITING, its
   cell as expected *)
Lemma head_rq cfg s t n rest :
  QInv cfg s -> CInv s -> rq s = n :: rest -> ~ In t (rq s) ->
  n <> t /\ qrel (pcs s n) = QLR /\ wstate s n = W /\ cell s n = None /\ live (pcs s n) = true.
Proof.
  intros QI CI E Ht. assert (Hn : In n (rq s)) by (rewrite E; left; reflexivity).
  destruct (in_rq_class _ _ (Q_ok _ _ QI n) Hn) as [Kn Wn].
  pose proof (C_ok _ CI n) as Cn. unfold cellok in Cn. rewrite Kn, Wn in Cn.
  repeat split; try assumption; [intros ->; contradiction | apply linked_live; congruence].
Qed.

Lemma head_sq cfg s t n rest :
  QInv cfg s -> CInv s -> sq s = n :: rest -> ~ In t (sq s) ->
  n <> t /\ qrel (pcs s n) = QLS /\ wstate s n = W /\ cell s n = Some (cur s n) /\ live (pcs s n) = true.
Proof.
  intros QI CI E Ht. assert (Hn : In n (sq s)) by (rewrite E; left; reflexivity).
  destruct (in_sq_class _ _ (Q_ok _ _ QI n) Hn) as [Kn Wn].
  pose proof (C_ok _ CI n) as Cn. unfold cellok in Cn. rewrite Kn, Wn in Cn.
  repeat split; try assumption; [intros ->; contradiction | apply linked_live; congruence].
Qed.

(* a step that touches no other thread's frame *)
Lemma CInv_own s s' t :
  CInv s ->
  (forall u, u <> t -> pcs s' u = pcs s u /\ wstate s' u = wstate s u /\ cell s' u = cell s u /\ seq s' u = seq s u) ->
  cellok s' t -> bad s' = false -> CInv s'.
Proof.
  intros [Co Cb] Hf Ht Hb. split; [|exact Hb]. intros u. destruct (Nat.eq_dec u t) as [->|Hu]; [exact Ht|].
  destruct (Hf u Hu) as (Hp & Hw & Hc & Hs). specialize (Co u). unfold cellok, cur in *. rewrite Hp, Hw, Hc, Hs. exact Co.
Qed.

Lemma CInv_step cfg s t c s' e :
  LockInv cfg s -> QInv cfg s -> CInv s -> step true cfg s t c = Some (s', e) -> CInv s'.
Proof.
  intros LI QI CI H. pose proof (Q_ok _ _ QI t) as Qt. pose proof (C_ok _ CI t) as Ct. pose proof (C_bad _ CI) as Cb.
  unfold qok in Qt. unfold cellok in Ct.
  step_rules H (L_x _ _ LI t); rewrite Epc in Qt, Ct; cbn [qrel] in Qt, Ct.
  all: try solve [ apply CInv_own with (s := s) (t := t); [exact CI | | |];
    [ intros u Hu; fsimpl; rewrite ?upd_neq by exact Hu; auto
    | unfold cellok, cur; fsimpl; rewrite ?upd_eq; cbn [qrel];
      try match goal with E : wstate _ _ = _ |- _ => rewrite E in * end; try tauto; congruence
    | fsimpl; rewrite Cb; cbn [orb];
      repeat match goal with |- context [mem ?a ?l] =>
        let M := fresh "M" in destruct (mem a l) eqn:M; [apply mem_In in M; tauto|] end;
      reflexivity ] ].
  (* the lock holder pops the head of a queue *)
  1-6: match goal with
       | E : rq _ = _ :: _ |- _ => destruct (head_rq _ _ t _ _ QI CI E (proj2 Qt)) as (Hnt & Kn & Wn & Cn & Hlive)
       | E : sq _ = _ :: _ |- _ => destruct (head_sq _ _ t _ _ QI CI E (proj1 Qt)) as (Hnt & Kn & Wn & Cn & Hlive)
       end;
       split; fsimpl;
       [ intros u; pose proof (C_ok _ CI u) as Cu; unfold cellok, cur in *; fsimpl; split_thr u t;
         [ cbn [qrel]; rewrite ?upd_neq by congruence; exact Ct
         | match goal with |- context [upd (wstate _) ?n _ _] => split_thr u n end;
           [ rewrite Kn; congruence | exact Cu ] ]
       | rewrite Cb, Hlive, ?Cn; reflexivity ].
  (* a receive that finds neither DONE with a payload nor its own timeout: the cell is empty *)
  subst fl. apply CInv_own with (s := s) (t := t); [exact CI | | |].
  - intros u Hu. fsimpl. rewrite ?upd_neq by exact Hu. auto.
  - unfold cellok. fsimpl. rewrite !upd_eq. reflexivity.
  - fsimpl. rewrite Cb. destruct (mem t (sq s)) eqn:M1; [apply mem_In in M1; tauto|].
    destruct (mem t (rq s)) eqn:M2; [apply mem_In in M2; tauto|].
    destruct (wstate s t); try (rewrite Ct; reflexivity). exfalso. exact (Ct (H eq_refl)).
Qed.
