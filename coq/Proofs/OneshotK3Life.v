(* Proofs/OneshotK3Life.v — lifecycle invariant of the K3 oneshot model (handle flags, state-machine
   ownership, sender_count / Arc counting, unreachable branches), for every cfg, every number of
   senders, all programs and all schedules. *)
From Coq Require Import List Arith Bool Lia.
From Fibre Require Import Common.Conc Chan.OneshotK3 Proofs.OneshotK3Base.
Import ListNotations.

Section Life.
  Variable C : cfg.
  Variable n : nat.
  Variable sprog : nat -> sop.

  Definition inr (t : nat) : Prop := 1 <= t <= n.

  (* What each clause is there for.
     l_rng          ids outside 1..n never move, so the counts over 1..n below are exact.
     l_rd l_open l_cl   the handle flag against the pc (try_recv / recv run on an open handle, close() has
                    set it), and receiver_dropped is set only by the receiver's own close / drop: inside
                    try_recv / recv it is still unset (open_rd).  This keeps the one sender step that
                    needs the flag, the CAS at DCas2, out of the way of a receiver taking the value.
     l_w1 l_wu l_w3 state WRITING iff exactly one sender is between its CAS EMPTY->WRITING and its swap
                    to SENT: the writer is alone, nobody else moves the state meanwhile.
     l_dcas2        the last sender tries SENT->TAKEN only after it read receiver_dropped.
     l_tcas l_unr   hence try_recv's CAS SENT->TAKEN cannot fail (the only other step out of SENT is
                    the one of l_dcas2), and the pcs after a failed CAS (TFLoad, TFCnt) are dead.
     l_tk l_tkr l_tku1 l_tku2   state TAKEN while somebody is at the slot lock to take the value out,
                    and that somebody (the last sender at DLock, or the receiver) is unique: one taker.
     l_abs          poll_recv reads sender_count at PCntA only after it loaded TAKEN or CLOSED; these
                    states are final, so a Disconnected answered there is answered in a final state.
     l_tclose l_last  the CAS EMPTY->CLOSED (receiver) and the whole path of the last sender after its
                    fetch_sub are reached with sender_count = 0, and the count never grows again:
                    CLOSED / Disconnected only when no sender is left.
     l_cnt l_arc    sender_count and the Arc count are exact: they count the sender threads before
                    their fetch_sub, resp. the threads that have not released their handle.
     l_sh1a .. l_sh2b  Drop for OneShotShared runs once: at most one thread is at RShLoad / SShLoad,
                    and then the Arc count is 0. *)
  Record LInv (s : st) : Prop := mkLInv {
    l_rng : forall t, ~ inr t -> spc s t = SIdle;
    l_rd : rd s = true -> rclosed s = true \/ rfin (rpc s) = true;
    l_open : ropen (rpc s) = true -> rclosed s = false;
    l_w1 : forall t, writer (spc s t) = true -> cs s = Writing;
    l_wu : forall t u, writer (spc s t) = true -> writer (spc s u) = true -> t = u;
    l_w3 : cs s = Writing -> exists t, inr t /\ writer (spc s t) = true;
    l_dcas2 : forall t, spc s t = DCas2 -> rd s = true;
    l_tk : forall t, spc s t = DLock -> cs s = Taken;
    l_tkr : rtakz (rpc s) = true -> cs s = Taken;
    l_tku1 : rtakz (rpc s) = true -> forall t, spc s t <> DLock;
    l_cl : rcl (rpc s) = true -> rclosed s = true;
    l_tku2 : forall t u, spc s t = DLock -> spc s u = DLock -> t = u;
    l_tcas : forall c, rpc s = TCas c -> cs s = Sent;
    l_unr : forall c, rpc s <> TFLoad c /\ rpc s <> TFCnt c;
    l_abs : rpc s = PCntA -> cs s = Taken \/ cs s = Closed;
    l_tclose : (rpc s = PClose \/ exists c, rpc s = TClose c) -> cnt s = 0;
    l_last : forall t, lastz (spc s t) = true -> cnt s = 0;
    l_cnt : cnt s = cntf (fun t => pre_fsub (spc s t)) n;
    l_arc : arc s = (if rrel (rpc s) then 0 else 1) + cntf (fun t => negb (srel (spc s t))) n;
    l_sh1a : rpc s = RShLoad -> arc s = 0;
    l_sh1b : rpc s = RShLoad -> forall t, spc s t <> SShLoad;
    l_sh2a : forall t, spc s t = SShLoad -> arc s = 0;
    l_sh2b : forall t u, spc s t = SShLoad -> spc s u = SShLoad -> t = u
  }.

  Lemma LInv_init rp : LInv (init n rp).
  Proof.
    constructor; cbn; intros; try discriminate; try congruence; auto.
    - split; discriminate.
    - destruct H as [H|[c H]]; discriminate.
    - induction n; cbn; congruence.
    - f_equal. induction n; cbn; congruence.
  Qed.

  Lemma inr_of_pc s t : LInv s -> spc s t <> SIdle -> inr t.
  Proof.
    intros L H. assert (X : inr t \/ ~ inr t) by (unfold inr; lia).
    destruct X as [X|X]; [exact X|destruct (H (l_rng _ L t X))].
  Qed.

  Lemma done_pcs s : LInv s -> (forall t, inr t -> spc s t = SDone) -> forall t, spc s t = SDone \/ spc s t = SIdle.
  Proof.
    intros L D t. assert (X : inr t \/ ~ inr t) by (unfold inr; lia).
    destruct X as [X|X]; [left; exact (D t X)|right; exact (l_rng _ L t X)].
  Qed.

  Lemma open_rd s : LInv s -> rclosed s = false -> rfin (rpc s) = false -> rd s = false.
  Proof.
    intros L A B. destruct (rd s) eqn:E; [|reflexivity]. destruct (l_rd _ L E); congruence.
  Qed.

  Lemma LInv_sstep s t s' e : inr t -> LInv s -> sstep sprog s t = Some (s', e) -> LInv s'.
  Proof.
    intros Rt L H. apply (sstep_inv sprog) in H. remember (spc s t) as p eqn:Epc in H.
    pose proof (l_w1 _ L t) as Wt. pose proof (l_wu _ L t) as Ut.
    pose proof (l_last _ L t) as Zt. pose proof (l_dcas2 _ L t) as Dt.
    rewrite <- Epc in Wt, Ut, Zt, Dt.
    constructor.
    - intros u Hu. assert (N : u <> t) by (intros ->; exact (Hu Rt)).
      scases H; rewrite ?upd_neq by exact N; exact (l_rng _ L u Hu).
    - scases H; exact (l_rd _ L).
    - scases H; exact (l_open _ L).
    - intros u. scases H; try exact (l_w1 _ L u); thr u t N; intros X;
        first [ discriminate X | reflexivity | exact (Wt eq_refl)
              | destruct (N (eq_sym (Ut u eq_refl X))) | pose proof (l_w1 _ L u X); congruence ].
    - scases H; try exact (l_wu _ L); apply (uniq_upd (fun q => writer q = true)); try exact (l_wu _ L);
        intros X u Y; first [discriminate X | exact (eq_sym (Ut u eq_refl Y)) | pose proof (l_w1 _ L u Y); congruence].
    - scases H; try exact (l_w3 _ L); intros X; try discriminate X;
        try (exists t; split; [exact Rt|rewrite upd_eq; reflexivity]);
        (apply (ex_upd (fun x q => inr x /\ writer q = true)); [exact (l_w3 _ L X)|]);
        rewrite <- Epc; intros [_ Y]; discriminate Y.
    - intros u. scases H; try exact (l_dcas2 _ L u); thr u t N; try exact (l_dcas2 _ L u);
        intros X; first [discriminate X | assumption].
    - intros u. scases H; try exact (l_tk _ L u); thr u t N; intros X;
        first [ discriminate X | reflexivity | pose proof (l_tk _ L u X); specialize (Wt eq_refl); congruence
              | pose proof (l_tk _ L u X); congruence ].
    - scases H; try exact (l_tkr _ L); intros X; (pose proof (l_tkr _ L X); try specialize (Wt eq_refl); congruence).
    - scases H; try exact (l_tku1 _ L); intros X u; thr u t N; try exact (l_tku1 _ L X u);
        (pose proof (l_tkr _ L X); congruence).
    - scases H; exact (l_cl _ L).
    - scases H; try exact (l_tku2 _ L); apply (uniq_upd (fun q => q = DLock)); try exact (l_tku2 _ L);
        intros X u Y; first [discriminate X | pose proof (l_tk _ L u Y); congruence].
    (* the only sender step out of SENT, the last sender's CAS at DCas2, needs receiver_dropped, which a
       receiver inside try_recv has not set *)
    - scases H; try exact (l_tcas _ L); intros c X; pose proof (l_tcas _ L c X) as Y;
        try specialize (Wt eq_refl); try congruence.
      rewrite (open_rd s L) in Dt; [discriminate (Dt eq_refl)|apply (l_open _ L)|]; rewrite X; reflexivity.
    - scases H; exact (l_unr _ L).
    - scases H; try exact (l_abs _ L); intros X; exfalso; try specialize (Wt eq_refl);
        destruct (l_abs _ L X); congruence.
    - scases H; try exact (l_tclose _ L); intros X; rewrite (l_tclose _ L X); reflexivity.
    - intros u. scases H; try exact (l_last _ L u); thr u t N; intros X;
        first [ discriminate X | exact (Zt eq_refl)
              | rewrite (l_last _ L u X); reflexivity | lia ].
    - scases H; try exact (l_cnt _ L);
        first [ rewrite (cntf_upd_same _ pre_fsub) by (rewrite <- Epc; reflexivity); exact (l_cnt _ L)
              | rewrite (cntf_upd_dec _ pre_fsub) by first [exact Rt | rewrite <- Epc; reflexivity | reflexivity];
                rewrite <- (l_cnt _ L); reflexivity ].
    - scases H; try exact (l_arc _ L);
        first [ rewrite (cntf_upd_same _ (fun q => negb (srel q))) by (rewrite <- Epc; reflexivity); exact (l_arc _ L)
              | rewrite (cntf_upd_dec _ (fun q => negb (srel q))) by first [exact Rt | rewrite <- Epc; reflexivity | reflexivity];
                pose proof (cntf_pos (fun u => negb (srel (spc s u))) n t Rt ltac:(cbv beta; rewrite <- Epc; reflexivity));
                rewrite (l_arc _ L); lia ].
    - scases H; try exact (l_sh1a _ L); intros X; rewrite (l_sh1a _ L X); reflexivity.
    - scases H; try exact (l_sh1b _ L); intros X u; thr u t N; try exact (l_sh1b _ L X u);
        (pose proof (l_sh1a _ L X); congruence).
    - intros u. scases H; try exact (l_sh2a _ L u); thr u t N; intros X;
        first [ discriminate X | rewrite (l_sh2a _ L u X); reflexivity | lia ].
    - scases H; try exact (l_sh2b _ L); apply (uniq_upd (fun q => q = SShLoad)); try exact (l_sh2b _ L);
        intros X u Y; first [discriminate X | pose proof (l_sh2a _ L u Y); congruence].
  Qed.

  Lemma LInv_rstep s s' e : LInv s -> rstep C s = Some (s', e) -> LInv s'.
  Proof.
    intros L H. apply (rstep_inv C s s' e (l_tcas _ L) (l_unr _ L)) in H. remember (rpc s) as p eqn:Epc in H.
    pose proof (l_rd _ L) as Ard. pose proof (l_open _ L) as Aopen. pose proof (l_tkr _ L) as Atkr.
    pose proof (l_tku1 _ L) as Atku. pose proof (l_cl _ L) as Acl. pose proof (l_arc _ L) as Aarc.
    rewrite <- Epc in Ard, Aopen, Atkr, Atku, Acl, Aarc.
    constructor.
    - rcases H; exact (l_rng _ L).
    - rcases H; try exact (l_rd _ L); intros X;
        first [ left; reflexivity | right; reflexivity | left; exact (Acl eq_refl)
              | destruct (Ard X) as [Y|Y]; [left; exact Y|discriminate Y] ].
    - rcases H; try exact (l_open _ L); intros X; first [exact (Aopen eq_refl) | assumption | discriminate X].
    - rcases H; try exact (l_w1 _ L); intros u X; exfalso;
        pose proof (l_w1 _ L u X); try pose proof (Atkr eq_refl); congruence.
    - rcases H; exact (l_wu _ L).
    - rcases H; try exact (l_w3 _ L); intros X; discriminate X.
    - rcases H; try exact (l_dcas2 _ L); intros u X; reflexivity.
    - rcases H; try exact (l_tk _ L); intros u X; exfalso;
        first [exact (Atku eq_refl u X) | pose proof (l_tk _ L u X); congruence].
    - rcases H; try exact (l_tkr _ L); intros X; first [discriminate X | reflexivity | exact (Atkr eq_refl)].
    - rcases H; try exact (l_tku1 _ L); intros X u Y;
        first [discriminate X | exact (Atku eq_refl u Y) | pose proof (l_tk _ L u Y); congruence].
    - rcases H; try exact (l_cl _ L); intros X; first [discriminate X | reflexivity | exact (Acl eq_refl)].
    - rcases H; exact (l_tku2 _ L).
    - rcases H; try exact (l_tcas _ L); intros c0 X; first [discriminate X | assumption].
    - rcases H; try exact (l_unr _ L); intros c0; split; discriminate.
    - rcases H; try exact (l_abs _ L); intros X; first [discriminate X | assumption].
    - rcases H; try exact (l_tclose _ L); intros [X|[c0 X]]; first [discriminate X | assumption].
    - rcases H; exact (l_last _ L).
    - rcases H; exact (l_cnt _ L).
    - rcases H; try exact (l_arc _ L); (rewrite Aarc; cbn; lia).
    - rcases H; try exact (l_sh1a _ L); intros X; first [discriminate X | lia].
    - rcases H; try exact (l_sh1b _ L); intros X u Y; (pose proof (l_sh2a _ L u Y); congruence).
    - rcases H; try exact (l_sh2a _ L); intros u X; rewrite (l_sh2a _ L u X); reflexivity.
    - rcases H; exact (l_sh2b _ L).
  Qed.

  Theorem LInv_reachable rp s : reachable (sys C n sprog rp) s -> LInv s.
  Proof.
    apply (lift_over C n sprog rp (fun _ => True)); eauto using LInv_init, LInv_rstep, LInv_sstep.
  Qed.
End Life.

