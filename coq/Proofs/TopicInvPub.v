(* Proofs/TopicInvPub.v — invariant preservation: publish. *)
From Fibre Require Import Common.Base Chan.TopicOps Chan.TopicSpec Proofs.TopicLemmas Proofs.TopicInv
     Proofs.TopicInvSub.

(** deliver_list as a map over the handles *)
Definition deliver_fn (l : list N) (m : msg) (x : rxh) : rxh :=
  if r_live x && mem (r_id x) l then rx_set_mb x (fst (mb_deliver (r_mb x) m)) else x.

Lemma deliver_one_spec a m rs :
  NoDup (map r_id rs) ->
  fst (deliver_one a m rs) = map (deliver_fn [a] m) rs.
Proof.
  intros Hnd. unfold deliver_one.
  assert (Hid : forall x, In x rs -> r_id x <> a -> deliver_fn [a] m x = x).
  { intros x _ Hne. unfold deliver_fn, mem. cbn [existsb]. destruct (N.eqb_spec (r_id x) a); [contradiction|].
    rewrite orb_false_r, andb_false_r. reflexivity. }
  destruct (find_rx a rs) as [y|] eqn:E.
  - pose proof (find_id_In r_id _ _ _ E) as [Hy Hya].
    destruct (r_live y) eqn:L.
    + destruct (mb_deliver (r_mb y) m) as [mb' w] eqn:Ed. cbn [fst]. unfold upd_rx. apply map_ext_in.
      intros x Hx. destruct (N.eqb_spec (r_id x) a) as [E2|E2].
      * assert (x = y) by (eapply (find_id_unique r_id); eauto). subst x.
        unfold deliver_fn, mem. cbn [existsb]. rewrite L, E2, N.eqb_refl, Ed. reflexivity.
      * symmetry. apply Hid; assumption.
    + cbn [fst]. rewrite <- (map_id rs) at 1. apply map_ext_in. intros x Hx.
      destruct (N.eq_dec (r_id x) a) as [E2|E2].
      * assert (x = y) by (eapply (find_id_unique r_id); eauto). subst x. unfold deliver_fn. rewrite L. reflexivity.
      * symmetry. apply Hid; assumption.
  - cbn [fst]. rewrite <- (map_id rs) at 1. apply map_ext_in. intros x Hx. symmetry. apply Hid; [exact Hx|].
    intros E2. apply (find_id_None r_id) in E. apply E. rewrite <- E2. apply in_map. exact Hx.
Qed.

Lemma deliver_list_spec m : forall l rs,
  NoDup l -> NoDup (map r_id rs) ->
  fst (deliver_list l m rs) = map (deliver_fn l m) rs.
Proof.
  induction l as [|a l IH]; intros rs Hl Hnd; cbn [deliver_list].
  - cbn [fst]. rewrite <- (map_id rs) at 1. apply map_ext. intros x. unfold deliver_fn, mem. cbn [existsb].
    rewrite andb_false_r. reflexivity.
  - inversion Hl as [|? ? Hni Hl']; subst.
    pose proof (deliver_one_spec a m rs Hnd) as H1.
    destruct (deliver_one a m rs) as [rs1 w1]. cbn [fst] in H1.
    assert (Hnd1 : NoDup (map r_id rs1)).
    { rewrite H1, map_map. erewrite map_ext; [exact Hnd|]. intros x. unfold deliver_fn.
      destruct (r_live x && mem (r_id x) [a]); reflexivity. }
    pose proof (IH rs1 Hl' Hnd1) as H2.
    destruct (deliver_list l m rs1) as [rs2 w2]. cbn [fst] in *. rewrite H2, H1, map_map.
    apply map_ext. intros x. unfold deliver_fn at 2. unfold mem at 1. cbn [existsb].
    destruct (r_live x) eqn:L; cbn [andb].
    + destruct (N.eqb_spec (r_id x) a) as [E|E]; cbn [orb].
      * unfold deliver_fn. cbn [r_live r_id rx_set_mb]. rewrite L, E. 
        assert (mem a l = false) by (apply mem_false_In; exact Hni).
        rewrite H. unfold mem. cbn [existsb]. rewrite N.eqb_refl. cbn. reflexivity.
      * unfold deliver_fn. rewrite L. unfold mem. cbn [existsb].
        destruct (N.eqb_spec (r_id x) a); [contradiction|]. cbn. reflexivity.
    + unfold deliver_fn. rewrite L. reflexivity.
Qed.

Definition offer_fn (t v : N) (y : srx) : srx :=
  if s_live y && mem t (s_subs y) then srx_offer y (t, v) else y.

(* a delivery on the model side and/or an offer on the reference side *)
Lemma rel_deliver_offer c ls da ao sgb x y m (bm bs : bool) :
  rel_rx c ls da ao sgb x y ->
  (r_live x = true -> good c y = true -> bm = bs) ->
  (r_live x = true -> good c y = true -> bm = true -> da = true) ->
  rel_rx c ls da ao sgb
    (if bm then rx_set_mb x (fst (mb_deliver (r_mb x) m)) else x)
    (if bs then srx_offer y m else y).
Proof.
  intros HR Hb Hda.
  assert (Hx : forall x', r_id x' = r_id x -> r_live x' = r_live x -> r_subs x' = r_subs x ->
                 r_closed x' = r_closed x -> m_cap (r_mb x') = m_cap (r_mb x) -> m_disc (r_mb x') = m_disc (r_mb x) ->
                 forall y', s_id y' = s_id y -> s_live y' = s_live y -> s_subs y' = s_subs y -> s_cap y' = s_cap y ->
                 s_closed y' = s_closed y -> s_reach y' = s_reach y ->
                 (r_live x = true -> good c y = true -> m_buf (r_mb x') = s_q y' /\ m_dropped (r_mb x') = s_full y') ->
                 rel_rx c ls da ao sgb x' y').
  { intros x' A1 A2 A3 A4 A5 A6 y' B1 B2 B3 B4 B5 B6 HB.
    assert (Hg : good c y' = good c y) by (unfold good; rewrite B5; reflexivity).
    destruct HR. constructor; rewrite ?A1, ?A2, ?A3, ?A4, ?A5, ?A6, ?B1, ?B2, ?B3, ?B4, ?B5, ?B6, ?Hg; auto. }
  assert (Hd : forall z, m_cap (fst (mb_deliver z m)) = m_cap z /\ m_disc (fst (mb_deliver z m)) = m_disc z).
  { intros z. unfold mb_deliver. destruct (N.leb (m_cap z) (N.of_nat (length (m_buf z)))); cbn; auto. }
  assert (Ho : forall z, s_id (srx_offer z m) = s_id z /\ s_live (srx_offer z m) = s_live z /\
                 s_subs (srx_offer z m) = s_subs z /\ s_cap (srx_offer z m) = s_cap z /\
                 s_closed (srx_offer z m) = s_closed z /\ s_reach (srx_offer z m) = s_reach z).
  { intros z. unfold srx_offer. destruct (N.ltb (N.of_nat (length (s_q z))) (s_cap z)); cbn; tauto. }
  apply Hx.
  1-6: destruct bm; cbn; try reflexivity; apply Hd.
  1-6: destruct bs; try reflexivity; apply Ho.
  intros Hl Hg. specialize (Hb Hl Hg). subst bs.
  destruct (rr_buf _ _ _ _ _ _ _ HR Hl Hg) as [Hq Hf].
  destruct bm; [|auto].
  specialize (Hda Hl Hg eq_refl).
  destruct (rr_subs _ _ _ _ _ _ _ HR Hl Hda) as [_ Hc].
  cbn [r_mb rx_set_mb]. unfold mb_deliver, srx_offer. rewrite Hq, Hc.
  (* model and reference test for room the other way round *)
  rewrite N.leb_antisym. destruct (N.ltb (N.of_nat (length (s_q y))) (s_cap y)); cbn; rewrite ?Hq, ?Hf; auto.
Qed.

Lemma ok_Publish c h t v : step_ok_for c (Publish h t v).
Proof.
  intros s sp s1 rs w sp1 vs I Hs Hsp. cbn [step sp_step] in *.
  destruct (live_tx h s) as [x|] eqn:Hl.
  2:same Hs Hsp I.
  pose proof (live_tx_da _ _ _ Hl) as Hda.
  destruct (t_closed x || Z.eqb (rcount s) 0); [same Hs Hsp I|].
  assert (Hgen : forall l, (match get_list t (lists s) with Some l0 => l = l0 | None => l = [] end) ->
            Inv c (st_set_rxs s (map (deliver_fn l (t, v)) (rxs s)))
                  (sp_set_rx sp (map (offer_fn t v) (sp_rx sp)))).
  { intros l Hlst. apply inv_map_rx; auto.
    - intros x0. unfold deliver_fn. destruct (r_live x0 && mem (r_id x0) l); reflexivity.
    - intros x0. unfold deliver_fn. destruct (r_live x0 && mem (r_id x0) l); reflexivity.
    - intros x0 y0 Hx0 Hy0 HR. unfold deliver_fn, offer_fn. rewrite <- (rr_live _ _ _ _ _ _ _ HR).
      apply rel_deliver_offer; [exact HR | | intros; exact Hda].
      intros L Hg. rewrite L. cbn [andb]. rewrite Hda in HR.
      destruct (rr_subs _ _ _ _ _ _ _ HR L eq_refl) as [Hsub _]. rewrite <- Hsub.
      destruct (mem (r_id x0) l) eqn:E1; destruct (mem t (r_subs x0)) eqn:E2; try reflexivity.
      + apply mem_In in E1. destruct (get_list t (lists s)) as [l0|] eqn:El; [|subst l; contradiction]. subst l0.
        pose proof (rr_reg2 _ _ _ _ _ _ _ HR L eq_refl Hg t l El E1) as H. apply mem_In in H. congruence.
      + apply mem_In in E2. destruct (rr_reg1 _ _ _ _ _ _ _ HR L eq_refl t E2) as [l0 [A B]].
        rewrite A in Hlst. subst l0. apply mem_In in B. congruence. }
  destruct (get_list t (lists s)) as [l|] eqn:El.
  - pose proof (deliver_list_spec (t, v) l (rxs s) (i_lnd _ _ _ I _ _ El) (i_rnd _ _ _ I)) as Hd.
    destruct (deliver_list l (t, v) (rxs s)) as [rs' w']. cbn [fst] in Hd. subst rs'.
    injection Hs as <- <- <-. injection Hsp as <- <-. split; [|apply vs_ok_nil]. apply Hgen. reflexivity.
  - injection Hs as <- <- <-. injection Hsp as <- <-. split; [|apply vs_ok_nil].
    specialize (Hgen [] eq_refl).
    assert (E : map (deliver_fn [] (t, v)) (rxs s) = rxs s).
    { rewrite <- (map_id (rxs s)) at 2. apply map_ext. intros x0. unfold deliver_fn, mem. cbn [existsb].
      rewrite andb_false_r. reflexivity. }
    rewrite E, st_set_rxs_same in Hgen. exact Hgen.
Qed.
