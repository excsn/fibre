(* Proofs/RendezvousFifo.v — C02 for the rendezvous model: values cross the channel in the order in
   which their sends were offered to it.  A parked sender is never overtaken: a direct handoff
   happens only when no sender is parked, parked senders are served oldest first, cancelling or
   disconnecting only deletes offers. *)
From Fibre Require Import Common.Base Chan.Rendezvous Proofs.RendezvousBase Proofs.RendezvousWF
     Proofs.RendezvousProofs.

Inductive subseq {A} : list A -> list A -> Prop :=
| ss_nil : subseq [] []
| ss_skip x l l' : subseq l l' -> subseq l (x :: l')
| ss_take x l l' : subseq l l' -> subseq (x :: l) (x :: l').

Lemma subseq_refl {A} (l : list A) : subseq l l.
Proof. induction l; constructor; assumption. Qed.

Lemma subseq_nil {A} (l : list A) : subseq [] l.
Proof. induction l; constructor; assumption. Qed.

Lemma subseq_trans {A} (a b c : list A) : subseq a b -> subseq b c -> subseq a c.
Proof.
  intros H1 H2. revert a H1. induction H2; intros a H1.
  - exact H1.
  - constructor. apply IHsubseq. exact H1.
  - inversion H1; subst.
    + constructor. apply IHsubseq. assumption.
    + apply ss_take. apply IHsubseq. assumption.
Qed.

Lemma subseq_app {A} (a b c d : list A) : subseq a b -> subseq c d -> subseq (a ++ c) (b ++ d).
Proof.
  intros H1 H2. induction H1; cbn.
  - exact H2.
  - constructor. exact IHsubseq.
  - apply ss_take. exact IHsubseq.
Qed.

Lemma subseq_app_l {A} (a b : list A) : subseq a (a ++ b).
Proof. rewrite <- (app_nil_r a) at 1. apply subseq_app; [apply subseq_refl|apply subseq_nil]. Qed.

(** the value a parked send carries *)
Definition valof (F : list (N * fut)) (f : N) : N :=
  match aget f F with Some r => f_val r | None => 0 end.

Definition pend (F : list (N * fut)) (q : list (N * N)) : list N := map (valof F) (map fst q).

Definition ev_hand (e : ev) : list N := match e with EHand v => [v] | _ => [] end.
Definition ev_offer (e : ev) : list N := match e with EOffer v => [v] | _ => [] end.
Definition hand_of (es : list ev) : list N := flat_map ev_hand es.
Definition offer_of (es : list ev) : list N := flat_map ev_offer es.

Lemma hand_of_app e e' : hand_of (e ++ e') = hand_of e ++ hand_of e'.
Proof. apply flat_map_app. Qed.
Lemma offer_of_app e e' : offer_of (e ++ e') = offer_of e ++ offer_of e'.
Proof. apply flat_map_app. Qed.

Lemma valof_aupd k g F f : (forall r, f_val (g r) = f_val r) -> valof (aupd k g F) f = valof F f.
Proof.
  intros Hg. unfold valof. rewrite aget_aupd. deq k f; [|reflexivity].
  destruct (aget f F); cbn; [apply Hg|reflexivity].
Qed.

Lemma pend_aupd k g F q : (forall r, f_val (g r) = f_val r) -> pend (aupd k g F) q = pend F q.
Proof. intros Hg. unfold pend. apply map_ext. intros p. apply valof_aupd. exact Hg. Qed.

Lemma pend_keys F q q' : map fst q' = map fst q -> pend F q' = pend F q.
Proof. intros H. unfold pend. rewrite H. reflexivity. Qed.

Lemma valof_disc_all q F f : valof (disc_all q F) f = valof F f.
Proof.
  unfold valof. rewrite aget_disc_all. destruct (qhas f q); [|reflexivity].
  destruct (aget f F); reflexivity.
Qed.

Lemma pend_ext F F' q :
  (forall f, In f (map fst q) -> valof F' f = valof F f) -> pend F' q = pend F q.
Proof. intros H. unfold pend. apply map_ext_in. exact H. Qed.

Lemma subseq_pend_qdel F f q : subseq (pend F (qdel f q)) (pend F q).
Proof.
  unfold pend, qdel. induction q as [|[k x] t IH]; cbn [adel map fst]; [constructor|].
  deq f k; [constructor; apply subseq_refl|]. cbn [map fst]. apply ss_take. exact IH.
Qed.

(** the invariant: the line "already handed ++ still parked" only loses elements from its parked
    part and only grows at its end, together with the offers *)
Definition FF (F : list (N * fut)) (SQ : list (N * N)) (E : list ev) : Prop :=
  subseq (hand_of E ++ pend F SQ) (offer_of E).

(* one step: what it hands over and leaves parked was parked before or is offered by it, in order *)
Lemma FF_step F F' SQ SQ' E e :
  FF F SQ E -> subseq (hand_of e ++ pend F' SQ') (pend F SQ ++ offer_of e) -> FF F' SQ' (E ++ e).
Proof.
  unfold FF. intros H S. rewrite hand_of_app, offer_of_app, <- app_assoc.
  eapply subseq_trans; [apply subseq_app; [apply subseq_refl|exact S]|].
  rewrite app_assoc. apply subseq_app; [exact H|apply subseq_refl].
Qed.

Lemma FF_shrink F F' SQ SQ' E e :
  FF F SQ E -> hand_of e = [] -> offer_of e = [] -> subseq (pend F' SQ') (pend F SQ) -> FF F' SQ' (E ++ e).
Proof. intros H A B C. apply (FF_step F _ SQ); [exact H|]. rewrite A, B, app_nil_r. exact C. Qed.

Lemma FF_aupd F SQ E e k g :
  FF F SQ E -> hand_of e = [] -> offer_of e = [] -> (forall r, f_val (g r) = f_val r) ->
  FF (aupd k g F) SQ (E ++ e).
Proof. intros H A B Hg. apply (FF_shrink F _ SQ); auto. rewrite pend_aupd by exact Hg. apply subseq_refl. Qed.

Lemma wakes_hand_offer q : hand_of (wakes_of q) = [] /\ offer_of (wakes_of q) = [].
Proof. induction q as [|p t IH]; cbn; [split; reflexivity|exact IH]. Qed.

Lemma closes_FF s sd s' r e E :
  FF (fs s) (sq s) E -> closes s sd s' r e -> FF (fs s') (sq s') (E ++ e).
Proof.
  intros H [ ]; cbn [fs sq set_scnt set_rcnt]; try (apply (FF_shrink (fs s) _ (sq s)); auto; apply subseq_refl).
  - destruct (wakes_hand_offer (rq s)). apply (FF_shrink (fs s) _ (sq s)); auto.
    rewrite (pend_ext (fs s)); [apply subseq_refl|]. intros f _. apply valof_disc_all.
  - destruct (wakes_hand_offer (sq s)). apply (FF_shrink (fs s) _ (sq s)); auto. apply subseq_nil.
Qed.

(* the parked senders are live futures: a future created now is none of them *)
Lemma pend_app s x : WF s -> pend (fs s ++ [x]) (sq s) = pend (fs s) (sq s).
Proof.
  intros W. apply pend_ext. intros f' Hi. unfold valof. rewrite aget_app.
  apply qhas_true in Hi. destruct (sq_member _ _ _ _ W f' Hi) as [r1 [-> _]]. reflexivity.
Qed.

Lemma pend_adel F f q : ~ In f (map fst q) -> pend (adel f F) q = pend F q.
Proof.
  intros Hq. apply pend_ext. intros f' Hi. unfold valof.
  rewrite aget_adel_neq; [reflexivity|]. intros ->. exact (Hq Hi).
Qed.

Theorem step_FF c s o s' r e E :
  WF s -> FF (fs s) (sq s) E -> step c s o = (s', r, e) -> FF (fs s') (sq s') (E ++ e).
Proof.
  intros W H Hs. apply step_inv in Hs.
  assert (X : rq s <> [] -> sq s = []) by (destruct (wf_excl _ _ _ _ W); congruence).
  destruct Hs; cbn [fs sq set_fs set_hs set_rq handoff_to_receiver];
    try (apply (FF_shrink (fs s) _ (sq s)); [exact H|reflexivity|reflexivity|apply subseq_refl]);
    try (apply FF_aupd; auto; fail).
  - (* T_send_fail *) apply (FF_shrink (fs s) _ (sq s)); [exact H|destruct b; reflexivity..|apply subseq_refl].
  - (* T_handoff: no sender is parked *)
    apply (FF_step (fs s) _ (sq s)); [exact H|]. rewrite X by congruence. apply subseq_refl.
  - (* T_take: the oldest parked sender *)
    destruct (wf_sq _ _ _ _ W g w) as [rg' [Hg' [_ [_ [_ Hv]]]]]; [rewrite Hsq; left; reflexivity|].
    assert (Hv' : valof (fs s) g = v) by (unfold valof; rewrite Hg; congruence).
    apply (FF_step (fs s) _ (sq s)); [exact H|]. rewrite Hsq, pend_aupd, app_nil_r by reflexivity.
    change (pend (fs s) ((g, w) :: rest)) with (valof (fs s) g :: pend (fs s) rest). rewrite Hv'.
    apply subseq_refl.
  - (* T_close *) exact (closes_FF (mark_closed s h) _ _ _ _ _ H Hk).
  - (* T_droph *) exact (closes_FF (mark_closed s h) _ _ _ _ _ H Hk).
  - (* T_clone_open *)
    destruct (h_side hd); apply (FF_shrink (fs s) _ (sq s)); auto; apply subseq_refl.
  - (* T_mksend *) apply (FF_shrink (fs s) _ (sq s)); auto. rewrite pend_app by exact W. apply subseq_refl.
  - (* T_mkrecv *) apply (FF_shrink (fs s) _ (sq s)); auto. rewrite pend_app by exact W. apply subseq_refl.
  - (* T_poll_handoff: no sender is parked *)
    apply (FF_step (fs s) _ (sq s)); [exact H|]. rewrite X by congruence. apply subseq_refl.
  - (* T_park_tx: the offer joins the end of the line *)
    assert (Hv : f_val r0 = v).
    { destruct (wf_fut _ _ _ _ W f r0 Hg) as [Hk _]. rewrite Hsd in Hk. destruct Hk as [[Hk|Hk] _]; congruence. }
    apply (FF_step (fs s) _ (sq s)); [exact H|]. unfold pend. rewrite !map_app. cbn [map fst app offer_of flat_map ev_offer].
    fold (pend (aupd f fut_park (fs s)) (sq s)). rewrite pend_aupd by reflexivity.
    unfold valof. rewrite aget_aupd_eq, Hg. cbn [option_map fut_park f_val]. rewrite Hv. apply subseq_refl.
  - (* T_repoll_tx *)
    apply (FF_shrink (fs s) _ (sq s)); auto. rewrite pend_aupd by reflexivity.
    rewrite (pend_keys (fs s) (sq s)); [apply subseq_refl|]. apply keys_aupd.
  - (* T_dropf *)
    rewrite (drop_fut_state _ _ _ W Hg). cbn [fs sq].
    assert (D : hand_of (drop_cell_ev r0) = [] /\ offer_of (drop_cell_ev r0) = []).
    { unfold drop_cell_ev. destruct (f_cell r0); [destruct (f_side r0)|]; split; reflexivity. }
    apply (FF_shrink (fs s) _ (sq s)); [exact H|apply D..|].
    rewrite pend_adel by (apply keys_adel_notin, (wf_sqk _ _ _ _ W)). apply subseq_pend_qdel.
Qed.

Theorem run_FF c ops s s' tr E :
  WF s -> FF (fs s) (sq s) E -> run c s ops = (s', tr) -> FF (fs s') (sq s') (E ++ evs_of tr).
Proof. apply (run_inv c (fun s E => FF (fs s) (sq s) E)), step_FF. Qed.

(* C02: for every configuration and history, the sequence of values that crossed the channel is a
   subsequence of the sequence of offers (sends that became visible to the channel: parked, or met a
   parked receiver), in the same order -- no overtaking, no reordering; cancelled and disconnected
   offers simply drop out.  The still-parked senders follow in registration order. *)
Theorem rv_fifo c a ops s tr :
  run c (init a) ops = (s, tr) ->
  subseq (hand_of (evs_of tr) ++ pend (fs s) (sq s)) (offer_of (evs_of tr))
  /\ subseq (hand_of (evs_of tr)) (offer_of (evs_of tr)).
Proof.
  intros Hr. assert (H0 : FF (fs (init a)) (sq (init a)) []) by (unfold FF; cbn; constructor).
  pose proof (run_FF c ops _ _ _ [] (WF_init a) H0 Hr) as H. cbn [app] in H. unfold FF in H.
  split; [exact H|]. eapply subseq_trans; [apply subseq_app_l|exact H].
Qed.

(* every receive form that takes a value takes it from the OLDEST parked sender *)
Theorem rv_recv_takes_oldest c k s s' v e :
  WF s -> core_recv c k s = (s', OVal v, e) ->
  exists g w rest, sq s = (g, w) :: rest /\ valof (fs s) g = v /\ sq s' = rest /\ rq s' = rq s
                   /\ e = [EHand v; ERecv v; EWake w].
Proof.
  intros W Hs. unfold core_recv in Hs. destruct (sq s) as [|[g w] rest] eqn:Hsq.
  - destruct (N.eqb (scnt s) 0); [discriminate|]. destruct k; discriminate.
  - unfold take_from_sender in Hs. rewrite Hsq in Hs.
    unfold WF in W. rewrite Hsq in W.
    destruct (wf_sq _ _ _ _ W g w (or_introl eq_refl)) as [rg [Hg [_ [_ [_ Hc]]]]].
    rewrite Hg, Hc in Hs. inversion Hs; subst. exists g, w, rest. unfold valof. rewrite Hg.
    repeat split; reflexivity.
Qed.

(* a direct handoff (try_send / send / first poll of a send future meeting a parked receiver)
   happens only while no sender is parked; receivers are served oldest first *)
Theorem rv_direct_handoff_only_when_no_sender_parked c a ops s tr :
  run c (init a) ops = (s, tr) -> sq s = [] \/ rq s = [].
Proof. intros Hr. exact (wf_excl _ _ _ _ (run_WF c ops _ _ _ (WF_init a) Hr)). Qed.
