(* Proofs/MpscBProofs.v — main theorems about the bounded-MPSC K2 model (C01-C04, C09). *)
From Fibre Require Import Common.Base Chan.MpscB Chan.MpscBSpec Proofs.MpscBBase Proofs.MpscBInv.
From Coq Require Import ZifyBool ZifyNat ZifyN.
Ltac Zify.zify_post_hook ::= Z.div_mod_to_equations.

Lemma reach_inv s : reach s -> Inv s.
Proof. intros (a&c&f3&fc&ops&->). apply reach_Inv. Qed.

Lemma final_snoc ops : forall s o, final s (ops ++ [o]) = fst (step (final s ops) o).
Proof.
  unfold final. induction ops as [|x t IH]; intros s o.
  - cbn [app]. rewrite run_fst_cons. reflexivity.
  - cbn [app]. rewrite !run_fst_cons. apply IH.
Qed.

Lemma reach_step s o : reach s -> reach (fst (step s o)).
Proof.
  intros (a&c&f3&fc&ops&->). exists a, c, f3, fc, (ops ++ [o]). symmetry. apply final_snoc.
Qed.

(** C01/C09: conservation in multiset form *)
Theorem conservation s : reach s -> NoDup (used s) /\ Permutation (used s) (held s).
Proof.
  intros R. destruct (reach_inv s R) as (_&_&_&[C U]). split.
  - apply (NoDup_count_occ N.eq_dec). exact U.
  - apply (Permutation_count_occ N.eq_dec). exact C.
Qed.

Theorem received_once s : reach s -> NoDup (rcv s) /\ incl (rcv s) (acc s).
Proof.
  intros R. destruct (reach_inv s R) as (_&_&[F _]&[C U]). split.
  - apply (NoDup_count_occ N.eq_dec). intros x. specialize (C x). specialize (U x).
    unfold held, cnt in *. rewrite count_occ_app in C. lia.
  - rewrite F. intros x Hx. apply in_or_app. left. exact Hx.
Qed.

Theorem failed_no_effect s o :
  failed (snd (exec s o)) = true ->
  q (fst (exec s o)) = q s /\ rcv (fst (exec s o)) = rcv s /\ acc (fst (exec s o)) = acc s.
Proof.
  destruct o; symex_late; cbn [failed]; intros Hf; try discriminate; auto.
  all: repeat match goal with H : _ /\ _ |- _ => destruct H end.
  all: repeat match goal with H : is_nil _ = true |- _ => apply is_nil_true in H; subst end.
  all: cbn [app] in *.
  all: try match goal with
       | Hf : (N.of_nat ?k =? 0) = true |- _ =>
           let E := fresh in assert (E : k = 0%nat) by (apply N.eqb_eq in Hf; lia);
           rewrite E; cbn [firstn]; rewrite ?app_nil_r
       end.
  all: rewrite ?app_nil_r in *; repeat split; congruence.
Qed.

(** try_send: exact in every state - Ok iff neither full nor closed *)
Theorem try_send_exact s h v r :
  aget h (hs s) = Some r -> htx r = true -> fresh [v] s = true ->
  snd (exec s (TrySend h v)) =
    if hclosed r || rdrop s then RClosedV v else if len (q s) <? cap s then ROk else RFull v.
Proof.
  intros A B C. cbn [exec]. unfold do_try_send. rewrite A, B, C. cbn [andb].
  unfold tx_dead, window_open, window_open_cold, use. cb.
  destruct (hclosed r || rdrop s); [reflexivity|].
  destruct (N.ltb_spec (len (q s)) (cap s)) as [L|L].
  - rewrite orb_true_r. reflexivity.
  - destruct (N.ltb_spec (len (q s) + unpub s) (cap s)); [lia | reflexivity].
Qed.

Theorem len_exact s h r : G1 s -> aget h (hs s) = Some r -> exec s (Len h) = (s, RNum (len (q s))).
Proof. intros [_ L] A. cbn [exec]. unfold obs, chan_len. rewrite A. f_equal. f_equal. lia. Qed.

(** what one call can do to the append-only ghost lists and the constant fields *)
Lemma exec_frame s o :
  let s' := fst (exec s o) in let r := snd (exec s o) in
  rcv s' = rcv s ++ recv_ids r
  /\ (exists d, drp s' = drp s ++ d /\ evd s' = evd s ++ d)
  /\ (exists b, back s' = back s ++ b)
  /\ (exists d, acc s' = acc s ++ d)
  /\ (exists u, used s' = u ++ used s)
  /\ (rdrop s = true -> rdrop s' = true)
  /\ cap s' = cap s /\ fix03 s' = fix03 s /\ fixcl s' = fixcl s.
Proof.
  destruct o; symex_late; cbn [recv_ids].
  all: repeat match goal with H : _ /\ _ |- _ => destruct H end.
  all: repeat match goal with H : is_nil _ = true |- _ => apply is_nil_true in H; subst end.
  all: rewrite ?app_nil_r in *.
  all: repeat match goal with
       | |- _ /\ _ => split
       | |- exists _, _ ++ ?d = _ ++ _ /\ _ => exists d; split; reflexivity
       | |- exists _, ?x = ?x ++ _ /\ _ => exists []; rewrite ?app_nil_r; split; reflexivity
       | |- exists _, _ ++ ?d = _ ++ _ => exists d; reflexivity
       | |- exists _, ?x = ?x ++ _ => exists []; rewrite ?app_nil_r; reflexivity
       | |- exists _, ?u ++ ?x = _ ++ ?x => exists u; reflexivity
       | |- exists _, ?x = _ ++ ?x => exists []; reflexivity
       end; try congruence; try reflexivity; auto.
Qed.

Lemma open_tx_zero l h r : open_tx l = 0 -> aget h l = Some r -> isopen r = false.
Proof.
  unfold open_tx. induction l as [|[k v] t IH]; cbn [aget filter snd]; intros Z G; [discriminate|].
  destruct (N.eqb_spec h k) as [->|Hn].
  - inversion G; subst. destruct (isopen r); [rewrite len_cons in Z; lia | reflexivity].
  - apply IH; [|exact G]. destruct (isopen v); [rewrite len_cons in Z; lia | exact Z].
Qed.

Lemma deqn_nil' m s s0 : deqn (N.to_nat m) s = (s0, []) -> (m =? 0) = false -> q s = [] /\ s0 = s.
Proof.
  intros E H. apply N.eqb_neq in H.
  destruct (deqn_nil (N.to_nat m) s) as [A B]; [rewrite E; reflexivity | lia |].
  rewrite E in B. cbn [fst] in B. auto.
Qed.

Ltac deqnil :=
  try match goal with
  | E : deqn (N.to_nat ?m) ?s = (_, []), H : (?m =? 0) = false |- _ =>
      let A := fresh "DQ" in let B := fresh "DS" in
      destruct (deqn_nil' _ _ _ E H) as [A B]; subst
  end.

(** C04: Disconnected (on a handle that was not itself closed) only with nothing buffered and no open sender *)
Theorem disc_means_drained s o :
  fut_ok s ->
  snd (exec s o) = RDisc \/ snd (exec s o) = RReady RDisc ->
  (q s = [] /\ scount s = 0)
  \/ (exists h r, aget h (hs s) = Some r /\ htx r = false /\ hclosed r = true).
Proof.
  intros FO. destruct o; symex_late; intros [Hd|Hd]; try discriminate.
  all: repeat match goal with H : _ /\ _ |- _ => destruct H end.
  all: repeat match goal with H : is_nil _ = true |- _ => apply is_nil_true in H; subst end.
  all: cbn [app] in *; deqnil.
  all: try (left; split; [congruence | apply N.eqb_eq; congruence]).
  all: bools.
  all: try (right; eexists; eexists; split; [eassumption|]; split; congruence).
  all: match goal with H : aget _ (fs _) = Some _ |- _ => destruct (FO _ _ H) as (r0&A&B&C) end.
  all: somes; repeat match goal with H : fk _ = _ |- _ => rewrite H in * end; cbn [is_recv_kind negb] in *.
  all: right; eexists; eexists; split; [eassumption|]; split; congruence.
Qed.

(** Disconnected is stable; no receive form yields a value afterwards - except through a clone
    taken from a closed sender (F-M1), which the repaired Clone (fixcl) excludes *)
Theorem disc_stable s o :
  GS s -> disc_state s -> (fixcl s = true \/ ~ clones_closed s o) ->
  disc_state (fst (exec s o)) /\ has_value (snd (exec s o)) = false.
Proof.
  intros (N1&N2&FO&RO&SC&RL) [Z Q0] FX. unfold disc_state, has_value.
  destruct o; symex_late; cbn [recv_ids is_nil negb]; auto.
  all: repeat match goal with H : _ /\ _ |- _ => destruct H end.
  all: try congruence.
  all: repeat match goal with H : is_nil _ = true |- _ => apply is_nil_true in H; subst end.
  all: cbn [app] in *; rewrite ?app_nil_r in *; deqnil.
  all: try (split; [split; congruence | reflexivity]).
  all: rewrite ?Q0 in *.
  all: repeat match goal with
       | H : aget _ (fs _) = Some ?fr |- _ =>
           lazymatch goal with
           | K : htx _ = negb (is_recv_kind (fk fr)) |- _ => fail
           | _ => let r0 := fresh "r" in destruct (FO _ _ H) as (r0 & ? & ? & ?)
           end
       end; somes; repeat match goal with H : fk _ = _ |- _ => rewrite H in * end; cbn [is_recv_kind negb] in *.
  all: try match goal with H : [] = ?a ++ ?b |- _ => symmetry in H end.
  all: try match goal with H : ?a ++ ?b = [] |- _ => apply app_eq_nil in H; destruct H; subst end.
  all: try (split; [split; congruence | reflexivity]).
  all: bools; unfold tx_dead in *; cbh.
  all: try match goal with
       | H : aget ?h (hs _) = Some ?r, T : htx ?r = true |- _ =>
           let K := fresh "K" in
           pose proof (open_tx_zero _ _ _ (eq_trans (eq_sym SC) Z) H) as K; unfold isopen in K;
           rewrite T in K; cbn [andb] in K; apply negb_false_iff in K
       end.
  all: try (exfalso; congruence).
  all: try match goal with H : _ || _ = false |- _ => apply orb_false_iff in H; destruct H end.
  all: try (exfalso; congruence).
  all: try (exfalso; destruct FX as [FX|FX]; [congruence | apply FX; do 3 eexists; split; [reflexivity|]; split; eassumption]).
  exfalso. match goal with E : _ && _ = false |- _ => rewrite K, andb_true_r in E end.
  destruct FX as [FX|FX]; [congruence|].
  apply FX. do 3 eexists. eauto.
Qed.

(** rdrop (receiver closed or dropped) is permanent, and then every send form reports Closed
    and hands the values back *)
Theorem send_after_rx_gone s o r h :
  rdrop s = true ->
  aget h (hs s) = Some r -> htx r = true ->
  match o with
  | TrySend h' v => h' = h /\ fresh [v] s = true
  | Send h' v => h' = h /\ hasync r = false /\ fresh [v] s = true
  | TrySendB h' vs _ => h' = h /\ fresh vs s = true /\ vs <> []
  | SendB h' vs _ => h' = h /\ hasync r = false /\ fresh vs s = true /\ vs <> []
  | _ => False
  end ->
  closed_with_value o (snd (exec s o)).
Proof.
  intros RD A B. destruct o; try contradiction; cbn [exec closed_with_value].
  - intros [-> F]. unfold do_try_send, tx_dead, use. rewrite A, B, F. cb. rewrite RD, orb_true_r. reflexivity.
  - intros (-> & AS & F). unfold do_send, tx_dead. rewrite A, B, AS, F. cb. rewrite RD, orb_true_r. reflexivity.
  - intros (-> & F & NE). unfold do_try_send_b, tx_dead, use. rewrite A, B, F. cb.
    destruct vs; [congruence|]. cbn [is_nil]. cb. rewrite RD, orb_true_r. destruct inplace; reflexivity.
  - intros (-> & AS & F & NE). unfold do_send_b, tx_dead. rewrite A, B, AS, F. cb.
    destruct vs; [congruence|]. cbn [is_nil]. rewrite RD, orb_true_r. destruct inplace; reflexivity.
Qed.

Theorem poll_after_rx_gone s f w fr r item :
  rdrop s = true -> aget f (fs s) = Some fr -> aget (fh fr) (hs s) = Some r -> fk fr = FSend item ->
  snd (exec s (Poll f w)) = RReady RClosed.
Proof.
  intros RD A B K. cbn [exec]. unfold do_poll, tx_dead. rewrite A, B, K, RD, orb_true_r. reflexivity.
Qed.

(** ops on a handle whose close() returned Ok fail (F-03: recv_timeout is the exception unless repaired) *)
Theorem closed_handle_rejects s h r o :
  aget h (hs s) = Some r -> hclosed r = true ->
  match o with
  | TrySend h' v => h' = h /\ htx r = true /\ fresh [v] s = true
  | Send h' v => h' = h /\ htx r = true /\ hasync r = false /\ fresh [v] s = true
  | TrySendB h' vs _ => h' = h /\ htx r = true /\ fresh vs s = true /\ vs <> []
  | SendB h' vs _ => h' = h /\ htx r = true /\ hasync r = false /\ fresh vs s = true /\ vs <> []
  | TryRecv h' => h' = h /\ htx r = false
  | Recv h' => h' = h /\ htx r = false /\ hasync r = false
  | RecvT0 h' => h' = h /\ htx r = false /\ hasync r = false /\ fix03 s = true
  | TryRecvB h' m => h' = h /\ htx r = false /\ m <> 0
  | RecvB h' m => h' = h /\ htx r = false /\ hasync r = false /\ m <> 0
  | PollNext h' _ => h' = h /\ htx r = false /\ hasync r = true /\ has_futs h s = false
  | Close h' => h' = h
  | _ => False
  end ->
  failed (snd (exec s o)) = true /\ q (fst (exec s o)) = q s.
Proof.
  intros A C. destruct o; try contradiction; cbn [exec].
  all: intros K; repeat match goal with H : _ /\ _ |- _ => destruct H end; subst.
  all: unfold do_try_send, do_send, do_try_send_b, do_send_b, do_try_recv, do_recv, do_recv_t0,
         do_try_recv_b, do_recv_b, do_poll_next, do_close, tx_dead, use, giveback, dropv, put_h.
  all: rewrite A; repeat match goal with H : _ = _ |- _ => rewrite H end; cb.
  all: rewrite ?C, ?orb_true_l; cbn [andb orb negb].
  all: try (destruct vs; [congruence|]; cbn [is_nil]; cb; rewrite ?C, ?orb_true_l).
  all: try (destruct (N.eqb_spec max 0); [congruence|]).
  all: try destruct inplace; cb; cbn [failed]; auto.
Qed.

Theorem double_close s h r : aget h (hs s) = Some r -> hclosed r = true -> exec s (Close h) = (s, RCloseErr).
Proof. intros A C. cbn [exec]. unfold do_close. rewrite A, C. reflexivity. Qed.

Theorem first_close s h r : aget h (hs s) = Some r -> hclosed r = false ->
  snd (exec s (Close h)) = ROk /\
  exists r', aget h (hs (fst (exec s (Close h)))) = Some r' /\ hclosed r' = true.
Proof.
  intros A C. cbn [exec]. unfold do_close. rewrite A, C. cb. split; [reflexivity|].
  exists (with_closed r). split; [|reflexivity].
  unfold close_h, put_h, wake_all_senders, notify_receiver. cb.
  destruct (htx r).
  - destruct (scount s =? 1); [destruct (rw s) as [[? ?]|]|]; cb; apply aget_aset_eq.
  - rewrite wake_list_eq. cb. apply aget_aset_eq.
Qed.

(** C04: closing (or dropping) one of several sender clones changes nothing another handle can
    observe: the channel state is untouched, nobody is woken, the count stays positive *)
Theorem clone_isolation s h r h' r' :
  GS s -> aget h (hs s) = Some r -> htx r = true -> hclosed r = false ->
  aget h' (hs s) = Some r' -> h' <> h -> isopen r' = true ->
  let s' := fst (exec s (Close h)) in
  0 < scount s' /\ q s' = q s /\ rdrop s' = rdrop s /\ unpub s' = unpub s /\ sq s' = sq s
  /\ rw s' = rw s /\ evw s' = evw s /\ fs s' = fs s
  /\ (forall k, k <> h -> aget k (hs s') = aget k (hs s)).
Proof.
  intros (N1&N2&FO&RO&SC&RL) A T C A' NE O'. cbn [exec]. unfold do_close. rewrite A, C. cb.
  unfold close_h, put_h. rewrite T. cb.
  assert (2 <= scount s).
  { pose proof (open_tx_adel h (hs s) N1) as E1. rewrite A in E1.
    pose proof (open_tx_adel h' (adel h (hs s)) (NoDup_adel h _ N1)) as E2.
    rewrite (aget_adel_neq h h' (hs s) NE), A', O' in E2.
    assert (O : isopen r = true) by (unfold isopen; rewrite T, C; reflexivity).
    rewrite O in E1. lia. }
  destruct (N.eqb_spec (scount s) 1); [lia|]. cb.
  repeat split; try reflexivity; try lia.
  intros k Hk. apply aget_aset_neq. exact Hk.
Qed.

(** C03: blocking send / first poll of an async send are admitted by the hot window only *)
Theorem send_admission s h v r :
  aget h (hs s) = Some r -> htx r = true -> hasync r = false -> fresh [v] s = true ->
  snd (exec s (Send h v)) =
    if hclosed r || rdrop s then RClosed else if len (q s) + unpub s <? cap s then ROk else RBlock.
Proof.
  intros A T AS F. cbn [exec]. unfold do_send, tx_dead, window_open. rewrite A, T, AS, F. cbn [andb negb].
  destruct (hclosed r || rdrop s); [reflexivity|]. destruct (len (q s) + unpub s <? cap s); reflexivity.
Qed.

Theorem poll_send_admission s f w fr r v :
  aget f (fs s) = Some fr -> aget (fh fr) (hs s) = Some r -> fk fr = FSend (Some v) ->
  snd (exec s (Poll f w)) =
    if hclosed r || rdrop s then RReady RClosed
    else if len (q s) + unpub s <? cap s then RReady ROk else RPending.
Proof.
  intros A B K. cbn [exec]. unfold do_poll, tx_dead, window_open. rewrite A, B, K.
  destruct (hclosed r || rdrop s); [reflexivity|]. destruct (len (q s) + unpub s <? cap s); reflexivity.
Qed.

(** the full C03 sentence for the waiting forms, F-30: refuted, and what holds instead *)
Definition send_waits_only_for_space : Prop :=
  forall s, reach s -> forall h v r,
    aget h (hs s) = Some r -> htx r = true -> hasync r = false -> hclosed r = false ->
    rdrop s = false -> fresh [v] s = true -> len (q s) < cap s ->
    snd (exec s (Send h v)) = ROk.

Definition F30_hist : list op := [TrySend 0 1; TrySend 0 2; TryRecv 1].

Theorem send_waits_refuted_F30 : ~ send_waits_only_for_space.
Proof.
  intros H.
  assert (R : reach (final (init false 2 false false) F30_hist))
    by (exists false, 2, false, false, F30_hist; reflexivity).
  specialize (H _ R 0 3 (mkH true false false false None)).
  vm_compute in H. specialize (H eq_refl eq_refl eq_refl eq_refl eq_refl eq_refl eq_refl). discriminate H.
Qed.

Theorem send_waits_except_F30 s h v r :
  aget h (hs s) = Some r -> htx r = true -> hasync r = false -> hclosed r = false ->
  rdrop s = false -> fresh [v] s = true -> len (q s) < cap s -> unpub s = 0 ->
  snd (exec s (Send h v)) = ROk.
Proof.
  intros A T AS C RD F L U. rewrite (send_admission s h v r A T AS F), C, RD, U. cbn [orb].
  destruct (N.ltb_spec (len (q s) + 0) (cap s)); [reflexivity | lia].
Qed.

(** C04 refutations on the faithful model *)
Definition disc_is_final : Prop :=
  forall s o, reach s -> disc_state s -> disc_state (fst (exec s o)) /\ has_value (snd (exec s o)) = false.

Theorem disc_is_final_refuted_FM1 : ~ disc_is_final.
Proof.
  intros H.
  assert (R : reach (final (init false 2 false false) [Close 0]))
    by (exists false, 2, false, false, [Close 0]; reflexivity).
  specialize (H _ (Clone 0 2) R). vm_compute in H.
  destruct H as [[H _] _]; [split; reflexivity | discriminate H].
Qed.

Definition closed_recv_timeout_rejects : Prop :=
  forall s, reach s -> forall h r, aget h (hs s) = Some r -> htx r = false -> hasync r = false ->
    hclosed r = true -> failed (snd (exec s (RecvT0 h))) = true.

Theorem closed_recv_timeout_refuted_F03 : ~ closed_recv_timeout_rejects.
Proof.
  intros H.
  assert (R : reach (final (init false 2 false false) [TrySend 0 1; Close 1]))
    by (exists false, 2, false, false, [TrySend 0 1; Close 1]; reflexivity).
  specialize (H _ R 1 (mkH false false true false None)). vm_compute in H.
  specialize (H eq_refl eq_refl eq_refl eq_refl). discriminate H.
Qed.

Lemma reach_ind' (P : st -> Prop) :
  (forall a c f3 fc, P (init a c f3 fc)) ->
  (forall s o, reach s -> P s -> P (fst (step s o))) ->
  forall s, reach s -> P s.
Proof.
  intros HI HS s (a&c&f3&fc&ops&->). induction ops as [|o t IH] using rev_ind.
  - apply HI.
  - rewrite final_snoc. apply HS; [|exact IH]. exists a, c, f3, fc, t. reflexivity.
Qed.

(** once the last handle is gone nothing is buffered *)
Definition G4 (s : st) : Prop := hs s = [] -> q s = [].

Lemma exec_G4 s o : GS s -> G4 s -> G4 (fst (exec s o)).
Proof.
  intros (N1&N2&FO&RO&SC&RL) G. unfold G4 in *. destruct o; symex_late; try assumption.
  all: intros X; try discriminate X.
  all: try (apply is_nil_true; assumption).
  all: try match goal with H : is_nil ?l = false |- _ => rewrite X in H; discriminate H end.
  all: repeat match goal with
       | H : aget _ (fs _) = Some _ |- _ => apply FO in H; destruct H as (?&H&_)
       end.
  all: try match goal with H : aget _ (hs _) = Some _ |- _ => rewrite X in H; discriminate H end.
  all: reflexivity.
Qed.

Lemma reach_GS s : reach s -> GS s.
Proof. intros R. apply (reach_inv s R). Qed.

Lemma reach_G4 s : reach s -> G4 s.
Proof.
  apply reach_ind'.
  - intros a c f3 fc. unfold G4, init. cb. discriminate.
  - intros s0 o R H. rewrite step_fst. apply exec_G4; [apply (reach_GS s0 R) | exact H].
Qed.

(** C09: after all handles (hence all futures) are gone every id has been returned to a caller
    (received / handed back) or dropped, exactly once *)
Theorem teardown s : reach s -> hs s = [] ->
  q s = [] /\ fs s = [] /\ NoDup (used s) /\ Permutation (used s) (rcv s ++ back s ++ drp s).
Proof.
  intros R HE. destruct (conservation s R) as [ND P].
  destruct (reach_GS s R) as (N1&N2&FO&RO&SC&RL).
  assert (FE : fs s = []).
  { destruct (fs s) as [|[f fr] t] eqn:E; [reflexivity|]. exfalso.
    destruct (FO f fr) as (r&A&_); [rewrite E; cbn [aget]; rewrite N.eqb_refl; reflexivity|].
    rewrite HE in A. discriminate A. }
  pose proof (reach_G4 s R HE) as QE.
  split; [exact QE|]. split; [exact FE|]. split; [exact ND|].
  unfold held in P. rewrite QE, FE in P. exact P.
Qed.

(** C02: what the receive forms returned, in order, is exactly the ghost list rcv *)
Theorem recv_trace ops : forall s,
  rcv (final s ops) = rcv s ++ flat_map (fun x => recv_ids (out_res x)) (snd (run s ops)).
Proof.
  unfold final. induction ops as [|o t IH]; intros s; cbn [run].
  - cbn. rewrite app_nil_r. reflexivity.
  - pose proof (exec_frame (clear_ev s) o) as (F&_).
    unfold step. fold (clear_ev s). destruct (exec (clear_ev s) o) as [s1 r] eqn:E. cbn [fst snd] in F.
    specialize (IH s1). destruct (run s1 t) as [s2 xs]. cbn [fst snd flat_map out_res] in *.
    rewrite IH, F. rewrite <- app_assoc. reflexivity.
Qed.

(** drop events of a call are exactly the ids it moved to Dropped *)
Theorem drop_events s o : exists d,
  drp (fst (step s o)) = drp s ++ d /\ out_drops (snd (step s o)) = d.
Proof.
  pose proof (exec_frame (clear_ev s) o) as (_&(d&D1&D2)&_).
  unfold step. fold (clear_ev s). destruct (exec (clear_ev s) o) as [s1 r]. cbn [fst snd out_drops] in *.
  exists d. split; [exact D1|]. rewrite D2. reflexivity.
Qed.

Theorem capacity_all s : reach s -> 1 <= cap s /\ len (q s) <= cap s.
Proof. intros R. apply (reach_inv s R). Qed.

Theorem fifo_all s : reach s -> acc s = rcv s ++ q s ++ qdrp s.
Proof. intros R. destruct (reach_inv s R) as (_&_&[F _]&_). exact F. Qed.

Theorem drained_all_received s : reach s -> hs s <> [] -> q s = [] -> rcv s = acc s.
Proof.
  intros R HN Q. destruct (reach_inv s R) as (_&_&[F D]&_).
  destruct (qdrp s) eqn:E; [|exfalso; apply HN, D; discriminate].
  rewrite F, Q. cbn [app]. rewrite app_nil_r. reflexivity.
Qed.

Lemma run_const ops : forall s,
  cap (final s ops) = cap s /\ fix03 (final s ops) = fix03 s /\ fixcl (final s ops) = fixcl s.
Proof.
  unfold final. induction ops as [|o t IH]; intros s; [auto|].
  rewrite run_fst_cons, step_fst. destruct (IH (fst (exec (clear_ev s) o))) as (A&B&C).
  pose proof (exec_frame (clear_ev s) o) as (_&_&_&_&_&_&X&Y&Z). cbn zeta in *.
  rewrite A, B, C, X, Y, Z. auto.
Qed.

Theorem no_open_sender s h r :
  GS s -> scount s = 0 -> aget h (hs s) = Some r -> htx r = true -> hclosed r = true.
Proof.
  intros (N1&N2&FO&RO&SC&RL) Z A T.
  pose proof (open_tx_zero _ _ _ (eq_trans (eq_sym SC) Z) A) as K. unfold isopen in K.
  rewrite T in K. cbn [andb] in K. apply negb_false_iff in K. exact K.
Qed.

Theorem receiver_gone s : GS s ->
  (forall r, aget 1 (hs s) = Some r -> htx r = true \/ hclosed r = true) -> rdrop s = true.
Proof.
  intros (N1&N2&FO&RO&SC&RL) H. destruct (rdrop s) eqn:E; [reflexivity|]. exfalso.
  apply RL in E. destruct E as (r&A&B&C). destruct (H r A); congruence.
Qed.

(** with the repaired Clone (fixcl) Disconnected is final in every history *)
Theorem disc_is_final_fixed a c f3 ops o :
  let s := final (init a c f3 true) ops in
  disc_state s -> disc_state (fst (exec s o)) /\ has_value (snd (exec s o)) = false.
Proof.
  intros s D. apply disc_stable; [|exact D|].
  - apply reach_GS. exists a, c, f3, true, ops. reflexivity.
  - left. unfold s. destruct (run_const ops (init a c f3 true)) as (_&_&->). reflexivity.
Qed.

(** with the repaired recv_timeout (fix03) every receive form on a closed handle fails *)
Theorem closed_recv_timeout_fixed a c fc ops h r :
  let s := final (init a c true fc) ops in
  aget h (hs s) = Some r -> htx r = false -> hasync r = false -> hclosed r = true ->
  failed (snd (exec s (RecvT0 h))) = true /\ q (fst (exec s (RecvT0 h))) = q s.
Proof.
  intros s A T AS C. apply (closed_handle_rejects s h r (RecvT0 h) A C).
  repeat split; try assumption.
  unfold s. destruct (run_const ops (init a c true fc)) as (_&->&_). reflexivity.
Qed.

(** C01: try_send_batch reports sent + unsent = input, in order *)
Theorem try_send_batch_split s h vs ip :
  match snd (exec s (TrySendB h vs ip)) with
  | RBatchErr k _ rest | RMutOk k rest =>
      exists j, k = N.of_nat j /\ firstn j vs ++ rest = vs /\ q (fst (exec s (TrySendB h vs ip))) = q s ++ firstn j vs
  | RBatchOk k => k = len vs /\ q (fst (exec s (TrySendB h vs ip))) = q s ++ vs
  | RMutClosed l => l = vs /\ q (fst (exec s (TrySendB h vs ip))) = q s
  | _ => True
  end.
Proof.
  symex_late; auto.
  all: try (match goal with E : is_nil ?l = true |- _ => is_var l; apply is_nil_true in E end;
            subst; cbn [app]; rewrite ?app_nil_r; auto).
  all: try solve [exists 0%nat; cbn [firstn app]; rewrite ?app_nil_r; auto].
  all: try match goal with
       | H : is_nil (skipn ?k ?l) = true |- _ =>
           apply is_nil_true in H;
           let E := fresh in pose proof (firstn_skipn k l) as E; rewrite H, app_nil_r in E; rewrite ?E
       end.
  all: try match goal with
       | H : is_nil (firstn ?k ?l) = true |- _ => apply is_nil_true in H; rewrite ?H, ?app_nil_r
       end.
  all: try (split; [reflexivity|]; congruence).
  all: try (eexists; split; [reflexivity|]; split; [apply firstn_skipn|]; try reflexivity;
            try match goal with H : firstn _ _ = [] |- _ => rewrite H, ?app_nil_r end; reflexivity).
  all: try match goal with
       | H1 : firstn ?k ?l = [], H2 : firstn ?k ?l = ?l |- _ => rewrite H1 in H2; subst; discriminate
       end.
  all: try (exists (length vs); unfold len; rewrite firstn_all, app_nil_r; auto).
Qed.
