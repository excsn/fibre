(* Proofs/PolicyArcProofs.v — what ArcP satisfies of the C14 contract, for every
   capacity and call sequence (everything except that an admission may silently
   drop one other resident), and the refutation for finding F-20-arc-admit. *)
From Fibre Require Import Common.Base Cache.PolicySpec Cache.PolicyLru Cache.PolicySlru
     Cache.PolicySieve Cache.PolicyArc Proofs.PolicyCommon Proofs.PolicySlruProofs.

Lemma arc_tr_In k s : In k (keys (arc_tr s)) <-> In k (keys (a_t1 s)) \/ In k (keys (a_t2 s)).
Proof. apply In_keys_app. Qed.

(** `replace` moves exactly one resident (the tail of T1 or of T2) out of T1 ++ T2 *)
Lemma arc_replace_some cap kib s k c s' :
  arc_replace cap kib s = Some ((k, c), s') -> Permutation (arc_tr s) ((k, c) :: arc_tr s').
Proof.
  unfold arc_replace, arc_tr.
  destruct (andb (N.ltb 0 (total (a_t1 s)))
                 (orb (N.leb (a_p s) (total (a_t1 s))) (andb kib (N.eqb (total (a_t1 s)) (a_p s)))));
    [|destruct (ll_pop_back (a_t2 s)) as [[[k2 c2] t2']|] eqn:E2].
  2:{ intros H. inversion H; subst. cbn [a_t1 a_t2].
      apply ll_pop_back_some in E2. rewrite E2, app_assoc.
      apply Permutation_sym, Permutation_cons_append. }
  (* the tail of T1, by the rule or as the fallback *)
  all: destruct (ll_pop_back (a_t1 s)) as [[[k1 c1] t1']|] eqn:E1; [|discriminate];
    intros H; inversion H; subst; cbn [a_t1 a_t2];
    apply ll_pop_back_some in E1; rewrite E1, <- app_assoc;
    apply Permutation_sym, Permutation_middle.
Qed.

(** ... and returns nothing only when there is no resident at all *)
Lemma arc_replace_none cap kib s : arc_replace cap kib s = None -> arc_tr s = [].
Proof.
  unfold arc_replace, arc_tr.
  destruct (N.ltb_spec 0 (total (a_t1 s))) as [Hpos|Hz]; cbn [andb];
    [destruct (orb (N.leb (a_p s) (total (a_t1 s))) (andb kib (N.eqb (total (a_t1 s)) (a_p s))))|].
  1:{ (* T1 is chosen only when its cost is positive *)
      destruct (ll_pop_back (a_t1 s)) as [[[k1 c1] t1']|] eqn:E; [discriminate|].
      apply ll_pop_back_none in E. rewrite E in Hpos. cbn [total] in Hpos. lia. }
  all: destruct (ll_pop_back (a_t2 s)) as [[[k2 c2] t2']|] eqn:E2; [discriminate|];
    destruct (ll_pop_back (a_t1 s)) as [[[k1 c1] t1']|] eqn:E1; [discriminate|];
    intros _; rewrite (ll_pop_back_none _ E2), (ll_pop_back_none _ E1); reflexivity.
Qed.

Lemma arc_evict_one_some cap s v s' :
  arc_evict_one cap s = Some (v, s') -> Permutation (arc_tr s) (ekc v :: arc_tr s').
Proof.
  unfold arc_evict_one.
  set (kib := match ll_pop_back (a_t1 s) with Some ((k, _), _) => ll_has k (a_b2 s) | None => false end).
  destruct (arc_replace cap kib s) as [[[k c] s1]|] eqn:E; [|discriminate].
  intros H. inversion H; subst v s'. exact (arc_replace_some _ _ _ _ _ _ E).
Qed.

Lemma arc_evict_one_none cap s : arc_evict_one cap s = None -> arc_tr s = [].
Proof.
  unfold arc_evict_one.
  set (kib := match ll_pop_back (a_t1 s) with Some ((k, _), _) => ll_has k (a_b2 s) | None => false end).
  destruct (arc_replace cap kib s) as [[[k c] s1]|] eqn:E; [discriminate|].
  intros _. eapply arc_replace_none; eauto.
Qed.

(** on_access / re-admission of a resident: moved to the front of T2 with the new cost *)
Lemma arc_access_ok k c s : access_update (arc_tr s) (arc_tr (arc_access k c s)) k c.
Proof.
  unfold arc_access.
  destruct (ll_hasP k (a_t1 s)) as [E1|E1]; [|destruct (ll_hasP k (a_t2 s)) as [E2|E2]].
  - apply access_update_in; [apply arc_tr_In; left; exact E1 | apply perm_push_right].
  - apply access_update_in; [apply arc_tr_In; right; exact E2 | apply perm_touch_right; exact E1].
  - apply access_update_out; [rewrite arc_tr_In; tauto | apply Permutation_refl].
Qed.

Lemma admit_full_demote T T' k c : admit_full T T' k c -> admit_demote T T' k c.
Proof.
  intros H. exists []. cbn [length]. repeat split.
  - lia.
  - intros x [].
  - intros [].
  - rewrite without_nil. exact H.
Qed.

Lemma without_single_perm T d cd R :
  NoDup (keys T) -> Permutation T ((d, cd) :: R) -> Permutation (without [d] T) R.
Proof.
  intros Hnd HP. rewrite without_cons, without_nil.
  apply (NoDup_keys_perm _ _ HP) in Hnd. inversion Hnd as [|? ? Hni _]; subst.
  eapply Permutation_trans; [apply rm_perm; exact HP|].
  cbn [rm]. rewrite N.eqb_refl, (rm_id d R Hni). apply Permutation_refl.
Qed.

Lemma arc_ghost_adapt_tr cap k s s1 kib : arc_ghost_adapt cap k s = (s1, kib) -> arc_tr s1 = arc_tr s.
Proof.
  unfold arc_ghost_adapt.
  destruct (ll_has k (a_b1 s)); [intros H; inversion H; reflexivity|].
  destruct (ll_has k (a_b2 s)); intros H; inversion H; reflexivity.
Qed.

(* the tail of on_admit for a non-resident key: at most one other resident is dropped *)
Lemma arc_admit_fresh_ok cap k c s1 kib :
  NoDup (keys (arc_tr s1)) -> ~ In k (keys (arc_tr s1)) ->
  admit_demote (arc_tr s1) (arc_tr (arc_admit_fresh cap k c s1 kib)) k c.
Proof.
  intros HI Hk. unfold arc_admit_fresh.
  (* pushing the fresh key into T1 of a state that does not hold it *)
  assert (Hpush : forall s2, ~ In k (keys (arc_tr s2)) ->
            arc_tr (mkArc (a_p s2) (ll_push_front k c (a_t1 s2)) (a_t2 s2) (a_b1 s2) (a_b2 s2))
            = (k, c) :: arc_tr s2).
  { intros s2 Hk2. unfold arc_tr, ll_push_front. cbn [a_t1 a_t2].
    rewrite (rm_id k (a_t1 s2)); [reflexivity|]. rewrite arc_tr_In in Hk2. tauto. }
  assert (Hnone : admit_demote (arc_tr s1)
            (arc_tr (mkArc (a_p s1) (ll_push_front k c (a_t1 s1)) (a_t2 s1) (a_b1 s1) (a_b2 s1))) k c).
  { apply admit_full_demote. unfold admit_full.
    rewrite (Hpush s1 Hk), (rm_id k (arc_tr s1) Hk). apply Permutation_refl. }
  destruct (N.leb cap (total (a_t1 s1) + total (a_t2 s1))); [|exact Hnone].
  destruct (arc_replace cap kib s1) as [[[d cd] s2]|] eqn:E; [|exact Hnone].
  pose proof (arc_replace_some _ _ _ _ _ _ E) as HP.
  assert (Hsub : forall x, In x (keys ((d, cd) :: arc_tr s2)) -> In x (keys (arc_tr s1))).
  { intros x. apply Permutation_in. apply Permutation_sym, keys_perm. exact HP. }
  assert (Hk2 : ~ In k (keys (arc_tr s2))) by (intros Hi; apply Hk, Hsub; right; exact Hi).
  exists [d]. cbn [length]. repeat split.
  - lia.
  - intros x [Hx|[]]. subst. apply Hsub. left. reflexivity.
  - intros [He|[]]. subst. apply Hk, Hsub. left. reflexivity.
  - rewrite (Hpush s2 Hk2).
    rewrite (rm_id k (without [d] (arc_tr s1))) by (intros Hi; apply Hk; eapply without_keys_In; exact Hi).
    constructor. apply Permutation_sym. eapply without_single_perm; eauto.
Qed.

Lemma arc_admit_ok cap k c s : NoDup (keys (arc_tr s)) ->
  admit_demote (arc_tr s) (arc_tr (arc_admit cap k c s)) k c.
Proof.
  intros HI. unfold arc_admit.
  destruct (ll_hasP k (a_t1 s)) as [E1|E1]; [|destruct (ll_hasP k (a_t2 s)) as [E2|E2]].
  - apply admit_full_demote. apply perm_push_right.
  - apply admit_full_demote. apply perm_touch_right. exact E1.
  - assert (Hk : ~ In k (keys (arc_tr s))) by (rewrite arc_tr_In; tauto).
    destruct (arc_ghost_adapt cap k s) as [s1 kib] eqn:Eg.
    rewrite <- (arc_ghost_adapt_tr _ _ _ _ _ Eg) in *.
    apply arc_admit_fresh_ok; assumption.
Qed.

Lemma arc_remove_ok k s : NoDup (keys (arc_tr s)) ->
  Permutation (arc_tr (arc_remove k s)) (rm k (arc_tr s)).
Proof.
  intros HI. unfold arc_remove, arc_tr, ll_remove. rewrite rm_app.
  destruct (ll_hasP k (a_t1 s)) as [E1|E1]; [|destruct (ll_hasP k (a_t2 s)) as [E2|E2]];
    cbn [a_t1 a_t2].
  - rewrite (rm_id k (a_t2 s)) by (eapply seg_not_right; eauto). apply Permutation_refl.
  - rewrite (rm_id k (a_t1 s) E1). apply Permutation_refl.
  - rewrite (rm_id k (a_t1 s) E1), (rm_id k (a_t2 s) E2).
    destruct (ll_has k (a_b1 s)); apply Permutation_refl.
Qed.

Lemma arc_step_ok cap s cl : NoDup (keys (arc_tr s)) ->
  let '(s', o) := arc_step cap s cl in
  step_okG access_update admit_demote evict_ok (arc_tr s) cl o (arc_tr s').
Proof.
  intros H. destruct cl as [k c|k c|k|n|]; cbn [arc_step step_okG].
  - apply arc_access_ok.
  - apply arc_admit_ok. exact H.
  - apply arc_remove_ok. exact H.
  - destruct (evict_loop (arc_evict_one cap) (length (a_t1 s) + length (a_t2 s)) n 0 s [])
      as [[s' vs] f] eqn:E.
    refine (evict_loop_ok _ arc_tr (fun s v s' _ => arc_evict_one_some cap s v s')
              (arc_evict_one_none cap) _ _ _ _ _ _ H _ E).
    unfold arc_tr. rewrite app_length. apply le_n.
  - reflexivity.
Qed.

Theorem arc_contract_except_F20_admit cap :
  contractG access_update admit_demote evict_ok (ArcP cap).
Proof.
  apply contractG_lift_nodup.
  - exact access_update_NoDup.
  - exact admit_demote_NoDup.
  - constructor.
  - exact (arc_step_ok cap).
Qed.

(** F-20-arc-admit: on_admit under capacity pressure stops tracking a resident
    without nominating it (ArcPolicy::new(2): admit 1, 2, 3).  Refuted even with
    the sufficiency clause dropped, hence also for the full statement. *)
Theorem arc_admit_refuted : ~ contractG access_update admit_full evict_nosuff (ArcP 2).
Proof.
  intros H. specialize (H [Admit 1 1; Admit 2 1]). cbv zeta in H. destruct H as [_ H].
  specialize (H (Admit 3 1)).
  change (Permutation [(3, 1); (2, 1)] [(3, 1); (2, 1); (1, 1)]) in H.
  apply Permutation_length in H. discriminate.
Qed.
