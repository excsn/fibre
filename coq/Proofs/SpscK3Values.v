(* Proofs/SpscK3Values.v — payload ids and API results of the K3 SPSC model: the ids accepted by
   the ring are strictly increasing (no duplicates), the API results the two threads have seen so
   far are tied to the ring's ghost lists, a failed send never entered the ring. *)
From Fibre Require Import Common.Base Common.Conc Chan.SpscK3 Proofs.SpscK3Proofs.
From Coq Require Import ZifyBool ZifyNat ZifyN Sorted.

Lemma pow2_ge_ok cap fuel : forall p, cap <= p * 2 ^ N.of_nat fuel -> cap <= pow2_ge fuel p cap.
Proof.
  induction fuel as [|f IH]; intros p H; cbn [pow2_ge].
  - cbn in H. lia.
  - destruct (N.leb_spec cap p); [assumption|]. apply IH.
    rewrite Nat2N.inj_succ, N.pow_succ_r' in H. lia.
Qed.

(* the physical length Ring::new computes is admissible for the theorems *)
Lemma phys_of_ge cap : cap <= phys_of cap.
Proof.
  unfold phys_of. apply pow2_ge_ok. rewrite N2Nat.id.
  pose proof (N.pow_gt_lin_r 2 cap ltac:(lia)). lia.
Qed.

Definition pres_fail (r : pres) : list N :=
  match r with POk _ => [] | PFull v | PClosed v | PGone v => [v] end.
Definition failed (s : st) : list N := flat_map pres_fail (presults s).

(* where the producer stands with the id `pseq` of its current call: inside the call with the value
   not yet published (p_prepub: from the consumer_dropped check to the tail store, the waiting
   loop and the unregister before Err(Closed) included); published, `send` not yet returned
   (p_postpub: unregister, notify_receivers, wake_one); in neither zone `pseq` belongs to a call
   that has returned.  c_inhand: the consumer holds in `chand` a value it has read from its cell
   and not yet returned (head store, unregister, notify_senders, wake_one). *)
Definition p_prepub pc := match pc with
  | PCd _ | PPush _ _ | PPark | PSwap | PSpinDec | PReg _ | PFence | PUnreg UClosed _ => true | _ => false end.
Definition p_postpub pc := match pc with
  | PUnreg UOk _ | PNfFence | PNfLd | PWake WNotify _ => true | _ => false end.
Definition c_inhand pc := match pc with
  | CPop _ StIdx | CUnreg CUVal _ | CNfFence | CNfLd | CWake WNotify _ => true | _ => false end.

Ltac vcl := cbn [p_prepub p_postpub c_inhand orb negb b2n].

(* sorted  accepted ids increase strictly;
   acc / fail  every accepted (failed) id is below `pseq` while the call with id `pseq` has not
      published (is still in flight), and at most `pseq` otherwise;
   disj  a failed id is never accepted;
   ok   the ids whose send returned Ok, then the published id of the call in flight, are `accepted`;
   got  unless a cell was read empty (`bad`): the values the receives returned, then the one in
      the consumer's hand, are `received` *)
Record ValInv (s : st) : Prop := {
  V_sorted : StronglySorted N.lt (accepted s);
  V_acc : Forall (fun x => x < pseq s + b2n (negb (p_prepub (ppc s)))) (accepted s);
  V_fail : Forall (fun x => x < pseq s + b2n (negb (p_prepub (ppc s) || p_postpub (ppc s)))) (failed s);
  V_disj : forall v, In v (failed s) -> ~ In v (accepted s);
  V_ok : sent_ok s ++ (if p_postpub (ppc s) then [pseq s] else []) = accepted s;
  V_got : bad s = false -> got s ++ (if c_inhand (cpc s) then [chand s] else []) = received s
}.

Lemma Val_init pp0 cp0 : ValInv (init pp0 cp0).
Proof. constructor; cbn; try constructor; try reflexivity. intros v []. Qed.

Lemma ssorted_snoc (l : list N) x : StronglySorted N.lt l -> Forall (fun y => y < x) l -> StronglySorted N.lt (l ++ [x]).
Proof.
  induction l as [|a l IH]; intros Hs Hf; cbn.
  - constructor; constructor.
  - inversion Hs; subst. inversion Hf; subst. constructor; [apply IH; assumption|].
    apply Forall_app. split; [assumption | constructor; [assumption | constructor]].
Qed.

Lemma Forall_lt_weaken (l : list N) a b : a <= b -> Forall (fun x => x < a) l -> Forall (fun x => x < b) l.
Proof. intros H. apply Forall_impl. intros; lia. Qed.

(* closes one clause of ValInv after a step that changes the value ghosts: the clause is unchanged;
   or a bound on the ids is weakened because `pseq` grew or a zone was left (the two bounds handed
   to Forall_lt_weaken are expressions in `pseq`: lia needs no hypothesis); or `accepted` grew by
   `pseq`, which is above every accepted id (V2: snoc keeps it sorted and bounded); or `failed`
   (`accepted`) grew by `pseq`, which by V2 (V3) is above every id on the other list, so the two
   stay disjoint (V4) *)
Ltac vfin V2 V3 V4 :=
  first
  [ assumption
  | congruence
  | solve [eapply Forall_lt_weaken; [|eassumption]; clear; lia]
  | solve [apply Forall_app; split; [eapply Forall_lt_weaken; [|eassumption]; clear; lia | repeat constructor; clear; lia]]
  | solve [apply ssorted_snoc; [assumption | eapply Forall_lt_weaken; [|eassumption]; clear; lia]]
  | solve [let v := fresh "v" in let Hi := fresh "Hi" in let Ha := fresh "Ha" in
           intros v Hi Ha; apply in_app_or in Hi; destruct Hi as [Hi | [Hi | []]];
           [ exact (V4 v Hi Ha) | subst v; rewrite Forall_forall in V2; specialize (V2 _ Ha); lia ]]
  | solve [let v := fresh "v" in let Hi := fresh "Hi" in let Ha := fresh "Ha" in
           intros v Hi Ha; apply in_app_or in Ha; destruct Ha as [Ha | [Ha | []]];
           [ exact (V4 v Hi Ha) | subst v; rewrite Forall_forall in V3; specialize (V3 _ Hi); lia ]] ].

(* what ValInv reads of a state besides the pc classes *)
Definition vdata (s : st) := (accepted s, pseq s, presults s, cresults s, received s, chand s).

Lemma Val_frame s s' :
  ValInv s -> vdata s' = vdata s ->
  p_prepub (ppc s') = p_prepub (ppc s) -> p_postpub (ppc s') = p_postpub (ppc s) ->
  c_inhand (cpc s') = c_inhand (cpc s) -> (bad s' = false -> bad s = false) -> ValInv s'.
Proof.
  intros [V1 V2 V3 V4 V5 V6] D P1 P2 C B. injection D as E1 E2 E3 E4 E5 E6.
  constructor; unfold failed, sent_ok, got in *; rewrite ?P1, ?P2, ?C, ?E1, ?E2, ?E3, ?E4, ?E5, ?E6; auto.
Qed.

Section V.
Variables cap phys : N.

Ltac vframe HV Epc :=
  apply (Val_frame _ _ HV); unfold vdata; st_goal; rewrite ?Epc;
  first [reflexivity | intros X; exact X | discriminate].

Lemma Val_step s t c s' e : LifeInv s -> ValInv s -> step cap phys s t c = Some (s', e) -> ValInv s'.
Proof.
  intros HL HV Hs. pose proof HV as [V1 V2 V3 V4 V5 V6].
  pose proof (L_pcl _ HL) as Lpcl. clear HL.
  destruct t; cbn [step] in Hs; [unfold pstep in Hs | unfold cstep in Hs].
  - destruct (ppc s) eqn:Epc; rewrite ?Epc in *; cbn [p_afterswap p_afterst p_aftersub] in Lpcl; vcl; cbn [p_prepub p_postpub orb negb b2n] in V2, V3, V5;
      unf_steps; inv_step Hs; unf_steps; split_goal.
    all: try congruence.
    all: try solve [vframe HV Epc].
    all: constructor; unfold failed, sent_ok, got in *; st_goal; rewrite ?Epc; vcl;
      rewrite ?flat_map_app; cbn [flat_map pres_ok pres_fail cres_val]; rewrite ?app_nil_r in *.
    all: cbn [p_prepub p_postpub negb orb b2n] in V2, V3, V5.
    all: try (match goal with |- bad _ = false -> _ => intros Hb; specialize (V6 Hb) end).
    all: try vfin V2 V3 V4.
  - destruct (cpc s) eqn:Epc; rewrite ?Epc in *; vcl; cbn [c_inhand] in V6;
      unf_steps; inv_step Hs; unf_steps; split_goal.
    all: try solve [vframe HV Epc].
    all: constructor; unfold failed, sent_ok, got in *; st_goal; rewrite ?Epc; vcl;
      rewrite ?flat_map_app; cbn [flat_map pres_ok pres_fail cres_val]; rewrite ?app_nil_r in *.
    all: cbn [p_prepub p_postpub negb orb b2n] in V2, V3, V5.
    all: try (intros Hb; try discriminate Hb; specialize (V6 Hb)).
    all: try vfin V2 V3 V4.
Qed.
End V.

Definition hand_c (s : st) : list N := if c_inhand (cpc s) then [chand s] else [].
Definition hand_p (s : st) : list N :=
  (if p_postpub (ppc s) then [pseq s] else []) ++ (if wrote s then [pseq s] else []).

Lemma ssorted_nodup (l : list N) : StronglySorted N.lt l -> NoDup l.
Proof.
  induction 1 as [|a l Hs IH Hf]; constructor; [|assumption].
  intros Hi. rewrite Forall_forall in Hf. specialize (Hf _ Hi). lia.
Qed.


Section VMain.
Variables cap phys : N.
Hypothesis Hcap : 0 < cap.
Hypothesis Hphys : cap <= phys.
Variable pp0 : list pop.
Variable cp0 : list cop.

Theorem Val_reachable s : reachable (sys cap phys pp0 cp0) s -> ValInv s.
Proof.
  intros Hr.
  assert (H : LifeInv s /\ ValInv s); [|exact (proj2 H)].
  revert s Hr. apply (invariant_lift (sys cap phys pp0 cp0) (fun s => LifeInv s /\ ValInv s)).
  - split; [apply Life_init | apply Val_init].
  - intros s0 t c s' e [HL HV] Hs. split;
      [exact (Life_step cap phys s0 t c s' e HL Hs) | exact (Val_step cap phys s0 t c s' e HL HV Hs)].
Qed.

(* accepted ids are strictly increasing: in particular no id is accepted (hence delivered) twice *)
Theorem accepted_strictly_increasing s :
  reachable (sys cap phys pp0 cp0) s -> StronglySorted N.lt (accepted s) /\ NoDup (accepted s).
Proof.
  intros Hr. pose proof (V_sorted _ (Val_reachable s Hr)) as H. split; [exact H | apply ssorted_nodup; exact H].
Qed.

(* conservation in terms of what the two threads have actually been told by the API:
   values returned by receives ++ the one in the consumer's hand ++ dropped by Ring::drop ++ owned
   by the ring  =  values whose send returned Ok ++ the one the producer has in flight *)
Theorem results_conservation s :
  reachable (sys cap phys pp0 cp0) s ->
  (got s ++ hand_c s) ++ dropped s ++ buffered s = sent_ok s ++ hand_p s.
Proof.
  intros Hr. pose proof (Val_reachable s Hr) as HV.
  pose proof (fifo_conservation cap phys Hcap Hphys pp0 cp0 s Hr) as HF.
  pose proof (R_bad _ _ _ _ _ _ _ _ _ (I_ring _ _ _ (Inv_reachable cap phys Hcap Hphys pp0 cp0 s Hr))) as Hbad.
  unfold hand_c, hand_p. rewrite (V_got _ HV Hbad), (app_assoc (sent_ok s)), (V_ok _ HV). exact HF.
Qed.

Theorem delivered_once_in_order s :
  reachable (sys cap phys pp0 cp0) s ->
  NoDup (got s) /\ exists rest, accepted s = (got s ++ hand_c s) ++ rest.
Proof.
  intros Hr. pose proof (Val_reachable s Hr) as HV.
  pose proof (fifo_conservation cap phys Hcap Hphys pp0 cp0 s Hr) as HF.
  destruct (accepted_strictly_increasing s Hr) as [_ Hnd].
  pose proof (R_bad _ _ _ _ _ _ _ _ _ (I_ring _ _ _ (Inv_reachable cap phys Hcap Hphys pp0 cp0 s Hr))) as Hbad.
  assert (Hpre : exists rest, accepted s = received s ++ rest).
  { destruct (I_ring _ _ _ (Inv_reachable cap phys Hcap Hphys pp0 cp0 s Hr)) as [_ _ _ _ _ _ _ _ Rfifo _ _ _ _].
    exists (dropped s ++ skipn (N.to_nat (lo s)) (accepted s)).
    rewrite app_assoc, Rfifo. symmetry. apply firstn_skipn. }
  destruct Hpre as [rest Hrest]. split.
  - unfold hand_c in *. rewrite <- (V_got _ HV Hbad) in Hrest. rewrite Hrest in Hnd.
    apply NoDup_app_l in Hnd. apply NoDup_app_l in Hnd. exact Hnd.
  - exists rest. unfold hand_c. rewrite (V_got _ HV Hbad). exact Hrest.
Qed.

(* a failed send (Full / Closed, value handed back or dropped by send itself) never entered the ring *)
Theorem failed_send_not_accepted s v :
  reachable (sys cap phys pp0 cp0) s -> In v (failed s) -> ~ In v (accepted s).
Proof. intros Hr. apply (V_disj _ (Val_reachable s Hr)). Qed.

(* at the end: every value whose send returned Ok was either returned by a receive or dropped by
   Ring::drop, exactly once, in order *)
Theorem final_accounting s :
  reachable (sys cap phys pp0 cp0) s -> ppc s = PDone -> cpc s = CDone ->
  got s ++ dropped s = sent_ok s.
Proof.
  intros Hr Ep Ec. pose proof (Val_reachable s Hr) as HV.
  destruct (teardown_drains_residue cap phys Hcap Hphys pp0 cp0 s Hr Ep Ec) as [_ H].
  pose proof (V_got _ HV (R_bad _ _ _ _ _ _ _ _ _ (I_ring _ _ _ (Inv_reachable cap phys Hcap Hphys pp0 cp0 s Hr)))) as G. pose proof (V_ok _ HV) as O. rewrite Ep in O. rewrite Ec in G.
  cbn in G, O. rewrite app_nil_r in G, O. congruence.
Qed.
End VMain.
