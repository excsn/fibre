(* Proofs/MpscUProofs.v — main theorems about the unbounded-MPSC K2 model (C01, C02, C04, C09). *)
From Fibre Require Import Common.Base Chan.MpscU Chan.MpscUSpec Proofs.MpscUBase Proofs.MpscUInv.
From Coq Require Import ZifyBool ZifyNat ZifyN.
Ltac Zify.zify_post_hook ::= Z.div_mod_to_equations.

Lemma reach_inv s : reach s -> Inv s.
Proof. intros (a&fc&ops&->). apply reach_Inv. Qed.

Lemma final_snoc ops : forall s o, final s (ops ++ [o]) = fst (step (final s ops) o).
Proof.
  unfold final. induction ops as [|x t IH]; intros s o.
  - cbn [app]. rewrite run_fst_cons. reflexivity.
  - cbn [app]. rewrite !run_fst_cons. apply IH.
Qed.

Lemma reach_step s o : reach s -> reach (fst (step s o)).
Proof.
  intros (a&fc&ops&->). exists a, fc, (ops ++ [o]). symmetry. apply final_snoc.
Qed.

(** C01/C09: conservation in multiset form *)
Theorem conservation s : reach s -> NoDup (used s) /\ Permutation (used s) (held s).
Proof.
  intros R. destruct (reach_inv s R) as (_&_&[C U]). split.
  - apply (NoDup_count_occ N.eq_dec). exact U.
  - apply (Permutation_count_occ N.eq_dec). exact C.
Qed.

Theorem received_once s : reach s -> NoDup (rcv s) /\ incl (rcv s) (acc s).
Proof.
  intros R. destruct (reach_inv s R) as (_&[F _]&[C U]). split.
  - apply (NoDup_count_occ N.eq_dec). intros x. specialize (C x). specialize (U x).
    unfold held, cnt in *. rewrite count_occ_app in C. lia.
  - rewrite F. intros x Hx. apply in_or_app. left. exact Hx.
Qed.

Theorem failed_no_effect s o :
  failed (snd (exec s o)) = true ->
  q (fst (exec s o)) = q s /\ rcv (fst (exec s o)) = rcv s /\ acc (fst (exec s o)) = acc s.
Proof.
  destruct o; symex_late; cbn [failed]; intros Hf; try discriminate; auto.
  all: repeat match goal with H : _ /\ _ |- _ => destruct H end.
  all: repeat match goal with H : is_nil _ = true |- _ => apply is_nil_true in H; subst end.
  all: cbn [app] in *.
  all: rewrite ?app_nil_r in *; repeat split; congruence.
Qed.

(** try_send never reports Full: Ok unless the handle or the receiver is closed *)
Theorem try_send_exact s h v r :
  has_futs h s = false -> aget h (hs s) = Some r -> htx r = true -> fresh [v] s = true ->
  snd (exec s (TrySend h v)) = if hclosed r || rdrop s then RClosedV v else ROk.
Proof.
  intros NF A B C. cbn [exec]. unfold do_try_send, lookup_free. rewrite NF, A, B, C. cbn [andb].
  unfold tx_dead, use. cb. destruct (hclosed r || rdrop s); reflexivity.
Qed.

(** batch sends are all-or-nothing: Ok(total) with everything queued in order, or Closed with
    everything handed back *)
Theorem send_batch_all_or_nothing s h vs ip so :
  match snd (exec s (SendB h vs ip so)) with
  | RBatchOk k | RMutOk k [] => k = len vs /\ q (fst (exec s (SendB h vs ip so))) = q s ++ vs
  | RBatchErr k l => k = 0 /\ l = vs /\ q (fst (exec s (SendB h vs ip so))) = q s
  | RMutClosed l => l = vs /\ q (fst (exec s (SendB h vs ip so))) = q s
  | RMutOk _ (_ :: _) => False
  | _ => True
  end.
Proof.
  symex_late; auto.
  all: match goal with H : is_nil _ = true |- _ => apply is_nil_true in H; subst end.
  all: cbn [app]; rewrite ?app_nil_r; auto.
Qed.

Lemma exec_frame s o :
  let s' := fst (exec s o) in let r := snd (exec s o) in
  rcv s' = rcv s ++ recv_ids r
  /\ (exists d, drp s' = drp s ++ d /\ evd s' = evd s ++ d)
  /\ (exists b, back s' = back s ++ b)
  /\ (exists d, acc s' = acc s ++ d)
  /\ (exists u, used s' = u ++ used s)
  /\ (rdrop s = true -> rdrop s' = true)
  /\ fixcl s' = fixcl s.
Proof.
  destruct o; symex_late; cbn [recv_ids].
  all: repeat match goal with H : _ /\ _ |- _ => destruct H end.
  all: repeat match goal with H : is_nil _ = true |- _ => apply is_nil_true in H; subst end.
  all: rewrite ?app_nil_r in *.
  all: repeat match goal with
       | |- _ /\ _ => split
       | |- exists _, _ ++ ?d = _ ++ _ /\ _ => exists d; split; reflexivity
       | |- exists _, ?x = ?x ++ _ /\ _ => exists []; rewrite ?app_nil_r; split; reflexivity
       | |- exists _, _ ++ ?d = _ ++ _ => exists d; reflexivity
       | |- exists _, ?x = ?x ++ _ => exists []; rewrite ?app_nil_r; reflexivity
       | |- exists _, ?u ++ ?x = _ ++ ?x => exists u; reflexivity
       | |- exists _, ?x = _ ++ ?x => exists []; reflexivity
       end; try congruence; try reflexivity; auto.
Qed.

Lemma open_tx_zero l h r : open_tx l = 0 -> aget h l = Some r -> isopen r = false.
Proof.
  unfold open_tx. induction l as [|[k v] t IH]; cbn [aget filter snd]; intros Z G; [discriminate|].
  destruct (N.eqb_spec h k) as [->|Hn].
  - inversion G; subst. destruct (isopen r); [rewrite len_cons in Z; lia | reflexivity].
  - apply IH; [|exact G]. destruct (isopen v); [rewrite len_cons in Z; lia | exact Z].
Qed.

Ltac deqnil :=
  try match goal with
  | E : deqn (N.to_nat ?m) ?s = (_, []), H : (?m =? 0) = false |- _ =>
      let A := fresh "DQ" in let B := fresh "DS" in
      destruct (deqn_nil' _ _ _ E H) as [A B]; subst
  end.

(** C04: Disconnected (on a handle that was not itself closed) only with nothing buffered and no open sender *)
Theorem disc_means_drained s o :
  fut_ok s ->
  snd (exec s o) = RDisc \/ snd (exec s o) = RReady RDisc ->
  (q s = [] /\ scount s = 0)
  \/ (exists h r, aget h (hs s) = Some r /\ htx r = false /\ hclosed r = true).
Proof.
  intros FO. destruct o; symex_late; intros [Hd|Hd]; try discriminate.
  all: repeat match goal with H : _ /\ _ |- _ => destruct H end.
  all: repeat match goal with H : is_nil _ = true |- _ => apply is_nil_true in H; subst end.
  all: cbn [app] in *; deqnil.
  all: try (left; split; [congruence | apply N.eqb_eq; congruence]).
  all: bools.
  all: try (right; eexists; eexists; split; [eassumption|]; split; congruence).
  all: match goal with H : aget _ (fs _) = Some _ |- _ => destruct (FO _ _ H) as (r0&A&B&C) end.
  all: somes; repeat match goal with H : fk _ = _ |- _ => rewrite H in * end; cbn [is_recv_kind negb] in *.
  all: right; eexists; eexists; split; [eassumption|]; split; congruence.
Qed.

Theorem disc_stable s o :
  GS s -> disc_state s -> (fixcl s = true \/ ~ clones_closed s o) ->
  disc_state (fst (exec s o)) /\ has_value (snd (exec s o)) = false.
Proof.
  intros (N1&N2&FO&RO&SC&RL) [Z Q0] FX. unfold disc_state, has_value.
  destruct o; symex_late; cbn [recv_ids is_nil negb]; auto.
  all: repeat match goal with H : _ /\ _ |- _ => destruct H end.
  all: try congruence.
  all: repeat match goal with H : is_nil _ = true |- _ => apply is_nil_true in H; subst end.
  all: cbn [app] in *; rewrite ?app_nil_r in *; deqnil.
  all: try (split; [split; congruence | reflexivity]).
  all: rewrite ?Q0 in *.
  all: repeat match goal with
       | H : aget _ (fs _) = Some ?fr |- _ =>
           lazymatch goal with
           | K : htx _ = negb (is_recv_kind (fk fr)) |- _ => fail
           | _ => let r0 := fresh "r" in destruct (FO _ _ H) as (r0 & ? & ? & ?)
           end
       end; somes; repeat match goal with H : fk _ = _ |- _ => rewrite H in * end; cbn [is_recv_kind negb] in *.
  all: try match goal with H : [] = ?a ++ ?b |- _ => symmetry in H end.
  all: try match goal with H : ?a ++ ?b = [] |- _ => apply app_eq_nil in H; destruct H; subst end.
  all: try (split; [split; congruence | reflexivity]).
  all: bools; unfold tx_dead in *; cbh.
  all: try match goal with
       | H : aget ?h (hs _) = Some ?r, T : htx ?r = true |- _ =>
           let K := fresh "K" in
           pose proof (open_tx_zero _ _ _ (eq_trans (eq_sym SC) Z) H) as K; unfold isopen in K;
           rewrite T in K; cbn [andb] in K; apply negb_false_iff in K
       end.
  all: try (exfalso; congruence).
  all: try match goal with H : _ || _ = false |- _ => apply orb_false_iff in H; destruct H end.
  all: try (exfalso; congruence).
  all: try (exfalso; destruct FX as [FX|FX]; [congruence | apply FX; do 3 eexists; split; [reflexivity|]; split; eassumption]).
  exfalso. rewrite K, andb_true_r in Heqb1. destruct FX as [FX|FX]; [congruence|].
  apply FX. exists h, h2, h0. auto.
Qed.

Theorem send_after_rx_gone s o r h :
  rdrop s = true -> has_futs h s = false ->
  aget h (hs s) = Some r -> htx r = true ->
  match o with
  | TrySend h' v => h' = h /\ fresh [v] s = true
  | Send h' v => h' = h /\ hasync r = false /\ fresh [v] s = true
  | SendB h' vs _ so => h' = h /\ (so && hasync r) = false /\ fresh vs s = true /\ vs <> []
  | _ => False
  end ->
  closed_with_value o (snd (exec s o)).
Proof.
  intros RD NF A B. destruct o; try contradiction; cbn [exec closed_with_value].
  - intros [-> F]. unfold do_try_send, lookup_free, tx_dead, use. rewrite NF, A, B, F. cb. rewrite RD, orb_true_r. reflexivity.
  - intros (-> & AS & F). unfold do_send, lookup_free, tx_dead, use. rewrite NF, A, B, AS, F. cb. rewrite RD, orb_true_r. reflexivity.
  - intros (-> & AS & F & NE). unfold do_send_b, lookup_free, tx_dead, use. rewrite NF, A, B, AS, F. cb.
    destruct vs; [congruence|]. cbn [is_nil andb negb]. cb. rewrite RD, orb_true_r. destruct inplace; reflexivity.
Qed.

Theorem poll_after_rx_gone s f w fr r v :
  rdrop s = true -> aget f (fs s) = Some fr -> aget (fh fr) (hs s) = Some r -> fk fr = FSend (Some v) ->
  snd (exec s (Poll f w)) = RReady RClosed.
Proof.
  intros RD A B K. cbn [exec]. unfold do_poll. rewrite A, B, K, RD. destruct (hclosed r); reflexivity.
Qed.

(** every operation on a handle whose close() returned Ok fails and leaves the queue alone *)
Theorem closed_handle_rejects s h r o :
  has_futs h s = false -> aget h (hs s) = Some r -> hclosed r = true ->
  match o with
  | TrySend h' v => h' = h /\ htx r = true /\ fresh [v] s = true
  | Send h' v => h' = h /\ htx r = true /\ hasync r = false /\ fresh [v] s = true
  | SendB h' vs _ so => h' = h /\ htx r = true /\ (so && hasync r) = false /\ fresh vs s = true /\ vs <> []
  | TryRecv h' => h' = h /\ htx r = false
  | Recv h' => h' = h /\ htx r = false /\ hasync r = false
  | RecvT0 h' => h' = h /\ htx r = false /\ hasync r = false
  | TryRecvB h' m => h' = h /\ htx r = false /\ m <> 0
  | RecvB h' m => h' = h /\ htx r = false /\ hasync r = false /\ m <> 0
  | PollNext h' _ => h' = h /\ htx r = false /\ hasync r = true
  | Close h' => h' = h
  | _ => False
  end ->
  failed (snd (exec s o)) = true /\ q (fst (exec s o)) = q s.
Proof.
  intros NF A C. destruct o; try contradiction; cbn [exec].
  all: intros K; repeat match goal with H : _ /\ _ |- _ => destruct H end; subst.
  all: unfold do_try_send, do_send, do_send_b, do_try_recv, do_recv, do_try_recv_b, do_recv_b,
         do_poll_next, do_close, lookup_free, tx_dead, use, giveback, dropv, put_h.
  all: rewrite NF, A; repeat match goal with H : _ = _ |- _ => rewrite H end; cb.
  all: rewrite ?C, ?orb_true_l; cbn [andb orb negb].
  all: try (destruct vs; [congruence|]; cbn [is_nil]; cb; rewrite ?C, ?orb_true_l).
  all: try (destruct (N.eqb_spec max 0); [congruence|]).
  all: try destruct inplace; cb; cbn [failed]; auto.
Qed.

Theorem double_close s h r :
  has_futs h s = false -> aget h (hs s) = Some r -> hclosed r = true -> exec s (Close h) = (s, RCloseErr).
Proof. intros NF A C. cbn [exec]. unfold do_close, lookup_free. rewrite NF, A, C. reflexivity. Qed.

Theorem first_close s h r :
  has_futs h s = false -> aget h (hs s) = Some r -> hclosed r = false ->
  snd (exec s (Close h)) = ROk /\
  exists r', aget h (hs (fst (exec s (Close h)))) = Some r' /\ hclosed r' = true.
Proof.
  intros NF A C. cbn [exec]. unfold do_close, lookup_free. rewrite NF, A, C. cb. split; [reflexivity|].
  exists (with_closed r). split; [|reflexivity].
  unfold close_h, put_h, notify_receiver, dropv. cb.
  destruct (htx r).
  - destruct (scount s =? 1); [destruct (rw s) as [[? ?]|]|]; cb; apply aget_aset_eq.
  - cb. apply aget_aset_eq.
Qed.

(** closing the receiver drops (exactly) what was buffered, at once *)
Theorem receiver_close_drains s h r :
  has_futs h s = false -> aget h (hs s) = Some r -> htx r = false -> hclosed r = false ->
  let s' := fst (exec s (Close h)) in
  q s' = [] /\ drp s' = drp s ++ q s /\ evd s' = evd s ++ q s /\ rdrop s' = true.
Proof.
  intros NF A T C. cbn [exec]. unfold do_close, lookup_free. rewrite NF, A, C. cb.
  unfold close_h, put_h, dropv. rewrite T. cb. auto.
Qed.

Theorem clone_isolation s h r h' r' :
  GS s -> has_futs h s = false -> aget h (hs s) = Some r -> htx r = true -> hclosed r = false ->
  aget h' (hs s) = Some r' -> h' <> h -> isopen r' = true ->
  let s' := fst (exec s (Close h)) in
  0 < scount s' /\ q s' = q s /\ rdrop s' = rdrop s
  /\ rw s' = rw s /\ evw s' = evw s /\ fs s' = fs s
  /\ (forall k, k <> h -> aget k (hs s') = aget k (hs s)).
Proof.
  intros (N1&N2&FO&RO&SC&RL) NF A T C A' NE O'. cbn [exec]. unfold do_close, lookup_free. rewrite NF, A, C. cb.
  unfold close_h, put_h. rewrite T. cb.
  assert (2 <= scount s).
  { pose proof (open_tx_adel h (hs s) N1) as E1. rewrite A in E1.
    pose proof (open_tx_adel h' (adel h (hs s)) (NoDup_adel h _ N1)) as E2.
    rewrite (aget_adel_neq h h' (hs s) NE), A', O' in E2.
    assert (O : isopen r = true) by (unfold isopen; rewrite T, C; reflexivity).
    rewrite O in E1. lia. }
  destruct (N.eqb_spec (scount s) 1); [lia|]. cb.
  repeat split; try reflexivity; try lia.
  intros k Hk. apply aget_aset_neq. exact Hk.
Qed.

Definition disc_is_final : Prop :=
  forall s o, reach s -> disc_state s -> disc_state (fst (exec s o)) /\ has_value (snd (exec s o)) = false.

Theorem disc_is_final_refuted_FM1 : ~ disc_is_final.
Proof.
  intros H.
  assert (R : reach (final (init false false) [Close 0])) by (exists false, false, [Close 0]; reflexivity).
  specialize (H _ (Clone 0 2) R). vm_compute in H.
  destruct H as [[H _] _]; [split; reflexivity | discriminate H].
Qed.

Lemma reach_ind' (P : st -> Prop) :
  (forall a fc, P (init a fc)) ->
  (forall s o, reach s -> P s -> P (fst (step s o))) ->
  forall s, reach s -> P s.
Proof.
  intros HI HS s (a&fc&ops&->). induction ops as [|o t IH] using rev_ind.
  - apply HI.
  - rewrite final_snoc. apply HS; [|exact IH]. exists a, fc, t. reflexivity.
Qed.

Definition G4 (s : st) : Prop := hs s = [] -> q s = [].

Lemma exec_G4 s o : GS s -> G4 s -> G4 (fst (exec s o)).
Proof.
  intros (N1&N2&FO&RO&SC&RL) G. unfold G4 in *. destruct o; symex_late; try assumption.
  all: intros X; try discriminate X.
  all: try (apply is_nil_true; assumption).
  all: try match goal with H : is_nil ?l = false |- _ => rewrite X in H; discriminate H end.
  all: repeat match goal with
       | H : aget _ (fs _) = Some _ |- _ => apply FO in H; destruct H as (?&H&_)
       end.
  all: try match goal with H : aget _ (hs _) = Some _ |- _ => rewrite X in H; discriminate H end.
  all: reflexivity.
Qed.

Lemma reach_GS s : reach s -> GS s.
Proof. intros R. apply (reach_inv s R). Qed.

Lemma reach_G4 s : reach s -> G4 s.
Proof.
  apply reach_ind'.
  - intros a fc. unfold G4, init. cb. discriminate.
  - intros s0 o R H. rewrite step_fst. apply exec_G4; [apply (reach_GS s0 R) | exact H].
Qed.

Theorem teardown s : reach s -> hs s = [] ->
  q s = [] /\ fs s = [] /\ NoDup (used s) /\ Permutation (used s) (rcv s ++ back s ++ drp s).
Proof.
  intros R HE. destruct (conservation s R) as [ND P].
  destruct (reach_GS s R) as (N1&N2&FO&RO&SC&RL).
  assert (FE : fs s = []).
  { destruct (fs s) as [|[f fr] t] eqn:E; [reflexivity|]. exfalso.
    destruct (FO f fr) as (r&A&_); [rewrite E; cbn [aget]; rewrite N.eqb_refl; reflexivity|].
    rewrite HE in A. discriminate A. }
  pose proof (reach_G4 s R HE) as QE.
  split; [exact QE|]. split; [exact FE|]. split; [exact ND|].
  unfold held in P. rewrite QE, FE in P. exact P.
Qed.

Theorem recv_trace ops : forall s,
  rcv (final s ops) = rcv s ++ flat_map (fun x => recv_ids (out_res x)) (snd (run s ops)).
Proof.
  unfold final. induction ops as [|o t IH]; intros s; cbn [run].
  - cbn. rewrite app_nil_r. reflexivity.
  - pose proof (exec_frame (clear_ev s) o) as (F&_).
    unfold step. destruct (exec (clear_ev s) o) as [s1 r] eqn:E. cbn [fst snd] in F.
    specialize (IH s1). destruct (run s1 t) as [s2 xs]. cbn [fst snd flat_map out_res] in *.
    rewrite IH, F. rewrite <- app_assoc. reflexivity.
Qed.

Theorem drop_events s o : exists d,
  drp (fst (step s o)) = drp s ++ d /\ out_drops (snd (step s o)) = d.
Proof.
  pose proof (exec_frame (clear_ev s) o) as (_&(d&D1&D2)&_).
  unfold step. destruct (exec (clear_ev s) o) as [s1 r]. cbn [fst snd out_drops] in *.
  exists d. split; [exact D1|]. rewrite D2. reflexivity.
Qed.

Theorem fifo_all s : reach s -> acc s = rcv s ++ q s ++ qdrp s.
Proof. intros R. destruct (reach_inv s R) as (_&[F _]&_). exact F. Qed.

Theorem drained_all_received s : reach s -> rdrop s = false -> hs s <> [] -> q s = [] -> rcv s = acc s.
Proof.
  intros R RD HN Q. destruct (reach_inv s R) as (_&(F&D&_)&_).
  destruct (qdrp s) eqn:E.
  - rewrite F, Q. cbn [app]. rewrite app_nil_r. reflexivity.
  - exfalso. destruct D as [D|D]; [discriminate | congruence | contradiction].
Qed.

Lemma run_const ops : forall s, fixcl (final s ops) = fixcl s.
Proof.
  unfold final. induction ops as [|o t IH]; intros s; [auto|].
  rewrite run_fst_cons, step_fst. rewrite (IH (fst (exec (clear_ev s) o))).
  pose proof (exec_frame (clear_ev s) o) as (_&_&_&_&_&_&Z). cbn zeta in *. rewrite Z. reflexivity.
Qed.

Theorem no_open_sender s h r :
  GS s -> scount s = 0 -> aget h (hs s) = Some r -> htx r = true -> hclosed r = true.
Proof.
  intros (N1&N2&FO&RO&SC&RL) Z A T.
  pose proof (open_tx_zero _ _ _ (eq_trans (eq_sym SC) Z) A) as K. unfold isopen in K.
  rewrite T in K. cbn [andb] in K. apply negb_false_iff in K. exact K.
Qed.

Theorem receiver_gone s : GS s ->
  (forall r, aget 1 (hs s) = Some r -> htx r = true \/ hclosed r = true) -> rdrop s = true.
Proof.
  intros (N1&N2&FO&RO&SC&RL) H. destruct (rdrop s) eqn:E; [reflexivity|]. exfalso.
  apply RL in E. destruct E as (r&A&B&C). destruct (H r A); congruence.
Qed.

Theorem disc_is_final_fixed a ops o :
  let s := final (init a true) ops in
  disc_state s -> disc_state (fst (exec s o)) /\ has_value (snd (exec s o)) = false.
Proof.
  intros s D. apply disc_stable; [|exact D|].
  - apply reach_GS. exists a, true, ops. reflexivity.
  - left. unfold s. rewrite (run_const ops (init a true)). reflexivity.
Qed.

