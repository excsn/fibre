(* Proofs/HRwOwed.v — HybridRwLock: the wake-owed invariant RInvW. *)
From Coq Require Import List NArith Arith Bool Lia.
From Fibre Require Import Common.Conc Sync.HMutex Sync.HRwLock Proofs.HMutexBase Proofs.HRwBase Proofs.HRwGuard
     Proofs.HRwQueue Proofs.HRwNode Proofs.HRwWake.
Import ListNotations.

(* ---- the wake owed: while the lock is completely free and the list is non-empty, a wake_waiters is on
   its way (after a release that saw HAS_QUEUED, or after the drop of a WOKEN future), or the wake
   target is awake: the first queued writer is WOKEN / inside its queue section before the re-check;
   with no writer queued, some queued reader is inside its queue section before the re-check *)
Definition rwakepre (p : rpc) : bool :=
  match p with RLLSwap RLWake | RLLLoad RLWake | RLLSpin RLWake | RWSweep _ => true | _ => false end.
Definition rdroppre (p : rpc) : bool :=
  match p with RFix1 RFD | RFix2 RFD | RDUnl | RDLoad => true | _ => false end.
Definition rprew s w : Prop :=
  rwakepre (rpcs s w) = true \/ (rdroppre (rpcs s w) = true /\ rnwk s w = true).
Definition rarmed_pre (p : rpc) : bool :=
  match p with RQFor _ | RQLoad _ | RQCas _ _ _ _ => true | _ => false end.
Definition rheadok s h : Prop := rnwk s h = true \/ rarmed_pre (rpcs s h) = true.
Definition rtarget_ok s : Prop :=
  match first_writer (rqueue s) with
  | Some w => rheadok s w
  | None => exists u b, In (u, b) (rqueue s) /\ rarmed_pre (rpcs s u) = true
  end.

Definition RInvW s :=
  wl s = false -> rd s = 0%N -> rqueue s <> [] -> (exists w, rprew s w) \/ rtarget_ok s.

Lemma holds_not_free s t k : RInvA s -> holdsk k (rpcs s t) = true -> wl s = false -> rd s = 0%N -> False.
Proof.
  intros (A1 & A2 & A3 & A4 & A5 & A6) H HW HR. destruct k.
  - apply A2 in H. rewrite A4 in HR. destruct (rholders s); [destruct H|cbn in HR; lia].
  - apply A1 in H. rewrite (A6 HW) in H. destruct H.
Qed.

Lemma W_frame s s' t :
  wl s' = wl s -> rd s' = rd s -> rqueue s' = rqueue s ->
  (forall u, u <> t -> rpcs s' u = rpcs s u) ->
  (forall u, u <> t -> rnwk s u = true -> rnwk s' u = true) ->
  (rprew s t -> (exists w, rprew s' w) \/ rtarget_ok s') ->
  (rheadok s t -> (exists w, rprew s' w) \/ rheadok s' t) ->
  (rarmed_pre (rpcs s t) = true -> (exists w, rprew s' w) \/ rarmed_pre (rpcs s' t) = true) ->
  RInvW s -> RInvW s'.
Proof.
  intros HL HR HQ HP HN Hw Hh Ha W HL' HR' HQ'. unfold rtarget_ok. rewrite HL in HL'. rewrite HR in HR'. rewrite HQ in *.
  destruct (W HL' HR' HQ') as [[w Pw]|Hok].
  - destruct (Nat.eq_dec w t) as [->|Hne]; [unfold rtarget_ok in Hw; rewrite HQ in Hw; apply Hw; exact Pw|].
    left. exists w. unfold rprew in *. rewrite (HP w Hne).
    destruct Pw as [Pw|[Pw Pn]]; [left; exact Pw|right; split; [exact Pw|apply HN; assumption]].
  - unfold rtarget_ok in Hok. destruct (first_writer (rqueue s)) as [w|].
    + destruct (Nat.eq_dec w t) as [->|Hne]; [apply Hh; exact Hok|].
      right. unfold rheadok in *. rewrite (HP w Hne). destruct Hok as [X|X]; [left; apply HN; assumption|right; exact X].
    + destruct Hok as [u [b [Hu Hk]]]. destruct (Nat.eq_dec u t) as [->|Hne].
      * destruct (Ha Hk) as [X|X]; [left; exact X|right; exists t, b; split; assumption].
      * right. exists u, b. split; [exact Hu|]. rewrite (HP u Hne). exact Hk.
Qed.

Definition holdsany (p : rpc) : bool := holdsk RD p || holdsk WR p.

Lemma holdsany_not_free s t : RInvA s -> holdsany (rpcs s t) = true -> wl s = false -> rd s = 0%N -> False.
Proof.
  intros A H. unfold holdsany in H. apply orb_prop in H. destruct H as [H|H]; eapply holds_not_free; eassumption.
Qed.

Lemma first_writer_nwriters l : first_writer l = None -> nwriters l = 0.
Proof.
  induction l as [|[u b] r IH]; cbn; [reflexivity|]. destruct b; [discriminate|]. intros X. unfold nwriters in *. cbn. apply IH. exact X.
Qed.

Lemma fw_qrem_other l t w : first_writer l = Some w -> w <> t -> first_writer (qrem t l) = Some w.
Proof.
  induction l as [|[u b] r IH]; cbn; [discriminate|]. intros H Hw.
  destruct (Nat.eqb_spec u t) as [->|Hne]; cbn.
  - destruct b; [injection H as ->; contradiction|]. apply IH; assumption.
  - destruct b; [exact H|]. apply IH; assumption.
Qed.

Lemma fw_qrem_none l t : first_writer l = None -> first_writer (qrem t l) = None.
Proof.
  induction l as [|[u b] r IH]; cbn; [reflexivity|]. intros H.
  destruct b; [discriminate|]. destruct (Nat.eqb u t); cbn; apply IH; exact H.
Qed.

Lemma fw_app_some l x w : first_writer l = Some w -> first_writer (l ++ [x]) = Some w.
Proof.
  induction l as [|[u b] r IH]; cbn; [discriminate|]. destruct b; [auto|]. apply IH.
Qed.

Lemma fw_app_none l t b : first_writer l = None -> first_writer (l ++ [(t, b)]) = if b then Some t else None.
Proof.
  induction l as [|[u b'] r IH]; cbn; [destruct b; reflexivity|]. destruct b'; [discriminate|]. apply IH.
Qed.

(* a step that leaves the word, the list and the others alone: the stepping thread stays a waker
   in flight / an awake target if it was one *)
Ltac W_frame_step s t Epc :=
    apply (W_frame s _ t); rsimpl_goal; try reflexivity; try assumption;
    [ intros u Hu; apply upd_neq; assumption
    | intros u Hu Hn; rewrite ?upd_neq by assumption; unfold upd; repeat (destruct (Nat.eqb _ _)); auto
    | unfold rprew; rewrite Epc; cbn [rwakepre rdroppre]; intros [X|[X Y]]; try discriminate X; try congruence;
      left; exists t; unfold rprew; rsimpl_goal; rewrite upd_eq; cbn [rwakepre rdroppre]; auto
    | intros [X|X]; [ | rewrite Epc in X; cbn [rarmed_pre] in X; try discriminate X ];
      right; unfold rheadok; rsimpl_goal; rewrite ?upd_eq; cbn [rarmed_pre]; auto
    | rewrite Epc; cbn [rarmed_pre]; intros X; try discriminate X; right; rewrite upd_eq; reflexivity ].

Lemma RInvW_step s t c s' e :
  RInvA s -> RInvB s -> RInvP s -> RInvC s -> RInvD s -> RInvDp s -> RInvW s -> rwstep s t c = Some (s', e) -> RInvW s'.
Proof.
  intros A [B1 B2] P (C1 & C2 & C3) [D1 D2] Dp W H.
  pose proof (holdsany_not_free s t A) as HA. pose proof (C2 t) as Ct. unfold rlinkok in Ct.
  rstep_cases H; rewrite Epc in HA, Ct; cbn [holdsany holdsk rlk flk] in HA, Ct.
  (* the lock is not completely free afterwards *)
  all: try solve [ unfold RInvW; rsimpl_goal; intros HL HR; first [ discriminate HL | exfalso; lia
                 | exfalso; apply HA; [ repeat match goal with x : rw |- _ => destruct x | x : rqctx |- _ => destruct x end; reflexivity | exact HL | exact HR ]
                 | exfalso; match goal with E : _ || _ = true |- _ => rewrite HL, ?HR in E; cbn in E; discriminate E end ] ].
  (* frame steps *)
  all: try solve [ W_frame_step s t Epc ].
  all: try match goal with E : rqueue _ = [] |- context [RWSweep] => idtac | E : rqueue _ = [] |- _ => rewrite <- E end.
  all: try match goal with E : rqueue _ = _ :: _ |- context [RWSweep] => idtac | E : rqueue _ = _ :: _ |- _ => rewrite <- E end.
  all: try solve [ W_frame_step s t Epc ].
  (* flush leaves: the stepping thread is neither a waker-to-be nor a target *)
  all: try solve [
    match goal with |- context [rflush ?s0 ?tt ?ws] =>
      destruct (rflush_same s0 tt ws) as (F1 & _ & _ & F2 & _ & F3 & _ & F4 & _);
      apply (W_frame s _ tt); rewrite ?F1, ?F2, ?F3, ?F4; rsimpl_goal; try reflexivity; try assumption;
      [ intros u Hu; rewrite rflush_pcs by assumption; rsimpl_goal; reflexivity
      | intros u Hu Hn; exact Hn
      | unfold rprew; rewrite Epc; cbn [rwakepre rdroppre]; intros [X|[X Y]]; discriminate X
      | intros [X|X]; [ right; left; rewrite F4; exact X | rewrite Epc in X; discriminate X ]
      | rewrite Epc; intros X; discriminate X ]
    end ].
  all: qmem_hyps.
  (* a future is dropped while its node is not linked *)
  all: try solve [ rewrite ?qrem_notin by assumption; W_frame_step s t Epc ].
  (* what is left comes in the order of the pcs in `rwstep`: RIdle, RLLSwap RLDrop, RQRearm (three links),
     RQLoad, RURel (RD: wake or not; WR: wake or not), RWSweep (first writer marked; empty list, twice; a reader swept) *)
  (* ---- a linked future is cancelled (Idle / LLSwap LDrop -> RFix1 RFD) *)
  1-2: (unfold RInvW; rsimpl_goal; intros HL HR HQ;
        assert (Hne0 : rqueue s <> []) by (intros X; rewrite X in HQ; apply HQ; reflexivity);
        assert (Hnt : forall w, rprew s w -> w <> t)
          by (intros w Pw ->; unfold rprew in Pw; rewrite Epc in Pw; cbn [rwakepre rdroppre] in Pw;
              destruct Pw as [X|[X _]]; discriminate X);
        destruct (W HL HR Hne0) as [[w Pw]|Hok];
        [ left; exists w; pose proof (Hnt w Pw); unfold rprew in *; rsimpl_goal; rewrite upd_neq by assumption; exact Pw | ];
        unfold rtarget_ok in *; rsimpl_goal; destruct (first_writer (rqueue s)) as [w|] eqn:FW;
        [ destruct (Nat.eq_dec w t) as [->|Hw];
          [ destruct Hok as [X|X]; [ | rewrite Epc in X; discriminate X ];
            left; exists t; unfold rprew; rsimpl_goal; rewrite upd_eq; right; split; [reflexivity|exact X]
          | right; rewrite (fw_qrem_other _ _ _ FW Hw); unfold rheadok in *; rsimpl_goal; rewrite upd_neq by assumption; exact Hok ]
        | destruct Hok as [u [b [Hu Hk]]];
          assert (u <> t) by (intros ->; rewrite Epc in Hk; discriminate Hk);
          right; rewrite (fw_qrem_none _ t FW); exists u, b; split; [apply qrem_In; split; assumption|];
          rewrite upd_neq by assumption; exact Hk ]).
  (* ---- a waiter links itself *)
  1-3: (unfold RInvW; rsimpl_goal; intros HL HR HQ;
        assert (Hni : forall b, ~ In (t, b) (rqueue s))
          by (first [ assumption | destruct linked; cbn [andb is_wr] in Ct; exact Ct | exact Ct ]);
        destruct (rqueue s) as [|x r] eqn:EQ;
        [ right; unfold rtarget_ok; rsimpl_goal; cbn [app first_writer];
          repeat match goal with x : rw |- _ => destruct x end; cbn [is_wr rkind_q];
          first [ right; rsimpl_goal; rewrite upd_eq; reflexivity
                | eexists t, _; split; [left; reflexivity|rewrite upd_eq; reflexivity] ]
        | ];
        assert (Hne0 : rqueue s <> []) by (rewrite EQ; discriminate);
        destruct (W HL HR Hne0) as [[w Pw]|Hok];
        [ assert (w <> t) by (intros ->; unfold rprew in Pw; rewrite Epc in Pw; cbn [rwakepre rdroppre] in Pw;
                              destruct Pw as [X|[X _]]; discriminate X);
          left; exists w; unfold rprew in *; rsimpl_goal; rewrite !upd_neq by assumption; exact Pw | ];
        unfold rtarget_ok in *; rsimpl_goal; rewrite ?EQ in *; destruct (first_writer (x :: r)) as [w|] eqn:FW;
        [ assert (w <> t) by (intros ->; apply (Hni true); apply first_writer_In; exact FW);
          right; rewrite (fw_app_some _ _ _ FW); unfold rheadok in *; rsimpl_goal; rewrite !upd_neq by assumption; exact Hok
        | destruct Hok as [u [b [Hu Hk]]];
          assert (u <> t) by (intros ->; exact (Hni b Hu));
          right; rewrite (fw_app_none _ t _ FW);
          repeat match goal with x : rw |- _ => destruct x end; cbn [is_wr rkind_q]; cbv iota;
          first [ right; rsimpl_goal; rewrite upd_eq; reflexivity
                | exists u, b; split; [apply In_app1; left; exact Hu|rewrite upd_neq by assumption; exact Hk] ] ]).
  (* ---- a queued reader observes WRITER_PENDING while the lock is free: a writer really is queued *)
  1: { unfold RInvW; rsimpl_goal; intros HL HR HQ.
       assert (HWP : wp s = true) by (match goal with E : wl _ || wp _ = true |- _ => rewrite HL in E; exact E end).
       assert (Hnt : forall w, rprew s w -> w <> t)
         by (intros w Pw ->; unfold rprew in Pw; rewrite Epc in Pw; cbn [rwakepre rdroppre] in Pw;
             destruct Pw as [X|[X _]]; discriminate X).
       destruct (W HL HR HQ) as [[w Pw]|Hok];
         [ left; exists w; pose proof (Hnt w Pw); unfold rprew in *; rsimpl_goal; rewrite upd_neq by assumption; exact Pw | ].
       unfold rtarget_ok in *; rsimpl_goal. destruct (first_writer (rqueue s)) as [w|] eqn:FW.
       - assert (w <> t).
         { intros ->. apply first_writer_In in FW. destruct (C3 t true FW) as [kk [K1 K2]].
           rewrite Epc in K1. pose proof (P t) as Pt. rewrite Epc in Pt.
           destruct q as [k l|k bl]; cbn [rkind_q rckind rfutok] in *; subst k.
           - injection K1 as <-. discriminate K2.
           - rewrite Pt in K1. injection K1 as <-. discriminate K2. }
         right. unfold rheadok in *; rsimpl_goal. rewrite upd_neq by assumption. exact Hok.
       - exfalso. destruct (Dp HWP) as [X|[w' [f X]]].
         + apply X. apply first_writer_nwriters. exact FW.
         + assert (L1 : rllock s = Some w') by (apply B1; rewrite X; reflexivity).
           assert (L2 : rllock s = Some t) by (apply B1; rewrite Epc; reflexivity).
           assert (w' = t) by congruence. subst w'. rewrite Epc in X. discriminate X. }
  (* ---- releases *)
  1: { unfold RInvW; rsimpl_goal; intros _ _ _. left. exists t. unfold rprew; rsimpl_goal. rewrite upd_eq. left. reflexivity. }
  2: { unfold RInvW; rsimpl_goal; intros _ _ _. left. exists t. unfold rprew; rsimpl_goal. rewrite upd_eq. left. reflexivity. }
  1-2: (unfold RInvW; rsimpl_goal; intros HL HR HQ;
        assert (HH : hq s = false)
          by (first [ assumption
                    | destruct A as (_ & A2 & _ & A4 & _);
                      assert (Hin : In t (rholders s)) by (apply A2; rewrite Epc; reflexivity);
                      assert (Last : rd s = 1%N) by (rewrite A4 in *; destruct (rholders s); [destruct Hin|cbn [length] in *; lia]);
                      match goal with NoWake : (rd _ =? 1)%N && hq _ = false |- _ =>
                        rewrite Last in NoWake; cbn in NoWake; exact NoWake end ]);
        right; unfold rtarget_ok; rsimpl_goal;
        destruct (first_writer (rqueue s)) as [w|] eqn:FW;
        [ apply first_writer_In in FW; destruct (D2 HH w true FW) as [qq Q];
          assert (w <> t) by (intros ->; rewrite Epc in Q; discriminate Q);
          right; rsimpl_goal; rewrite upd_neq by assumption; rewrite Q; reflexivity
        | destruct (rqueue s) as [|[u b] r] eqn:EQ; [exfalso; apply HQ; reflexivity|];
          destruct (D2 HH u b (or_introl eq_refl)) as [qq Q];
          assert (u <> t) by (intros ->; rewrite Epc in Q; discriminate Q);
          exists u, b; split; [left; reflexivity|rewrite upd_neq by assumption; rewrite Q; reflexivity] ]).
  (* ---- wake_waiters: marks the first queued writer *)
  1: { unfold RInvW; rsimpl_goal; intros _ _ _. right. unfold rtarget_ok; rsimpl_goal.
       match goal with FW : first_writer _ = Some _ |- _ => rewrite FW end. left. rsimpl_goal. apply upd_eq. }
  (* empty list: nothing owed *)
  1-2: (unfold RInvW; rsimpl_goal; intros _ _ HQ; exfalso; apply HQ; assumption).
  (* sweeps on *)
  unfold RInvW; rsimpl_goal; intros _ _ _. left. exists t. unfold rprew; rsimpl_goal. rewrite upd_eq. left. reflexivity.
Qed.
