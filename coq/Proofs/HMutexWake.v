(* Proofs/HMutexWake.v — the wake-up invariants of the HybridMutex model:
   InvF1/InvF2 (a WOKEN node whose owner is parked has its token or the unpark in flight),
   InvW (while the lock is free and the list non-empty a wake is owed to the head and on its way). *)
From Coq Require Import List NArith Arith Bool Lia.
From Fibre Require Import Common.Conc Sync.HMutex Proofs.HMutexBase Proofs.HMutexGuard Proofs.HMutexQueue.
Import ListNotations.

(* ---- a node marked WOKEN whose owner sits in park has its token, or the unpark is in flight *)
Definition InvF1 s :=
  forall h, pcs s h = Park -> nwk s h = true ->
    token s h = true \/ exists w, pcs s w = WUnl (Some (WThread, h)) \/ pcs s w = WWake h.

Definition InvF2 s :=
  forall h, pcs s h = BPark -> nwk s h = true ->
    (exists w, pcs s w = WUnl (Some (WBlock, h)))
    \/ (bwoken s h = true /\ (token s h = true \/ exists w, pcs s w = WWake h)).

Ltac tok_goal T :=
  rewrite ?upd_neq by assumption; unfold upd; repeat (destruct (Nat.eqb _ _)); auto.

Ltac f1_frame F hh Hp Hn t Epc :=
    destruct (F hh Hp Hn) as [T|[w' [W|W]]];
    [ left; tok_goal T
    | destruct (Nat.eq_dec w' t) as [->|Hw];
      [ rewrite Epc in W; try discriminate W; injection W as <-; right; exists t; right; apply upd_eq
      | right; exists w'; left; rewrite upd_neq by assumption; exact W ]
    | destruct (Nat.eq_dec w' t) as [->|Hw];
      [ rewrite Epc in W; try discriminate W; injection W as <-; left; apply upd_eq
      | right; exists w'; right; rewrite upd_neq by assumption; exact W ] ].

Lemma InvF1_step s t c s' e :
  InvP s -> InvE s -> InvF1 s -> mstep s t c = Some (s', e) -> InvF1 s'.
Proof.
  intros P [E1 [E2 E3]] F H.
  step_cases H; repeat match goal with E : ?x = (_, _) |- _ => is_var x; subst x end;
    unfold InvF1; fsimpl_goal; intros hh Hp Hn; revert Hp; split_thr hh t; intros Hp;
    try discriminate Hp; try rewrite upd_neq in Hn by assumption; try congruence.
  all: try solve [ f1_frame F hh Hp Hn t Epc ].
  (* WMark on the head n *)
  all: assert (Hin : In n (queue s)) by (match goal with E : queue _ = _ :: _ |- _ => rewrite E end; left; reflexivity).
  all: destruct (Nat.eq_dec hh n) as [->|Hne];
       [ | rewrite upd_neq in Hn by assumption; f1_frame F hh Hp Hn t Epc ].
  - match goal with E0 : narm _ n = Some _ |- _ => pose proof (E2 n _ Hin E0) as K end.
    pose proof (P n) as Pn. rewrite Hp in K, Pn. cbn [futok] in Pn.
    destruct w; cbn [kindok] in K; try congruence.
    right. exists t. left. apply upd_eq.
  - match goal with E0 : narm _ n = None |- _ => pose proof (E1 n Hin E0) as Hn' end.
    f1_frame F n Hp Hn' t Epc.
Qed.

Ltac f2_frame F hh Hp Hn t Epc :=
    destruct (F hh Hp Hn) as [[w' W]|[Bw [T|[w' W]]]];
    [ destruct (Nat.eq_dec w' t) as [->|Hw];
      [ rewrite Epc in W; first [ discriminate W | injection W as <-; right; split;
        [ apply upd_eq | right; exists t; apply upd_eq ] ]
      | left; exists w'; rewrite upd_neq by assumption; exact W ]
    | right; split; [ tok_goal Bw | left; tok_goal T ]
    | destruct (Nat.eq_dec w' t) as [->|Hw];
      [ rewrite Epc in W; first [ discriminate W | injection W as <-; right; split; [ tok_goal Bw | left; apply upd_eq ] ]
      | right; split; [ tok_goal Bw | right; exists w'; rewrite upd_neq by assumption; exact W ] ] ].

Lemma InvF2_step s t c s' e :
  InvP s -> InvE s -> InvF2 s -> mstep s t c = Some (s', e) -> InvF2 s'.
Proof.
  intros P [E1 [E2 E3]] F H.
  step_cases H; repeat match goal with E : ?x = (_, _) |- _ => is_var x; subst x end;
    unfold InvF2; fsimpl_goal; intros hh Hp Hn; revert Hp; split_thr hh t; intros Hp;
    try discriminate Hp; try rewrite upd_neq in Hn by assumption; try rewrite upd_eq in Hn; try congruence.
  all: try solve [ f2_frame F hh Hp Hn t Epc ].
  - exfalso. assert (X : nwk s t = false) by (apply E3; rewrite Epc; reflexivity). congruence.
  - destruct (F t Epc Hn) as [[w' W]|[Bw _]]; [|congruence].
    left. exists w'. rewrite upd_neq; [exact W|]. intros ->. rewrite Epc in W. discriminate W.
  - assert (Hin : In n (queue s)) by (match goal with E : queue _ = _ :: _ |- _ => rewrite E end; left; reflexivity).
    destruct (Nat.eq_dec hh n) as [->|Hne];
      [ | rewrite upd_neq in Hn by assumption; f2_frame F hh Hp Hn t Epc ].
    match goal with E0 : narm _ n = Some _ |- _ => pose proof (E2 n _ Hin E0) as K end.
    pose proof (P n) as Pn. rewrite Hp in K, Pn. cbn [futok] in Pn.
    destruct w; cbn [kindok insync] in K; try congruence.
    left. exists t. apply upd_eq.
  - assert (Hin : In n (queue s)) by (match goal with E : queue _ = _ :: _ |- _ => rewrite E end; left; reflexivity).
    destruct (Nat.eq_dec hh n) as [->|Hne];
      [ | rewrite upd_neq in Hn by assumption; f2_frame F hh Hp Hn t Epc ].
    match goal with E0 : narm _ n = None |- _ => pose proof (E1 n Hin E0) as Hn' end.
    f2_frame F n Hp Hn' t Epc.
Qed.

(* ---- the wake owed to the queue head: while the lock is free and the list is non-empty,
   either a wake_next is on its way to mark the head (after an unlock that saw HAS_QUEUED, or
   after the drop of a future that had been WOKEN), or the head has been WOKEN, or the head is
   inside its own queue section before the re-check of the lock word. *)
Definition wakepre (p : pc) : bool :=
  match p with LLSwap LWake | LLLoad LWake | LLSpin LWake | WMark => true | _ => false end.
Definition droppre (p : pc) : bool :=
  match p with DFix | DUnl | DLoad => true | _ => false end.
Definition prew s w : Prop :=
  wakepre (pcs s w) = true \/ (droppre (pcs s w) = true /\ nwk s w = true).
Definition armed_pre (p : pc) : bool :=
  match p with QFor _ | QLoad _ | QCas _ _ => true | _ => false end.
Definition headok s h : Prop := nwk s h = true \/ armed_pre (pcs s h) = true.

Definition InvW s :=
  locked s = false -> forall h r, queue s = h :: r -> (exists w, prew s w) \/ headok s h.

Lemma holds_locked s t : InvA s -> holds (pcs s t) = true -> locked s = true.
Proof.
  intros [A1 [A2 A3]] H. apply A1 in H. destruct (locked s); [reflexivity|].
  rewrite (A3 eq_refl) in H. destruct H.
Qed.

Lemma W_frame s s' t :
  locked s' = locked s -> queue s' = queue s ->
  (forall u, u <> t -> pcs s' u = pcs s u) ->
  (forall u, u <> t -> nwk s u = true -> nwk s' u = true) ->
  (prew s t -> forall h r, queue s = h :: r -> (exists w, prew s' w) \/ headok s' h) ->
  (forall r, queue s = t :: r -> headok s t -> (exists w, prew s' w) \/ headok s' t) ->
  InvW s -> InvW s'.
Proof.
  intros HL HQ Hp Hn Hw Hh W HL' h r HQ'. rewrite HL in HL'. rewrite HQ in HQ'.
  destruct (W HL' h r HQ') as [[w Pw]|Hok].
  - destruct (Nat.eq_dec w t) as [->|Hne]; [eapply Hw; eassumption|].
    left. exists w. unfold prew in *. rewrite (Hp w Hne).
    destruct Pw as [Pw|[Pw Pn]]; [left; exact Pw|right; split; [exact Pw|apply Hn; assumption]].
  - destruct (Nat.eq_dec h t) as [->|Hne]; [eapply Hh; eassumption|].
    right. unfold headok in *. rewrite (Hp h Hne).
    destruct Hok as [X|X]; [left; apply Hn; assumption|right; exact X].
Qed.

Lemma InvW_step s t c s' e :
  InvA s -> InvC s -> InvD s -> InvW s -> mstep s t c = Some (s', e) -> InvW s'.
Proof.
  intros A [C1 C2] D W H.
  pose proof (@holds_locked s t A) as HA. pose proof (C2 t) as Ct. unfold linkok in Ct.
  step_cases H; repeat match goal with E : ?x = (_, _) |- _ => is_var x; subst x end;
    rewrite Epc in HA, Ct; cbn [holds lk fl] in HA, Ct.
  (* the lock is (still / now) held *)
  all: try solve [ unfold InvW; fsimpl_goal; intros HL; try discriminate HL; try (rewrite HA in HL by reflexivity; discriminate HL); congruence ].
  (* frame steps *)
  all: try solve [
    apply (@W_frame s _ t); fsimpl_goal; try reflexivity; try assumption;
    [ intros u Hu; apply upd_neq; assumption
    | intros u Hu Hn; rewrite ?upd_neq by assumption; unfold upd; repeat (destruct (Nat.eqb _ _)); auto
    | unfold prew; rewrite Epc; cbn [wakepre droppre]; intros [X|[X Y]]; try discriminate X; try congruence;
      intros hh r HQ; left; exists t; unfold prew; fsimpl_goal; rewrite upd_eq; cbn [wakepre droppre]; auto
    | intros r HQ [X|X]; [ | rewrite Epc in X; cbn [armed_pre] in X; try discriminate X ];
      right; unfold headok; fsimpl_goal; rewrite ?upd_eq; cbn [armed_pre]; auto ] ].
  (* what is left comes in the order of the pcs in `mstep`: the drop of a future (from Idle, then from
     LLSwap LDrop; node linked or not), the two links of QRearm, UFand (HAS_QUEUED seen or not), WMark *)
  all: mem_hyps; unfold InvW; fsimpl_goal; intros HL hh r HQ.
  (* a future is cancelled while the lock is free: Idle/LLSwap LDrop -> DFix | DUnl *)
  1-4: (assert (Hnt : forall w, prew s w -> w <> t)
          by (intros w Pw ->; unfold prew in Pw; rewrite Epc in Pw; cbn [wakepre droppre] in Pw;
              destruct Pw as [X|[X _]]; discriminate X)).
  1-4: try (rewrite rem_notin in HQ by assumption;
            destruct (W HL hh r HQ) as [[w Pw]|Hok];
            [ left; exists w; pose proof (Hnt w Pw); unfold prew in *; fsimpl_goal; rewrite upd_neq by assumption; exact Pw
            | right; unfold headok in *; fsimpl_goal;
              assert (hh <> t) by (intros ->; match goal with X : ~ In _ _ |- _ => apply X end; rewrite HQ; left; reflexivity);
              rewrite upd_neq by assumption; exact Hok ]).
  1-2: (destruct (queue s) as [|h0 r0] eqn:EQ; [ match goal with X : In _ [] |- _ => destruct X end | ];
        destruct (Nat.eq_dec h0 t) as [->|Hne];
        [ rewrite rem_head in HQ by assumption; subst r0;
          destruct (W HL t _ EQ) as [[w Pw]|[Hk|Hk]];
          [ left; exists w; pose proof (Hnt w Pw); unfold prew in *; fsimpl_goal; rewrite upd_neq by assumption; exact Pw
          | left; exists t; unfold prew; fsimpl_goal; rewrite upd_eq; right; split; [reflexivity|exact Hk]
          | rewrite Epc in Hk; discriminate Hk ]
        | cbn [rem filter] in HQ; destruct (Nat.eqb_spec h0 t) as [|_]; [contradiction|]; cbn [negb] in HQ;
          injection HQ as <- _;
          destruct (W HL h0 r0 EQ) as [[w Pw]|Hok];
          [ left; exists w; pose proof (Hnt w Pw); unfold prew in *; fsimpl_goal; rewrite upd_neq by assumption; exact Pw
          | right; unfold headok in *; fsimpl_goal; rewrite upd_neq by assumption; exact Hok ] ]).
  (* a waiter links itself while the lock is free *)
  1-2: (assert (Hni : ~ In t (queue s)) by assumption;
        destruct (queue s) as [|h0 r0] eqn:EQ; cbn [app] in HQ; injection HQ as <- _;
        [ right; right; unfold headok; fsimpl_goal; rewrite upd_eq; reflexivity | ];
        assert (Hne : h0 <> t) by (intros ->; apply Hni; left; reflexivity);
        destruct (W HL h0 r0 EQ) as [[w Pw]|Hok];
        [ assert (w <> t) by (intros ->; unfold prew in Pw; rewrite Epc in Pw; cbn [wakepre droppre] in Pw;
                              destruct Pw as [X|[X _]]; discriminate X);
          left; exists w; unfold prew in *; fsimpl_goal; rewrite !upd_neq by assumption; exact Pw
        | right; unfold headok in *; fsimpl_goal; rewrite !upd_neq by assumption; exact Hok ]).
  (* unlock: HAS_QUEUED was seen -> wake_next; otherwise the only queued node is at QFor *)
  1: (left; exists t; unfold prew; fsimpl_goal; rewrite upd_eq; left; reflexivity).
  1: (assert (Hin : In hh (queue s)) by (rewrite HQ; left; reflexivity);
      match goal with E : hasq _ = false |- _ => destruct (D E hh Hin) as [_ [qq Q2]] end;
      assert (hh <> t) by (intros ->; rewrite Epc in Q2; discriminate Q2);
      right; right; fsimpl_goal; rewrite upd_neq by assumption; rewrite Q2; reflexivity).
  (* wake_next marks the head *)
  all: match goal with E : queue _ = _ :: _ |- _ => rewrite E in HQ; injection HQ as <- _ end;
       right; left; fsimpl_goal; apply upd_eq.
Qed.
