(* Proofs/TopicInvSub.v — invariant preservation: subscribe / unsubscribe (as state transformers), what they leave
   alone in a state (the frame that the C04 and C06 invariants live in), and the receiver's close_internal. *)
From Fibre Require Import Common.Base Chan.TopicOps Chan.TopicSpec Proofs.TopicLemmas Proofs.TopicInv.

Lemma rx_alive_In rs x : NoDup (map r_id rs) -> In x rs -> r_live x = true -> rx_alive (r_id x) rs = true.
Proof.
  intros Hnd Hin Hl. unfold rx_alive. rewrite (find_id_NoDup r_id _ _ _ Hnd Hin eq_refl : find_rx _ _ = _). exact Hl.
Qed.

Lemma st_set_rxs_same s : st_set_rxs s (rxs s) = s.
Proof. destruct s; reflexivity. Qed.

(* with a live dispatcher: receiver r changes its subscription to topic t, the dispatcher's list for t becomes l' *)
Lemma inv_upd_subs c s sp r x y (fs : rxh -> list N) (g : srx -> srx) t l' :
  Inv c s sp -> find_rx r (rxs s) = Some x -> find_srx r (sp_rx sp) = Some y -> r_live x = true ->
  disp_alive s = true ->
  NoDup (fs x) -> g y = srx_set_subs y (fs x) ->
  (forall u, u <> t -> (In u (fs x) <-> In u (r_subs x))) ->
  (In t (fs x) <-> In r l') ->
  (forall m, m <> r -> rx_alive m (rxs s) = true ->
     ((exists l, get_list t (lists s) = Some l /\ In m l) <-> In m l')) ->
  NoDup l' -> (forall m, In m l' -> In m (map r_id (rxs s))) ->
  Inv c (st_set_lists (st_set_rxs s (upd_rx r (fun z => rx_set_subs z (fs z)) (rxs s))) (set_list t l' (lists s)))
        (sp_set_rx sp (upd_srx r g (sp_rx sp))).
Proof.
  intros I Hx Hy Hlive Hda Hnd Hg Hsame Ht Hoth Hndl Hlk.
  pose proof (find_id_In r_id _ _ _ Hx) as [_ Hid].
  (* the lists of the other topics are untouched *)
  assert (Hget : forall u, get_list u (set_list t l' (lists s)) = if N.eqb u t then Some l' else get_list u (lists s)).
  { intros u. destruct (N.eqb_spec u t) as [->|Hne]; [apply get_set_eq | apply get_set_neq; exact Hne]. }
  apply inv_set_rx_lists; [exact I | | | | |]; rewrite ?map_r_id_upd by reflexivity.
  - apply (upd_id_pair r_id s_id _ (rr_id _ _ _ _ _) _ r _ g _ _ (i_rx _ _ _ I)).
    + intros x0 y0 Hx0 Hy0 HR E.
      assert (E2 : s_id y0 = r) by (rewrite <- (rr_id _ _ _ _ _ _ _ HR); exact E).
      destruct (unique_pair _ _ _ _ _ _ _ _ I Hx Hy Hx0 Hy0 E E2) as [-> ->]. rewrite Hg.
      destruct HR. constructor; cbn; auto.
      * intros Hl _. split; [reflexivity | apply rr_subs; assumption].
      * intros Hl _ u Hu. rewrite Hget, E. destruct (N.eqb_spec u t) as [->|Hne].
        -- exists l'. split; [reflexivity | apply Ht; exact Hu].
        -- rewrite <- Hid. apply rr_reg1; auto. apply (Hsame u Hne). exact Hu.
      * intros Hl _ Hgd u l H1 H2. rewrite Hget in H1. rewrite E in H2. destruct (N.eqb_spec u t) as [->|Hne].
        -- injection H1 as <-. apply Ht. exact H2.
        -- apply (Hsame u Hne). rewrite <- Hid in H2. eapply rr_reg2; eauto.
    + intros x0 y0 Hx0 Hy0 HR E.
      assert (Hal : r_live x0 = true -> rx_alive (r_id x0) (rxs s) = true).
      { intros Hl. apply rx_alive_In; [apply (i_rnd _ _ _ I) | exact Hx0 | exact Hl]. }
      destruct HR. constructor; auto.
      * intros Hl _ u Hu. rewrite Hget. destruct (rr_reg1 Hl Hda u Hu) as [l [A B]].
        destruct (N.eqb_spec u t) as [->|Hne]; [|eauto].
        exists l'. split; [reflexivity|]. apply (Hoth _ E (Hal Hl)). eauto.
      * intros Hl _ Hgd u l H1 H2. rewrite Hget in H1. destruct (N.eqb_spec u t) as [->|Hne]; [|eapply rr_reg2; eauto].
        injection H1 as <-. destruct (proj2 (Hoth _ E (Hal Hl)) H2) as [l0 [A B]]. eapply rr_reg2; eauto.
  - apply (i_rnd _ _ _ I).
  - intros f0 r0 Hin. unfold upd_rx. rewrite rx_alive_map; [exact (i_flive _ _ _ I f0 r0 Hin) | |];
      intros z; destruct (N.eqb (r_id z) r); reflexivity.
  - intros u l H. rewrite Hget in H. destruct (N.eqb u t); [injection H as <-; exact Hndl | exact (i_lnd _ _ _ I u l H)].
  - intros u l m H Hm. rewrite Hget in H.
    destruct (N.eqb u t); [injection H as <-; auto | exact (i_lknown _ _ _ I u l m H Hm)].
Qed.

(* with the dispatcher gone the subscription sets are no longer related *)
Lemma rel_rx_subs_dead c ls ao sgb x y subs' ssubs' :
  rel_rx c ls false ao sgb x y -> NoDup subs' ->
  rel_rx c ls false ao sgb (rx_set_subs x subs') (srx_set_subs y ssubs').
Proof.
  intros HR Hnd. destruct HR. constructor; cbn; auto; try (intros; discriminate).
Qed.

(* the reference's subscribe / unsubscribe as transformers *)
Definition sp_sub (r t : N) (sp : spec) : spec :=
  sp_set_rx sp (upd_srx r (fun x => if mem t (s_subs x) then x else srx_set_subs x (s_subs x ++ [t])) (sp_rx sp)).
Definition sp_unsub (r t : N) (sp : spec) : spec :=
  sp_set_rx sp (upd_srx r (fun x => srx_set_subs x (filter (fun u => negb (N.eqb u t)) (s_subs x))) (sp_rx sp)).

Lemma srx_set_subs_same z : srx_set_subs z (s_subs z) = z.
Proof. destruct z; reflexivity. Qed.

Lemma sub_step c s sp r t x :
  Inv c s sp -> live_rx r s = Some x -> Inv c (subscribe_core r t s) (sp_sub r t sp).
Proof.
  intros I Hl. apply live_rx_spec in Hl. destruct Hl as [Hx Hlive].
  destruct (pair_rx _ _ _ _ _ I Hx) as [y [Hy [Hinx [Hiny HR]]]].
  unfold subscribe_core, sp_sub. rewrite Hx.
  destruct (mem t (r_subs x)) eqn:Em.
  - (* already subscribed *)
    apply (inv_spec_only _ _ _ _ x y); auto.
    destruct (disp_alive s) eqn:Eda.
    + destruct (rr_subs _ _ _ _ _ _ _ HR Hlive eq_refl) as [Hs _]. rewrite <- Hs, Em. exact HR.
    + destruct (mem t (s_subs y)); [exact HR|].
      assert (E : x = rx_set_subs x (r_subs x)) by (destruct x; reflexivity).
      rewrite E. apply rel_rx_subs_dead; [exact HR | apply (rr_nd _ _ _ _ _ _ _ HR)].
  - assert (Hnd' : NoDup (r_subs x ++ [t])).
    { apply NoDup_snoc; [apply (rr_nd _ _ _ _ _ _ _ HR) | apply mem_false_In; exact Em]. }
    destruct (disp_alive s) eqn:Eda.
    + (* registered with the dispatcher *)
      set (l := match get_list t (lists s) with Some l => l | None => [] end).
      set (l1 := filter (fun m => rx_alive m (rxs s)) l).
      set (l2 := if mem r l1 then l1 else l1 ++ [r]).
      assert (Hl0 : forall l0, get_list t (lists s) = Some l0 -> l = l0).
      { intros l0 H. unfold l. rewrite H. reflexivity. }
      assert (Hrl2 : In r l2).
      { unfold l2. destruct (mem r l1) eqn:E; [apply mem_In; exact E | apply in_or_app; right; left; reflexivity]. }
      assert (Hl2 : forall m, In m l2 -> m = r \/ (In m l /\ rx_alive m (rxs s) = true)).
      { intros m Hm. unfold l2 in Hm. destruct (mem r l1).
        - right. apply filter_In in Hm. exact Hm.
        - apply in_app_or in Hm. destruct Hm as [Hm|[Hm|[]]]; [right; apply filter_In in Hm; exact Hm | left; auto]. }
      assert (Hndl : NoDup l).
      { unfold l. destruct (get_list t (lists s)) eqn:E; [eapply (i_lnd _ _ _ I); eauto | constructor]. }
      destruct (rr_subs _ _ _ _ _ _ _ HR Hlive eq_refl) as [Hs _].
      apply (inv_upd_subs _ _ _ _ x y (fun z => r_subs z ++ [t])); auto.
      * rewrite <- Hs, Em. reflexivity.
      * intros u Hne. rewrite in_app_iff. cbn. intuition congruence.
      * split; [auto | intros _; apply in_or_app; right; left; reflexivity].
      * intros m Hm Hal. split.
        -- intros [l0 [A B]]. rewrite <- (Hl0 _ A) in B.
           assert (In m l1) by (apply filter_In; auto).
           unfold l2. destruct (mem r l1); [assumption | apply in_or_app; left; assumption].
        -- intros B. destruct (Hl2 _ B) as [->|[B1 _]]; [contradiction|].
           unfold l in B1. destruct (get_list t (lists s)) as [l0|]; [eauto | contradiction].
      * unfold l2. destruct (mem r l1) eqn:E; [apply NoDup_filter; exact Hndl|].
        apply NoDup_snoc; [apply NoDup_filter; exact Hndl | apply mem_false_In; exact E].
      * intros m Hm. destruct (Hl2 _ Hm) as [->|[B1 _]].
        -- apply (find_id_In r_id) in Hx. destruct Hx as [Hx Hid]. rewrite <- Hid. apply in_map. exact Hx.
        -- unfold l in B1. destruct (get_list t (lists s)) as [l0|] eqn:E; [|contradiction].
           eapply (i_lknown _ _ _ I); eauto.
    + (* the dispatcher is gone: only the local set changes *)
      apply (inv_upd_rx _ _ _ _ x y); auto. rewrite Eda.
      destruct (mem t (s_subs y)).
      * rewrite <- (srx_set_subs_same y). apply rel_rx_subs_dead; assumption.
      * apply rel_rx_subs_dead; assumption.
Qed.

Lemma filter_neq_notin t l : ~ In t l -> filter (fun u => negb (N.eqb u t)) l = l.
Proof.
  induction l as [|a l IH]; cbn [filter]; intros H; [reflexivity|].
  destruct (N.eqb_spec a t) as [E|E]; cbn [negb].
  - exfalso. apply H. left. exact E.
  - f_equal. apply IH. intros Hi. apply H. right. exact Hi.
Qed.

Lemma unsub_step c s sp r t x :
  Inv c s sp -> live_rx r s = Some x -> Inv c (unsubscribe_core r t s) (sp_unsub r t sp).
Proof.
  intros I Hl. apply live_rx_spec in Hl. destruct Hl as [Hx Hlive].
  destruct (pair_rx _ _ _ _ _ I Hx) as [y [Hy [Hinx [Hiny HR]]]].
  unfold unsubscribe_core, sp_unsub. rewrite Hx.
  destruct (mem t (r_subs x)) eqn:Em.
  - assert (Hnd' : NoDup (filter (fun u => negb (N.eqb u t)) (r_subs x))).
    { apply NoDup_filter. apply (rr_nd _ _ _ _ _ _ _ HR). }
    destruct (disp_alive s) eqn:Eda.
    + destruct (rr_subs _ _ _ _ _ _ _ HR Hlive eq_refl) as [Hs _].
      apply mem_In in Em.
      destruct (rr_reg1 _ _ _ _ _ _ _ HR Hlive eq_refl t Em) as [l [Hl Hrl]]. rewrite Hl.
      apply (inv_upd_subs _ _ _ _ x y (fun z => filter (fun u => negb (N.eqb u t)) (r_subs z))); auto.
      * rewrite Hs. reflexivity.
      * intros u Hne. rewrite In_filter_neq. tauto.
      * rewrite In_filter_neq, filter_In, N.eqb_refl, andb_false_r. intuition congruence.
      * intros m Hm Hal. rewrite Hl, filter_In, Hal. destruct (N.eqb_spec m r); [contradiction|]. split.
        -- intros [l0 [A B]]. injection A as <-. auto.
        -- intros [B _]. eauto.
      * apply NoDup_filter. eapply (i_lnd _ _ _ I); eauto.
      * intros m Hm. apply filter_In in Hm. destruct Hm as [Hm _]. eapply (i_lknown _ _ _ I); eauto.
    + apply (inv_upd_rx _ _ _ _ x y); auto. rewrite Eda. apply rel_rx_subs_dead; assumption.
  - apply (inv_spec_only _ _ _ _ x y); auto.
    destruct (disp_alive s) eqn:Eda.
    + destruct (rr_subs _ _ _ _ _ _ _ HR Hlive eq_refl) as [Hs _].
      rewrite filter_neq_notin by (rewrite <- Hs; apply mem_false_In; exact Em).
      rewrite srx_set_subs_same. exact HR.
    + assert (E : x = rx_set_subs x (r_subs x)) by (destruct x; reflexivity).
      rewrite E. apply rel_rx_subs_dead; [exact HR | apply (rr_nd _ _ _ _ _ _ _ HR)].
Qed.

Lemma ok_Subscribe c r t : step_ok_for c (Subscribe r t).
Proof.
  intros s sp s1 rs w sp1 vs I Hs Hsp. cbn [step sp_step] in *.
  destruct (live_rx r s) as [x|] eqn:Hl; [|same Hs Hsp I].
  injection Hs as <- <- <-. injection Hsp as <- <-. split; [|apply vs_ok_nil]. eapply sub_step; eauto.
Qed.

Lemma ok_Unsubscribe c r t : step_ok_for c (Unsubscribe r t).
Proof.
  intros s sp s1 rs w sp1 vs I Hs Hsp. cbn [step sp_step] in *.
  destruct (live_rx r s) as [x|] eqn:Hl; [|same Hs Hsp I].
  injection Hs as <- <- <-. injection Hsp as <- <-. split; [|apply vs_ok_nil]. eapply unsub_step; eauto.
Qed.

(** what subscribe / unsubscribe and the receiver's close_internal leave alone: senders, counters, futures, and of
    every receiver record everything but its subscription set *)
Definition rx_core (x : rxh) := (r_id x, r_live x, r_closed x, r_async x, r_mb x).

Definition subs_frame (s s' : state) : Prop :=
  txs s' = txs s /\ rcount s' = rcount s /\ scount s' = scount s /\ futs s' = futs s /\
  map rx_core (rxs s') = map rx_core (rxs s).

Lemma cons_eq_inv {A} (a b : A) l m : a :: l = b :: m -> a = b /\ l = m.
Proof. intros H. split; [exact (f_equal (hd a) H) | exact (f_equal (@tl A) H)]. Qed.

Lemma core_upd_subs r f rs : (forall x, rx_core (f x) = rx_core x) -> map rx_core (upd_rx r f rs) = map rx_core rs.
Proof.
  intros H. unfold upd_rx. rewrite map_map. apply map_ext. intros a. destruct (N.eqb (r_id a) r); [apply H | reflexivity].
Qed.

Lemma subscribe_core_frame r t s : subs_frame s (subscribe_core r t s).
Proof.
  unfold subs_frame, subscribe_core. destruct (find_rx r (rxs s)) as [x|]; [|cbn; auto 6].
  destruct (mem t (r_subs x)); [cbn; auto 6|].
  destruct (disp_alive s); cbn; repeat split; apply core_upd_subs; reflexivity.
Qed.

Lemma unsubscribe_core_frame r t s : subs_frame s (unsubscribe_core r t s).
Proof.
  unfold subs_frame, unsubscribe_core. destruct (find_rx r (rxs s)) as [x|]; [|cbn; auto 6].
  destruct (mem t (r_subs x)); [|cbn; auto 6].
  destruct (disp_alive s); [destruct (get_list t (lists s))|]; cbn; repeat split; apply core_upd_subs; reflexivity.
Qed.

Lemma fold_frame (f : N -> state -> state) ts :
  (forall t s, subs_frame s (f t s)) -> forall s, subs_frame s (fold_left (fun a t => f t a) ts s).
Proof.
  intros Hf. induction ts as [|t ts IH]; intros s; cbn [fold_left]; [unfold subs_frame; auto 6|].
  destruct (IH (f t s)) as [A1 [A2 [A3 [A4 A5]]]]. destruct (Hf t s) as [B1 [B2 [B3 [B4 B5]]]].
  unfold subs_frame. repeat split; congruence.
Qed.

(* receiver close_internal: besides, only the receiver count moves *)
Lemma close_internal_frame c r s :
  subs_frame (st_set_rcount s (if disp_alive s then match find_rx r (rxs s) with Some _ => (rcount s - 1)%Z | None => rcount s end
                               else rcount s))
             (rx_close_internal c r s).
Proof.
  unfold rx_close_internal. destruct (disp_alive s); [|unfold subs_frame; cbn; auto 6].
  destruct (find_rx r (rxs s)) as [x|]; [|unfold subs_frame; cbn; auto 6].
  destruct (fix14 c).
  - destruct (fold_frame (fun t a => unsubscribe_core r t a) (r_subs x) (fun t s0 => unsubscribe_core_frame r t s0) s)
      as [A1 [A2 [A3 [A4 A5]]]]. unfold subs_frame. cbn [txs rxs scount futs rcount st_set_rcount]. repeat split; congruence.
  - unfold subs_frame. cbn. repeat split. apply core_upd_subs. reflexivity.
Qed.

Lemma live_rx_frame s s' r x : subs_frame s s' -> live_rx r s = Some x -> exists x', live_rx r s' = Some x'.
Proof.
  intros [_ [_ [_ [_ E]]]] H. apply live_rx_spec in H. destruct H as [Hx Hl].
  destruct (find_rx_proj rx_core r _ _ x ltac:(unfold rx_core; congruence) E Hx) as [x' [Hx' Ec]].
  exists x'. unfold live_rx. rewrite Hx'.
  replace (r_live x') with true by (unfold rx_core in Ec; congruence). reflexivity.
Qed.

(** receiver close_internal *)
Lemma inv_rcount c s sp k : Inv c s sp -> Inv c (st_set_rcount s k) sp.
Proof. intros I. constructor; apply I. Qed.

Lemma unsub_fold c r ts : forall s sp x,
  Inv c s sp -> live_rx r s = Some x ->
  Inv c (fold_left (fun a t => unsubscribe_core r t a) ts s) (fold_left (fun a t => sp_unsub r t a) ts sp).
Proof.
  induction ts as [|t ts IH]; intros s sp x I Hl; cbn [fold_left]; [exact I|].
  destruct (live_rx_frame _ _ r x (unsubscribe_core_frame r t s) Hl) as [x' Hl'].
  eapply IH; [eapply unsub_step; eauto | exact Hl'].
Qed.

Lemma sub_fold c r ts : forall s sp x,
  Inv c s sp -> live_rx r s = Some x ->
  Inv c (fold_left (fun a t => subscribe_core r t a) ts s) (fold_left (fun a t => sp_sub r t a) ts sp).
Proof.
  induction ts as [|t ts IH]; intros s sp x I Hl; cbn [fold_left]; [exact I|].
  destruct (live_rx_frame _ _ r x (subscribe_core_frame r t s) Hl) as [x' Hl'].
  eapply IH; [eapply sub_step; eauto | exact Hl'].
Qed.

(* closed form of the reference's folded unsubscribe *)
Lemma sp_unsub_fold r ts : forall sp,
  fold_left (fun a t => sp_unsub r t a) ts sp =
  sp_set_rx sp (upd_srx r (fun z => srx_set_subs z (fold_left (fun l t => filter (fun u => negb (N.eqb u t)) l) ts (s_subs z))) (sp_rx sp)).
Proof.
  induction ts as [|t ts IH]; intros sp; cbn [fold_left].
  - rewrite (upd_srx_ext_in r _ (fun z => z)) by (intros z _ _; apply srx_set_subs_same).
    rewrite (upd_id_same s_id). destruct sp; reflexivity.
  - rewrite IH. unfold sp_unsub. cbn [sp_rx sp_set_rx]. rewrite upd_srx_comp by reflexivity.
    destruct sp; reflexivity.
Qed.

Lemma fold_filter_all ts : forall l, (forall u, In u l -> In u ts) ->
  fold_left (fun l t => filter (fun u => negb (N.eqb u t)) l) ts l = [].
Proof.
  induction ts as [|t ts IH]; intros l H; cbn [fold_left].
  - destruct l as [|a l]; [reflexivity|]. exfalso. apply (H a). left. reflexivity.
  - apply IH. intros u Hu. apply In_filter_neq in Hu. destruct Hu as [Hu Hne].
    destruct (H u Hu) as [E|E]; [congruence | exact E].
Qed.

Lemma close_internal_inv c s sp r x :
  Inv c s sp -> live_rx r s = Some x ->
  (fix14 c = false -> forall y, find_srx r (sp_rx sp) = Some y -> s_closed y = true) ->
  Inv c (rx_close_internal c r s) (sp_set_rx sp (upd_srx r (fun z => srx_set_subs z []) (sp_rx sp))).
Proof.
  intros I Hl Hcl. pose proof Hl as Hl0. apply live_rx_spec in Hl. destruct Hl as [Hx Hlive].
  destruct (pair_rx _ _ _ _ _ I Hx) as [y [Hy [Hinx [Hiny HR]]]].
  unfold rx_close_internal. destruct (disp_alive s) eqn:Eda.
  - rewrite Hx. destruct (fix14 c) eqn:F14.
    + (* unsubscribing from every topic of the local set empties it *)
      apply inv_rcount.
      pose proof (unsub_fold c r (r_subs x) s sp x I Hl0) as P. rewrite sp_unsub_fold in P.
      rewrite (upd_srx_ext_in r _ (fun z => srx_set_subs z [])) in P; [exact P|].
      intros z Hz Ez. rewrite (find_id_unique s_id r _ y z (spec_rx_nodup _ _ _ I) Hy Hz Ez).
      f_equal. apply fold_filter_all.
      destruct (rr_subs _ _ _ _ _ _ _ HR Hlive eq_refl) as [Hs _]. rewrite Hs. auto.
    + (* the local set is cleared, the dispatcher keeps the handle in its lists: the handle leaves the class *)
      apply inv_rcount. apply (inv_upd_rx _ _ _ _ x y); auto.
      assert (Hg : good c y = false).
      { unfold good. rewrite F14, (Hcl eq_refl y Hy). reflexivity. }
      destruct HR. constructor; cbn; auto.
      * constructor.
      * intros A B. split; [reflexivity | apply rr_subs; auto].
      * intros A B t [].
      * intros A B C. change (good c y = true) in C. congruence.
      * intros A B C. rewrite (Hcl eq_refl y Hy) in C. discriminate.
  - apply (inv_spec_only _ _ _ _ x y); auto. rewrite Eda.
    assert (E : x = rx_set_subs x (r_subs x)) by (destruct x; reflexivity).
    rewrite E. apply rel_rx_subs_dead; [exact HR | apply (rr_nd _ _ _ _ _ _ _ HR)].
Qed.
