(* Proofs/IterProofs.v — the cursor iteration of iter.rs enumerates the live
   entries exactly once, for every per-shard enumeration order, every batch
   size >= 1 and every (monotone) clock. *)
From Fibre Require Import Common.Base Cache.Iter.
From Coq Require Import ZifyBool ZifyNat ZifyN.

Lemma filter_length_le {A} (f : A -> bool) (l : list A) : (length (filter f l) <= length l)%nat.
Proof. induction l as [|a t IH]; cbn [filter length]; [lia|]. destruct (f a); cbn [length]; lia. Qed.



Lemma concat_skipn_nth {A} : forall (i : nat) (l : list (list A)),
  concat (skipn i l) = nth i l [] ++ concat (skipn (S i) l).
Proof.
  intros i l. revert i. induction l as [|a t IH]; intros i.
  - rewrite !skipn_nil. destruct i; reflexivity.
  - destruct i as [|j].
    + cbn [skipn nth concat]. reflexivity.
    + cbn [nth]. rewrite !skipn_cons. apply IH.
Qed.

Lemma firstn_skipn_len {A} : forall (n : nat) (l : list A),
  firstn n l ++ skipn (length (firstn n l)) l = l.
Proof.
  induction n as [|n IH]; intros l; [reflexivity|].
  destruct l as [|a t]; [reflexivity|].
  cbn [firstn length skipn app]. f_equal. apply IH.
Qed.

Lemma skipn_add {A} : forall (a b : nat) (l : list A), skipn a (skipn b l) = skipn (b + a) l.
Proof.
  intros a b. revert a. induction b as [|b IH]; intros a l; [reflexivity|].
  destruct l as [|x t].
  - rewrite !skipn_nil. reflexivity.
  - cbn [Nat.add]. rewrite !skipn_cons. apply IH.
Qed.

(** expiry is monotone in time (nothing in Iter touches last_accessed) *)

Lemma live_anti tti t t' e : t <= t' -> live tti t' e = true -> live tti t e = true.
Proof. unfold live, is_expired. intros Hle H. destruct tti as [d|]; lia. Qed.

Section Sandwich.
  Variable tti : option N.

  (** [sandwich lo hi l o]: o enumerates l in order, keeping every entry still
      live at time hi, dropping every entry already expired at time lo; entries
      that expire in between may go either way. *)
  Inductive sandwich (lo hi : N) : list entry -> list item -> Prop :=
  | sw_nil : sandwich lo hi [] []
  | sw_keep e l o : live tti lo e = true -> sandwich lo hi l o -> sandwich lo hi (e :: l) (item_of e :: o)
  | sw_drop e l o : live tti hi e = false -> sandwich lo hi l o -> sandwich lo hi (e :: l) o.

  Lemma sandwich_filter lo hi t l :
    lo <= t -> t <= hi -> sandwich lo hi l (map item_of (filter (live tti t) l)).
  Proof.
    intros H1 H2. induction l as [|e r IH]; cbn [filter map]; [constructor|].
    destruct (live tti t e) eqn:E; cbn [map].
    - apply sw_keep; [eapply live_anti; eauto | exact IH].
    - apply sw_drop; [|exact IH].
      destruct (live tti hi e) eqn:E2; [|reflexivity].
      rewrite (live_anti tti t hi e H2 E2) in E. discriminate.
  Qed.

  Lemma sandwich_app lo hi l1 o1 l2 o2 :
    sandwich lo hi l1 o1 -> sandwich lo hi l2 o2 -> sandwich lo hi (l1 ++ l2) (o1 ++ o2).
  Proof.
    intros H1 H2. induction H1 as [|e l o Hl _ IH|e l o Hl _ IH]; cbn [app].
    - exact H2.
    - apply sw_keep; assumption.
    - apply sw_drop; assumption.
  Qed.

  Lemma sandwich_eq t l o : sandwich t t l o -> o = map item_of (filter (live tti t) l).
  Proof.
    induction 1 as [|e l o Hl _ IH|e l o Hl _ IH]; cbn [filter map]; [reflexivity| |].
    - rewrite Hl. cbn [map]. f_equal. exact IH.
    - rewrite Hl. exact IH.
  Qed.

  Lemma sandwich_sound lo hi l o : sandwich lo hi l o ->
    forall x, In x o -> exists e, In e l /\ x = item_of e /\ live tti lo e = true.
  Proof.
    induction 1 as [|e l o Hl _ IH|e l o Hl _ IH]; intros x Hx.
    - contradiction.
    - destruct Hx as [<-|Hx].
      + exists e. split; [left; reflexivity|]. split; [reflexivity|exact Hl].
      + destruct (IH x Hx) as [e' [Hi He]]. exists e'. split; [right; exact Hi|exact He].
    - destruct (IH x Hx) as [e' [Hi He]]. exists e'. split; [right; exact Hi|exact He].
  Qed.

  Lemma sandwich_complete lo hi l o : sandwich lo hi l o ->
    forall e, In e l -> live tti hi e = true -> In (item_of e) o.
  Proof.
    induction 1 as [|e l o Hl _ IH|e l o Hl _ IH]; intros e' Hi Hlive.
    - contradiction.
    - destruct Hi as [<-|Hi]; [left; reflexivity | right; apply IH; assumption].
    - destruct Hi as [<-|Hi]; [rewrite Hl in Hlive; discriminate | apply IH; assumption].
  Qed.

  Lemma sandwich_NoDup lo hi l o : sandwich lo hi l o ->
    NoDup (map ekey l) -> NoDup (map fst o).
  Proof.
    induction 1 as [|e l o Hl Hs IH|e l o Hl Hs IH]; cbn [map]; intros Hnd.
    - constructor.
    - inversion Hnd as [|? ? Hni Hnd']; subst. constructor; [|apply IH; exact Hnd'].
      intros Hin. apply Hni. apply in_map_iff in Hin. destruct Hin as [x [Hx Hxo]].
      destruct (sandwich_sound _ _ _ _ Hs x Hxo) as [e' [Hi [He _]]].
      apply in_map_iff. exists e'. split; [|exact Hi]. subst x. cbn [item_of fst] in Hx. exact Hx.
    - inversion Hnd; subst. apply IH. assumption.
  Qed.
End Sandwich.

Section IterProofs.
  Variable shards : list (list entry).
  Variable tti : option N.
  Variable batch : nat.
  Hypothesis batch_pos : (1 <= batch)%nat.

  (* what the cursor has not scanned yet *)
  Definition rest (cur : cursor) : list entry :=
    skipn (c_seen cur) (nth (c_shard cur) shards []) ++ concat (skipn (S (c_shard cur)) shards).

  Lemma rest_start : rest (mkCur 0 0) = concat shards.
  Proof. unfold rest. cbn [c_seen c_shard]. rewrite skipn_O. symmetry. apply (concat_skipn_nth 0 shards). Qed.

  Lemma rest_end cur : (length shards <= c_shard cur)%nat -> rest cur = [].
  Proof.
    intros H. unfold rest. rewrite (nth_overflow shards [] H). rewrite skipn_nil.
    rewrite skipn_all2 by lia. reflexivity.
  Qed.

  Lemma rest_skip si seen :
    (length (nth si shards []) <= seen)%nat -> rest (mkCur si seen) = rest (mkCur (S si) 0).
  Proof.
    intros H. unfold rest. cbn [c_seen c_shard]. rewrite (skipn_all2 _ H). rewrite skipn_O.
    cbn [app]. apply concat_skipn_nth.
  Qed.

  Definition mu (cur : cursor) : nat := (length shards - c_shard cur + length (rest cur))%nat.

  Lemma refill_spec : forall fuel now cur buf,
    (mu cur < fuel)%nat ->
    exists cur' seg,
      refill shards tti batch fuel now cur buf
        = (cur', buf ++ map item_of (filter (live tti now) seg), true)
      /\ rest cur = seg ++ rest cur'
      /\ ((length shards <= c_shard cur')%nat
          \/ (batch <= length (buf ++ map item_of (filter (live tti now) seg)))%nat).
  Proof.
    induction fuel as [|f IH]; intros now [si seen] buf Hmu; [lia|].
    cbn [refill c_shard c_seen].
    destruct (Nat.ltb_spec si (length shards)) as [Hsi|Hsi]; cbn [andb].
    2:{ exists (mkCur si seen), []. cbn [filter map]. rewrite app_nil_r.
        split; [reflexivity|]. split; [reflexivity|]. left. cbn [c_shard]. exact Hsi. }
    destruct (Nat.ltb_spec (length buf) batch) as [Hb|Hb].
    2:{ exists (mkCur si seen), []. cbn [filter map]. rewrite app_nil_r.
        split; [reflexivity|]. split; [reflexivity|]. right. exact Hb. }
    destruct (Nat.leb_spec (length (nth si shards [])) seen) as [Hs|Hs].
    - (* shard exhausted: move on *)
      assert (Hr := rest_skip si seen Hs).
      destruct (IH now (mkCur (S si) 0) buf) as [cur' [seg [E [R X]]]].
      { unfold mu in *. cbn [c_shard] in *. rewrite <- Hr. lia. }
      exists cur', seg. split; [exact E|]. split; [rewrite Hr; exact R | exact X].
    - (* take a chunk *)
      set (sh := nth si shards []) in *.
      set (chunk := firstn (batch - length buf) (skipn seen sh)).
      assert (Hlen : (1 <= length chunk)%nat).
      { unfold chunk. rewrite firstn_length, skipn_length. lia. }
      assert (Hr : rest (mkCur si seen) = chunk ++ rest (mkCur si (seen + length chunk))).
      { unfold rest. cbn [c_shard c_seen]. fold sh. rewrite app_assoc. f_equal.
        rewrite <- skipn_add. unfold chunk. symmetry. apply firstn_skipn_len. }
      destruct (IH now (mkCur si (seen + length chunk))
                   (buf ++ map item_of (filter (live tti now) chunk))) as [cur' [seg [E [R X]]]].
      { unfold mu in *. cbn [c_shard] in *. rewrite Hr, app_length in Hmu. lia. }
      exists cur', (chunk ++ seg).
      rewrite filter_app, map_app, app_assoc.
      split; [exact E|]. split; [rewrite Hr, R, app_assoc; reflexivity | exact X].
  Qed.

  Lemma refill_fuel_ok cur : (mu cur < refill_fuel shards)%nat.
  Proof.
    assert (Hle : (length (rest cur) <= length (concat shards))%nat).
    { unfold rest. rewrite <- (firstn_skipn (c_shard cur) shards) at 3.
      rewrite concat_app, (concat_skipn_nth (c_shard cur) shards).
      rewrite <- (firstn_skipn (c_seen cur) (nth (c_shard cur) shards [])) at 2.
      rewrite !app_length. lia. }
    unfold mu, refill_fuel. lia.
  Qed.

  Variable clk : nat -> N.
  Hypothesis clk_mono : forall a b, (a <= b)%nat -> clk a <= clk b.

  Definition src (st : iter_st) : list entry := if it_fin st then [] else rest (it_cur st).

  (* The whole output is handed out by call [c + length output], whatever state the
     drain is in: one upper time bound [hi] serves every recursive call. *)
  Lemma drain_spec : forall fuel c st,
    (length (it_buf st) + length (src st) < fuel)%nat ->
    exists o', drain shards tti batch fuel clk c st = (it_buf st ++ o', true)
      /\ forall lo hi, lo <= clk c -> clk (c + length (it_buf st ++ o')) <= hi ->
                       sandwich tti lo hi (src st) o'.
  Proof.
    induction fuel as [|f IH]; intros c [buf cur fin] Hf; [lia|].
    cbn [it_buf it_cur it_fin] in *. cbn [drain]. unfold iter_next. cbn [it_buf it_cur it_fin].
    destruct buf as [|x b].
    - destruct fin.
      + exists []. split; [reflexivity|]. intros. unfold src. cbn [it_fin]. constructor.
      + unfold src in Hf |- *. cbn [it_fin it_cur length Nat.add] in Hf |- *.
        destruct (refill_spec (refill_fuel shards) (clk c) cur [] (refill_fuel_ok cur))
          as [cur' [seg [E [R X]]]].
        rewrite E. cbn [app] in *.
        assert (Hseg : forall lo hi, lo <= clk c -> clk c <= hi ->
                  sandwich tti lo hi seg (map item_of (filter (live tti (clk c)) seg)))
          by (intros; apply sandwich_filter; assumption).
        assert (Hlen : (length (map item_of (filter (live tti (clk c)) seg)) <= length seg)%nat)
          by (rewrite map_length; apply filter_length_le).
        destruct (map item_of (filter (live tti (clk c)) seg)) as [|x b] eqn:Eb.
        * (* nothing left: the cursor is past the last shard *)
          exists []. split; [reflexivity|]. cbn [length] in X.
          destruct X as [X|X]; [|lia].
          intros lo hi Hlo Hhi. rewrite R, (rest_end cur' X), app_nil_r.
          apply Hseg; [exact Hlo|]. cbn [length] in Hhi. rewrite Nat.add_0_r in Hhi. exact Hhi.
        * set (fin' := (length shards <=? c_shard cur')%nat).
          assert (Hsrc : src (mkIt b cur' fin') = rest cur').
          { unfold src, fin'. cbn [it_fin it_cur].
            destruct (Nat.leb_spec (length shards) (c_shard cur')) as [Hx|Hx]; [|reflexivity].
            symmetry. apply rest_end. exact Hx. }
          destruct (IH (S c) (mkIt b cur' fin')) as [o2 [E2 S2]].
          { rewrite Hsrc. cbn [it_buf]. rewrite R, app_length in Hf. cbn [length] in Hlen. lia. }
          cbn [it_buf] in E2, S2. rewrite E2. cbn [andb].
          exists (x :: b ++ o2). split; [reflexivity|].
          intros lo hi Hlo Hhi. rewrite R. change (x :: b ++ o2) with ((x :: b) ++ o2).
          apply sandwich_app.
          -- apply Hseg; [exact Hlo|]. eapply N.le_trans; [apply clk_mono|exact Hhi]. lia.
          -- rewrite Hsrc in S2. apply S2.
             ++ eapply N.le_trans; [exact Hlo|]. apply clk_mono. lia.
             ++ eapply N.le_trans; [apply clk_mono|exact Hhi]. cbn [length app]. lia.
    - destruct (IH (S c) (mkIt b cur fin)) as [o2 [E2 S2]].
      { cbn [it_buf length] in *. unfold src in *. cbn [it_fin it_cur] in *. lia. }
      cbn [it_buf] in E2, S2. rewrite E2. cbn [andb].
      exists o2. split; [reflexivity|].
      unfold src in *. cbn [it_fin it_cur] in *. intros lo hi Hlo Hhi. apply S2.
      + eapply N.le_trans; [exact Hlo|]. apply clk_mono. lia.
      + eapply N.le_trans; [apply clk_mono|exact Hhi]. cbn [length app]. lia.
  Qed.

  Theorem iterate_clk_spec :
    exists out, iterate_clk shards tti batch clk = (out, true)
      /\ sandwich tti (clk 0%nat) (clk (length out)) (concat shards) out.
  Proof.
    unfold iterate_clk.
    destruct (drain_spec (drain_fuel shards) 0%nat iter_init) as [o [E S]].
    { unfold iter_init, src, drain_fuel. cbn [it_buf it_fin it_cur length]. rewrite rest_start. lia. }
    cbn [iter_init it_buf app Nat.add] in E, S. exists o. split; [exact E|].
    unfold src, iter_init in S. cbn [it_fin it_cur] in S. rewrite rest_start in S.
    apply S; apply N.le_refl.
  Qed.
End IterProofs.

(* quiescence: the clock does not move during the iteration *)
Theorem iterate_exact shards tti batch now :
  (1 <= batch)%nat ->
  iterate shards tti batch now = (map item_of (filter (live tti now) (concat shards)), true).
Proof.
  intros Hb. unfold iterate.
  destruct (iterate_clk_spec shards tti batch Hb (fun _ => now)) as [out [E S]]; [intros; lia|].
  rewrite E. f_equal. apply (sandwich_eq tti now). exact S.
Qed.

(* the clock may advance between calls of next *)
Theorem iterate_clock shards tti batch (clk : nat -> N) :
  (1 <= batch)%nat -> (forall a b, (a <= b)%nat -> clk a <= clk b) ->
  NoDup (map ekey (concat shards)) ->
  exists out, iterate_clk shards tti batch clk = (out, true)
    /\ NoDup (map fst out)
    /\ (forall x, In x out ->
          exists e, In e (concat shards) /\ x = item_of e /\ live tti (clk 0%nat) e = true)
    /\ (forall e, In e (concat shards) -> live tti (clk (length out)) e = true -> In (item_of e) out).
Proof.
  intros Hb Hm Hnd.
  destruct (iterate_clk_spec shards tti batch Hb clk Hm) as [out [E S]].
  exists out. split; [exact E|]. split; [eapply sandwich_NoDup; eauto|].
  split; [eapply sandwich_sound; eauto | eapply sandwich_complete; eauto].
Qed.

Lemma adv_mono now d K : forall a b : nat, (a <= b)%nat ->
  now + N.of_nat (Nat.min a K) * d <= now + N.of_nat (Nat.min b K) * d.
Proof. intros a b H. nia. Qed.

Lemma set_nth_length {A} (i : nat) (x : A) l : length (set_nth i x l) = length l.
Proof. revert i. induction l as [|h t IH]; intros [|j]; cbn [set_nth length]; try reflexivity. f_equal. apply IH. Qed.

Lemma nth_set_nth_eq {A} (i : nat) (x d : A) l : (i < length l)%nat -> nth i (set_nth i x l) d = x.
Proof.
  revert i. induction l as [|h t IH]; intros [|j] H; cbn [length] in H; try lia; cbn [set_nth nth]; [reflexivity|].
  apply IH. lia.
Qed.

Lemma nth_set_nth_neq {A} (i j : nat) (x d : A) l : i <> j -> nth j (set_nth i x l) d = nth j l d.
Proof.
  revert i j. induction l as [|h t IH]; intros [|i] [|j] H; cbn [set_nth nth]; try reflexivity; try lia.
  apply IH. lia.
Qed.

Lemma set_nth_same {A} (i : nat) (d : A) l : set_nth i (nth i l d) l = l.
Proof. revert i. induction l as [|h t IH]; intros [|j]; cbn [set_nth nth]; try reflexivity. f_equal. apply IH. Qed.

Lemma set_nth_twice {A} (i : nat) (x y : A) l : set_nth i x (set_nth i y l) = set_nth i x l.
Proof. revert i. induction l as [|h t IH]; intros [|j]; cbn [set_nth]; try reflexivity. f_equal. apply IH. Qed.

Lemma skipn_set_nth {A} (i : nat) (x : A) l : skipn (S i) (set_nth i x l) = skipn (S i) l.
Proof.
  revert i. induction l as [|h t IH]; intros [|j]; cbn [set_nth]; try reflexivity.
  rewrite !skipn_cons. apply IH.
Qed.

Section SnapIter.
  Variable tti : option N.
  Variable now : N.

  (* what a fetch leaves behind *)
  Definition touchl (e : entry) : entry := if is_expired tti now e then e else touch tti now e.

  Lemma touch_key e : ekey (touch tti now e) = ekey e.
  Proof. unfold touch. destruct tti; reflexivity. Qed.

  Lemma touchl_key e : ekey (touchl e) = ekey e.
  Proof. unfold touchl. destruct (is_expired tti now e); [reflexivity|apply touch_key]. Qed.

  Lemma fetch_in_skip k done r :
    (forall e, In e done -> ekey e <> k) ->
    fetch_in tti now k (done ++ r) = (fst (fetch_in tti now k r), done ++ snd (fetch_in tti now k r)).
  Proof.
    induction done as [|e t IH]; intros H; cbn [app fetch_in].
    - destruct (fetch_in tti now k r); reflexivity.
    - destruct (N.eqb_spec (ekey e) k) as [Hk|Hk]; [exfalso; apply (H e); [left; reflexivity|exact Hk]|].
      rewrite IH by (intros e' He'; apply H; right; exact He'). reflexivity.
  Qed.

  Lemma snap_pass_own : forall todo done shards i,
    (i < length shards)%nat ->
    nth i shards [] = done ++ todo ->
    NoDup (map ekey (done ++ todo)) ->
    (forall e, In e todo -> shard_idx (length shards) (ekey e) = i) ->
    snap_pass tti now (map ekey todo) shards
    = (map item_of (filter (live tti now) todo), set_nth i (done ++ map touchl todo) shards).
  Proof.
    induction todo as [|e t IH]; intros done shards i Hi Hn Hnd Hidx.
    - cbn [map snap_pass filter]. rewrite app_nil_r in *. rewrite <- Hn, set_nth_same. reflexivity.
    - cbn [map snap_pass]. unfold fetch.
      rewrite (Hidx e (or_introl eq_refl)), Hn.
      rewrite fetch_in_skip.
      2:{ intros e' He' Hk. rewrite map_app in Hnd. cbn [map] in Hnd.
          apply NoDup_remove_2 in Hnd. apply Hnd. apply in_or_app. left.
          apply in_map_iff. exists e'. split; [exact Hk|exact He']. }
      cbn [fetch_in]. rewrite N.eqb_refl.
      assert (Hstep : forall e', ekey e' = ekey e ->
        snap_pass tti now (map ekey t) (set_nth i (done ++ e' :: t) shards)
        = (map item_of (filter (live tti now) t),
           set_nth i (done ++ e' :: map touchl t) shards)).
      { intros e' Hk.
        rewrite (IH (done ++ [e']) (set_nth i (done ++ e' :: t) shards) i).
        - rewrite set_nth_twice, <- app_assoc. reflexivity.
        - rewrite set_nth_length. exact Hi.
        - rewrite nth_set_nth_eq by exact Hi. rewrite <- app_assoc. reflexivity.
        - rewrite <- app_assoc. cbn [app]. rewrite map_app in *. cbn [map] in *. rewrite Hk. exact Hnd.
        - intros e2 He2. rewrite set_nth_length. apply Hidx. right. exact He2. }
      assert (Hl : live tti now e = negb (is_expired tti now e)) by reflexivity.
      assert (Ht : touchl e = if is_expired tti now e then e else touch tti now e) by reflexivity.
      cbn [filter map]. rewrite Hl, Ht.
      destruct (is_expired tti now e) eqn:Ex; cbn [fst snd negb].
      + rewrite (Hstep e eq_refl). reflexivity.
      + rewrite (Hstep (touch tti now e) (touch_key e)). reflexivity.
  Qed.

  (* every key sits in the shard its hash selects, no key twice in a shard *)
  Definition wf_from (i : nat) (shards : list (list entry)) : Prop :=
    forall j, (i <= j < length shards)%nat ->
      NoDup (map ekey (nth j shards []))
      /\ forall e, In e (nth j shards []) -> shard_idx (length shards) (ekey e) = j.

  Lemma snap_from_spec : forall todo i shards,
    (i + todo = length shards)%nat -> wf_from i shards ->
    fst (snap_from tti now todo i shards)
    = map item_of (filter (live tti now) (concat (skipn i shards))).
  Proof.
    induction todo as [|t IH]; intros i shards Hlen Hwf.
    - cbn [snap_from fst]. rewrite skipn_all2 by lia. reflexivity.
    - cbn [snap_from].
      destruct (Hwf i) as [Hnd Hidx]; [lia|].
      rewrite (snap_pass_own (nth i shards []) [] shards i); [|lia|reflexivity|exact Hnd|exact Hidx].
      cbn [app].
      set (s1 := set_nth i (map touchl (nth i shards [])) shards).
      specialize (IH (S i) s1).
      destruct (snap_from tti now t (S i) s1) as [o2 s2]. cbn [fst] in *.
      rewrite IH.
      + unfold s1. rewrite skipn_set_nth. rewrite (concat_skipn_nth i shards).
        rewrite filter_app, map_app. reflexivity.
      + unfold s1. rewrite set_nth_length. lia.
      + intros j Hj. unfold s1 in *. rewrite set_nth_length in *.
        rewrite nth_set_nth_neq by lia. apply Hwf. lia.
  Qed.

  Theorem snap_iterate_exact shards :
    wf_from 0 shards ->
    fst (snap_iterate tti now shards) = map item_of (filter (live tti now) (concat shards)).
  Proof.
    intros Hwf. unfold snap_iterate. rewrite snap_from_spec; [reflexivity|lia|exact Hwf].
  Qed.
End SnapIter.

(* the quiescent enumeration, as a statement about membership *)
Theorem iterate_each_once shards tti batch now :
  (1 <= batch)%nat -> NoDup (map ekey (concat shards)) ->
  let out := fst (iterate shards tti batch now) in
  snd (iterate shards tti batch now) = true
  /\ NoDup (map fst out)
  /\ Permutation out (map item_of (filter (live tti now) (concat shards)))
  /\ forall k v, In (k, v) out <->
       exists e, In e (concat shards) /\ live tti now e = true /\ ekey e = k /\ eval e = v.
Proof.
  intros Hb Hnd. cbv zeta. rewrite (iterate_exact shards tti batch now Hb). cbn [fst snd].
  split; [reflexivity|]. split.
  - rewrite map_map. apply (NoDup_map_filter ekey). exact Hnd.
  - split; [apply Permutation_refl|].
    intros k v. rewrite in_map_iff. split.
    + intros [e [He Hi]]. apply filter_In in Hi. inversion He; subst. exists e. tauto.
    + intros [e [Hi [Hl [<- <-]]]]. exists e. split; [reflexivity|]. apply filter_In. tauto.
Qed.
