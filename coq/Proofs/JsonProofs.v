(* Proofs/JsonProofs.v — the JSON-lines encoder Log/Json.v read back by the model reader.  Each
   serialiser has a lemma that its parser returns the value and the rest, and one that it emits
   no control byte; the record is a run of sorted-list inserts (core keys, then one guarded fold
   for the custom fields in either mode), which gives key order, round trips and F-27. *)
From Fibre Require Import Common.Base Log.Json.
From Coq Require Import ZifyBool ZifyNat ZifyN Sorted.
Open Scope N_scope.

Lemma bytes_eqb_eq a b : bytes_eqb a b = true <-> a = b.
Proof.
  revert b. induction a as [|x a IH]; intros [|y b]; cbn [bytes_eqb]; try (split; [discriminate|discriminate]).
  - split; reflexivity.
  - rewrite andb_true_iff, IH. split.
    + intros [H1 H2]. apply N.eqb_eq in H1. subst. reflexivity.
    + intros H. inversion H. split; [apply N.eqb_refl|reflexivity].
Qed.

Lemma bytes_eqb_refl a : bytes_eqb a a = true.
Proof. apply bytes_eqb_eq. reflexivity. Qed.

Lemma bytes_eqb_neq a b : bytes_eqb a b = false <-> a <> b.
Proof. rewrite <- bytes_eqb_eq. destruct (bytes_eqb a b); split; congruence. Qed.

(* one step of the comparison, as a formula the arithmetic solver can take *)
Lemma lex_step x y (r : bool) :
  (if x <? y then true else if y <? x then false else r) = (x <? y) || ((x =? y) && r).
Proof. destruct (N.ltb_spec x y), (N.ltb_spec y x), (N.eqb_spec x y); try lia; reflexivity. Qed.

Lemma lex_ltb_irrefl a : lex_ltb a a = false.
Proof. induction a as [|x a IH]; cbn [lex_ltb]; [reflexivity|]. rewrite lex_step. lia. Qed.

Lemma lex_ltb_trans a b c : lex_ltb a b = true -> lex_ltb b c = true -> lex_ltb a c = true.
Proof.
  revert b c. induction a as [|x a IH]; intros [|y b] [|z c]; cbn [lex_ltb]; try discriminate; try reflexivity.
  rewrite !lex_step. specialize (IH b c). lia.
Qed.

Lemma lex_total a b : bytes_eqb a b = false -> lex_ltb a b = false -> lex_ltb b a = true.
Proof.
  revert b. induction a as [|x a IH]; intros [|y b]; cbn [bytes_eqb lex_ltb]; try discriminate; try reflexivity.
  rewrite !lex_step. specialize (IH b). lia.
Qed.

Definition lex_lt (a b : bytes) : Prop := lex_ltb a b = true.

Definition keys_sorted {V : Type} (m : list (bytes * V)) : Prop := Sorted lex_lt (map fst m).

Lemma bt_lookup_insert_same {V : Type} k (v : V) m : bt_lookup k (bt_insert k v m) = Some v.
Proof.
  induction m as [|[k1 v1] t IH]; cbn [bt_insert bt_lookup].
  - rewrite bytes_eqb_refl. reflexivity.
  - destruct (bytes_eqb k k1) eqn:E1.
    + cbn [bt_lookup]. rewrite bytes_eqb_refl. reflexivity.
    + destruct (lex_ltb k k1); cbn [bt_lookup].
      * rewrite bytes_eqb_refl. reflexivity.
      * rewrite E1. exact IH.
Qed.

Lemma bt_lookup_insert_other {V : Type} k k' (v : V) m : bytes_eqb k k' = false ->
  bt_lookup k (bt_insert k' v m) = bt_lookup k m.
Proof.
  intros Hne. induction m as [|[k1 v1] t IH]; cbn [bt_insert bt_lookup].
  - rewrite Hne. reflexivity.
  - destruct (bytes_eqb k' k1) eqn:E1.
    + apply bytes_eqb_eq in E1. subst k1. cbn [bt_lookup]. rewrite Hne. reflexivity.
    + destruct (lex_ltb k' k1); cbn [bt_lookup].
      * rewrite Hne. reflexivity.
      * rewrite IH. reflexivity.
Qed.

Lemma bt_lookup_notin {V : Type} k (m : list (bytes * V)) : ~ In k (map fst m) -> bt_lookup k m = None.
Proof.
  induction m as [|[k1 v1] t IH]; cbn [map fst In bt_lookup]; intros H; [reflexivity|].
  destruct (bytes_eqb k k1) eqn:E; [apply bytes_eqb_eq in E; subst k1; tauto|apply IH; tauto].
Qed.

Lemma bt_insert_In {V : Type} k0 (v0 : V) m k v :
  In (k, v) (bt_insert k0 v0 m) -> (k, v) = (k0, v0) \/ In (k, v) m.
Proof.
  induction m as [|[k1 v1] t IH]; cbn [bt_insert].
  - intros [H|[]]. left. symmetry. exact H.
  - destruct (bytes_eqb k0 k1); [|destruct (lex_ltb k0 k1)]; cbn [In]; intros [H|H]; auto.
    destruct (IH H); auto.
Qed.

Lemma bt_insert_hd {V : Type} a k (v : V) m :
  lex_lt a k -> HdRel lex_lt a (map fst m) -> HdRel lex_lt a (map fst (bt_insert k v m)).
Proof.
  destruct m as [|[k1 v1] t]; cbn [bt_insert]; intros Ha Hm; [constructor; exact Ha|].
  destruct (bytes_eqb k k1); [|destruct (lex_ltb k k1)]; constructor; try exact Ha.
  inversion Hm; assumption.
Qed.

Lemma bt_insert_sorted {V : Type} k (v : V) m : keys_sorted m -> keys_sorted (bt_insert k v m).
Proof.
  unfold keys_sorted. induction m as [|[k1 v1] t IH]; intros Hs; cbn [bt_insert map fst].
  - constructor; constructor.
  - cbn [map fst] in Hs. inversion Hs as [|? ? Hst Hhd]; subst.
    destruct (bytes_eqb k k1) eqn:E1; [apply bytes_eqb_eq in E1; subst k1; exact Hs|].
    destruct (lex_ltb k k1) eqn:E2; cbn [map fst]; constructor.
    + exact Hs.
    + constructor. exact E2.
    + apply IH, Hst.
    + apply bt_insert_hd; [apply lex_total; assumption|exact Hhd].
Qed.

Lemma keys_sorted_NoDup {V : Type} (m : list (bytes * V)) : keys_sorted m -> NoDup (map fst m).
Proof.
  unfold keys_sorted. intros Hs. apply Sorted_StronglySorted in Hs.
  2:{ intros a b c. unfold lex_lt. apply lex_ltb_trans. }
  induction Hs as [|a l Hl IH Hall]; constructor; [|exact IH].
  intros Hin. rewrite Forall_forall in Hall. specialize (Hall a Hin).
  unfold lex_lt in Hall. rewrite lex_ltb_irrefl in Hall. discriminate.
Qed.

Lemma bt_mem_false_lookup {V : Type} k (m : list (bytes * V)) : bt_mem k m = false <-> bt_lookup k m = None.
Proof. unfold bt_mem. destruct (bt_lookup k m); split; intros H; try discriminate; reflexivity. Qed.

(* From here on, and in every file that imports this one, [lia] sees through division and
   remainder.  The order facts above need [lia] without this: it fails on their boolean goals
   once the hook is set. *)
Ltac Zify.zify_post_hook ::= Z.div_mod_to_equations.

(* [escape] is [flat_map esc_byte], literally *)
Lemma escape_app a b : escape (a ++ b) = escape a ++ escape b.
Proof. apply (flat_map_app esc_byte). Qed.

Lemma In_escape s x : In x (escape s) <-> exists b, In b s /\ In x (esc_byte b).
Proof. apply (in_flat_map esc_byte). Qed.

Lemma unhexd_hexd d : d < 16 -> unhexd (hexd d) = Some d.
Proof.
  intros H. unfold hexd, unhexd.
  destruct (N.ltb_spec d 10) as [L|L].
  - replace ((48 <=? 48 + d) && (48 + d <=? 57)) with true by lia.
    f_equal. lia.
  - replace ((48 <=? 87 + d) && (87 + d <=? 57)) with false by lia.
    replace ((97 <=? 87 + d) && (87 + d <=? 102)) with true by lia.
    f_equal. lia.
Qed.

Lemma hexd_range d : d < 16 -> 48 <= hexd d <= 102.
Proof. intros H. unfold hexd. destruct (N.ltb_spec d 10); lia. Qed.

Lemma scan_plain b r : 32 <= b -> b <> 34 -> b <> 92 ->
  scan_str (b :: r) = cons_fst b (scan_str r).
Proof.
  intros H1 H2 H3. cbn [scan_str].
  destruct (N.eqb_spec b 34) as [E|_]; [contradiction|].
  destruct (N.eqb_spec b 92) as [E|_]; [contradiction|].
  destruct (N.ltb_spec b 32) as [L|_]; [lia|]. reflexivity.
Qed.

Lemma scan_simple c x r : simple_unesc c = Some x -> c <> 117 ->
  scan_str (92 :: c :: r) = cons_fst x (scan_str r).
Proof.
  intros H1 H2. cbn [scan_str].
  change (92 =? 34) with false. change (92 =? 92) with true. cbv iota.
  destruct (N.eqb_spec c 117) as [E|_]; [contradiction|].
  rewrite H1. reflexivity.
Qed.

Lemma scan_u b r : b < 32 ->
  scan_str (92 :: 117 :: 48 :: 48 :: hexd (b / 16) :: hexd (b mod 16) :: r) = cons_fst b (scan_str r).
Proof.
  intros H. cbn [scan_str].
  change (92 =? 34) with false. change (92 =? 92) with true.
  change (117 =? 117) with true. cbv iota.
  change (unhexd 48) with (Some 0).
  rewrite (unhexd_hexd (b / 16)) by lia.
  rewrite (unhexd_hexd (b mod 16)) by lia.
  cbv iota beta.
  replace (((0 * 16 + 0) * 16 + b / 16) * 16 + b mod 16) with b by lia.
  destruct (N.ltb_spec b 128) as [_|L]; [reflexivity|lia].
Qed.

(* what [esc_byte] produces: one of the seven two-character escapes (of an ASCII byte, by an ASCII
   letter), \u00xx, or the byte itself *)
Inductive esc_shape (b : N) : bytes -> Prop :=
| esc_simple c : simple_unesc c = Some b -> c <> 117 -> (32 <=? c) && (c <? 128) && (b <? 128) = true ->
                 esc_shape b [92; c]
| esc_hex : b < 32 -> esc_shape b [92; 117; 48; 48; hexd (b / 16); hexd (b mod 16)]
| esc_plain : 32 <= b -> b <> 34 -> b <> 92 -> esc_shape b [b].

Lemma esc_byte_shape b : esc_shape b (esc_byte b).
Proof.
  unfold esc_byte.
  repeat match goal with |- context [b =? ?c] =>
    destruct (N.eqb_spec b c) as [->|?]; [apply esc_simple; [reflexivity|discriminate|reflexivity]|] end.
  destruct (N.ltb_spec b 32); [apply esc_hex|apply esc_plain]; assumption.
Qed.

Lemma scan_esc_byte b r : scan_str (esc_byte b ++ r) = cons_fst b (scan_str r).
Proof.
  destruct (esc_byte_shape b); [apply scan_simple|apply scan_u|apply scan_plain]; assumption.
Qed.

(* (b) the literal is consumed entirely, with no early termination, whatever follows it *)
Theorem scan_escape : forall s rest, scan_str (escape s ++ 34 :: rest) = Some (s, rest).
Proof.
  induction s as [|b s IH]; intros rest.
  - reflexivity.
  - cbn [escape]. rewrite <- app_assoc, scan_esc_byte, IH. reflexivity.
Qed.

(* (a) *)
Theorem unescape_escape : forall s, unescape (escape s) = Some s.
Proof. intros s. unfold unescape. rewrite scan_escape. reflexivity. Qed.

(* a byte is kept as it is, or it is ASCII and so is everything that stands for it *)
Lemma esc_byte_ascii b :
  esc_byte b = [b] /\ 32 <= b \/ b < 128 /\ forall x, In x (esc_byte b) -> 32 <= x < 128.
Proof.
  destruct (esc_byte_shape b) as [c _ _ Hc|Hb|Hb _ _]; [right|right|left; split; [reflexivity|exact Hb]].
  - split; [lia|]. intros x [<-|[<-|[]]]; lia.
  - split; [lia|]. pose proof (hexd_range (b / 16) ltac:(lia)) as H1.
    pose proof (hexd_range (b mod 16) ltac:(lia)) as H2. revert H1 H2.
    generalize (hexd (b / 16)) (hexd (b mod 16)). intros h1 h2 H1 H2 x Hx.
    repeat destruct Hx as [<-|Hx]; try lia. contradiction.
Qed.

(* (b) no raw control byte (in particular no raw newline), and bytes stay bytes *)
Theorem escape_no_control : forall s x, In x (escape s) -> 32 <= x.
Proof.
  intros s x H. apply In_escape in H. destruct H as (b & _ & H).
  destruct (esc_byte_ascii b) as [[E Hb]|[_ Ha]]; [|apply Ha, H].
  rewrite E in H. destruct H as [<-|[]]. exact Hb.
Qed.

Theorem escape_bytes : forall s, Forall (fun b => b < 256) s -> Forall (fun b => b < 256) (escape s).
Proof.
  intros s H. rewrite Forall_forall in *. intros x Hx. apply In_escape in Hx.
  destruct Hx as (b & Hb & Hx). specialize (H b Hb). destruct (esc_byte_ascii b) as [[E _]|[_ Ha]].
  - rewrite E in Hx. destruct Hx as [<-|[]]. exact H.
  - specialize (Ha x Hx). lia.
Qed.

Corollary escape_no_newline : forall s, ~ In 10 (escape s).
Proof. intros s H. apply escape_no_control in H. lia. Qed.

Lemma filter_high_ascii l : (forall x, In x l -> x < 128) -> filter (fun b => 128 <=? b) l = [].
Proof.
  induction l as [|a l IH]; intros H; cbn [filter]; [reflexivity|].
  destruct (N.leb_spec 128 a) as [L|_]; [specialize (H a (or_introl eq_refl)); lia|].
  apply IH. intros x Hx. apply H. right. exact Hx.
Qed.

(* non-ASCII bytes (every byte of a multi-byte UTF-8 sequence) pass through untouched and the
   escaper adds only ASCII: the >= 0x80 subsequence is unchanged *)
Theorem escape_high_bytes : forall s,
  filter (fun b => 128 <=? b) (escape s) = filter (fun b => 128 <=? b) s.
Proof.
  induction s as [|b s IH]; [reflexivity|]. cbn [escape]. change (b :: s) with ([b] ++ s).
  rewrite !filter_app, IH. f_equal.
  destruct (esc_byte_ascii b) as [[-> _]|[Hb Ha]]; [reflexivity|].
  rewrite !filter_high_ascii; [reflexivity| |]; intros x Hx; [destruct Hx as [<-|[]]; exact Hb|apply Ha, Hx].
Qed.

Definition atom_ok (a : jatom) : bool :=
  match a with
  | AStr _ => true
  | ARaw r => raw_ok r
  end.

Lemma raw_byte_not_special b : raw_byte_ok b = true ->
  is_delim b = false /\ b <> 34 /\ b <> 123 /\ 32 <= b.
Proof. unfold raw_byte_ok, is_delim. intros H. repeat split; lia. Qed.

Lemma span_raw_run t d rest : forallb raw_byte_ok t = true -> is_delim d = true ->
  span_raw (t ++ d :: rest) = (t, d :: rest).
Proof.
  intros Ht Hd. induction t as [|b t IH]; cbn [app span_raw].
  - rewrite Hd. reflexivity.
  - cbn [forallb] in Ht. apply andb_true_iff in Ht. destruct Ht as [Hb Ht].
    destruct (raw_byte_not_special b Hb) as [-> _]. rewrite (IH Ht). reflexivity.
Qed.

Lemma ser_str_app s rest : ser_str s ++ rest = 34 :: escape s ++ 34 :: rest.
Proof. unfold ser_str. cbn [app]. rewrite <- app_assoc. reflexivity. Qed.

Lemma p_atom_ser a d rest : atom_ok a = true -> is_delim d = true ->
  p_atom (ser_atom a ++ d :: rest) = Some (a, d :: rest).
Proof.
  intros Ha Hd. destruct a as [s|r]; cbn [ser_atom atom_ok] in *.
  - rewrite ser_str_app. cbn [p_atom]. change (34 =? 34) with true. cbv iota.
    rewrite scan_escape. reflexivity.
  - destruct r as [|b r]; [discriminate|]. cbn [raw_ok] in Ha.
    assert (Hb : raw_byte_ok b = true) by (cbn [forallb] in Ha; apply andb_true_iff in Ha; tauto).
    destruct (raw_byte_not_special b Hb) as (_ & N34 & _ & _).
    unfold p_atom. cbn [app]. destruct (N.eqb_spec b 34) as [E|_]; [contradiction|].
    change (b :: r ++ d :: rest) with ((b :: r) ++ d :: rest).
    rewrite (span_raw_run _ _ _ Ha Hd). cbn [raw_ok]. rewrite Ha. reflexivity.
Qed.

(* the members of an object, one equation for both shapes of the tail *)
Lemma ser_members_cons {V : Type} (sv : V -> bytes) k v t :
  ser_members sv ((k, v) :: t)
  = ser_str k ++ 58 :: sv v ++ match t with [] => [] | _ :: _ => 44 :: ser_members sv t end.
Proof. destruct t; [rewrite app_nil_r|]; reflexivity. Qed.

(* Fuel: the length of the input is enough, since every member takes more than one byte.  The
   same bound [n] is handed down to the value parser, whose input is a suffix of this one. *)
Section MembersProofs.
  Context {V : Type}.
  Variable pv : bytes -> option (V * bytes).
  Variable sv : V -> bytes.
  Variable okv : V -> Prop.
  Variable n : nat.
  Hypothesis Hpv : forall v, okv v -> forall d rest, is_delim d = true ->
    (length (sv v ++ d :: rest) <= n)%nat -> pv (sv v ++ d :: rest) = Some (v, d :: rest).

  Lemma p_members_ser : forall l, l <> [] -> (forall k v, In (k, v) l -> okv v) ->
    forall fuel rest, (length (ser_members sv l ++ 125%N :: rest) <= fuel <= n)%nat ->
    p_members pv fuel (ser_members sv l ++ 125 :: rest) = Some (l, rest).
  Proof.
    induction l as [|[k v] t IH]; intros Hne Hok fuel rest Hf; [contradiction|].
    assert (Hv : okv v) by (apply (Hok k); left; reflexivity).
    rewrite ser_members_cons, <- app_assoc, ser_str_app in Hf |- *. cbn [app] in Hf |- *.
    rewrite <- app_assoc in Hf |- *. cbn [length] in Hf. rewrite app_length in Hf. cbn [length] in Hf.
    destruct fuel as [|f]; [lia|]. cbn [p_members].
    change (34 =? 34) with true. cbv iota. rewrite scan_escape.
    change (58 =? 58) with true. cbv iota.
    destruct t as [|kv' t']; cbn [app] in Hf |- *.
    - rewrite (Hpv v Hv 125 rest eq_refl) by lia. reflexivity.
    - rewrite (Hpv v Hv 44 _ eq_refl) by lia. change (44 =? 44) with true. cbv iota.
      rewrite app_length in Hf. cbn [length] in Hf.
      rewrite IH; [reflexivity|discriminate| |lia].
      intros k0 v0 H0. apply (Hok k0). right. exact H0.
  Qed.

  Lemma p_obj_ser : forall l, (forall k v, In (k, v) l -> okv v) ->
    forall fuel rest, (length (ser_obj sv l ++ rest) <= fuel <= n)%nat ->
    p_obj pv fuel (ser_obj sv l ++ rest) = Some (l, rest).
  Proof.
    intros l Hok fuel rest Hf. unfold ser_obj in Hf |- *. cbn [app] in Hf |- *.
    rewrite <- app_assoc in Hf |- *. cbn [app length] in Hf |- *.
    destruct l as [|[k v] t]; [reflexivity|].
    rewrite <- (p_members_ser ((k, v) :: t) ltac:(discriminate) Hok fuel rest) by lia.
    rewrite ser_members_cons. reflexivity.
  Qed.

End MembersProofs.

(* well-formed values: raw tokens are number-like; nested objects hold atoms only *)
Definition jval_wf (v : jval) : Prop :=
  match v with
  | JAtom a => atom_ok a = true
  | JObj fm => forall k a, In (k, a) fm -> atom_ok a = true
  end.

Lemma ser_atom_head a : atom_ok a = true -> exists b r, ser_atom a = b :: r /\ b <> 123.
Proof.
  destruct a as [s|[|b r]]; cbn [atom_ok ser_atom raw_ok]; intros H.
  - unfold ser_str. eexists _, _. split; [reflexivity|discriminate].
  - discriminate.
  - exists b, r. split; [reflexivity|]. cbn [forallb] in H. apply andb_true_iff in H.
    destruct (raw_byte_not_special b (proj1 H)) as (_ & _ & N & _). exact N.
Qed.

Lemma p_value_ser fuel v d rest :
  jval_wf v -> is_delim d = true -> (length (ser_val v ++ d :: rest) <= fuel)%nat ->
  p_value fuel (ser_val v ++ d :: rest) = Some (v, d :: rest).
Proof.
  intros Hv Hd Hl. destruct v as [a|m]; cbn [jval_wf ser_val] in *.
  - destruct (ser_atom_head a Hv) as (b & r & E & N).
    unfold p_value. rewrite E at 1. cbn [app].
    destruct (N.eqb_spec b 123) as [E2|_]; [contradiction|].
    rewrite (p_atom_ser a d rest Hv Hd). reflexivity.
  - unfold p_value.
    unfold ser_obj at 1. cbn [app]. change (123 =? 123) with true. cbv iota.
    change (123 :: (ser_members ser_atom m ++ [125]) ++ d :: rest)
      with (ser_obj ser_atom m ++ d :: rest).
    rewrite (p_obj_ser p_atom ser_atom (fun a => atom_ok a = true) fuel); [reflexivity| |exact Hv|lia].
    intros a Ha' d' rest' Hd' _. apply p_atom_ser; assumption.
Qed.

Theorem parse_line_ser : forall m,
  (forall k v, In (k, v) m -> jval_wf v) ->
  parse_line (ser_obj ser_val m ++ [10]) = Some m.
Proof.
  intros m Hm. unfold parse_line. set (n := length (ser_obj ser_val m ++ [10])).
  rewrite (p_obj_ser (p_value n) ser_val jval_wf n); [|  |exact Hm|unfold n; lia].
  - change (10 =? 10) with true. reflexivity.
  - intros v Hv d rest Hd Hl. apply p_value_ser; assumption.
Qed.

Definition no_ctl : bytes -> Prop := Forall (fun x => 32 <= x).

Lemma ser_str_no_ctl s : no_ctl (ser_str s).
Proof.
  unfold ser_str. constructor; [lia|]. apply Forall_app. split; [|repeat constructor; lia].
  apply Forall_forall, escape_no_control.
Qed.

Lemma ser_obj_no_ctl {V : Type} (sv : V -> bytes) l :
  (forall k v, In (k, v) l -> no_ctl (sv v)) -> no_ctl (ser_obj sv l).
Proof.
  intros H. unfold ser_obj. constructor; [lia|]. apply Forall_app. split; [|repeat constructor; lia].
  induction l as [|[k v] t IH]; [constructor|]. rewrite ser_members_cons.
  apply Forall_app. split; [apply ser_str_no_ctl|]. constructor; [lia|].
  apply Forall_app. split; [apply (H k v); left; reflexivity|].
  assert (IH' : no_ctl (ser_members sv t)) by (apply IH; intros k' v' Hin; apply (H k' v'); right; exact Hin).
  destruct t; constructor; [lia|exact IH'].
Qed.

Lemma ser_atom_no_ctl a : atom_ok a = true -> no_ctl (ser_atom a).
Proof.
  destruct a as [s|r]; cbn [ser_atom atom_ok]; [intros _; apply ser_str_no_ctl|].
  destruct r; [discriminate|]. cbn [raw_ok]. rewrite forallb_forall. intros H.
  apply Forall_forall. intros x Hx. apply (raw_byte_not_special x (H x Hx)).
Qed.

Lemma ser_val_no_ctl v : jval_wf v -> no_ctl (ser_val v).
Proof.
  destruct v as [a|fm]; cbn [ser_val jval_wf]; [apply ser_atom_no_ctl|].
  intros H. apply ser_obj_no_ctl. intros k a Hin. apply ser_atom_no_ctl, (H k a Hin).
Qed.

Definition dec_val (ds : bytes) : N := fold_left (fun a d => a * 10 + (d - 48)) ds 0.

(* the reader's side for integer tokens *)
Definition undec_Z (ds : bytes) : Z :=
  match ds with
  | [] => 0%Z
  | b :: r => if b =? 45 then (- Z.of_N (dec_val r))%Z else Z.of_N (dec_val ds)
  end.

Lemma dec_val_snoc xs d : dec_val (xs ++ [d]) = dec_val xs * 10 + (d - 48).
Proof. unfold dec_val. rewrite fold_left_app. reflexivity. Qed.

Lemma dec_fuel_acc fuel : forall n acc, dec_fuel fuel n acc = dec_fuel fuel n [] ++ acc.
Proof.
  induction fuel as [|f IH]; intros n acc; cbn [dec_fuel]; [reflexivity|].
  destruct (n / 10 =? 0); [reflexivity|].
  rewrite (IH (n / 10) ((48 + n mod 10) :: acc)), (IH (n / 10) [48 + n mod 10]).
  rewrite <- app_assoc. reflexivity.
Qed.

Lemma dec_fuel_S f n acc :
  dec_fuel (S f) n acc =
  if n / 10 =? 0 then (48 + n mod 10) :: acc else dec_fuel f (n / 10) ((48 + n mod 10) :: acc).
Proof. reflexivity. Qed.

Lemma dec_fuel_value f : forall n, n < 2 ^ N.of_nat f -> dec_val (dec_fuel (S f) n []) = n.
Proof.
  induction f as [|f IH]; intros n Hn; rewrite dec_fuel_S.
  - change (2 ^ N.of_nat 0) with 1 in Hn. assert (n = 0) by lia. subst n. reflexivity.
  - destruct (N.eqb_spec (n / 10) 0) as [E|E].
    + unfold dec_val. cbn [fold_left]. lia.
    + rewrite dec_fuel_acc, dec_val_snoc, IH; [lia|].
      rewrite Nat2N.inj_succ, N.pow_succ_r' in Hn. lia.
Qed.

Lemma size_nat_gt n : n < 2 ^ N.of_nat (N.size_nat n).
Proof.
  destruct n as [|p]; [reflexivity|]. cbn [N.size_nat].
  induction p as [p IH|p IH|]; cbn [Pos.size_nat].
  - rewrite Nat2N.inj_succ, N.pow_succ_r'. change (N.pos p~1) with (2 * N.pos p + 1). lia.
  - rewrite Nat2N.inj_succ, N.pow_succ_r'. change (N.pos p~0) with (2 * N.pos p). lia.
  - reflexivity.
Qed.

Theorem dec_N_value : forall n, dec_val (dec_N n) = n.
Proof. intros n. unfold dec_N. apply dec_fuel_value. apply size_nat_gt. Qed.

Definition digits : bytes -> Prop := Forall (fun b => 48 <= b <= 57).

Lemma dec_fuel_digits fuel : forall n acc, digits acc -> digits (dec_fuel fuel n acc).
Proof.
  induction fuel as [|f IH]; intros n acc H; cbn [dec_fuel]; [exact H|].
  assert (H' : digits ((48 + n mod 10) :: acc)) by (constructor; [lia|exact H]).
  destruct (n / 10 =? 0); [exact H'|apply IH, H'].
Qed.

Lemma dec_N_digits n : digits (dec_N n).
Proof. apply dec_fuel_digits. constructor. Qed.

Lemma dec_N_nonempty n : dec_N n <> [].
Proof.
  unfold dec_N. rewrite dec_fuel_S. destruct (n / 10 =? 0); [discriminate|].
  rewrite dec_fuel_acc. intros E. apply app_eq_nil in E. destruct E. discriminate.
Qed.

(* reading the decimal token gives back the integer: integer fields round-trip too *)
Theorem undec_dec_Z : forall z, undec_Z (dec_Z z) = z.
Proof.
  intros z. unfold dec_Z. destruct (Z.ltb_spec z 0) as [L|L].
  - cbn [undec_Z]. change (45 =? 45) with true. cbv iota. rewrite dec_N_value. lia.
  - pose proof (dec_N_digits (Z.abs_N z)) as Hd. pose proof (dec_N_value (Z.abs_N z)) as Hv.
    unfold undec_Z. destruct (dec_N (Z.abs_N z)) as [|b r] eqn:E; [apply dec_N_nonempty in E; contradiction|].
    inversion Hd; subst. destruct (N.eqb_spec b 45) as [->|_]; [lia|]. rewrite Hv. lia.
Qed.

Corollary dec_Z_inj : forall a b, dec_Z a = dec_Z b -> a = b.
Proof. intros a b H. rewrite <- (undec_dec_Z a), <- (undec_dec_Z b), H. reflexivity. Qed.

Lemma dec_N_ok n : raw_ok (dec_N n) = true.
Proof.
  pose proof (dec_N_digits n) as Hd. pose proof (dec_N_nonempty n) as Hn.
  unfold raw_ok. destruct (dec_N n); [contradiction|].
  apply forallb_forall. intros x Hx. pose proof (proj1 (Forall_forall _ _) Hd x Hx) as H.
  cbv beta in H. unfold raw_byte_ok. lia.
Qed.

Lemma dec_Z_ok z : raw_ok (dec_Z z) = true.
Proof.
  unfold dec_Z. pose proof (dec_N_ok (Z.abs_N z)) as H. destruct (z <? 0)%Z; [|exact H].
  unfold raw_ok in *. destruct (dec_N (Z.abs_N z)); [discriminate|].
  cbn [forallb] in *. rewrite H. reflexivity.
Qed.

Lemma atom_of_ok v : value_ok v = true -> atom_ok (atom_of v) = true.
Proof.
  destruct v as [s|z|b|j d|s]; cbn [value_ok atom_of atom_ok]; intros H; try reflexivity.
  - apply dec_Z_ok.
  - destruct b; reflexivity.
  - exact H.
Qed.

Lemma lookup_ins_opt_other k k' o m : bytes_eqb k k' = false ->
  bt_lookup k (ins_opt k' o m) = bt_lookup k m.
Proof. intros H. destruct o; cbn [ins_opt]; [apply bt_lookup_insert_other, H|reflexivity]. Qed.

(* [core_map] is a run of (optional) inserts; the keys and what is inserted under them, last
   insert first *)
Definition core_fields (ev : event) : list (bytes * option bytes) :=
  [(K_thread_name, e_tname ev); (K_thread_id, e_tid ev); (K_parent_id, e_parent ev);
   (K_span_id, e_span ev); (K_name, Some (e_name ev)); (K_message, e_message ev);
   (K_target, Some (e_target ev)); (K_level, Some (level_str (e_level ev)));
   (K_timestamp, Some (e_ts ev))].

Definition ins_all : list (bytes * option bytes) -> list (bytes * jval) :=
  fold_right (fun ko => ins_opt (fst ko) (snd ko)) [].

Lemma core_map_ins_all ev : core_map ev = ins_all (core_fields ev).
Proof. reflexivity. Qed.

(* looking a key up in the map is looking it up in the list of inserts (where the insert was not
   skipped) *)
Lemma ins_all_some l k s : bt_lookup k l = Some (Some s) -> bt_lookup k (ins_all l) = Some (jstr s).
Proof.
  induction l as [|[k1 o1] t IH]; cbn [bt_lookup ins_all fold_right fst snd]; [discriminate|].
  destruct (bytes_eqb k k1) eqn:E.
  - apply bytes_eqb_eq in E. subst k1. intros [= ->]. apply bt_lookup_insert_same.
  - rewrite lookup_ins_opt_other by exact E. exact IH.
Qed.

Lemma ins_all_none l k : bt_lookup k l = None -> bt_lookup k (ins_all l) = None.
Proof.
  induction l as [|[k1 o1] t IH]; cbn [bt_lookup ins_all fold_right fst snd]; [reflexivity|].
  destruct (bytes_eqb k k1) eqn:E; [discriminate|].
  rewrite lookup_ins_opt_other by exact E. exact IH.
Qed.

Lemma ins_all_sorted l : keys_sorted (ins_all l).
Proof.
  induction l as [|[k [s|]] t IH]; cbn [ins_all fold_right ins_opt fst snd]; [constructor| |exact IH].
  apply bt_insert_sorted, IH.
Qed.

Lemma ins_all_values l k v : In (k, v) (ins_all l) -> exists s, v = jstr s.
Proof.
  induction l as [|[k1 [s|]] t IH]; cbn [ins_all fold_right ins_opt fst snd]; [intros []| |exact IH].
  intros H. apply bt_insert_In in H. destruct H as [[= _ ->]|H]; [exists s; reflexivity|apply IH, H].
Qed.

Definition core_keys : list bytes :=
  [K_timestamp; K_level; K_target; K_message; K_name; K_span_id; K_parent_id; K_thread_id; K_thread_name].

Lemma core_map_only ev k : ~ In k core_keys -> bt_lookup k (core_map ev) = None.
Proof.
  intros H. rewrite core_map_ins_all. apply ins_all_none, bt_lookup_notin.
  intros Hin. apply H. apply in_rev in Hin. exact Hin.
Qed.

(** * the custom fields.  Both modes fold one step over the field list: insert the converted
   value, unless [guard] is set and the key is present already (flatten mode keeps the older
   entry; nested mode is a plain insert) *)
Section FieldFold.
  Context {V : Type}.
  Variable conv : value -> V.
  Variable guard : bool.

  Definition fstep (m : list (bytes * V)) (kv : bytes * value) : list (bytes * V) :=
    if guard && bt_mem (fst kv) m then m else bt_insert (fst kv) (conv (snd kv)) m.

  Lemma ffold_ind (P : list (bytes * V) -> Prop) : forall fs m, P m ->
    (forall m k v, In (k, v) fs -> (guard = true -> bt_mem k m = false) -> P m ->
                   P (bt_insert k (conv v) m)) ->
    P (fold_left fstep fs m).
  Proof.
    induction fs as [|[k1 v1] t IH]; intros m Hm Hs; [exact Hm|]. cbn [fold_left].
    apply IH; [|intros m' k v Hin; apply Hs; right; exact Hin].
    unfold fstep. cbn [fst snd]. destruct (guard && bt_mem k1 m) eqn:E; [exact Hm|].
    apply Hs; [left; reflexivity| |exact Hm]. intros ->. exact E.
  Qed.

  Lemma ffold_other fs m k : ~ In k (map fst fs) -> bt_lookup k (fold_left fstep fs m) = bt_lookup k m.
  Proof.
    intros H. apply ffold_ind; [reflexivity|]. intros m' k' v Hin _ <-.
    apply bt_lookup_insert_other, bytes_eqb_neq. intros ->. apply H, (in_map fst _ _ Hin).
  Qed.

  Lemma ffold_keeps fs m k x : guard = true -> bt_lookup k m = Some x ->
    bt_lookup k (fold_left fstep fs m) = Some x.
  Proof.
    intros Hg H. apply ffold_ind; [exact H|]. intros m' k' v _ Hm' H'.
    rewrite bt_lookup_insert_other; [exact H'|]. apply bytes_eqb_neq. intros ->.
    apply Hm', bt_mem_false_lookup in Hg. congruence.
  Qed.

  Lemma ffold_adds : forall fs m k v, NoDup (map fst fs) -> In (k, v) fs ->
    (guard = true -> bt_mem k m = false) ->
    bt_lookup k (fold_left fstep fs m) = Some (conv v).
  Proof.
    induction fs as [|[k1 v1] t IH]; intros m k v Hnd Hin Hm; [contradiction|].
    cbn [fold_left]. cbn [map fst] in Hnd. inversion Hnd as [|? ? Hk1 Hnd']; subst.
    destruct Hin as [[= -> ->]|Hin].
    - rewrite ffold_other by exact Hk1. unfold fstep. cbn [fst snd].
      destruct guard; [rewrite Hm by reflexivity|]; apply bt_lookup_insert_same.
    - apply IH; [exact Hnd'|exact Hin|]. intros Hg. specialize (Hm Hg).
      unfold fstep. destruct (guard && _); [exact Hm|]. cbn [fst snd].
      apply bt_mem_false_lookup. rewrite bt_lookup_insert_other; [apply bt_mem_false_lookup, Hm|].
      apply bytes_eqb_neq. intros ->. apply Hk1, (in_map fst _ _ Hin).
  Qed.

  Lemma ffold_only fs m k x : bt_lookup k (fold_left fstep fs m) = Some x ->
    bt_lookup k m = Some x \/ exists v, In (k, v) fs /\ x = conv v.
  Proof.
    apply ffold_ind; [auto|]. intros m' k' v Hin _ IH H. destruct (bytes_eqb k k') eqn:E.
    - apply bytes_eqb_eq in E. subst k'. rewrite bt_lookup_insert_same in H. injection H as <-. eauto.
    - rewrite bt_lookup_insert_other in H by exact E. auto.
  Qed.

  Lemma ffold_values fs m k x : In (k, x) (fold_left fstep fs m) ->
    In (k, x) m \/ exists v, In (k, v) fs /\ x = conv v.
  Proof.
    apply ffold_ind; [auto|]. intros m' k' v Hin _ IH H.
    apply bt_insert_In in H. destruct H as [[= -> ->]|H]; eauto.
  Qed.

  Lemma ffold_sorted fs m : keys_sorted m -> keys_sorted (fold_left fstep fs m).
  Proof. intros H. apply ffold_ind; [exact H|]. intros m' k v _ _. apply bt_insert_sorted. Qed.
End FieldFold.

Definition jfield (v : value) : jval := JAtom (atom_of v).

Lemma flatten_ffold m fs : flatten_fields m fs = fold_left (fstep jfield true) fs m.
Proof. reflexivity. Qed.

Lemma nested_ffold fs : nested_obj fs = fold_left (fstep atom_of false) fs [].
Proof. reflexivity. Qed.

Lemma fields_value_ok ev k v : fields_ok ev -> In (k, v) (e_fields ev) -> atom_ok (atom_of v) = true.
Proof.
  intros [_ H] Hin. rewrite forallb_forall in H. apply atom_of_ok. apply (H (k, v) Hin).
Qed.

Lemma assemble_wf flat ev : fields_ok ev -> forall k v, In (k, v) (assemble flat ev) -> jval_wf v.
Proof.
  intros Hok k v H. unfold assemble in H.
  assert (Hcore : forall k v, In (k, v) (core_map ev) -> jval_wf v).
  { intros k0 v0 H0. destruct (ins_all_values (core_fields ev) k0 v0 H0) as [s ->]. reflexivity. }
  destruct (e_fields ev) as [|kv0 fs0] eqn:Ef; [apply (Hcore k v H)|].
  rewrite <- Ef in H. destruct flat.
  - rewrite flatten_ffold in H. apply ffold_values in H.
    destruct H as [H|(v' & Hin & ->)]; [apply (Hcore k v H)|].
    apply (fields_value_ok ev k v' Hok Hin).
  - apply bt_insert_In in H. destruct H as [H|H]; [|apply (Hcore k v H)].
    inversion H; subst. intros k' a Ha. rewrite nested_ffold in Ha. apply ffold_values in Ha.
    destruct Ha as [[]|(v' & Hin & ->)].
    apply (fields_value_ok ev k' v' Hok Hin).
Qed.

(* (c.1) the reader gets back exactly the assembled map *)
Theorem parse_render : forall flat ev, fields_ok ev ->
  parse_line (render flat ev) = Some (assemble flat ev).
Proof. intros flat ev H. unfold render. apply parse_line_ser. apply (assemble_wf flat ev H). Qed.

(* (c.2) one line: a body without any byte < 0x20 (so no newline, no CR), then the newline *)
Theorem render_one_line : forall flat ev, fields_ok ev ->
  exists body, render flat ev = body ++ [10] /\ forall x, In x body -> 32 <= x.
Proof.
  intros flat ev Hok. exists (ser_obj ser_val (assemble flat ev)). split; [reflexivity|].
  apply Forall_forall, ser_obj_no_ctl. intros k v Hin. apply ser_val_no_ctl, (assemble_wf flat ev Hok k v Hin).
Qed.

(* keys are strictly increasing in byte order: no duplicate key in the object *)
Theorem assemble_sorted : forall flat ev, keys_sorted (assemble flat ev).
Proof.
  intros flat ev. unfold assemble. pose proof (ins_all_sorted (core_fields ev)) as Hc.
  destruct (e_fields ev) as [|kv fs]; [exact Hc|].
  destruct flat; [rewrite flatten_ffold; apply ffold_sorted, Hc|apply bt_insert_sorted, Hc].
Qed.

Theorem nested_sorted : forall fs, keys_sorted (nested_obj fs).
Proof. intros fs. rewrite nested_ffold. apply ffold_sorted. constructor. Qed.

(* what the core holds under a key survives assembly in both modes *)
Lemma assemble_keeps_core flat ev k x :
  bt_lookup k (core_map ev) = Some x -> bt_lookup k (assemble flat ev) = Some x.
Proof.
  intros H. unfold assemble. destruct (e_fields ev) as [|kv fs]; [exact H|].
  destruct flat; [rewrite flatten_ffold; apply ffold_keeps; [reflexivity|exact H]|].
  rewrite bt_lookup_insert_other; [exact H|]. apply bytes_eqb_neq. intros ->.
  rewrite core_map_ins_all, ins_all_none in H by reflexivity. discriminate.
Qed.

Theorem core_roundtrip : forall flat ev, fields_ok ev ->
  exists m, parse_line (render flat ev) = Some m
    /\ get_str K_level m = Some (level_str (e_level ev))
    /\ get_str K_target m = Some (e_target ev)
    /\ get_str K_timestamp m = Some (e_ts ev)
    /\ get_str K_name m = Some (e_name ev)
    /\ (forall s, e_message ev = Some s -> get_str K_message m = Some s)
    /\ (forall s, e_span ev = Some s -> get_str K_span_id m = Some s)
    /\ (forall s, e_parent ev = Some s -> get_str K_parent_id m = Some s)
    /\ (forall s, e_tid ev = Some s -> get_str K_thread_id m = Some s)
    /\ (forall s, e_tname ev = Some s -> get_str K_thread_name m = Some s).
Proof.
  intros flat ev Hok. exists (assemble flat ev). split; [apply parse_render, Hok|].
  assert (G : forall k s, bt_lookup k (core_fields ev) = Some (Some s) ->
              get_str k (assemble flat ev) = Some s).
  { intros k s H. unfold get_str. rewrite (assemble_keeps_core flat ev k (jstr s)); [reflexivity|].
    rewrite core_map_ins_all. apply ins_all_some, H. }
  (* each clause is one row of [core_fields] *)
  repeat split; try intros s E; apply G; try rewrite <- E; reflexivity.
Qed.

(** custom fields: the full statement, its refutation (F-27) and the part that holds *)
Definition fields_roundtrip_at (flat : bool) (ev : event) (k : bytes) (v : value) : Prop :=
  exists m, parse_line (render flat ev) = Some m /\ get_field flat k m = Some (atom_of v).

Definition fields_roundtrip_full : Prop :=
  forall flat ev, fields_ok ev -> forall k v, In (k, v) (e_fields ev) -> fields_roundtrip_at flat ev k v.

(* witness: flatten mode, one custom field named level *)
Definition f27_event : event :=
  mkEvent [50] [] Info [116] [110] (Some [104; 105]) None None None None [(K_level, VStr [120])].

Theorem fields_roundtrip_refuted : ~ fields_roundtrip_full.
Proof.
  intros H. specialize (H true f27_event).
  assert (Hok : fields_ok f27_event).
  { split; [|reflexivity]. cbn. constructor; [intros []|constructor]. }
  destruct (H Hok K_level (VStr [120])) as (m & Hp & Hg); [left; reflexivity|].
  rewrite (parse_render true f27_event Hok) in Hp. inversion Hp; subst m.
  vm_compute in Hg. discriminate.
Qed.

Theorem fields_roundtrip_except_collision : forall flat ev, fields_ok ev ->
  forall k v, In (k, v) (e_fields ev) ->
  (flat = true -> bt_mem k (core_map ev) = false) ->
  fields_roundtrip_at flat ev k v.
Proof.
  intros flat ev Hok k v Hin Hc. exists (assemble flat ev). split; [apply parse_render, Hok|].
  unfold get_field, assemble. destruct (e_fields ev) as [|kv fs] eqn:Ef; [contradiction|].
  rewrite <- Ef in *. destruct flat.
  - rewrite flatten_ffold, (ffold_adds _ _ _ _ k v); [reflexivity|apply Hok|exact Hin|exact Hc].
  - rewrite bt_lookup_insert_same, nested_ffold. apply ffold_adds; [apply Hok|exact Hin|discriminate].
Qed.

Theorem fields_roundtrip_nested : forall ev, fields_ok ev ->
  forall k v, In (k, v) (e_fields ev) -> fields_roundtrip_at false ev k v.
Proof. intros ev Hok k v Hin. apply fields_roundtrip_except_collision; [assumption..|discriminate]. Qed.

(* the collision hypothesis is implied by: k is none of the nine core key names *)
Theorem not_core_key_no_collision : forall ev k, ~ In k core_keys -> bt_mem k (core_map ev) = false.
Proof. intros ev k H. apply bt_mem_false_lookup. apply core_map_only, H. Qed.

(* what happens on a collision: the reader sees the core value, whatever the field held (F-27) *)
Theorem flatten_collision_drops : forall ev k x, bt_lookup k (core_map ev) = Some x ->
  bt_lookup k (assemble true ev) = Some x.
Proof. intros ev. apply assemble_keeps_core. Qed.

(* nothing is invented: every top-level key of a flattened record is a core key or a field,
   every key of the nested object is a field *)
Theorem flatten_no_junk : forall ev k x, bt_lookup k (assemble true ev) = Some x ->
  bt_lookup k (core_map ev) = Some x \/ exists v, In (k, v) (e_fields ev) /\ x = JAtom (atom_of v).
Proof.
  intros ev k x H. unfold assemble in H. destruct (e_fields ev) as [|kv fs] eqn:Ef; [left; exact H|].
  rewrite <- Ef in *. rewrite flatten_ffold in H. apply ffold_only in H. exact H.
Qed.

Theorem nested_no_junk : forall fs k a, bt_lookup k (nested_obj fs) = Some a ->
  exists v, In (k, v) fs /\ a = atom_of v.
Proof.
  intros fs k a H. rewrite nested_ffold in H. apply ffold_only in H. destruct H as [H|H]; [discriminate|exact H].
Qed.
