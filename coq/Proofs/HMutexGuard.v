(* Proofs/HMutexGuard.v — guard accounting (InvA) and list-spinlock ownership (InvB). *)
From Coq Require Import List NArith Arith Bool Lia.
From Fibre Require Import Common.Conc Sync.HMutex Proofs.HMutexBase.
Import ListNotations.

Definition InvA s := (forall u, In u (holders s) <-> holds (pcs s u) = true)
  /\ (locked s = true -> exists h, holders s = [h]) /\ (locked s = false -> holders s = []).

Lemma InvA_step s t c s' e : InvA s -> mstep s t c = Some (s', e) -> InvA s'.
Proof.
  intros [A1 [A2 A3]] H.
  pose proof (A1 t) as A1t.
  step_cases H; rewrite Epc in A1t; cbn [holds] in A1t; unfold InvA; fsimpl_goal.
  all: try solve [ split; [ intros u; split_thr u t; [cbn [holds]; tauto | apply A1] | split; assumption ] ].
  (* acquisitions: the lock was free, so nobody held a guard *)
  all: try match goal with CasOk : negb (locked _) && _ = true |- _ =>
       apply andb_prop in CasOk; destruct CasOk as [Free _]; apply negb_true_iff in Free;
       pose proof (A3 Free) as Hh; rewrite Hh in *;
       split; [ intros u; split_thr u t;
                [ cbn [holds]; split; [reflexivity | intros _; left; reflexivity]
                | split; [ intros [X|[]]; congruence | intros X; apply A1 in X; destruct X ] ]
              | split; [ intros _; exists t; reflexivity | discriminate ] ] end.
  (* release *)
  all: (assert (Hin : In t (holders s)) by (apply A1t; reflexivity);
        destruct (locked s) eqn:EL; [ | rewrite (A3 eq_refl) in Hin; destruct Hin ];
        destruct (A2 eq_refl) as [h Hh]; rewrite Hh in *; destruct Hin as [->|[]];
        cbn [rem filter]; rewrite Nat.eqb_refl; cbn [negb];
        split; [ intros u; split_thr u t;
                 [ cbn [holds]; split; [intros []|discriminate]
                 | split; [ intros [] | intros X; apply A1 in X; destruct X as [->|[]]; congruence ] ]
               | split; [ discriminate | reflexivity ] ]).
Qed.

Definition InvB s := (forall u, inlist (pcs s u) = true -> llock s = Some u)
  /\ (forall u, llock s = Some u -> inlist (pcs s u) = true).

Lemma InvB_step s t c s' e : InvB s -> mstep s t c = Some (s', e) -> InvB s'.
Proof.
  intros [B1 B2] H.
  pose proof (B1 t) as B1t. pose proof (B2 t) as B2t.
  step_cases H; rewrite Epc in B1t, B2t; cbn [inlist] in B1t, B2t; unfold InvB; fsimpl_goal.
  (* steps that neither touch the list lock nor enter/leave a list section *)
  all: try solve [ split; intros u; split_thr u t; cbn [inlist]; auto; intros X;
                   try discriminate X; try (apply B2t in X; discriminate X) ].
  (* acquisitions and releases of the list lock *)
  all: (try (pose proof (B1t eq_refl) as HL); split; intros u; split_thr u t; cbn [inlist]; intros X;
        try reflexivity; try discriminate X; try (apply B1 in X); congruence).
Qed.
