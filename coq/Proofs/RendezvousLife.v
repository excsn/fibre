(* Handle life cycle of the rendezvous model (C04, parts of C03):
   the two counters equal the numbers of open handles; Disconnected / Closed are reported exactly
   when the other side has no open handle; closing one of several clones is invisible to the
   others; once the senders are gone the channel stays dead.  The shipped code breaks these through
   findings F-07 (conversion re-opens a closed handle), F-34 (clone of a closed handle is open),
   F-35 (futures ignore the handle's closed flag): refuted/except pairs. *)
From Fibre Require Import Common.Base Chan.Rendezvous Proofs.RendezvousBase Proofs.RendezvousWF
     Proofs.RendezvousProofs.

Definition hopen (sd : side) (hd : handle) : N :=
  match h_side hd, sd with
  | Tx, Tx | Rx, Rx => if h_closed hd then 0 else 1
  | _, _ => 0
  end.

Fixpoint nopen (sd : side) (H : list (N * handle)) : N :=
  match H with
  | [] => 0
  | (_, hd) :: t => hopen sd hd + nopen sd t
  end.

(* counts exact *)
Definition CE (s : state) : Prop := scnt s = nopen Tx (hs s) /\ rcnt s = nopen Rx (hs s).

Lemma nopen_app sd H x : nopen sd (H ++ [x]) = nopen sd H + hopen sd (snd x).
Proof.
  induction H as [|[k hd] t IH]; cbn [nopen app]; [destruct x; cbn; lia|]. rewrite IH. lia.
Qed.

Lemma nopen_aupd sd h g H hd :
  NoDup (map fst H) -> aget h H = Some hd ->
  nopen sd (aupd h g H) + hopen sd hd = nopen sd H + hopen sd (g hd).
Proof.
  induction H as [|[k x] t IH]; cbn [aget aupd map fst]; intros Hn Hg; [discriminate|].
  inversion Hn as [|a l Hnot Hn']; subst. deq h k.
  - inversion Hg; subst x. cbn [nopen]. lia.
  - cbn [nopen]. specialize (IH Hn' Hg). lia.
Qed.

Lemma nopen_adel sd h H hd :
  NoDup (map fst H) -> aget h H = Some hd ->
  nopen sd (adel h H) + hopen sd hd = nopen sd H.
Proof.
  induction H as [|[k x] t IH]; cbn [aget adel map fst]; intros Hn Hg; [discriminate|].
  inversion Hn as [|a l Hnot Hn']; subst. deq h k.
  - inversion Hg; subst x. cbn [nopen]. lia.
  - cbn [nopen]. specialize (IH Hn' Hg). lia.
Qed.

Lemma nopen_ge sd h H hd : aget h H = Some hd -> hopen sd hd <= nopen sd H.
Proof.
  induction H as [|[k x] t IH]; cbn [aget]; intros Hg; [discriminate|]. deq h k.
  - inversion Hg; subst x. cbn [nopen]. lia.
  - cbn [nopen]. specialize (IH Hg). lia.
Qed.

(** close under CE: exact, and never the count underflow *)
Lemma closes_CE s h hd s' r e :
  NoDup (map fst (hs s)) -> CE s -> aget h (hs s) = Some hd -> h_closed hd = false ->
  closes (mark_closed s h) (h_side hd) s' r e ->
  CE s' /\ r <> OPanic /\ hs s' = aupd h h_close (hs s).
Proof.
  intros Hn [C1 C2] Hg Hcl Hk.
  pose proof (nopen_aupd Tx h h_close (hs s) hd Hn Hg) as XT.
  pose proof (nopen_aupd Rx h h_close (hs s) hd Hn Hg) as XR.
  pose proof (nopen_ge Tx h (hs s) hd Hg) as GT.
  pose proof (nopen_ge Rx h (hs s) hd Hg) as GR.
  unfold hopen in *. cbn [h_close h_side h_closed] in *. rewrite Hcl in *.
  remember (h_side hd) as sd eqn:Hsd. unfold CE.
  destruct Hk; try destruct sd; cbn [mark_closed scnt rcnt hs set_hs set_scnt set_rcnt] in *.
  1,2: exfalso; lia.
  all: split; [split; lia|split; [discriminate|reflexivity]].
Qed.

(** which operations are affected by the three repairs *)
Definition conv_ok (c : cfg) (s : state) (o : op) : Prop :=
  match o with
  | Conv h => fix_conv c = true \/ handle_closed s h = false
  | _ => True
  end.

Definition op_ok (c : cfg) (s : state) (o : op) : Prop :=
  match o with
  | Conv h => fix_conv c = true \/ handle_closed s h = false
  | Clone h _ => fix_clone c = true \/ handle_closed s h = false
  | Poll f _ => fix_fut c = true \/
                (forall r, aget f (fs s) = Some r -> f_reg r = false -> handle_closed s (f_h r) = false)
  | _ => True
  end.

Fixpoint run_sat (P : cfg -> state -> op -> Prop) (c : cfg) (s : state) (ops : list op) : Prop :=
  match ops with
  | [] => True
  | o :: t => P c s o /\ run_sat P c (fst (fst (step c s o))) t
  end.

Lemma run_sat_fixed (P : cfg -> state -> op -> Prop) c s ops :
  (forall s o, P c s o) -> run_sat P c s ops.
Proof. intros H. revert s. induction ops as [|o t IH]; intros s; cbn; auto. Qed.

Lemma op_ok_conv c s o : op_ok c s o -> conv_ok c s o.
Proof. destruct o; cbn; auto. Qed.

(* an invariant and a property of each step's output, along a history whose operations satisfy Q *)
Lemma run_sat_inv (Q : cfg -> state -> op -> Prop) (P : state -> Prop) (R : out -> list ev -> Prop) c :
  (forall s o s' r e, WF s -> P s -> Q c s o -> step c s o = (s', r, e) -> P s' /\ R r e) ->
  forall ops s s' tr, WF s -> P s -> run_sat Q c s ops -> run c s ops = (s', tr) ->
    P s' /\ (forall o r e, In (o, r, e) tr -> R r e).
Proof.
  intros Hstep. induction ops as [|o t IH]; intros s s' tr W H OK Hr; cbn [run] in Hr.
  - inversion Hr; subst. split; [exact H|intros ? ? ? []].
  - destruct (step c s o) as [[s1 r1] e1] eqn:Hs.
    destruct (run c s1 t) as [s2 tr2] eqn:Hr2. inversion Hr; subst.
    cbn [run_sat] in OK. rewrite Hs in OK. destruct OK as [OK1 OK2].
    destruct (Hstep _ _ _ _ _ W H OK1 Hs) as [H1 R1].
    destruct (IH s1 s' tr2 (step_WF _ _ _ _ _ _ W Hs) H1 OK2 Hr2) as [H2 R2].
    split; [exact H2|]. intros o' r' e' [X|X]; [inversion X; subst; exact R1|eapply R2; eauto].
Qed.

Lemma take_total s : WF s -> sq s <> [] -> exists s' v w, take_from_sender s = Some (s', v, w).
Proof.
  intros W Hne. unfold take_from_sender. destruct (sq s) as [|[g w] rest] eqn:Hsq; [congruence|].
  unfold WF in W. rewrite Hsq in W.
  destruct (wf_sq _ _ _ _ W g w (or_introl eq_refl)) as [rg [Hg [_ [_ [_ Hc]]]]].
  rewrite Hg, Hc. eexists. eexists. eexists. reflexivity.
Qed.

(* every step keeps the counters exact and never panics -- provided no closed handle is converted
   by the unrepaired to_sync/to_async (F-07) *)
Theorem step_CE c s o s' r e :
  WF s -> CE s -> conv_ok c s o -> step c s o = (s', r, e) -> CE s' /\ r <> OPanic.
Proof.
  intros W C OK Hs. apply step_inv in Hs. pose proof (wf_hs _ _ _ _ W) as Hn.
  destruct Hs; try (split; [exact C|discriminate]).
  - (* T_send_fail *) split; [exact C|]. destruct b; [|destruct Ho]; subst r; discriminate.
  - (* T_recv_fail *) split; [exact C|]. destruct Ho; subst r; discriminate.
  - (* T_take *) split; [exact C|]. destruct Ho as [[k [h [_ ->]]]|[f [w' [_ ->]]]]; discriminate.
  - (* T_take_panic: a parked sender always holds an item *)
    destruct (take_total s W Hsq) as [s1 [v [w Ht']]]. congruence.
  - (* T_close *) destruct (closes_CE _ _ _ _ _ _ Hn C Hh Hcl Hk) as [X [Y _]]. split; assumption.
  - (* T_droph_closed *) split; [|discriminate]. destruct C as [C1 C2]. unfold CE. cbn [scnt rcnt hs set_hs].
    pose proof (nopen_adel Tx h (hs s) hd Hn Hh) as A1. pose proof (nopen_adel Rx h (hs s) hd Hn Hh) as A2.
    unfold hopen in *. rewrite Hcl in *. clear - C1 C2 A1 A2. destruct (h_side hd); split; lia.
  - (* T_droph *)
    destruct (closes_CE _ _ _ _ _ _ Hn C Hh Hcl Hk) as [[X1 X2] [Y K]].
    split; [|destruct r; try discriminate; congruence].
    assert (Z : aget h (hs s1) = Some (h_close hd)) by (rewrite K, aget_aupd_eq, Hh; reflexivity).
    assert (Hn1 : NoDup (map fst (hs s1))) by (rewrite K, keys_aupd; exact Hn).
    pose proof (nopen_adel Tx h (hs s1) _ Hn1 Z) as A1. pose proof (nopen_adel Rx h (hs s1) _ Hn1 Z) as A2.
    unfold CE. cbn [scnt rcnt hs set_hs]. unfold hopen in *. cbn [h_close h_closed h_side] in *.
    clear - X1 X2 A1 A2. destruct (h_side hd); split; lia.
  - (* T_clone_closed *) split; [|discriminate]. destruct C as [C1 C2]. unfold CE. cbn [scnt rcnt hs set_hs].
    rewrite !nopen_app. cbn [snd]. unfold hopen. cbn [h_side h_closed]. clear - C1 C2.
    destruct (h_side hd); split; lia.
  - (* T_clone_open *) split; [|discriminate]. destruct C as [C1 C2]. unfold CE. clear - C1 C2.
    destruct (h_side hd) eqn:Hsd; cbn [scnt rcnt hs set_hs set_scnt set_rcnt];
      rewrite !nopen_app; cbn [snd]; unfold hopen; cbn [h_side h_closed]; split; lia.
  - (* T_conv *) split; [|discriminate]. destruct C as [C1 C2]. unfold CE. cbn [scnt rcnt hs set_hs].
    set (g := fun x => mkH (h_side x) (negb (h_async x)) (if fix_conv c then h_closed x else false)).
    pose proof (nopen_aupd Tx h g (hs s) hd Hn Hh) as A1.
    pose proof (nopen_aupd Rx h g (hs s) hd Hn Hh) as A2.
    assert (E : forall sd, hopen sd (g hd) = hopen sd hd).
    { intros sd. unfold hopen, g. cbn [h_side h_closed]. cbn in OK. unfold handle_closed in OK.
      rewrite Hh in OK. destruct OK as [-> | ->]; [reflexivity|]. destruct (fix_conv c); reflexivity. }
    rewrite !E in *. clear - C1 C2 A1 A2. split; lia.
  - (* T_poll_same *) split; [exact C|]. destruct Ho as [->|[->| ->]]; discriminate.
  - (* T_unreg *) split; [exact C|]. destruct (f_side r0); discriminate.
  - (* T_poll_panic: DONE implies the sender wrote the item *)
    destruct (wf_fut _ _ _ _ W f r0 Hg) as [Hk _]. rewrite Hsd in Hk. destruct (proj2 Hk Hr Hst Hc).
  - (* T_dropf *) rewrite (drop_fut_state _ _ _ W Hg). split; [exact C|discriminate].
Qed.

Lemma CE_init a : CE (init a).
Proof. split; reflexivity. Qed.

Theorem run_CE c ops s s' tr :
  WF s -> CE s -> run_sat conv_ok c s ops -> run c s ops = (s', tr) ->
  CE s' /\ (forall o r e, In (o, r, e) tr -> r <> OPanic).
Proof. apply (run_sat_inv conv_ok CE (fun r _ => r <> OPanic)). apply step_CE. Qed.

(** C04: counts = open handles, for the repaired conversion and, on the shipped code, for every
    history that never converts a closed handle *)
Definition rv_counts_exact_full (c : cfg) : Prop :=
  forall a ops s tr, run c (init a) ops = (s, tr) ->
    CE s /\ (forall o r e, In (o, r, e) tr -> r <> OPanic).

Theorem rv_counts_exact_except_F07 c a ops s tr :
  run_sat conv_ok c (init a) ops -> run c (init a) ops = (s, tr) ->
  CE s /\ (forall o r e, In (o, r, e) tr -> r <> OPanic).
Proof. intros OK Hr. eapply run_CE; eauto; [apply WF_init|apply CE_init]. Qed.

Theorem rv_counts_exact_fixed c : fix_conv c = true -> rv_counts_exact_full c.
Proof.
  intros Hf a ops s tr Hr. eapply rv_counts_exact_except_F07; eauto.
  apply run_sat_fixed. intros s0 o. destruct o; cbn; auto.
Qed.

Definition F07_witness : list op := [Close 0; Conv 0; DropH 0].

Theorem rv_counts_exact_refuted_F07 c : fix_conv c = false -> ~ rv_counts_exact_full c.
Proof.
  intros Hf H. destruct c as [m t r x ff y]. cbn in Hf. subst x.
  destruct (run (mkCfg m t r false ff y) (init false) F07_witness) as [s tr] eqn:Hr.
  destruct (H false F07_witness s tr Hr) as [_ NP].
  vm_compute in Hr. inversion Hr; subst.
  eapply NP; [right; right; left; reflexivity|reflexivity].
Qed.

Section Obs.
Variables (c : cfg) (s : state).
Hypothesis W : WF s.
Hypothesis C : CE s.

(* Disconnected is reported on an open receiver handle exactly when no sender handle is open and no
   send is pending; otherwise a pending send is delivered first *)
Theorem rv_disc_iff k s' r e :
  core_recv c k s = (s', r, e) ->
  (r = ODisc <-> nopen Tx (hs s) = 0 /\ sq s = []) /\
  (sq s <> [] -> exists v, r = OVal v).
Proof.
  intros Hs. destruct C as [C1 C2]. unfold core_recv in Hs.
  destruct (sq s) as [|p rest] eqn:Hsq.
  - split; [|congruence]. destruct (N.eqb_spec (scnt s) 0) as [Z|Z].
    + inversion Hs; subst. split; [intros _; split; [lia|reflexivity]|reflexivity].
    + destruct k; inversion Hs; subst; (split; [discriminate|intros [X _]; lia]).
  - destruct (take_total s W) as [s1 [v [w Ht]]]; [rewrite Hsq; discriminate|].
    rewrite Ht in Hs. inversion Hs; subst. split.
    + split; [discriminate|intros [_ X]; discriminate].
    + intros _. exists v. reflexivity.
Qed.

(* after the last receiver is gone every send form fails with Closed and gets its value back *)
Theorem rv_send_after_last_rx h hd v :
  h_live_side s h Tx = Some hd -> nopen Rx (hs s) = 0 ->
  step c s (TrySend h v) = (s, OClosedV v, [EIntro v; EBack v])
  /\ (h_async hd = false -> step c s (Send h v) = (s, OClosed, [EIntro v; EDropArg v])).
Proof.
  intros Hl Hz. destruct C as [C1 C2]. assert (Z : N.eqb (rcnt s) 0 = true) by (apply N.eqb_eq; lia).
  cbn [step]. rewrite Hl. unfold core_send. rewrite Z.
  split; [destruct (h_closed hd); reflexivity|]. intros ->. destruct (h_closed hd); reflexivity.
Qed.

Theorem rv_try_send_closed_iff h hd v s' r e :
  h_live_side s h Tx = Some hd -> h_closed hd = false ->
  step c s (TrySend h v) = (s', r, e) ->
  (r = OClosedV v <-> nopen Rx (hs s) = 0).
Proof using C.
  intros Hl Hc Hs. clear W. destruct C as [C1 C2]. cbn [step] in Hs. rewrite Hl, Hc in Hs. unfold core_send in Hs.
  destruct (N.eqb_spec (rcnt s) 0) as [Z|Z].
  - inversion Hs; subst. split; [intros _; lia|reflexivity].
  - destruct (rq s) as [|[g w] rest]; inversion Hs; subst; (split; [discriminate|intros X; lia]).
Qed.

(* closing or dropping one of several open clones is invisible to every other handle and future *)
Theorem rv_clone_isolation h hd s' r e :
  aget h (hs s) = Some hd -> h_closed hd = false -> 2 <= nopen (h_side hd) (hs s) ->
  do_close s h hd = (s', r, e) ->
  r = OOk /\ e = [] /\ fs s' = fs s /\ sq s' = sq s /\ rq s' = rq s
  /\ hs s' = aupd h h_close (hs s).
Proof.
  intros Hg Hc Hn Hs. destruct C as [C1 C2]. unfold do_close in Hs. rewrite Hc in Hs.
  destruct (h_side hd).
  - unfold core_drop_sender in Hs. cbn [scnt set_hs] in Hs.
    destruct (N.eqb_spec (scnt s) 0) as [Z|Z]; [lia|].
    destruct (N.eqb_spec (N.pred (scnt s)) 0) as [Z2|Z2]; [lia|].
    inversion Hs; subst. repeat split; reflexivity.
  - unfold core_drop_receiver in Hs. cbn [rcnt set_hs] in Hs.
    destruct (N.eqb_spec (rcnt s) 0) as [Z|Z]; [lia|].
    destruct (N.eqb_spec (N.pred (rcnt s)) 0) as [Z2|Z2]; [lia|].
    inversion Hs; subst. repeat split; reflexivity.
Qed.
End Obs.

(* every operation on a handle whose close() returned Ok fails; with the repaired futures (F-35)
   so does the poll of an unregistered future created from it *)
Theorem rv_closed_handle_fails c s h hd :
  aget h (hs s) = Some hd -> h_closed hd = true ->
  (forall v s' r e, step c s (TrySend h v) = (s', r, e) -> r = OClosedV v \/ r = ONa) /\
  (forall v s' r e, step c s (Send h v) = (s', r, e) -> r = OClosed \/ r = ONa) /\
  (forall s' r e, step c s (TryRecv h) = (s', r, e) -> r = ODisc \/ r = ONa) /\
  (forall s' r e, step c s (Recv h) = (s', r, e) -> r = ODisc \/ r = ONa) /\
  (forall s' r e, step c s (RecvTimeout0 h) = (s', r, e) -> r = ODisc \/ r = ONa) /\
  (forall s' r e, step c s (Close h) = (s', r, e) -> r = OCloseErr /\ s' = s) /\
  (fix_fut c = true -> forall f w r0 s' r e,
     aget f (fs s) = Some r0 -> f_h r0 = h -> f_reg r0 = false ->
     step c s (Poll f w) = (s', r, e) ->
     s' = s /\ match f_side r0 with
               | Tx => r = OReadyClosed \/ (f_cell r0 = None /\ r = OReadyOk)
               | Rx => r = OReadyDisc
               end).
Proof.
  intros Hg Hc. unfold step, h_live_side, do_close. rewrite Hg.
  split; [|split; [|split; [|split; [|split; [|split]]]]].
  (* send and receive forms: the wrapper tests the side, the mode (blocking forms), then the closed
     flag, and only then enters the core *)
  1,2: intros v s' r e Hs. 3-5: intros s' r e Hs.
  1-5: destruct (h_side hd); try destruct (h_async hd); rewrite ?Hc in Hs; inversion Hs; auto.
  - (* close: the CAS on the flag fails *) intros s' r e Hs. rewrite Hc in Hs. inversion Hs; auto.
  - (* the repaired poll of an unregistered future reads the flag of its handle first *)
    intros Hf f w r0 s' r e Hg0 Hh Hr Hs. rewrite Hg0 in Hs. unfold poll_send, poll_recv, handle_closed in Hs.
    rewrite Hh, Hg, Hc, Hf, Hr in Hs. cbn [andb] in Hs.
    destruct (f_side r0); [destruct (f_cell r0)|]; inversion Hs; auto.
Qed.

Definition rv_closed_future_fails_full (c : cfg) : Prop :=
  forall a ops s tr, run c (init a) ops = (s, tr) ->
  forall f w r0 hd s' r e, aget f (fs s) = Some r0 -> f_reg r0 = false -> f_cell r0 <> None \/ f_side r0 = Rx ->
    aget (f_h r0) (hs s) = Some hd -> h_closed hd = true ->
    step c s (Poll f w) = (s', r, e) -> r = OReadyClosed \/ r = OReadyDisc.

Definition F35_witness : list op := [Close 0; MkSend 10 0 100].

Theorem rv_closed_future_fails_refuted_F35 c : fix_fut c = false -> ~ rv_closed_future_fails_full c.
Proof.
  intros Hf H. destruct c as [m t r x ff y]. cbn in Hf. subst ff.
  destruct (run (mkCfg m t r x false y) (init true) F35_witness) as [s tr] eqn:Hr.
  specialize (H true F35_witness s tr Hr). vm_compute in Hr. inversion Hr; subst. clear Hr.
  specialize (H 10 0 (mkF Tx 0 (Some 100) WAITING false 100 false) (mkH Tx true true)).
  edestruct H as [X|X]; try reflexivity; [left; discriminate| |]; discriminate.
Qed.

(** once no sender handle is open and no send is pending, the channel stays that way and nothing
    is handed off any more (so: after Disconnected, never a new value) *)
Definition dead (s : state) : Prop := scnt s = 0 /\ sq s = [].

Lemma dead_tx_closed s h hd :
  CE s -> dead s -> aget h (hs s) = Some hd -> h_side hd = Tx -> h_closed hd = true.
Proof.
  intros [C1 _] [D1 _] Hg Hsd. pose proof (nopen_ge Tx h (hs s) hd Hg) as G.
  unfold hopen in G. rewrite Hsd in G. destruct (h_closed hd); [reflexivity|lia].
Qed.

Ltac nohand := let v := fresh in let X := fresh in intros v X; cbn in X; intuition discriminate.

Lemma no_hand_wakes q v : ~ In (EHand v) (wakes_of q).
Proof. induction q as [|p t IH]; cbn; [tauto|]. intros [X|X]; [discriminate|exact (IH X)]. Qed.

(* the last receiver leaving a dead channel has no parked sender to disconnect *)
Lemma closes_dead s s' r e :
  dead s -> closes s Rx s' r e -> dead s' /\ (forall v, ~ In (EHand v) e) /\ (forall v, r <> OVal v).
Proof.
  intros [D1 D2] Hk. inversion Hk; subst; (split; [split; auto|split; [|discriminate]]); try nohand.
  intros v. apply no_hand_wakes.
Qed.

(* on a dead channel a send future that still holds its value was created from a closed handle, and
   the repaired poll refuses it *)
Lemma poll_dead c s f w r0 :
  WF s -> CE s -> dead s -> op_ok c s (Poll f w) ->
  aget f (fs s) = Some r0 -> f_side r0 = Tx -> f_reg r0 = false ->
  fix_fut c && handle_closed s (f_h r0) = false -> False.
Proof.
  intros W C D OK Hg Hsd Hr Hf.
  destruct (wf_fut _ _ _ _ W f r0 Hg) as [_ [hd [Hh Hhs]]].
  pose proof (dead_tx_closed s (f_h r0) hd C D Hh ltac:(congruence)) as Hcl.
  unfold handle_closed in Hf. rewrite Hh, Hcl in Hf. cbn in OK.
  destruct OK as [X|X]; [rewrite X in Hf; discriminate|]. specialize (X r0 Hg Hr).
  unfold handle_closed in X. rewrite Hh, Hcl in X. discriminate.
Qed.

Theorem step_dead c s o s' r e :
  WF s -> CE s -> op_ok c s o -> dead s -> step c s o = (s', r, e) ->
  dead s' /\ (forall v, ~ In (EHand v) e) /\ (forall v, r <> OVal v).
Proof.
  intros W C OK D Hs. apply step_inv in Hs. pose proof D as [D1 D2].
  assert (TX : forall h hd, h_live_side s h Tx = Some hd -> h_closed hd = true).
  { intros h hd Hl. apply h_live_side_Some in Hl. exact (dead_tx_closed s h hd C D (proj1 Hl) (proj2 Hl)). }
  destruct Hs; try (split; [exact D|split; [nohand|discriminate]]).
  - (* T_send_fail *) split; [exact D|]. destruct b; [|destruct Ho]; subst r; (split; [nohand|discriminate]).
  - (* T_handoff: no open sender *) rewrite (TX h hd Hl) in Hcl. discriminate.
  - (* T_recv_fail *) split; [exact D|]. destruct Ho; subst r; (split; [nohand|discriminate]).
  - (* T_take *) congruence.
  - (* T_close *)
    destruct (h_side hd) eqn:Hsd; [rewrite (dead_tx_closed s h hd C D Hh Hsd) in Hcl; discriminate|].
    exact (closes_dead (mark_closed s h) _ _ _ D Hk).
  - (* T_droph *)
    destruct (h_side hd) eqn:Hsd; [rewrite (dead_tx_closed s h hd C D Hh Hsd) in Hcl; discriminate|].
    destruct (closes_dead (mark_closed s h) _ _ _ D Hk) as [X [Y _]].
    split; [exact X|split; [exact Y|destruct r; discriminate]].
  - (* T_clone_open: a sender could only be cloned from a closed handle, which the repair forbids *)
    destruct (h_side hd) eqn:Hsd; [|split; [exact D|split; [nohand|discriminate]]]. exfalso.
    pose proof (dead_tx_closed s h hd C D Hh Hsd) as Hcl. rewrite Hcl in Hf.
    cbn in OK. unfold handle_closed in OK. rewrite Hh, Hcl in OK.
    destruct OK as [X|X]; [rewrite X in Hf|]; discriminate.
  - (* T_poll_same *) split; [exact D|]. destruct Ho as [->|[->| ->]]; (split; [nohand|discriminate]).
  - (* T_poll_handoff *) exfalso. eapply poll_dead; eauto.
  - (* T_park_tx *) exfalso. eapply poll_dead; eauto.
  - (* T_repoll_tx *) rewrite D2 in Hq. discriminate.
  - (* T_unreg *) split; [exact D|]. destruct (f_side r0); (split; [nohand|discriminate]).
  - (* T_dropf *) rewrite (drop_fut_state _ _ _ W Hg). split; [split; [exact D1|cbn; rewrite D2; reflexivity]|].
    split; [|discriminate]. intros v X. unfold drop_cell_ev in X.
    destruct (f_cell r0); [destruct (f_side r0)|]; cbn in X; intuition discriminate.
Qed.

Theorem run_dead c ops s s' tr :
  WF s -> CE s -> dead s -> run_sat op_ok c s ops -> run c s ops = (s', tr) ->
  dead s' /\ (forall v, ~ In (EHand v) (evs_of tr))
  /\ (forall o r e, In (o, r, e) tr -> forall v, r <> OVal v).
Proof.
  intros W C D OK Hr.
  destruct (run_sat_inv op_ok (fun s => CE s /\ dead s)
              (fun r e => (forall v, ~ In (EHand v) e) /\ (forall v, r <> OVal v)) c) with (5 := Hr)
    as [[_ D'] X]; auto.
  - intros s0 o s1 r e W0 [C0 D0] OK0 Hs.
    destruct (step_dead _ _ _ _ _ _ W0 C0 OK0 D0 Hs) as [D1 NH].
    destruct (step_CE _ _ _ _ _ _ W0 C0 (op_ok_conv _ _ _ OK0) Hs) as [C1 _]. auto.
  - split; [exact D'|split].
    + intros v Hi. unfold evs_of in Hi. apply in_flat_map in Hi. destruct Hi as [[[o r] e] [Hi He]].
      exact (proj1 (X o r e Hi) v He).
    + intros o r e Hi. exact (proj2 (X o r e Hi)).
Qed.

(* the full statement: from any reachable state with no open sender and no pending send, no history
   ever hands a value over again *)
Definition rv_dead_sticky_full (c : cfg) : Prop :=
  forall a ops1 s1 tr1 ops2 s2 tr2,
    run c (init a) ops1 = (s1, tr1) -> dead s1 -> run c s1 ops2 = (s2, tr2) ->
    forall v, ~ In (EHand v) (evs_of tr2).

Theorem rv_dead_sticky_except c a ops1 s1 tr1 ops2 s2 tr2 :
  run_sat conv_ok c (init a) ops1 -> run c (init a) ops1 = (s1, tr1) -> dead s1 ->
  run_sat op_ok c s1 ops2 -> run c s1 ops2 = (s2, tr2) ->
  dead s2 /\ (forall v, ~ In (EHand v) (evs_of tr2))
  /\ (forall o r e, In (o, r, e) tr2 -> forall v, r <> OVal v).
Proof.
  intros OK1 Hr1 D OK2 Hr2.
  destruct (run_CE c ops1 _ _ _ (WF_init a) (CE_init a) OK1 Hr1) as [C1 _].
  eapply run_dead; eauto. eapply run_WF; eauto. apply WF_init.
Qed.

Theorem rv_dead_sticky_fixed c :
  fix_conv c = true -> fix_fut c = true -> fix_clone c = true -> rv_dead_sticky_full c.
Proof.
  intros F1 F2 F3 a ops1 s1 tr1 ops2 s2 tr2 Hr1 D Hr2.
  eapply rv_dead_sticky_except; eauto; apply run_sat_fixed; intros s0 o; destruct o; cbn; auto.
Qed.

Theorem rv_dead_sticky_refuted_F35 c : fix_fut c = false -> ~ rv_dead_sticky_full c.
Proof.
  intros Hf H. destruct c as [m t r x ff y]. cbn in Hf. subst ff.
  destruct (run (mkCfg m t r x false y) (init true) [Close 0]) as [s1 tr1] eqn:Hr1.
  destruct (run (mkCfg m t r x false y) s1 [MkSend 10 0 100; Poll 10 0; TryRecv 1]) as [s2 tr2] eqn:Hr2.
  pose proof (fun D => H true _ s1 tr1 _ s2 tr2 Hr1 D Hr2 100) as H'. clear H.
  vm_compute in Hr1. inversion Hr1; subst. clear Hr1.
  specialize (H' ltac:(split; reflexivity)).
  vm_compute in Hr2. inversion Hr2; subst. apply H'. cbn. tauto.
Qed.

Theorem rv_dead_sticky_refuted_F34 c :
  fix_clone c = false -> tx_clone c = true -> ~ rv_dead_sticky_full c.
Proof.
  intros Hf Ht H. destruct c as [m t r x ff y]. cbn in Hf, Ht. subst y t.
  destruct (run (mkCfg m true r x ff false) (init true) [Close 0]) as [s1 tr1] eqn:Hr1.
  destruct (run (mkCfg m true r x ff false) s1 [Clone 0 2; MkSend 10 2 100; Poll 10 0; TryRecv 1])
    as [s2 tr2] eqn:Hr2.
  pose proof (fun D => H true _ s1 tr1 _ s2 tr2 Hr1 D Hr2 100) as H'. clear H.
  vm_compute in Hr1. inversion Hr1; subst. clear Hr1.
  specialize (H' ltac:(split; reflexivity)).
  destruct ff; vm_compute in Hr2; inversion Hr2; subst; apply H'; cbn; tauto.
Qed.

(** C03 (capacity 0): try_send succeeds exactly when it pairs with a parked receive *)
Theorem rv_try_send_ok_iff c s h v :
  snd (fst (step c s (TrySend h v))) = OOk <->
  exists hd, h_live_side s h Tx = Some hd /\ h_closed hd = false /\ rcnt s <> 0 /\ rq s <> [].
Proof.
  cbn [step]. destruct (h_live_side s h Tx) as [hd|].
  - destruct (h_closed hd) eqn:Hc.
    + cbn. split; [discriminate|]. intros [hd' [X [Y _]]]. inversion X; subst. congruence.
    + unfold core_send. destruct (N.eqb_spec (rcnt s) 0) as [Z|Z].
      * cbn. split; [discriminate|]. intros [hd' [_ [_ [Y _]]]]. congruence.
      * destruct (rq s) as [|[g w] rest]; cbn.
        -- split; [discriminate|]. intros [hd' [_ [_ [_ Y]]]]. congruence.
        -- split; [|reflexivity]. intros _. exists hd. repeat split; auto. discriminate.
  - cbn. split; [discriminate|]. intros [hd' [X _]]. discriminate.
Qed.

(* a successful try_send consumes exactly the oldest parked receive and fills its dest *)
Theorem rv_try_send_pairs c s h v s' e :
  step c s (TrySend h v) = (s', OOk, e) ->
  exists g w rest, rq s = (g, w) :: rest /\ rq s' = rest /\ sq s' = sq s
                   /\ fs s' = aupd g (fut_done (Some v)) (fs s)
                   /\ e = [EIntro v; EOffer v; EHand v; EAck v; EWake w].
Proof.
  cbn [step]. destruct (h_live_side s h Tx) as [hd|]; [|discriminate].
  destruct (h_closed hd); [discriminate|]. unfold core_send.
  destruct (N.eqb (rcnt s) 0); [discriminate|].
  destruct (rq s) as [|[g w] rest]; [discriminate|]. intros X. inversion X; subst.
  exists g, w, rest. repeat split; reflexivity.
Qed.

(* len / is_empty / is_full / capacity are the constants of a channel that never buffers *)
Theorem rv_observers c s h s' b l em fu cap e :
  step c s (Obs h) = (s', OObs b l em fu cap, e) ->
  l = 0 /\ em = true /\ fu = true /\ cap = 0 /\ s' = s /\
  exists hd, aget h (hs s) = Some hd /\
             b = match h_side hd with Tx => N.eqb (rcnt s) 0 | Rx => N.eqb (scnt s) 0 end.
Proof.
  cbn [step]. destruct (aget h (hs s)) as [hd|]; [|discriminate]. intros X. inversion X; subst.
  repeat split; auto. exists hd. split; reflexivity.
Qed.

(* after the last receiver is gone the first poll of a send future answers Closed; the payload stays in
   the future *)
Theorem rv_poll_send_after_last_rx c s f w r0 v :
  CE s -> nopen Rx (hs s) = 0 ->
  aget f (fs s) = Some r0 -> f_side r0 = Tx -> f_reg r0 = false -> f_cell r0 = Some v ->
  step c s (Poll f w) = (s, OReadyClosed, []).
Proof.
  intros [C1 C2] Hz Hg Hs Hr Hc. assert (Z : N.eqb (rcnt s) 0 = true) by (apply N.eqb_eq; lia).
  cbn [step]. rewrite Hg, Hs. unfold poll_send. rewrite Hr, Hc, Z.
  destruct (fix_fut c && handle_closed s (f_h r0)); reflexivity.
Qed.
