(* Proofs/OneshotK3Disc.v — the disconnect protocol of the K3 oneshot model: the invariant DInv, for all
   N, programs and schedules (Inv2_reachable).  Theorems here: Disconnected on the open receiver handle
   only after the last sender left (every cfg); with the repair of F-36 (fixA) only when everything
   written was already received.  The other statements of C04 are clauses of DInv, read off in
   Props/C04_k3oneshot.v: CLOSED only once one side is gone (d_k1), Closed(value) and channel-side drops
   only after receiver_dropped (d_e1, d_dr), no value after Disconnected (d_nv).  At the end: the witness
   schedules of F-36 for the code before the repair. *)
From Coq Require Import List Arith Bool Lia.
From Fibre Require Import Common.Conc Chan.OneshotK3 Proofs.OneshotK3Base Proofs.OneshotK3Life
     Proofs.OneshotK3Slot Proofs.OneshotK3Vals.
Import ListNotations.

(* no value is returned after Disconnected was reported (on the open handle) *)
Fixpoint nvad (seen : bool) (l : list rres) : bool :=
  match l with
  | [] => true
  | r :: t => negb (seen && is_val r) && nvad (seen || is_disc r) t
  end.

Lemma nvad_snoc b l x : nvad b (l ++ [x]) = nvad b l && negb ((b || existsb is_disc l) && is_val x).
Proof.
  revert b. induction l as [|r t IH]; intros b; cbn [app nvad existsb].
  - rewrite orb_false_r, andb_true_r. reflexivity.
  - rewrite IH. rewrite <- andb_assoc. rewrite orb_assoc. reflexivity.
Qed.

Lemma nvad_app_local b l l' : forallb is_local l' = true -> nvad b (l ++ l') = nvad b l.
Proof.
  revert l. induction l' as [|x t IH]; intros l H.
  - rewrite app_nil_r. reflexivity.
  - cbn in H. apply andb_prop in H. destruct H as [H1 H2].
    replace (l ++ x :: t) with ((l ++ [x]) ++ t) by (rewrite <- app_assoc; reflexivity).
    rewrite IH by exact H2. rewrite nvad_snoc.
    replace (is_val x) with false by (destruct x; cbn in *; congruence).
    rewrite andb_false_r. apply andb_true_r.
Qed.

Section Disc.
  Variable C : cfg.
  Variable n : nat.
  Variable sprog : nat -> sop.

  Notation inr := (inr n).
  Notation LInv := (LInv n).
  Notation GInv := (GInv n sprog).

  Definition rdz (p : rpc_t) : bool :=
    match p with CCas1 _ | CCas2 _ | CLock _ | CUnlock _ | RArc | RShLoad | RDone => true | _ => false end.
  Definition rdsz (p : spc_t) : bool := match p with DLock | SBack | DCas2 => true | _ => false end.

  (* try_recv between its winning CAS and the return of the value *)
  Definition rtkz (p : rpc_t) : bool := match p with TLock _ | TUnlock _ (Some _) => true | _ => false end.

  (* What each clause is there for.
     d_rc d_rd d_rds d_dr d_e1   everything that presupposes a receiver that is gone implies
                    receiver_dropped, which is never reset: the handle flag, the receiver's pcs after
                    the store, a sender that took a branch on the flag (SBack, DCas2, DLock), a value
                    destroyed by channel code, a Closed(value) result.
     d_k1           CLOSED is entered by the last sender, by the receiver after it read
                    sender_count = 0, or by the receiver's close: one side is gone.
     d_cnt          Disconnected on the open handle: the count was read as 0, or CLOSED was seen with
                    the receiver itself still there (d_k1 and open_rd).
     With the repair of F-36 only (under the old code they fail, see the end of the file):
     d_fin          Disconnected is answered in a final state, TAKEN or CLOSED: no send succeeds later;
     d_drain        and what was written has been returned by then (disc_drained);
     d_tk d_nv      a try_recv that won its CAS has not seen Disconnected, so no value is returned
                    after it. *)
  Record DInv (s : st) : Prop := mkDInv {
    d_rc : rclosed s = true -> rd s = true;
    d_rd : rdz (rpc s) = true -> rd s = true;
    d_rds : forall t, rdsz (spc s t) = true -> rd s = true;
    d_dr : drops s <> [] -> rd s = true;
    d_k1 : cs s = Closed -> cnt s = 0 \/ rd s = true;
    d_e1 : forall t, In (t, SClosedE) (slog s) -> rd s = true;
    d_cnt : dseen s = true -> cnt s = 0;
    d_tk : fixA C = true -> rtkz (rpc s) = true -> dseen s = false;
    d_nv : fixA C = true -> nvad false (rlog s) = true;
    d_fin : fixA C = true -> dseen s = true -> cs s = Taken \/ cs s = Closed;
    d_drain : fixA C = true -> dseen s = true -> wrote s = returned s
  }.

  Lemma DInv_init rp : DInv (init n rp).
  Proof.
    constructor; cbn; intros; try discriminate; try congruence; auto; try contradiction.
  Qed.

  (* when Disconnected is reported: the receiver is open, not a taker, nothing in hand *)
  Lemma disc_drained s :
    SInv s -> GInv s -> DInv s ->
    rd s = false -> rtaker (rpc s) = false -> inhand s = [] -> cs s <> Sent -> cs s <> Writing ->
    wrote s = returned s.
  Proof.
    intros V G D Rd Rt Ih Cs1 Cs2.
    pose proof (g_hand _ _ _ G) as E1. pose proof (g_cons _ _ _ G) as E2.
    rewrite Ih, app_nil_r in E1.
    assert (Dr : drops s = []).
    { destruct (drops s) eqn:E; [reflexivity|]. exfalso.
      assert (X : rd s = true) by (apply (d_dr _ D); rewrite E; discriminate).
      congruence. }
    assert (Sl : slot s = None).
    { destruct (slot s) eqn:E; [exfalso|reflexivity].
      destruct (cs s) eqn:Cs; try congruence.
      - rewrite (v_ec _ V (or_introl Cs)) in E. discriminate.
      - destruct (v_tk3 _ V Cs) as [X|[t X]]; [rewrite E; discriminate|congruence|].
        assert (rd s = true) by (apply (d_rds _ D t); rewrite X; reflexivity). congruence.
      - rewrite (v_ec _ V (or_intror Cs)) in E. discriminate. }
    unfold dropped, slot_l in E2. rewrite Dr, Sl in E2. cbn in E2. rewrite app_nil_r in E2. congruence.
  Qed.

  Ltac logs :=
    rewrite ?existsb_app, ?flat_map_app, ?nvad_snoc;
    try match goal with Hl : forallb is_local ?l = true |- _ =>
          rewrite ?(local_nodisc l Hl), ?(local_noval l Hl), ?(nvad_app_local false _ l Hl) end;
    cbn [existsb is_disc is_val flat_map rres_val app orb andb negb];
    rewrite ?orb_false_r, ?orb_true_r, ?andb_false_r, ?app_nil_r; cbn [negb]; rewrite ?andb_true_r.

  Lemma DInv_rstep s s' e : LInv s -> SInv s -> GInv s -> DInv s -> rstep C s = Some (s', e) -> DInv s'.
  Proof.
    intros L V G D H. apply (rstep_inv C s s' e (l_tcas _ _ L) (l_unr _ _ L)) in H.
    pose proof (disc_drained s V G D) as Hdd. pose proof (open_rd n s L) as Rf. unfold returned, inhand in Hdd.
    remember (rpc s) as p eqn:Epc in H. pose proof (rstep_dead s p V Epc) as Dd.
    pose proof (d_rd _ D) as Ard. pose proof (d_tk _ D) as Atu.
    pose proof (l_open _ _ L) as Rc. pose proof (l_abs _ _ L) as Aabs. pose proof (l_tcas _ _ L) as Atcas.
    pose proof (l_tclose _ _ L) as Atc.
    rewrite <- Epc in Hdd, Rf, Ard, Atu, Rc, Aabs, Atcas, Atc.
    constructor.
    - rcasesV H Dd; try exact (d_rc _ D); intros _; reflexivity.
    - rcasesV H Dd; try exact (d_rd _ D); intros X;
        first [discriminate X | reflexivity | exact (Ard eq_refl) | apply (d_rc _ D); assumption].
    - rcasesV H Dd; try exact (d_rds _ D); intros u X; reflexivity.
    - rcasesV H Dd; try exact (d_dr _ D); intros _; first [reflexivity | exact (Ard eq_refl)].
    - rcasesV H Dd; try exact (d_k1 _ D); intros X; try discriminate X;
        first [ right; reflexivity | right; exact (Ard eq_refl) | left; apply Atc; eauto ].
    - rcasesV H Dd; try exact (d_e1 _ D); intros u X; reflexivity.
    - unfold dseen. rcasesV H Dd; logs; try exact (d_cnt _ D); intros _;
        first [ assumption | apply Atc; solve [eauto]
              | destruct (d_k1 _ D ltac:(assumption)) as [Z|Z]; [exact Z|];
                rewrite Rf in Z by first [assumption | exact (Rc eq_refl) | reflexivity]; discriminate Z ].
    - unfold dseen. rcasesV H Dd; logs; try exact (d_tk _ D); intros F X;
        first [ discriminate X | exact (Atu F eq_refl)
              | destruct (dseen s) eqn:E; [|exact E]; pose proof (Atcas _ eq_refl); destruct (d_fin _ D F E); congruence ].
    - unfold dseen in Atu. rcasesV H Dd; logs; try exact (d_nv _ D); intros F;
        try (rewrite (Atu F eq_refl); cbn [andb negb]; rewrite andb_true_r); exact (d_nv _ D F).
    - unfold dseen. rcasesV H Dd; logs; try exact (d_fin _ D); intros F X;
        first [ right; reflexivity | right; assumption | exact (Aabs eq_refl)
              | exfalso; destruct (d_fin _ D F X); congruence
              | match goal with K : fixA C = false \/ _ |- _ => destruct K as [K|K]; [congruence|right; exact K] end ].
    (* a value is only returned before Disconnected (Atu); Disconnected is reported from a drained state *)
    - unfold dseen, returned. unfold dseen in Atu. rcasesV H Dd; logs; try exact (d_drain _ D); intros F X;
        first [ exfalso; rewrite (Atu F eq_refl) in X; discriminate X | idtac ];
        try (destruct (Aabs eq_refl) as [K|K]);
        try match goal with K : _ \/ _ |- _ => destruct K as [K|K] end;
        (apply Hdd; [apply Rf; first [assumption | exact (Rc eq_refl) | reflexivity]|..]);
        first [reflexivity | congruence].
  Qed.

  Lemma DInv_sstep s t s' e :
    inr t -> LInv s -> SInv s -> GInv s -> DInv s -> sstep sprog s t = Some (s', e) -> DInv s'.
  Proof.
    intros Rt L V G D H. apply (sstep_inv sprog) in H. remember (spc s t) as p eqn:Epc in H.
    pose proof (d_rds _ D t) as At. pose proof (l_w1 _ _ L t) as Aw. rewrite <- Epc in At, Aw.
    constructor.
    - scases H; exact (d_rc _ D).
    - scases H; exact (d_rd _ D).
    - intros u. scases H; try exact (d_rds _ D u);
        (thr u t N; [|exact (d_rds _ D u)]); intros X;
        first [discriminate X | assumption | exact (At eq_refl)].
    - scases H; try exact (d_dr _ D); intros _; first [exact (At eq_refl) | apply (d_rd _ D)];
        pose proof (arc0_rel n s L (l_sh2a _ _ L t (eq_sym Epc))) as [X _]; destruct (rpc s); try discriminate X; reflexivity.
    - scases H; try exact (d_k1 _ D); intros X; try discriminate X;
        try (destruct (d_k1 _ D X) as [Z|Z]; [left; rewrite Z; reflexivity|right; exact Z]).
      left. apply (l_last _ _ L t). rewrite <- Epc. reflexivity.
    - intros u. scases H; try exact (d_e1 _ D u); intros X; apply in_app_iff in X;
        (destruct X as [X|[X|[]]]; [exact (d_e1 _ D u X)|]); try discriminate X;
        first [assumption | exact (At eq_refl)].
    - scases H; try exact (d_cnt _ D); intros X; rewrite (d_cnt _ D X); reflexivity.
    - scases H; exact (d_tk _ D).
    - scases H; exact (d_nv _ D).
    (* after Disconnected the state is terminal: no sender step changes it or writes *)
    - scases H; try exact (d_fin _ D); intros F X; exfalso;
        try specialize (Aw eq_refl); destruct (d_fin _ D F X); congruence.
    - scases H; try exact (d_drain _ D); intros F X; exfalso;
        specialize (Aw eq_refl); destruct (d_fin _ D F X); congruence.
  Qed.

  Definition Inv2 (s : st) : Prop := Inv1 n sprog s /\ DInv s.

  Theorem Inv2_reachable rp s : reachable (sys C n sprog rp) s -> Inv2 s.
  Proof.
    intros R. split; [exact (Inv1_reachable C n sprog rp s R)|]. revert s R.
    apply (lift_over C n sprog rp (Inv1 n sprog)).
    - apply Inv1_reachable.
    - apply DInv_init.
    - intros s s' e [L [V G]]. apply DInv_rstep; assumption.
    - intros s t s' e Rt [L [V G]]. apply DInv_sstep; assumption.
  Qed.

  (* what these claim in terms of the channel: at their statements on runs, Props/C04_k3oneshot.v *)
  Section Thms.
    Variable rp : list rop.
    Variable s : st.
    Hypothesis R : reachable (sys C n sprog rp) s.

    Theorem k3_disc_after_last_sender :
      dseen s = true -> cnt s = 0 /\ forall t, inr t -> pre_fsub (spc s t) = false.
    Proof.
      destruct (Inv2_reachable rp s R) as [[L _] D]. intros H.
      pose proof (d_cnt _ D H) as Z. split; [exact Z|].
      intros t Ht. rewrite (l_cnt _ _ L) in Z. exact (cntf_zero _ _ Z t Ht).
    Qed.

    Theorem k3_disc_drained :
      fixA C = true -> dseen s = true ->
      wrote s = returned s /\ (cs s = Taken \/ cs s = Closed) /\ incl (oks s) (returned s).
    Proof.
      destruct (Inv2_reachable rp s R) as [[_ [_ G]] D]. intros F H.
      pose proof (d_drain _ D F H) as E. split; [exact E|split; [exact (d_fin _ D F H)|]].
      intros x Hx. rewrite <- E. apply (g_oks _ _ _ G x Hx).
    Qed.
  End Thms.
End Disc.

(* the code before the repair (cfg 0):
   F-36-oneshot.  try_recv loads state == EMPTY, the only sender sends its value and leaves
   (sender_count 1 -> 0), try_recv loads sender_count == 0, ignores the failed CAS EMPTY->CLOSED and
   reports Disconnected; the next try_recv returns the value. *)
Definition cfg0 : cfg := mkCfg false false.
Definition sys_f36 : system := sys cfg0 1 (fun _ => SSend) [RTry; RTry].
Definition sch_f36 : list (nat * unit) :=
  map (fun t => (t, tt)) ([0] ++ repeat 1 13 ++ [0; 0] ++ [0; 0; 0; 0]).
Definition st_f36 : st := fst (run sys_f36 (Conc.init sys_f36) sch_f36).

Lemma f36_witness :
  rlog st_f36 = [RDisc; RVal 1] /\ oks st_f36 = [1] /\ slog st_f36 = [(1, SOk)] /\ nvad false (rlog st_f36) = false.
Proof. vm_compute. repeat split. Qed.

Lemma f36_reachable : reachable sys_f36 st_f36.
Proof. exists sch_f36. unfold st_f36. reflexivity. Qed.

(* the pending value is reported Disconnected while it sits in the slot (state SENT) *)
Definition sch_f36a : list (nat * unit) := map (fun t => (t, tt)) ([0] ++ repeat 1 13 ++ [0; 0]).
Definition st_f36a : st := fst (run sys_f36 (Conc.init sys_f36) sch_f36a).
Lemma f36a_witness :
  dseen st_f36a = true /\ cs st_f36a = Sent /\ slot st_f36a = Some 1 /\ oks st_f36a = [1] /\ returned st_f36a = [].
Proof. vm_compute. repeat split. Qed.
Lemma f36a_reachable : reachable sys_f36 st_f36a.
Proof. exists sch_f36a. unfold st_f36a. reflexivity. Qed.

Theorem k3_disc_full_refuted_cfg0 :
  ~ (forall n sprog rp s, reachable (sys cfg0 n sprog rp) s ->
       nvad false (rlog s) = true /\ (dseen s = true -> incl (oks s) (returned s))).
Proof.
  intros H. destruct (H 1 (fun _ => SSend) [RTry; RTry] st_f36 f36_reachable) as [X _].
  destruct f36_witness as [_ [_ [_ Y]]]. rewrite X in Y. discriminate Y.
Qed.
