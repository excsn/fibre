(* Proofs/RvK3Queue.v — queue invariant of the K3' rendezvous model (cancel CAS under the lock):
   records are linked exactly while their owner's frame is live and its state is WAITING. *)
From Coq Require Import List NArith Arith Bool Lia.
From Fibre Require Import Common.Lists Common.Conc Chan.RvK3 Proofs.RvK3Base.
Import ListNotations.

(* relation of a pc to the two queues: L = the frame is registered and may be linked,
   X = the frame is registered, its owner has seen (or caused) a terminal state *)
Inductive qk := QLS | QXS | QLR | QXR | QN.
Definition qrel (p : pc) : qk :=
  match p with
  | SUnl _ SUParked | SWait | SPark => QLS
  | SFinal => QXS
  | RUnl _ RUParked | RWait | RPark | RtLoad | RtDec | CLock | CCas => QLR
  | RFinal _ | CUnl _ => QXR
  | _ => QN
  end.

(* every pc, with the outcome a section's unlock carries told apart: the classifications of pcs
   (qrel, live, midop, committed, ...) are decided by exactly that *)
Ltac pc_cases p :=
  destruct p; repeat match goal with o : sun |- _ => destruct o | o : run_ |- _ => destruct o end.

Definition qok (s : st) (u : nat) : Prop :=
  match qrel (pcs s u) with
  | QLS => (In u (sq s) <-> wstate s u = W) /\ ~ In u (rq s)
  | QXS => ~ In u (sq s) /\ ~ In u (rq s) /\ wstate s u <> W
  | QLR => (In u (rq s) <-> wstate s u = W) /\ ~ In u (sq s)
  | QXR => ~ In u (rq s) /\ ~ In u (sq s) /\ wstate s u <> W
  | QN => ~ In u (sq s) /\ ~ In u (rq s)
  end.

(* a thread about to pop the head of a queue finds one *)
Definition qfront (cfg : list tcfg) (s : st) (u : nat) : Prop :=
  match pcs s u with
  | SFul _ => rq s <> []
  | RFul _ => sq s <> []
  | DDisc _ => (if is_sender cfg u then rq s else sq s) <> []
  | _ => True
  end.

Record QInv (cfg : list tcfg) (s : st) : Prop := {
  Q_nds : NoDup (sq s);
  Q_ndr : NoDup (rq s);
  Q_x : sq s = [] \/ rq s = [];
  Q_ok : forall u, qok s u;
  Q_front : forall u, qfront cfg s u
}.

Lemma QInv_init cfg : QInv cfg (init cfg).
Proof.
  split; cbn.
  - constructor.
  - constructor.
  - left. reflexivity.
  - intros u. unfold qok. cbn. tauto.
  - intros u. exact I.
Qed.

Lemma pop_facts (l : list nat) n v :
  NoDup l -> l = n :: v -> NoDup v /\ In n l /\ forall u, In u v <-> In u l /\ u <> n.
Proof.
  intros N ->. apply NoDup_cons_iff in N. destruct N as [N1 N2]. split; [exact N2|]. split; [left; reflexivity|].
  intros u. cbn [In]. split.
  - intros H. split; [right; exact H|]. intros ->. contradiction.
  - intros [[->|H] H2]; [contradiction|exact H].
Qed.

(* a step that leaves the queues and every state alone, and takes t to a pc that fits them *)
Lemma QInv_frame cfg s s' t :
  QInv cfg s -> sq s' = sq s -> rq s' = rq s -> wstate s' = wstate s ->
  (forall u, u <> t -> pcs s' u = pcs s u) -> qok s' t -> qfront cfg s' t -> QInv cfg s'.
Proof.
  intros [N1 N2 X Qo Qf] Hs Hr Hw Hp Ht Ft. split; rewrite ?Hs, ?Hr; try assumption.
  - intros u. destruct (Nat.eq_dec u t) as [->|Hu]; [exact Ht|].
    specialize (Qo u). unfold qok in *. rewrite Hs, Hr, Hw, (Hp u Hu). exact Qo.
  - intros u. destruct (Nat.eq_dec u t) as [->|Hu]; [exact Ft|].
    specialize (Qf u). unfold qfront in *. rewrite Hs, Hr, (Hp u Hu). exact Qf.
Qed.

(* only the lock holder stands at a pc that pops *)
Lemma qfront_other cfg s s' u :
  LockInv cfg s -> lock s <> Some u -> pcs s' u = pcs s u -> qfront cfg s' u.
Proof.
  intros LI Hl Hp. unfold qfront. rewrite Hp. destruct (holds (pcs s u)) eqn:Eh.
  - apply (L_hold _ _ LI) in Eh. contradiction.
  - destruct (pcs s u); try exact I; discriminate Eh.
Qed.

(* the lock holder pops the head n of a queue and publishes n's terminal state w *)
Lemma QInv_pop cfg s s' t n w p' :
  LockInv cfg s -> QInv cfg s -> lock s = Some t ->
  sq s = n :: sq s' /\ rq s' = rq s \/ rq s = n :: rq s' /\ sq s' = sq s ->
  wstate s' = upd (wstate s) n w -> w <> W -> pcs s' = upd (pcs s) t p' ->
  qrel (pcs s t) = QN -> qrel p' = QN -> qfront cfg s' t -> QInv cfg s'.
Proof.
  intros LI [N1 N2 Hx Qo Qf] Hl Hq Hw Hw' Hp Kt Kp Ft.
  assert (Hv : NoDup (sq s') /\ NoDup (rq s') /\ (sq s' = [] \/ rq s' = []) /\ n <> t /\
               (qrel (pcs s n) = QLS \/ qrel (pcs s n) = QLR) /\
               forall u, (In u (sq s') <-> In u (sq s) /\ u <> n) /\ (In u (rq s') <-> In u (rq s) /\ u <> n)).
  { pose proof (Qo n) as Qn. pose proof (Qo t) as Qt. unfold qok in Qn, Qt. rewrite Kt in Qt.
    destruct Hq as [[E E']|[E E']]; rewrite E';
      [ destruct (pop_facts _ _ _ N1 E) as (Nv & Hn & Hv) | destruct (pop_facts _ _ _ N2 E) as (Nv & Hn & Hv) ];
      rewrite E in Hx; destruct Hx as [Hx|Hx]; try discriminate Hx; rewrite Hx in *;
      repeat split; try assumption; try tauto; try (apply Hv; assumption); try (intros ->; tauto);
      destruct (qrel (pcs s n)); cbn [In] in Qn; tauto. }
  destruct Hv as (M1 & M2 & Mx & Hnt & Kn & Hv). split; try assumption.
  - intros u. pose proof (Qo u) as Qu. destruct (Hv u) as [Hs Hr]. unfold qok in *. rewrite Hp, Hw.
    destruct (Nat.eq_dec u t) as [->|Hut]; [rewrite upd_eq | rewrite upd_neq by exact Hut].
    + rewrite Kp. rewrite Kt in Qu. clear - Qu Hs Hr. tauto.
    + destruct (Nat.eq_dec u n) as [->|Hun]; [rewrite upd_eq | rewrite upd_neq by exact Hun].
      * clear - Qu Hs Hr Kn Hw'. destruct Kn as [-> | ->]; tauto.
      * clear - Qu Hs Hr Hun. destruct (qrel (pcs s u)); tauto.
  - intros u. destruct (Nat.eq_dec u t) as [->|Hu]; [exact Ft|].
    apply qfront_other with (s := s); [exact LI | congruence | rewrite Hp; apply upd_neq; exact Hu].
Qed.

Lemma QInv_step cfg s t c s' e :
  LockInv cfg s -> QInv cfg s -> step true cfg s t c = Some (s', e) -> QInv cfg s'.
Proof.
  intros LI QI H. pose proof (Q_ok _ _ QI t) as Qt. unfold qok in Qt.
  step_rules H (L_x _ _ LI t); rewrite Epc in Qt; cbn [qrel] in Qt.
  all: try solve [ apply QInv_frame with (s := s) (t := t); try assumption; try reflexivity;
    [ intros u Hu; fsimpl; apply upd_neq; exact Hu
    | unfold qok; fsimpl; rewrite upd_eq; cbn [qrel]; tauto
    | unfold qfront; fsimpl; rewrite upd_eq; try exact I; unfold is_sender; rewrite ?Er; assumption ] ].
  all: assert (Hl : holds (pcs s t) = true -> lock s = Some t) by apply (L_hold _ _ LI).
  (* a thread links its own record: the other queue is empty *)
  1, 2: destruct QI as [N1 N2 Hx Qo Qf]; split; fsimpl; try assumption;
    [ apply NoDup_snoc; tauto
    | tauto
    | intros u; pose proof (Qo u) as Qu; unfold qok in *; fsimpl; split_thr u t;
      [ cbn [qrel]; rewrite In_app_single; tauto
      | clear - Qu n; destruct (qrel (pcs s u)); rewrite In_app_single; tauto ]
    | intros u; destruct (Nat.eq_dec u t) as [->|Hu];
      [ unfold qfront; fsimpl; rewrite upd_eq; exact I
      | apply qfront_other with (s := s); [exact LI | congruence | apply upd_neq; exact Hu] ] ].
  (* fulfill_* and the disconnect loop pop the head of a queue *)
  1-6: rewrite Epc in Hl; eapply QInv_pop with (s := s) (t := t);
    [ exact LI | exact QI | apply Hl; reflexivity
    | first [left; split; [eassumption|reflexivity] | right; split; [eassumption|reflexivity]]
    | reflexivity | discriminate | reflexivity | rewrite Epc; reflexivity | reflexivity
    | unfold qfront; fsimpl; rewrite upd_eq; try exact I; unfold is_sender; rewrite Er; discriminate ].
  (* cancel_receiver: CAS WAITING -> CANCELLED and unlink, under the lock *)
  rewrite Epc in Hl. destruct QI as [N1 N2 Hx Qo Qf]. split; fsimpl; try assumption.
  - apply rem_NoDup. assumption.
  - destruct Hx as [Hx|Hx]; [left; assumption|right]. rewrite Hx. reflexivity.
  - intros u. pose proof (Qo u) as Qu. unfold qok in *. fsimpl. split_thr u t.
    + cbn [qrel]. rewrite rem_In. intuition congruence.
    + clear - Qu n. destruct (qrel (pcs s u)); rewrite rem_In; tauto.
  - intros u. destruct (Nat.eq_dec u t) as [->|Hu]; [unfold qfront; fsimpl; rewrite upd_eq; exact I|].
    apply qfront_other with (s := s); [exact LI | rewrite Hl by reflexivity; congruence | apply upd_neq; exact Hu].
Qed.
