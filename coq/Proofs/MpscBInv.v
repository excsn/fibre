(* Proofs/MpscBInv.v — FIFO (G2) and conservation (G3) invariants of the bounded-MPSC K2 model,
   and the lifting of all invariants to every reachable state. *)
From Fibre Require Import Common.Base Chan.MpscB Proofs.MpscBBase.
From Coq Require Import ZifyBool ZifyNat ZifyN.
Ltac Zify.zify_post_hook ::= Z.div_mod_to_equations.

(** * C02: FIFO invariant *)

Lemma is_nil_true {A} (l : list A) : is_nil l = true -> l = [].
Proof. destruct l; [reflexivity | discriminate]. Qed.

Lemma exec_G2 s o : GS s -> G2 s -> G2 (fst (exec s o)).
Proof.
  intros (N1&N2&FO&RO&SC&RL) [E D]. destruct o; symex; try (split; assumption).
  all: assert (QD : qdrp s = []) by
    (destruct (qdrp s) eqn:EQ; [reflexivity|]; exfalso;
     assert (HE : hs s = []) by (apply D; discriminate);
     repeat match goal with
     | H : aget _ (fs _) = Some _ |- _ => apply FO in H; destruct H as (?&H&_)
     end;
     match goal with H : aget _ (hs _) = Some _ |- _ => rewrite HE in H; discriminate H end).
  all: unfold G2; cb; rewrite ?QD, ?app_nil_r in *.
  all: split; [| intros HN; try congruence; try (apply is_nil_true; assumption)].
  all: repeat match goal with H : _ /\ _ |- _ => destruct H end.
  all: repeat match goal with
       | H : q _ = _ |- _ => rewrite H in *; clear H
       | H : rcv _ = _ |- _ => rewrite H in *; clear H
       end.
  all: rewrite ?E, <- ?app_assoc; cbn [app]; rewrite ?app_nil_r; try reflexivity.
Qed.

(** * C01/C09: conservation (counting form) *)

Lemma cnt_app v a b : cnt v (a ++ b) = (cnt v a + cnt v b)%nat.
Proof. apply count_occ_app. Qed.

Lemma cnt_cons v x l : cnt v (x :: l) = ((if N.eq_dec x v then 1 else 0) + cnt v l)%nat.
Proof. unfold cnt. cbn [count_occ]. destruct (N.eq_dec x v); reflexivity. Qed.

Lemma cnt_nil v : cnt v [] = 0%nat.
Proof. reflexivity. Qed.

Lemma cnt_split v k l : cnt v l = (cnt v (firstn k l) + cnt v (skipn k l))%nat.
Proof. rewrite <- cnt_app, firstn_skipn. reflexivity. Qed.

Lemma cnt_notin v l : ~ In v l -> cnt v l = 0%nat.
Proof. apply count_occ_not_In. Qed.

Lemma nodupb_cnt l : nodupb l = true -> forall v, (cnt v l <= 1)%nat.
Proof.
  induction l as [|x t IH]; cbn [nodupb]; intros H v; [cbn; lia|].
  apply andb_true_iff in H. destruct H as [H1 H2]. apply negb_true_iff, mem_false_In in H1.
  rewrite cnt_cons. specialize (IH H2 v). destruct (N.eq_dec x v) as [->|]; [|lia].
  rewrite (cnt_notin v t H1). lia.
Qed.

Lemma fresh_cnt vs s : fresh vs s = true ->
  forall v, (cnt v vs <= 1)%nat /\ ((1 <= cnt v vs)%nat -> cnt v (used s) = 0%nat).
Proof.
  unfold fresh. intros H v. apply andb_true_iff in H. destruct H as [H1 H2].
  split; [apply nodupb_cnt; exact H2|]. intros Hc.
  assert (Hin : In v vs) by (apply (count_occ_In N.eq_dec); unfold cnt in Hc; lia).
  rewrite forallb_forall in H1. specialize (H1 v Hin). apply negb_true_iff, mem_false_In in H1.
  apply cnt_notin. exact H1.
Qed.

Lemma fitems_cons f fr l : fitems ((f, fr) :: l) = kitems (fk fr) ++ fitems l.
Proof. reflexivity. Qed.

Lemma fitems_adel f l fr : NoDup (keysN l) -> aget f l = Some fr ->
  forall v, cnt v (fitems l) = (cnt v (kitems (fk fr)) + cnt v (fitems (adel f l)))%nat.
Proof.
  induction l as [|[k x] t IH]; cbn [keysN map fst aget adel]; intros Hnd Hg v; [discriminate|].
  inversion Hnd as [|? ? Hni Hnd']; subst.
  destruct (N.eqb_spec f k) as [->|Hn].
  - inversion Hg; subst. rewrite fitems_cons, cnt_app.
    rewrite (adel_id k t) by (apply aget_None_keys; exact Hni). reflexivity.
  - rewrite !fitems_cons, !cnt_app. rewrite (IH Hnd' Hg v). lia.
Qed.

Ltac g3leaf C U N2 :=
  let v0 := fresh "x" in
  intros v0; specialize (C v0); specialize (U v0); bools;
  repeat match goal with
  | H : fresh ?vs ?s0 = true |- _ => apply fresh_cnt with (v := v0) in H; cbh
  | H : aget ?f (fs ?s0) = Some ?fr |- _ =>
      lazymatch goal with
      | K : cnt v0 (fitems (fs s0)) = _ |- _ => fail
      | _ => pose proof (fitems_adel f (fs s0) fr N2 H v0)
      end
  | H : aget ?f (fs ?s0) = None |- _ => rewrite (adel_id f (fs s0) H) in *
  end;
  repeat match goal with H : _ /\ _ |- _ => destruct H end;
  repeat match goal with
  | H : is_nil ?l = true |- _ => apply is_nil_true in H
  end;
  repeat match goal with
  | |- context [firstn ?k ?l] =>
      lazymatch goal with K : cnt v0 l = _ |- _ => fail | _ => pose proof (cnt_split v0 k l) end
  | |- context [skipn ?k ?l] =>
      lazymatch goal with K : cnt v0 l = _ |- _ => fail | _ => pose proof (cnt_split v0 k l) end
  | H : context [firstn ?k ?l] |- _ =>
      lazymatch goal with K : cnt v0 l = _ |- _ => fail | _ => pose proof (cnt_split v0 k l) end
  | H : context [skipn ?k ?l] |- _ =>
      lazymatch goal with K : cnt v0 l = _ |- _ => fail | _ => pose proof (cnt_split v0 k l) end
  end;
  repeat match goal with
  | H : firstn _ _ = [] |- _ => rewrite H in *; clear H
  | H : skipn _ _ = [] |- _ => rewrite H in *; clear H
  end;
  repeat match goal with
  | H : q _ = _ |- _ => rewrite H in *; clear H
  | H : rcv _ = _ |- _ => rewrite H in *; clear H
  | H : fk _ = _ |- _ => rewrite H in *
  end;
  cbn [fk fh kitems] in *; rewrite ?cnt_app in *; cbn [kitems] in *; rewrite ?cnt_cons, ?cnt_nil in *;
  repeat match goal with
  | |- context [N.eq_dec ?a ?b] => destruct (N.eq_dec a b)
  | H : context [N.eq_dec ?a ?b] |- _ => destruct (N.eq_dec a b)
  end;
  try lia.

Lemma exec_G3 s o : GS s -> G3 s -> G3 (fst (exec s o)).
Proof.
  intros (N1&N2&FO&RO&SC&RL) [C U]. destruct o; symex; try (split; assumption).
  all: unfold G3, held in *; cb; unfold aset; rewrite ?fitems_cons.
  all: split; [|try exact U]; g3leaf C U N2.
Qed.

Lemma step_fst s o : fst (step s o) = fst (exec (clear_ev s) o).
Proof. unfold step, clear_ev. destruct (exec (set_evd (set_evw s []) []) o). reflexivity. Qed.

Lemma exec_Inv s o : Inv s -> Inv (fst (exec s o)).
Proof.
  intros (A&B&C&D). split; [apply (exec_G1 s o A)|]. split; [apply (exec_GS s o B)|].
  split; [apply (exec_G2 s o B C) | apply (exec_G3 s o B D)].
Qed.

Lemma step_Inv s o : Inv s -> Inv (fst (step s o)).
(* [clear_ev] only empties the event logs, which [Inv] does not read *)
Proof. intros H. rewrite step_fst. exact (exec_Inv (clear_ev s) o H). Qed.

Lemma run_fst_cons s o t : fst (run s (o :: t)) = fst (run (fst (step s o)) t).
Proof.
  cbn [run]. destruct (step s o) as [s1 x]. cbn [fst]. destruct (run s1 t). reflexivity.
Qed.

Lemma run_Inv ops : forall s, Inv s -> Inv (final s ops).
Proof.
  unfold final. induction ops as [|o t IH]; intros s H; [exact H|].
  rewrite run_fst_cons. apply IH, step_Inv, H.
Qed.

Lemma init_Inv a c f03 fcl : Inv (init a c f03 fcl).
Proof.
  unfold Inv, G1, GS, G2, G3, held, init, fut_ok, rx_one, rx_live, open_tx, isopen. cb.
  cbn [keysN map fst aget filter snd htx hclosed andb negb fitems flat_map app].
  repeat split; try lia; try discriminate; try (cbn; lia).
  - repeat constructor; cbn; intuition discriminate.
  - constructor.
  - intros h r. destruct (N.eqb_spec h 0) as [->|N0]; [intros E; inversion E; subst; cbn; discriminate|].
    destruct (N.eqb_spec h 1); [auto | discriminate].
  - intros _. eexists. split; [reflexivity|]. split; reflexivity.
  - intros H. exfalso. apply H. reflexivity.
Qed.

Theorem reach_Inv a c f03 fcl ops : Inv (final (init a c f03 fcl) ops).
Proof. apply run_Inv, init_Inv. Qed.
