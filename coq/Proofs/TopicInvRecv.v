(* Proofs/TopicInvRecv.v — invariant preservation: receive forms, futures, observers, conversions. *)
From Fibre Require Import Common.Base Chan.TopicOps Chan.TopicSpec Proofs.TopicLemmas Proofs.TopicInv.

Lemma msg_eqb_refl m : msg_eqb m m = true.
Proof. unfold msg_eqb. rewrite !N.eqb_refl. reflexivity. Qed.

Lemma msg_eqb_eq a b : msg_eqb a b = true -> a = b.
Proof.
  unfold msg_eqb. destruct a, b. cbn. intros H. apply andb_true_iff in H. destruct H as [H1 H2].
  apply N.eqb_eq in H1. apply N.eqb_eq in H2. subst. reflexivity.
Qed.

(* the model pops/changes the mailbox content, the reference changes its queue and logs *)
Lemma rel_rx_change_q c ls da ao sgb x y m' q' got' :
  rel_rx c ls da ao sgb x y ->
  m_cap m' = m_cap (r_mb x) -> m_disc m' = m_disc (r_mb x) -> m_dropped m' = m_dropped (r_mb x) ->
  (good c y = true -> m_buf m' = q') ->
  rel_rx c ls da ao sgb (rx_set_mb x m')
    {| s_id := s_id y; s_live := s_live y; s_closed := s_closed y; s_subs := s_subs y; s_q := q';
       s_cap := s_cap y; s_full := s_full y; s_exp := s_exp y; s_got := got'; s_reach := s_reach y |}.
Proof.
  intros HR Hc Hd Hdr Hq. destruct HR. constructor; cbn; rewrite ?Hc, ?Hd; auto.
  intros Hl Hg. split; [apply Hq; exact Hg|]. rewrite Hdr. apply rr_buf; assumption.
Qed.

(* the three ways in which a receive form says "nothing there" *)
Definition nothing (rs : res) : Prop := rs = REmpty \/ rs = RTimeout \/ rs = RPending.

Lemma sp_recv_nothing sp r rs : nothing rs -> sp_recv sp r rs = sp_recv sp r REmpty.
Proof. intros [->|[->| ->]]; reflexivity. Qed.

Lemma recv_core_ok c s sp r x none reg s1 rs w sp1 vs :
  Inv c s sp -> live_rx r s = Some x ->
  nothing none \/ (none = RDisc /\ r_closed x = true) ->
  recv_core r x none reg s = (s1, (rs, w)) ->
  sp_recv sp r rs = (sp1, vs) ->
  Inv c s1 sp1 /\ vs_ok c sp vs.
Proof.
  intros I Hl Hnone Hrc Hsp.
  apply live_rx_spec in Hl. destruct Hl as [Hx Hlive].
  destruct (pair_rx _ _ _ _ _ I Hx) as [y [Hy [Hinx [Hiny HR]]]].
  unfold recv_core, mb_pop in Hrc.
  destruct (m_buf (r_mb x)) as [|[t v] b] eqn:Eb.
  - (* mailbox empty *)
    assert (Hq : good c y = true -> s_q y = []).
    { intros Hg. destruct (rr_buf _ _ _ _ _ _ _ HR Hlive Hg) as [Hq _]. congruence. }
    assert (Hopen : s_closed y = false -> good c y = true) by (unfold good; intros ->; apply orb_true_r).
    destruct (m_disc (r_mb x)) eqn:Ed.
    + (* Disconnected *)
      injection Hrc as <- <- <-. unfold sp_recv in Hsp. rewrite Hy in Hsp.
      destruct (s_closed y) eqn:Ec; [injection Hsp as <- <-; split; [exact I | apply vs_ok_nil]|].
      rewrite (Hq (Hopen eq_refl)) in Hsp.
      destruct (any_open sp) eqn:Eo; injection Hsp as <- <-; (split; [exact I|]); [|apply vs_ok_nil].
      intros v0 [<-|[]]. cbn.
      destruct (sg c sp) eqn:Es; [|reflexivity].
      pose proof (rr_dsound _ _ _ _ _ _ _ HR Hlive Ed eq_refl). congruence.
    + (* not disconnected: [none], and with [reg] the waker is stored *)
      assert (Hcase : rs = none /\ w = [] /\ Inv c s1 sp).
      { destruct reg as [wk|]; injection Hrc as <- <- <-; (split; [reflexivity|]); (split; [reflexivity|]); [|exact I].
        apply (inv_model_only _ _ _ _ x y); auto.
        destruct HR. constructor; cbn; auto. }
      destruct Hcase as [-> [-> I1]].
      destruct Hnone as [Hn|[-> Hcl]].
      * rewrite (sp_recv_nothing _ _ _ Hn) in Hsp.
        unfold sp_recv in Hsp. rewrite Hy in Hsp.
        destruct (s_q y) as [|m q] eqn:Eq.
        -- destruct (negb (s_closed y) && negb (any_open sp)) eqn:En; injection Hsp as <- <-;
             (split; [exact I1|]); [|apply vs_ok_nil].
           (* no Disconnected although nobody can send any more *)
           intros v0 [<-|[]]. cbn. apply andb_true_iff in En. destruct En as [_ En]. apply negb_true_iff in En. split.
           ++ destruct (fix04 c) eqn:F4, (fix05 c) eqn:F5; try reflexivity.
              pose proof (rr_dcompl _ _ _ _ _ _ _ HR Hlive F4 F5 En). congruence.
           ++ exists y. split; [exact Hy|]. destruct (s_reach y) eqn:Er; [|reflexivity].
              pose proof (rr_reach _ _ _ _ _ _ _ HR Hlive Er). congruence.
        -- injection Hsp as <- <-. split; [exact I1|]. intros v0 [<-|[]]. cbn. exists y. split; [exact Hy|].
           destruct (good c y) eqn:Eg; [|reflexivity]. specialize (Hq eq_refl). discriminate.
      * (* rto on a handle whose own closed flag is set: try_recv().map_err(|_| Disconnected) *)
        unfold sp_recv in Hsp. rewrite Hy in Hsp.
        destruct (s_closed y) eqn:Ec; [injection Hsp as <- <-; split; [exact I1 | apply vs_ok_nil]|].
        rewrite (Hq (Hopen eq_refl)) in Hsp.
        pose proof (rr_cdead _ _ _ _ _ _ _ HR Hlive Hcl Ec) as Hda.
        rewrite (da_false_ao _ _ _ I Hda) in Hsp. injection Hsp as <- <-. split; [exact I1 | apply vs_ok_nil].
  - (* a message is taken *)
    injection Hrc as <- <- <-. unfold sp_recv in Hsp. rewrite Hy in Hsp.
    assert (Hany : forall q' (got' : srx -> list msg), (good c y = true -> b = q') ->
      Inv c (st_set_rxs s (upd_rx r (fun y0 => rx_set_mb y0 (mb_set_buf (r_mb x) b)) (rxs s)))
            (sp_set_rx sp (upd_srx r (fun y0 => {| s_id := s_id y0; s_live := s_live y0; s_closed := s_closed y0;
                 s_subs := s_subs y0; s_q := q'; s_cap := s_cap y0; s_full := s_full y0; s_exp := s_exp y0;
                 s_got := got' y0; s_reach := s_reach y0 |}) (sp_rx sp)))).
    { intros q' got' Hq'. apply (inv_upd_rx _ _ _ _ x y); auto.
      apply rel_rx_change_q; auto. }
    destruct (good c y) eqn:Hg.
    + destruct (rr_buf _ _ _ _ _ _ _ HR Hlive Hg) as [Hq Hd]. rewrite Eb in Hq. rewrite <- Hq in Hsp.
      rewrite msg_eqb_refl in Hsp. injection Hsp as <- <-. split; [|apply vs_ok_nil].
      apply (Hany b (fun y0 => s_got y0 ++ [(t, v)])). reflexivity.
    + (* a handle outside the class: whatever the reference's queue holds, it may complain about routing only *)
      assert (Hbad : vs_ok c sp [VRouting r]).
      { intros v0 [<-|[]]. cbn. exists y. auto. }
      assert (Hsame : Inv c (st_set_rxs s (upd_rx r (fun y0 => rx_set_mb y0 (mb_set_buf (r_mb x) b)) (rxs s))) sp).
      { apply (inv_model_only _ _ _ _ x y); auto.
        pose proof (rel_rx_change_q _ _ _ _ _ _ _ (mb_set_buf (r_mb x) b) (s_q y) (s_got y) HR
                      eq_refl eq_refl eq_refl) as P.
        destruct y. apply P. congruence. }
      destruct (s_q y) as [|m q] eqn:Eq.
      * injection Hsp as <- <-. split; [exact Hsame | exact Hbad].
      * destruct (msg_eqb m (t, v)) eqn:Em; injection Hsp as <- <-.
        -- split; [|apply vs_ok_nil]. apply (Hany q (fun y0 => s_got y0 ++ [(t, v)])). congruence.
        -- split; [exact Hsame | exact Hbad].
Qed.

(* try_recv, recv_timeout(0), Stream::poll_next and RecvFuture::poll: guards, then recv_core *)
Lemma ok_recv c o :
  match o with TryRecv _ | RecvTimeout0 _ | PollNext _ _ | Poll _ _ => True | _ => False end -> step_ok_for c o.
Proof.
  intros Ho s sp s1 rs w sp1 vs I Hs Hsp.
  assert (Hcore : forall r x none reg, live_rx r s = Some x -> nothing none \/ (none = RDisc /\ r_closed x = true) ->
            recv_core r x none reg s = (s1, (rs, w)) -> sp_recv sp r rs = (sp1, vs) -> Inv c s1 sp1 /\ vs_ok c sp vs).
  { intros r x none reg. apply recv_core_ok. exact I. }
  destruct o; try contradiction; cbn [step sp_step] in *.
  - destruct (live_rx r s) as [x|] eqn:Hl; [|same Hs Hsp I].
    apply (Hcore r x REmpty None); unfold nothing; auto.
  - destruct (live_rx r s) as [x|] eqn:Hl; [|same Hs Hsp I].
    destruct (r_async x); [same Hs Hsp I|].
    destruct (r_closed x) eqn:Ec; [apply (Hcore r x RDisc None) | apply (Hcore r x RTimeout None)]; unfold nothing; auto.
  - rewrite <- (i_futs _ _ _ I) in Hsp.
    destruct (find (fun p => N.eqb (fst p) f) (futs s)) as [[f' r]|] eqn:Hf; [|same Hs Hsp I].
    destruct (live_rx r s) as [x|] eqn:Hl; [|same Hs Hsp I].
    apply (Hcore r x RPending (Some w0)); unfold nothing; auto.
  - destruct (live_rx r s) as [x|] eqn:Hl; [|same Hs Hsp I].
    destruct (negb (r_async x)); [same Hs Hsp I|].
    destruct (rx_busy r s); [same Hs Hsp I|].
    apply (Hcore r x RPending (Some w0)); unfold nothing; auto.
Qed.

Lemma ok_observers c o :
  match o with IsClosedS _ | IsClosedR _ | IsEmptyR _ | CapR _ => True | _ => False end -> step_ok_for c o.
Proof.
  intros Ho s sp s1 rs w sp1 vs I Hs Hsp. destruct o; try contradiction; cbn [step sp_step] in *;
    [destruct (live_tx s0 s) | destruct (live_rx r s) | destruct (live_rx r s) | destruct (live_rx r s)];
    same Hs Hsp I.
Qed.

Lemma ok_MkRecv c f r : step_ok_for c (MkRecv f r).
Proof.
  intros s sp s1 rs w sp1 vs I Hs Hsp. cbn [step sp_step] in *.
  destruct (live_rx r s) as [x|] eqn:Hl; [|same Hs Hsp I].
  destruct (negb (r_async x)); [same Hs Hsp I|].
  destruct (existsb (fun p => N.eqb (fst p) f) (futs s)); [same Hs Hsp I|].
  injection Hs as <- <- <-. injection Hsp as <- <-. split; [|apply vs_ok_nil].
  constructor; cbn; try apply I.
  - rewrite (i_futs _ _ _ I). reflexivity.
  - intros f0 r0 Hin. apply in_app_or in Hin. destruct Hin as [Hin|[Hin|[]]]; [eapply (i_flive _ _ _ I); eauto|].
    injection Hin as <- <-. apply live_rx_spec in Hl. destruct Hl as [H1 H2].
    unfold rx_alive. rewrite H1. exact H2.
Qed.

Lemma ok_DropF c f : step_ok_for c (DropF f).
Proof.
  intros s sp s1 rs w sp1 vs I Hs Hsp. cbn [step sp_step] in *.
  destruct (find (fun p => N.eqb (fst p) f) (futs s)) as [p|] eqn:Hf; [|same Hs Hsp I].
  injection Hs as <- <- <-. injection Hsp as <- <-. split; [|apply vs_ok_nil].
  constructor; cbn; try apply I.
  - rewrite (i_futs _ _ _ I). reflexivity.
  - intros f0 r0 Hin. apply filter_In in Hin. destruct Hin as [Hin _]. eapply (i_flive _ _ _ I); eauto.
Qed.

Lemma ok_ConvR c r : step_ok_for c (ConvR r).
Proof.
  intros s sp s1 rs w sp1 vs I Hs Hsp. cbn [step sp_step] in *.
  destruct (live_rx r s) as [x|] eqn:Hl; [|same Hs Hsp I].
  destruct (rx_busy r s); [same Hs Hsp I|].
  injection Hs as <- <- <-. injection Hsp as <- <-. split; [|apply vs_ok_nil].
  apply live_rx_spec in Hl. destruct Hl as [Hx Hlive].
  destruct (pair_rx _ _ _ _ _ I Hx) as [y [Hy [Hinx [Hiny HR]]]].
  apply (inv_model_only _ _ _ _ x y); auto.
  destruct HR. constructor; cbn; auto.
  intros Hl Hc. apply andb_true_iff in Hc. destruct Hc as [_ Hc]. auto.
Qed.
