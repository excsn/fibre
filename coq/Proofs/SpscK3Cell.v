(* One waiter cell of the SPSC channel as a transition system of its own:
   the mutex-protected registration (`lk`, `slot`), the waiters gate, the `notified` flag of the
   registered call and the park token of the waiting thread; a waiter that registers, parks and
   unregisters, and a waker that runs `wake_one`.  The channel has two such cells
   (consumer_waiter, producer_waiter) with the roles of the two threads exchanged;
   SpscK3Proofs.v maps the steps of either thread to the steps here, so the protocol invariant is
   proved once. *)
From Fibre Require Import Common.Base Chan.SpscK3.

Record cell := mkCell { lk : bool; slot : bool; gate : N; notif : bool; tok : bool }.

(* where the waiting side stands with respect to the cell: outside any call that may wait (WOut);
   in a call that is not registered (WFresh; this includes the lock attempt of `register`);
   inside `register` holding the mutex, before / after the gate store (WRgSt, WRgUn);
   registered (WReg; WSwap = park has returned, `notified` not yet swapped);
   before / inside the critical section of `unregister` (WUn0, WUn1) *)
Inductive wph := WOut | WFresh | WRgSt | WRgUn | WReg | WSwap | WUn0 | WUn1.

Definition w_holds w := match w with WRgSt | WRgUn | WUn1 => true | _ => false end.
Definition w_regging w := match w with WRgSt | WRgUn => true | _ => false end.
Definition w_reg w := match w with WReg | WSwap => true | _ => false end.
Definition w_rgst w := match w with WRgSt => true | _ => false end.
Definition w_swap w := match w with WSwap => true | _ => false end.
Definition w_unreg0 w := match w with WUn0 => true | _ => false end.
Definition w_fresh w := match w with WFresh | WRgSt | WRgUn => true | _ => false end.

(* the waking side is described by its position in `wake_one`, if it is there *)
Definition k_holds (k : option wk) :=
  match k with Some WkSt0 | Some WkStN | Some (WkUnlock _) => true | _ => false end.
Definition k_taking (k : option wk) := match k with Some WkSt0 | Some WkStN => true | _ => false end.
Definition k_notified (k : option wk) :=
  match k with Some (WkUnlock true) | Some WkUnpark => true | _ => false end.

(* moves that leave the cell alone: a call returns, a registered call goes on to unregister, a
   spurious return of park *)
Definition w_silent (w w' : wph) : bool :=
  match w, w' with
  | WOut, WOut | WFresh, WFresh | WRgSt, WRgSt | WRgUn, WRgUn | WReg, WReg | WSwap, WSwap
  | WUn0, WUn0 | WUn1, WUn1 | WFresh, WOut | WReg, WUn0 | WReg, WSwap => true
  | _, _ => false
  end.
Definition w_newcall (w : wph) : bool := match w with WOut | WFresh => true | _ => false end.

Inductive waiter_step (c : cell) : wph -> cell -> wph -> Prop :=
| ws_silent w w' : w_silent w w' = true -> waiter_step c w c w'
| ws_newcall w' : w_newcall w' = true ->
    waiter_step c WOut (mkCell (lk c) (slot c) (gate c) false (tok c)) w'
| ws_lock_reg : lk c = false ->
    waiter_step c WFresh (mkCell true true (gate c) (notif c) (tok c)) WRgSt
| ws_gate1 : waiter_step c WRgSt (mkCell (lk c) (slot c) 1 (notif c) (tok c)) WRgUn
| ws_unlock_reg : waiter_step c WRgUn (mkCell false (slot c) (gate c) (notif c) (tok c)) WReg
| ws_park : tok c = true ->
    waiter_step c WReg (mkCell (lk c) (slot c) (gate c) (notif c) false) WSwap
| ws_swap w' : w' = (if notif c then WFresh else WReg) ->
    waiter_step c WSwap (mkCell (lk c) (slot c) (gate c) false (tok c)) w'
| ws_lock_unreg : lk c = false ->
    waiter_step c WUn0 (mkCell true false (gate c) (notif c) (tok c)) WUn1
| ws_gate0 : waiter_step c WUn1 (mkCell (lk c) (slot c) 0 (notif c) (tok c)) WUn1
| ws_unlock_unreg : waiter_step c WUn1 (mkCell false (slot c) (gate c) (notif c) (tok c)) WOut.

Definition k_silent (k k' : option wk) : bool :=
  match k, k' with
  | None, None | None, Some WkLock | Some WkLock, Some WkLock => true
  | _, _ => false
  end.

Inductive waker_step (c : cell) : option wk -> cell -> option wk -> Prop :=
| wk_silent k k' : k_silent k k' = true -> waker_step c k c k'
| wk_take : lk c = false -> slot c = true ->
    waker_step c (Some WkLock) (mkCell true false (gate c) (notif c) (tok c)) (Some WkSt0)
| wk_miss : lk c = false -> slot c = false ->
    waker_step c (Some WkLock) (mkCell true (slot c) (gate c) (notif c) (tok c))
               (Some (WkUnlock false))
| wk_gate0 : waker_step c (Some WkSt0) (mkCell (lk c) (slot c) 0 (notif c) (tok c)) (Some WkStN)
| wk_notify :
    waker_step c (Some WkStN) (mkCell (lk c) (slot c) (gate c) true (tok c)) (Some (WkUnlock true))
| wk_unlock (b : bool) k' : k' = (if b then Some WkUnpark else None) ->
    waker_step c (Some (WkUnlock b)) (mkCell false (slot c) (gate c) (notif c) (tok c)) k'
| wk_unpark : waker_step c (Some WkUnpark) (mkCell (lk c) (slot c) (gate c) (notif c) true) None.

(* the mutex is held exactly by whoever is inside a critical section;
   S   a registration in the cell belongs to a waiter in its registered zone;
   C2/P1  cell content under the mutex;
   G   cell set => gate = 1, except between the two stores of `register`;
   Lv  while the waker holds the registration it took, the registered call has not returned (it
       needs the mutex to leave) and its `notified` is still false;
   N/Nf  cell set => `notified` = false; a fresh call has `notified` = false;
   Nt/T  registered and cell empty => a wake is in progress, or `notified` is set and the token
       is there (or park has already returned) *)
Record CellInv (c : cell) (w : wph) (k : option wk) : Prop := {
  C_lk : lk c = w_holds w || k_holds k;
  C_ex : w_holds w && k_holds k = false;
  C_S : slot c = true -> w_reg w || w_regging w || w_unreg0 w = true;
  C_C2 : w_regging w = true -> slot c = true;
  C_P1 : k_holds k = true -> slot c = false;
  C_G : slot c = true -> w_rgst w = false -> gate c = 1;
  C_Lv : k_taking k = true -> w_reg w || w_unreg0 w = true /\ notif c = false;
  C_N : slot c = true -> notif c = false;
  C_Nf : w_fresh w = true -> notif c = false;
  C_Nt : k_notified k = true -> w_reg w = true -> slot c = false -> notif c = true;
  C_T : w_reg w = true -> slot c = false ->
        k_taking k || k_notified k = true \/ (notif c = true /\ (tok c = true \/ w_swap w = true))
}.

Lemma CellInv_init : CellInv (mkCell false false 0 false false) WOut None.
Proof. constructor; cbn; intros; try discriminate; reflexivity. Qed.

Ltac cell_cbn :=
  cbn [lk slot gate notif tok w_holds w_regging w_rgst w_reg w_swap w_unreg0 w_fresh
       k_holds k_taking k_notified orb andb] in *.

(* in both proofs every clause is decided by the phases once they are concrete *)
Ltac cell_fin :=
  constructor; cell_cbn;
  first [assumption | solve [intros; discriminate] | solve [auto] | intuition congruence].

Lemma waiter_step_inv c w k c' w' : CellInv c w k -> waiter_step c w c' w' -> CellInv c' w' k.
Proof.
  intros [I1 I2 I3 I4 I5 I6 I7 I8 I9 I10 I11] T. destruct c as [l s g n t].
  destruct T as [w w' Hs | w' Hn | | | | | w' -> | | |];
    [destruct w, w'; try discriminate Hs | destruct w'; try discriminate Hn | .. ];
    try destruct n.
  all: destruct k as [[| | |[]|]|]; cell_cbn; try discriminate; subst.
  all: cell_fin.
Qed.

Lemma waker_step_inv c w k c' k' : CellInv c w k -> waker_step c k c' k' -> CellInv c' w k'.
Proof.
  intros [I1 I2 I3 I4 I5 I6 I7 I8 I9 I10 I11] T. destruct c as [l s g n t].
  destruct T as [k k' Hs | | | | | [] k' -> |];
    [destruct k as [[| | |[]|]|], k' as [[| | |[]|]|]; try discriminate Hs | .. ].
  all: destruct w; cell_cbn; try discriminate; subst.
  all: cell_fin.
Qed.

(* a parked waiter without token, while nobody is in wake_one: the registration is still there *)
Lemma parked_slot c k : CellInv c WReg k -> tok c = false -> k = None -> slot c = true.
Proof.
  intros H Ht ->. destruct (slot c) eqn:Es; [reflexivity|].
  destruct (C_T _ _ _ H eq_refl Es) as [X | [_ [X | X]]]; [discriminate X | congruence | discriminate X].
Qed.
