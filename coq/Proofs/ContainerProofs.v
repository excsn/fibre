(* Proofs/ContainerProofs.v — property C18 on the model Ioc/Container.v.
   [resolve] and the factory bodies [run_deps] call each other, so every fact about a resolution is
   proved for both at once through the principle [resolve_both]; a relation that is reflexive,
   transitive and holds across [mark_started] and [complete] holds across every resolution
   ([resolve_preorder]: it gives [stable] and the preservation of [Inv]).  All a resolution does to
   the registration at a slot is fill its empty cell ([grows]); termination, cycles, frame and
   panic causes are inductions over [resolve_both]; the clauses of C18 follow at the end. *)
From Fibre Require Import Common.Base Ioc.Container.

Lemma oN_eqb_spec a b : reflect (a = b) (oN_eqb a b).
Proof.
  destruct a as [x|], b as [y|]; cbn [oN_eqb]; try (constructor; congruence).
  destruct (N.eqb_spec x y); constructor; congruence.
Qed.

(* keys and slots are both pairs with an [N] in front *)
Lemma pair_eqb_spec {A} (eqb : A -> A -> bool) :
  (forall a b, reflect (a = b) (eqb a b)) ->
  forall x y : N * A, reflect (x = y) (N.eqb (fst x) (fst y) && eqb (snd x) (snd y)).
Proof.
  intros Hspec [t a] [t' a']. cbn [fst snd].
  destruct (N.eqb_spec t t'); cbn [andb]; [|constructor; congruence].
  destruct (Hspec a a'); constructor; congruence.
Qed.

Lemma key_eqb_spec a b : reflect (a = b) (key_eqb a b).
Proof. exact (pair_eqb_spec oN_eqb oN_eqb_spec a b). Qed.

Lemma slot_eqb_spec a b : reflect (a = b) (slot_eqb a b).
Proof. exact (pair_eqb_spec key_eqb key_eqb_spec a b). Qed.

Lemma slot_eqb_refl a : slot_eqb a a = true.
Proof. destruct (slot_eqb_spec a a); congruence. Qed.

Lemma kmem_In k l : kmem k l = true <-> In k l.
Proof.
  unfold kmem. rewrite existsb_exists. split.
  - intros [x [Hx He]]. destruct (key_eqb_spec k x); [subst; exact Hx | discriminate].
  - intros H. exists k. split; [exact H|]. destruct (key_eqb_spec k k); congruence.
Qed.

Lemma kmem_false k l : kmem k l = false <-> ~ In k l.
Proof. rewrite <- kmem_In. symmetry. apply not_true_iff_false. Qed.

Lemma plookup_In sl l p : plookup sl l = Some p -> In (sl, p) l.
Proof.
  induction l as [|[sl' p'] t IH]; cbn [plookup]; intros H; [discriminate|].
  destruct (slot_eqb_spec sl sl') as [->|Hn].
  - inversion H; subst. left. reflexivity.
  - right. apply IH. exact H.
Qed.

Lemma plookup_premove_eq sl l : plookup sl (premove sl l) = None.
Proof.
  induction l as [|[sl' p'] t IH]; cbn [premove plookup]; [reflexivity|].
  destruct (slot_eqb_spec sl sl') as [->|Hn]; [exact IH|].
  cbn [plookup]. destruct (slot_eqb_spec sl sl'); [contradiction | exact IH].
Qed.

Lemma plookup_premove_neq sl z l : z <> sl -> plookup z (premove sl l) = plookup z l.
Proof.
  intros Hne. induction l as [|[sl' p'] t IH]; cbn [premove plookup]; [reflexivity|].
  destruct (slot_eqb_spec sl sl') as [->|Hn].
  - destruct (slot_eqb_spec z sl'); [contradiction | exact IH].
  - cbn [plookup]. destruct (slot_eqb_spec z sl'); [reflexivity | exact IH].
Qed.

Lemma plookup_pinsert sl p z l :
  plookup z (pinsert sl p l) = if slot_eqb z sl then Some p else plookup z l.
Proof.
  unfold pinsert. cbn [plookup].
  destruct (slot_eqb_spec z sl) as [->|Hn]; [reflexivity|].
  apply plookup_premove_neq. exact Hn.
Qed.

Lemma plookup_pset sl p z l :
  plookup z (pset sl p l) =
  if slot_eqb z sl then match plookup sl l with Some _ => Some p | None => None end
  else plookup z l.
Proof.
  induction l as [|[sl' p'] t IH]; cbn [pset plookup].
  - destruct (slot_eqb z sl); reflexivity.
  - destruct (slot_eqb_spec sl sl') as [->|Hn]; cbn [plookup].
    + destruct (slot_eqb_spec z sl'); reflexivity.
    + destruct (slot_eqb_spec z sl') as [->|Hn2].
      * destruct (slot_eqb_spec sl' sl); [congruence | reflexivity].
      * exact IH.
Qed.

Lemma map_fst_pset sl p l : map fst (pset sl p l) = map fst l.
Proof.
  induction l as [|[sl' p'] t IH]; cbn [pset map]; [reflexivity|].
  destruct (slot_eqb sl sl'); cbn [map fst]; [reflexivity | f_equal; exact IH].
Qed.

Definition filled (i : N) (p : provider) : provider :=
  match p with PSingleton fid _ sc => PSingleton fid (Some i) sc | PTransient _ _ => p end.

Lemma filled_filled i j p : filled j (filled i p) = filled j p.
Proof. destruct p; reflexivity. Qed.

Lemma pfid_filled i p : pfid (filled i p) = pfid p.
Proof. destruct p; reflexivity. Qed.

Lemma pscript_filled i p : pscript (filled i p) = pscript p.
Proof. destruct p; reflexivity. Qed.

Definition grows (o o' : option provider) : Prop :=
  o' = o \/ exists p i, o = Some p /\ cached p = None /\ o' = Some (filled i p).

Lemma grows_refl o : grows o o.
Proof. left. reflexivity. Qed.

Lemma grows_trans a b c : grows a b -> grows b c -> grows a c.
Proof.
  intros [->|(p & i & -> & Hc & ->)] H; [exact H|].
  destruct H as [->|(p' & j & [= <-] & _ & ->)]; right; exists p; [exists i | exists j]; auto.
  rewrite filled_filled. auto.
Qed.

Lemma grows_none o o' : grows o o' -> (o' = None <-> o = None).
Proof. intros [->|(p & i & -> & _ & ->)]; [tauto | split; discriminate]. Qed.

Lemma grows_fid p p' : grows (Some p) (Some p') -> pfid p' = pfid p.
Proof. intros [[= ->]|(q & i & [= <-] & _ & [= ->])]; [reflexivity | apply pfid_filled]. Qed.

Lemma grows_cached p o' : grows (Some p) o' -> cached p <> None -> o' = Some p.
Proof. intros [->|(q & i & [= <-] & Hc & _)] Hn; [reflexivity | contradiction]. Qed.

Lemma grows_script o p' : grows o (Some p') -> exists p, o = Some p /\ pscript p = pscript p'.
Proof.
  intros [<-|(q & i & -> & _ & [= ->])]; [eauto|]. exists q. rewrite pscript_filled. auto.
Qed.

(* what a factory does with the answer [x] to a dependency: [Some a] = it stops with [a] *)
Definition dep_abort (x : res) (req : bool) : option dres :=
  match x with
  | RPanic => Some DPanic
  | RFuel => Some DFuel
  | RNone => if req then Some DPanic else None
  | RSome _ => None
  end.

Lemma run_deps_cons rec s d req r seen :
  run_deps rec s ((d, req) :: r) seen =
  let '(s1, x) := rec s d in
  match dep_abort x req with
  | Some a => (s1, a)
  | None => run_deps rec s1 r (seen ++ [res_opt x])
  end.
Proof. cbn [run_deps]. destruct (rec s d) as [s1 [|i| |]]; [destruct req|..]; reflexivity. Qed.

Lemma dep_abort_inv x req a : dep_abort x req = Some a ->
  (a = DPanic /\ (x = RPanic \/ (x = RNone /\ req = true))) \/ (a = DFuel /\ x = RFuel).
Proof. destruct x; [destruct req|..]; cbn [dep_abort]; intros [= <-]; auto. Qed.

Definition deps_of (f : nat) (stk : list key) := run_deps (fun s0 dsl => resolve f s0 stk dsl).

Definition both (P : nat -> st -> list key -> slot -> st -> res -> Prop)
                (Q : nat -> list key -> st -> script -> list (option N) -> st -> dres -> Prop) : Prop :=
  (forall f s stk sl s' r, resolve f s stk sl = (s', r) -> P f s stk sl s' r) /\
  (forall f stk sc s seen s' d, deps_of f stk s sc seen = (s', d) -> Q f stk s sc seen s' d).

Section ResolveInd.
  Variable P : nat -> st -> list key -> slot -> st -> res -> Prop.
  Variable Q : nat -> list key -> st -> script -> list (option N) -> st -> dres -> Prop.

  Hypothesis P_fuel : forall s stk sl, P O s stk sl s RFuel.
  Hypothesis P_hit : forall f s stk sl, kmem (skey sl) stk = true -> P (S f) s stk sl s RPanic.
  Hypothesis P_none : forall f s stk sl,
    kmem (skey sl) stk = false -> plookup sl (provs s) = None -> P (S f) s stk sl s RNone.
  Hypothesis P_cached : forall f s stk sl p i,
    kmem (skey sl) stk = false -> plookup sl (provs s) = Some p -> cached p = Some i ->
    P (S f) s stk sl s (RSome i).
  Hypothesis P_run : forall f s stk sl p s1 d,
    kmem (skey sl) stk = false -> plookup sl (provs s) = Some p -> cached p = None ->
    deps_of f (skey sl :: stk) (mark_started s (pfid p)) (pscript p) [] = (s1, d) ->
    Q f (skey sl :: stk) (mark_started s (pfid p)) (pscript p) [] s1 d ->
    match d with
    | DOk seen => P (S f) s stk sl (complete s1 sl p seen) (RSome (next s1))
    | DPanic => P (S f) s stk sl s1 RPanic
    | DFuel => P (S f) s stk sl s1 RFuel
    end.

  Hypothesis Q_nil : forall f stk s seen, Q f stk s [] seen s (DOk seen).
  Hypothesis Q_abort : forall f stk s d req r seen s1 x a,
    resolve f s stk d = (s1, x) -> P f s stk d s1 x -> dep_abort x req = Some a ->
    Q f stk s ((d, req) :: r) seen s1 a.
  Hypothesis Q_cont : forall f stk s d req r seen s1 x s2 dr,
    resolve f s stk d = (s1, x) -> P f s stk d s1 x -> dep_abort x req = None ->
    Q f stk s1 r (seen ++ [res_opt x]) s2 dr -> Q f stk s ((d, req) :: r) seen s2 dr.

  Lemma deps_ind_aux f :
    (forall s stk sl s' r, resolve f s stk sl = (s', r) -> P f s stk sl s' r) ->
    forall stk sc s seen s' d, deps_of f stk s sc seen = (s', d) -> Q f stk s sc seen s' d.
  Proof.
    intros IH stk sc. induction sc as [|[d0 req] r IHr]; intros s seen s' d; unfold deps_of.
    - cbn [run_deps]. intros [= <- <-]. apply Q_nil.
    - rewrite run_deps_cons. destruct (resolve f s stk d0) as [s1 x] eqn:E.
      pose proof (IH _ _ _ _ _ E) as HP.
      destruct (dep_abort x req) as [a|] eqn:Ea.
      + intros [= <- <-]. eapply Q_abort; eassumption.
      + intros H. eapply Q_cont; [exact E | exact HP | exact Ea | apply IHr; exact H].
  Qed.

  Lemma resolve_ind2 f : forall s stk sl s' r, resolve f s stk sl = (s', r) -> P f s stk sl s' r.
  Proof.
    induction f as [|f IH]; intros s stk sl s' r; cbn [resolve].
    { intros [= <- <-]. apply P_fuel. }
    destruct (kmem (skey sl) stk) eqn:Ek.
    { intros [= <- <-]. apply P_hit. exact Ek. }
    destruct (plookup sl (provs s)) as [p|] eqn:El.
    2:{ intros [= <- <-]. apply P_none; assumption. }
    destruct (cached p) as [i|] eqn:Ec.
    { intros [= <- <-]. apply (P_cached f s stk sl p i); assumption. }
    destruct (run_deps _ _ _ _) as [s1 d] eqn:Ed.
    pose proof (P_run f s stk sl p s1 d Ek El Ec Ed (deps_ind_aux f IH _ _ _ _ _ _ Ed)) as H.
    destruct d; intros [= <- <-]; exact H.
  Qed.

  Lemma resolve_both : both P Q.
  Proof. split; [exact resolve_ind2 | intros f; exact (deps_ind_aux f (resolve_ind2 f))]. Qed.
End ResolveInd.

Lemma complete_lookup s sl p seen z :
  plookup sl (provs s) = Some p ->
  plookup z (provs (complete s sl p seen)) =
  if slot_eqb z sl then Some (filled (next s) p) else plookup z (provs s).
Proof.
  intros Hl. unfold complete. cbn [provs]. destruct p as [fid c sc|fid sc]; cbn [filled].
  - rewrite plookup_pset, Hl. reflexivity.
  - destruct (slot_eqb_spec z sl) as [->|Hn]; [exact Hl | reflexivity].
Qed.

Lemma stack_frame_both :
  (forall f s stk sl s' r, resolve f s stk sl = (s', r) ->
     forall z, In (skey z) stk -> plookup z (provs s') = plookup z (provs s)) /\
  (forall f stk sc s seen s' d, deps_of f stk s sc seen = (s', d) ->
     forall z, In (skey z) stk -> plookup z (provs s') = plookup z (provs s)).
Proof.
  apply resolve_both; try reflexivity.
  - intros f s stk sl p s1 d Hk Hl Hc Hd HQ.
    destruct d as [seen| |]; intros z Hz; try exact (HQ z (or_intror Hz)).
    rewrite complete_lookup by (rewrite (HQ sl (or_introl eq_refl)); exact Hl).
    destruct (slot_eqb_spec z sl) as [->|Hn].
    + apply kmem_false in Hk. contradiction.
    + exact (HQ z (or_intror Hz)).
  - auto.
  - intros f stk s d req r seen s1 x s2 dr E HP Ha HQ z Hz. rewrite (HQ z Hz). exact (HP z Hz).
Qed.

Definition resolve_stack_frame := proj1 stack_frame_both.
Definition deps_stack_frame := proj2 stack_frame_both.

Lemma deps_self f stk sl s sc seen s1 d :
  deps_of f (skey sl :: stk) s sc seen = (s1, d) -> plookup sl (provs s1) = plookup sl (provs s).
Proof. intros Hd. exact (deps_stack_frame _ _ _ _ _ _ _ Hd sl (or_introl eq_refl)). Qed.

Lemma resolve_preorder (R : st -> st -> Prop) :
  (forall s, R s s) -> (forall a b c, R a b -> R b c -> R a c) ->
  (forall s sl p, plookup sl (provs s) = Some p -> cached p = None -> R s (mark_started s (pfid p))) ->
  (forall s sl p seen, plookup sl (provs s) = Some p -> cached p = None -> R s (complete s sl p seen)) ->
  both (fun _ s _ _ s' _ => R s s') (fun _ _ s _ _ s' _ => R s s').
Proof.
  intros Rrefl Rtrans Rstart Rcompl. apply resolve_both; auto.
  - intros f s stk sl p s1 d Hk Hl Hc Hd HQ.
    assert (R1 : R s s1) by (eapply Rtrans; [eapply Rstart; eassumption | exact HQ]).
    destruct d as [seen| |]; try exact R1.
    apply (Rtrans _ _ _ R1). apply Rcompl; [|exact Hc]. rewrite (deps_self _ _ _ _ _ _ _ _ Hd). exact Hl.
  - intros. eapply Rtrans; eassumption.
Qed.

Definition stable (s s' : st) : Prop :=
  map fst (provs s') = map fst (provs s) /\
  (forall z, grows (plookup z (provs s)) (plookup z (provs s'))) /\
  kinds s' = kinds s /\ next s <= next s'.

Lemma stable_same s s' : provs s' = provs s -> kinds s' = kinds s -> next s' = next s -> stable s s'.
Proof.
  intros Hp Hk Hn. unfold stable. rewrite Hp, Hk, Hn.
  split; [reflexivity|]. split; [intros z; apply grows_refl|]. split; reflexivity.
Qed.

Lemma stable_both : both (fun _ s _ _ s' _ => stable s s') (fun _ _ s _ _ s' _ => stable s s').
Proof.
  apply resolve_preorder.
  - intros s. apply stable_same; reflexivity.
  - intros a b c (A1 & A2 & A3 & A4) (B1 & B2 & B3 & B4).
    split; [congruence|]. split; [intros z; exact (grows_trans _ _ _ (A2 z) (B2 z))|].
    split; [congruence | lia].
  - intros s sl p _ _. apply stable_same; reflexivity.
  - intros s sl p seen Hl Hc. split; [|split; [|split]].
    + unfold complete. cbn [provs]. destruct p; [apply map_fst_pset | reflexivity].
    + intros z. rewrite (complete_lookup _ _ _ seen z Hl).
      destruct (slot_eqb_spec z sl) as [->|Hn]; [right; eauto | apply grows_refl].
    + reflexivity.
    + cbn [complete next]. lia.
Qed.

Definition resolve_stable := proj1 stable_both.
Definition deps_stable := proj2 stable_both.

(* the measure: registered slots whose key is not on the resolution stack *)
Definition offstack (stk : list key) (sl : slot) : bool := negb (kmem (skey sl) stk).
Definition room (pv : pmap) (stk : list key) : nat := length (filter (offstack stk) (map fst pv)).

Lemma filter_length_le {A} (f g : A -> bool) l :
  (forall x, f x = true -> g x = true) -> (length (filter f l) <= length (filter g l))%nat.
Proof.
  intros H. induction l as [|x t IH]; cbn [filter length]; [lia|].
  destruct (f x) eqn:Ef.
  - rewrite (H x Ef). cbn [length]. lia.
  - destruct (g x); cbn [length]; lia.
Qed.

Lemma filter_length_lt {A} (f g : A -> bool) l a :
  (forall x, f x = true -> g x = true) -> In a l -> f a = false -> g a = true ->
  (length (filter f l) < length (filter g l))%nat.
Proof.
  intros H Hin Hf Hg. induction l as [|x t IH]; [contradiction|].
  cbn [filter]. destruct Hin as [->|Hin].
  - rewrite Hf, Hg. cbn [length]. pose proof (filter_length_le f g t H). lia.
  - specialize (IH Hin). destruct (f x) eqn:Ef.
    + rewrite (H x Ef). cbn [length]. lia.
    + destruct (g x); cbn [length]; lia.
Qed.

Lemma room_push pv sl p stk :
  plookup sl pv = Some p -> kmem (skey sl) stk = false -> (room pv (skey sl :: stk) < room pv stk)%nat.
Proof.
  intros Hl Hk. apply (filter_length_lt _ _ _ sl); unfold offstack; cbn [kmem existsb].
  - intros x. destruct (key_eqb (skey x) (skey sl)); [discriminate | auto].
  - apply (in_map fst _ _ (plookup_In _ _ _ Hl)).
  - destruct (key_eqb_spec (skey sl) (skey sl)); [reflexivity | congruence].
  - fold (kmem (skey sl) stk). rewrite Hk. reflexivity.
Qed.

Lemma room_top pv : room pv [] = length pv.
Proof. unfold room. induction pv as [|x t IH]; cbn; [reflexivity | f_equal; exact IH]. Qed.

Lemma fuel_both :
  both (fun f s stk _ _ r => (room (provs s) stk < f)%nat -> r <> RFuel)
       (fun f stk s _ _ _ d => (room (provs s) stk < f)%nat -> d <> DFuel).
Proof.
  apply resolve_both; try (intros; discriminate).
  - intros s stk sl H. lia.
  - intros f s stk sl p s1 d Hk Hl Hc Hd HQ. destruct d; intros Hr; try discriminate.
    exfalso. apply HQ; [|reflexivity]. cbn [mark_started provs]. pose proof (room_push _ _ _ _ Hl Hk). lia.
  - intros f stk s d req r seen s1 x a E HP Ha Hr ->.
    destruct (dep_abort_inv _ _ _ Ha) as [(Hd & _)|(_ & Hx)]; [discriminate | exact (HP Hr Hx)].
  - intros f stk s d req r seen s1 x s2 dr E HP Ha HQ Hr. apply HQ.
    unfold room. rewrite (proj1 (resolve_stable _ _ _ _ _ _ E)). exact Hr.
Qed.

(** out-of-fuel is unreachable: every resolution terminates with None, Some or Panic *)
Theorem no_out_of_fuel s sl : snd (resolve (fuel_of s) s [] sl) <> RFuel.
Proof.
  destruct (resolve (fuel_of s) s [] sl) as [s' r] eqn:E. cbn [snd].
  apply (proj1 fuel_both _ _ _ _ _ _ E). rewrite room_top. unfold fuel_of. lia.
Qed.

(* the script a resolution of [a] would run now: registered, and not an initialised singleton *)
Definition lscript (pv : pmap) (a : slot) : option script :=
  match plookup a pv with
  | Some p => match cached p with None => Some (pscript p) | Some _ => None end
  | None => None
  end.

(* reach pv a b: a path of length >= 1 along scripts that would run (live edges) *)
Inductive reach (pv : pmap) : slot -> slot -> Prop :=
| reach_step a sc b req : lscript pv a = Some sc -> In (b, req) sc -> reach pv a b
| reach_trans a sc c req b : lscript pv a = Some sc -> In (c, req) sc -> reach pv c b -> reach pv a b.

Lemma lscript_of pv a p : plookup a pv = Some p -> cached p = None -> lscript pv a = Some (pscript p).
Proof. unfold lscript. intros -> ->. reflexivity. Qed.

Lemma reach_inv pv a b :
  reach pv a b -> exists sc c req, lscript pv a = Some sc /\ In (c, req) sc /\ (c = b \/ reach pv c b).
Proof. intros H. destruct H; eauto 8. Qed.

Lemma reach_transfer pv0 pv b :
  (forall x, reach pv0 x b -> plookup x pv = plookup x pv0) ->
  forall z, reach pv0 z b -> reach pv z b.
Proof.
  intros T z H. induction H as [a sc b req Hs Hin | a sc c req b Hs Hin Hr IH].
  - apply (reach_step pv a sc b req); [|exact Hin].
    unfold lscript. rewrite (T a (reach_step pv0 a sc b req Hs Hin)). exact Hs.
  - apply (reach_trans pv a sc c req b); [|exact Hin|apply IH; exact T].
    unfold lscript. rewrite (T a (reach_trans pv0 a sc c req b Hs Hin Hr)). exact Hs.
Qed.

(* resolving [a] under [stk] cannot succeed: its key is on the stack, or live edges lead from it
   to a key on the stack or into a cycle *)
Definition bad (pv : pmap) (stk : list key) (a : slot) : Prop :=
  In (skey a) stk \/ exists b, reach pv a b /\ (In (skey b) stk \/ reach pv b b).

Lemma bad_mono pv stk k a : bad pv stk a -> bad pv (k :: stk) a.
Proof.
  intros [H|(b & Hr & [H|H])]; [left; right; exact H | right; exists b ..]; auto using in_cons.
Qed.

Lemma bad_dep pv stk a p b :
  plookup a pv = Some p -> cached p = None -> reach pv a b -> In (skey b) stk \/ reach pv b b ->
  exists c req, In (c, req) (pscript p) /\ bad pv stk c.
Proof.
  intros Hl Hc Hr Hb. destruct (reach_inv _ _ _ Hr) as (sc & c & req & Hs & Hin & Hn).
  rewrite (lscript_of _ _ _ Hl Hc) in Hs. injection Hs as <-.
  exists c, req. split; [exact Hin|]. destruct Hn as [->|Hcb].
  - destruct Hb as [Hk|Hcyc]; [left; exact Hk | right; exists b; auto].
  - right. exists b. auto.
Qed.

Lemma bad_transfer pv pv' stk :
  (forall x, bad pv stk x -> plookup x pv' = plookup x pv) -> forall z, bad pv stk z -> bad pv' stk z.
Proof.
  intros T z [H|(b & Hr & Hb)]; [left; exact H|]. right. exists b.
  assert (Tb : forall x, reach pv x b -> plookup x pv' = plookup x pv).
  { intros x Hx. apply T. right. exists b. auto. }
  split; [exact (reach_transfer _ _ _ Tb _ Hr)|].
  destruct Hb as [H|H]; [left; exact H | right; exact (reach_transfer _ _ _ Tb _ H)].
Qed.

(* No bad slot is ever completed, so bad slots keep their registrations (cells included) through
   any resolution, and with them their badness: the dependencies resolved earlier by a factory
   cannot cut the path its later dependencies are doomed by. *)
Definition bad_kept (s : st) (stk : list key) (s' : st) : Prop :=
  forall z, bad (provs s) stk z -> plookup z (provs s') = plookup z (provs s).

Lemma cyc_both :
  both (fun _ s stk a s' r => bad_kept s stk s' /\ (bad (provs s) stk a -> r = RPanic \/ r = RFuel))
       (fun _ stk s sc _ s' d => bad_kept s stk s' /\
          ((exists b req, In (b, req) sc /\ bad (provs s) stk b) -> d = DPanic \/ d = DFuel)).
Proof.
  assert (dead : forall s stk sl, kmem (skey sl) stk = false -> lscript (provs s) sl = None ->
                   ~ bad (provs s) stk sl).
  { intros s stk sl Hk Hs [H|(b & Hr & _)]; [apply kmem_false in Hk; contradiction|].
    destruct (reach_inv _ _ _ Hr) as (sc & _ & _ & Hs' & _). congruence. }
  apply resolve_both.
  - intros s stk sl. split; [intros z _; reflexivity | auto].
  - intros f s stk sl Hk. split; [intros z _; reflexivity | auto].
  - intros f s stk sl Hk Hl. split; [intros z _; reflexivity|]. intros Hb.
    apply (dead s stk sl) in Hb; [contradiction | exact Hk | unfold lscript; rewrite Hl; reflexivity].
  - intros f s stk sl p i Hk Hl Hc. split; [intros z _; reflexivity|]. intros Hb.
    apply (dead s stk sl) in Hb; [contradiction | exact Hk | unfold lscript; rewrite Hl, Hc; reflexivity].
  - intros f s stk sl p s1 d Hk Hl Hc Hd (K & B).
    assert (K1 : bad_kept s stk s1) by (intros z Hz; exact (K z (bad_mono _ _ _ _ Hz))).
    assert (B1 : bad (provs s) stk sl -> d = DPanic \/ d = DFuel).
    { intros [H|(b & Hr & Hb)]; [apply kmem_false in Hk; contradiction|]. apply B.
      apply (bad_dep _ _ _ _ b Hl Hc Hr). destruct Hb; auto using in_cons. }
    destruct d as [seen| |]; (split; [|auto]); try exact K1.
    + intros z Hz. rewrite complete_lookup by (rewrite (deps_self _ _ _ _ _ _ _ _ Hd); exact Hl).
      destruct (slot_eqb_spec z sl) as [->|Hn]; [destruct (B1 Hz); discriminate | exact (K1 z Hz)].
    + intros Hb. destruct (B1 Hb); discriminate.
  - intros f stk s seen. split; [intros z _; reflexivity | intros (b & req & [] & _)].
  - intros f stk s d req r seen s1 x a E (K & _) Ha. split; [exact K|].
    intros _. destruct (dep_abort_inv _ _ _ Ha) as [(-> & _)|(-> & _)]; auto.
  - intros f stk s d req r seen s1 x s2 dr E (K & B) Ha (K2 & B2).
    pose proof (bad_transfer _ _ _ K) as T. split.
    + intros z Hz. rewrite (K2 z (T z Hz)). exact (K z Hz).
    + intros (b & req' & [[= <- <-]|Hin] & Hb).
      * destruct (B Hb) as [->| ->]; discriminate Ha.
      * apply B2. exists b, req'. split; [exact Hin | exact (T b Hb)].
Qed.

(** If, from the resolved slot, scripts that would run now lead back to the slot's own key, or to
    any cycle of such scripts, the resolution panics (it neither hangs, nor overflows, nor answers). *)
Theorem cycle_panics s sl b :
  reach (provs s) sl b -> (skey b = skey sl \/ reach (provs s) b b) ->
  snd (step s (Resolve sl)) = OPanic.
Proof.
  intros Hr Hc. cbn [step].
  destruct (resolve (fuel_of s) s [] sl) as [s' r] eqn:E. cbn [snd].
  pose proof (no_out_of_fuel s sl) as NF. rewrite E in NF. cbn [snd] in NF.
  enough (r = RPanic \/ r = RFuel) as [-> | ->]; [reflexivity | contradiction |].
  (* the first step by hand: the slot's own key enters the stack only now *)
  revert E. unfold fuel_of. cbn [resolve kmem existsb].
  destruct (reach_inv _ _ _ Hr) as (sc & _ & _ & Hs & _). unfold lscript in Hs.
  destruct (plookup sl (provs s)) as [p|] eqn:Hl; [|discriminate]. destruct (cached p) eqn:Hcp; [discriminate|].
  destruct (run_deps _ _ _ _) as [s1 d] eqn:Ed.
  destruct (proj2 (proj2 cyc_both _ _ _ _ _ _ _ Ed)) as [-> | ->]; [|intros [= _ <-]; auto ..].
  apply (bad_dep _ _ _ _ b Hl Hcp Hr). destruct Hc as [<-|Hc]; [left; left; reflexivity | auto].
Qed.

Definition kind_match (p : provider) (k : kind) : Prop :=
  match p, k with
  | PTransient _ _, KTransient => True
  | PSingleton _ _ _, KSingleton => True
  | PSingleton _ (Some _) _, KInstance => True
  | _, _ => False
  end.

Definition cnt (x : N) (l : list N) : nat := count_occ N.eq_dec l x.

Lemma cnt_cons_eq x l : cnt x (x :: l) = S (cnt x l).
Proof. unfold cnt. apply count_occ_cons_eq. reflexivity. Qed.

Lemma cnt_cons_neq x y l : y <> x -> cnt x (y :: l) = cnt x l.
Proof. unfold cnt. intros H. apply count_occ_cons_neq. exact H. Qed.

Lemma cnt_zero x l : ~ In x l -> cnt x l = 0%nat.
Proof. unfold cnt. intros H. apply count_occ_not_In. exact H. Qed.

(* What the clauses are for.
   [inv_fid_lt], [inv_kinds_lt], [inv_logs_lt]: ids are handed out in order, so [nextf s], the id of
     the next registration, occurs nowhere yet: not in the map, not in the kind log, not in the run logs.
   [inv_fid_inj]: an id sits at one slot; this is what ties "produced by registration f" to a slot
     ([no_alias]) and lets the completion of one slot leave the run counts of the others alone.
   [inv_cell]: a filled cell holds an instance recorded as produced by that very registration, with an
     id already handed out: a cached answer reports the right producer, and fresh ids are new.
   [inv_empty] and [inv_once]: a singleton whose cell is empty has not completed; completing fills the
     cell, so it completes at most once.
   [inv_kind_ok] and [inv_inst]: a provider has the shape of the kind it was registered with; an
     [add_instance] registration has its cell full from the start, so its factory is never started. *)
Record Inv (s : st) : Prop := {
  inv_fid_lt : forall sl p, plookup sl (provs s) = Some p -> pfid p < nextf s;
  inv_fid_inj : forall sl sl' p p',
      plookup sl (provs s) = Some p -> plookup sl' (provs s) = Some p' -> pfid p = pfid p' -> sl = sl';
  inv_cell : forall sl fid i sc,
      plookup sl (provs s) = Some (PSingleton fid (Some i) sc) ->
      (exists ds, ilookup i (insts s) = Some (fid, ds)) /\ i < next s;
  inv_empty : forall sl fid sc,
      plookup sl (provs s) = Some (PSingleton fid None sc) -> cnt fid (completed s) = 0%nat;
  inv_kinds_lt : forall f k, In (f, k) (kinds s) -> f < nextf s;
  inv_kind_ok : forall sl p k,
      plookup sl (provs s) = Some p -> In (pfid p, k) (kinds s) -> kind_match p k;
  inv_once : forall f k, In (f, k) (kinds s) -> k <> KTransient -> (cnt f (completed s) <= 1)%nat;
  inv_inst : forall f, In (f, KInstance) (kinds s) -> cnt f (started s) = 0%nat;
  inv_logs_lt : forall f, In f (started s) \/ In f (completed s) -> f < nextf s
}.

Lemma inv_init : Inv init.
Proof.
  constructor; cbn [init provs kinds started completed plookup]; intros; try discriminate;
    try contradiction.
  destruct H; contradiction.
Qed.

Lemma ilookup_skip i j x l : i <> j -> ilookup i ((j, x) :: l) = ilookup i l.
Proof. intros H. cbn [ilookup]. destruct (N.eqb_spec i j); [contradiction | reflexivity]. Qed.

Lemma ilookup_head i x l : ilookup i ((i, x) :: l) = Some x.
Proof. cbn [ilookup]. rewrite N.eqb_refl. reflexivity. Qed.

Definition new_provider (s : st) (k : kind) (sc : script) : provider :=
  match k with
  | KSingleton => PSingleton (nextf s) None sc
  | KTransient => PTransient (nextf s) sc
  | KInstance => PSingleton (nextf s) (Some (next s)) []
  end.

Lemma register_eq s k sl sc :
  register s k sl sc =
  St (pinsert sl (new_provider s k sc) (provs s))
     (match k with KInstance => next s + 1 | _ => next s end) (nextf s + 1)
     (match k with KInstance => (next s, (nextf s, [])) :: insts s | _ => insts s end)
     (started s) (completed s) ((nextf s, k) :: kinds s).
Proof. destruct k; reflexivity. Qed.

Lemma register_lookup s k sl sc z :
  plookup z (provs (register s k sl sc)) =
  if slot_eqb z sl then Some (new_provider s k sc) else plookup z (provs s).
Proof. rewrite register_eq. apply plookup_pinsert. Qed.

Lemma inv_register s k sl sc : Inv s -> Inv (register s k sl sc).
Proof.
  intros I.
  assert (Hf : pfid (new_provider s k sc) = nextf s) by (destruct k; reflexivity).
  assert (Hfresh : cnt (nextf s) (started s) = 0%nat /\ cnt (nextf s) (completed s) = 0%nat).
  { split; apply cnt_zero; intros Hin;
      [pose proof (inv_logs_lt s I _ (or_introl Hin)) | pose proof (inv_logs_lt s I _ (or_intror Hin))]; lia. }
  pose proof (register_lookup s k sl sc) as LK. rewrite register_eq in *.
  constructor; cbn [provs next nextf insts started completed kinds] in *.
  - intros z p H. rewrite LK in H. destruct (slot_eqb z sl).
    + injection H as <-. lia.
    + pose proof (inv_fid_lt s I z p H). lia.
  - intros z z' p p' H H' E. rewrite LK in H, H'.
    destruct (slot_eqb_spec z sl) as [->|Hn1]; destruct (slot_eqb_spec z' sl) as [->|Hn2]; try reflexivity.
    + injection H as <-. pose proof (inv_fid_lt s I z' p' H'). lia.
    + injection H' as <-. pose proof (inv_fid_lt s I z p H). lia.
    + apply (inv_fid_inj s I z z' p p' H H' E).
  - intros z fid i sc' H. rewrite LK in H. destruct (slot_eqb z sl).
    + destruct k; cbn [new_provider] in H; try discriminate. injection H as <- <- <-.
      split; [|lia]. exists []. apply ilookup_head.
    + destruct (inv_cell s I z fid i sc' H) as ((ds & Hds) & Hlt).
      split; [|destruct k; lia]. exists ds. destruct k; try exact Hds. rewrite ilookup_skip; [exact Hds | lia].
  - intros z fid sc' H. rewrite LK in H. destruct (slot_eqb z sl).
    + injection H as H. rewrite H in Hf. cbn [pfid] in Hf. subst fid. apply Hfresh.
    + apply (inv_empty s I z fid sc' H).
  - intros f k0 [[= <- <-]|H]; [lia|]. pose proof (inv_kinds_lt s I f k0 H). lia.
  - intros z p k0 H Hin. rewrite LK in H. destruct (slot_eqb z sl).
    + injection H as <-. rewrite Hf in Hin. destruct Hin as [[= <-]|Hin].
      * destruct k; exact Logic.I.
      * pose proof (inv_kinds_lt s I _ _ Hin). lia.
    + destruct Hin as [[= E _]|Hin].
      * pose proof (inv_fid_lt s I z p H). lia.
      * apply (inv_kind_ok s I z p k0 H Hin).
  - intros f k0 [[= <- <-]|H] Hne; [rewrite (proj2 Hfresh); lia | apply (inv_once s I f k0 H Hne)].
  - intros f [[= <- _]|H]; [apply Hfresh | apply (inv_inst s I f H)].
  - intros f H. pose proof (inv_logs_lt s I f H). lia.
Qed.

Lemma inv_started s a p :
  Inv s -> plookup a (provs s) = Some p -> cached p = None -> Inv (mark_started s (pfid p)).
Proof.
  intros I Hl Hc. pose proof I as [? ? ? ? ? ? ? ? ?].
  constructor; cbn [mark_started provs nextf insts next kinds started completed]; try assumption.
  - (* the factory of an [add_instance] registration is not the one being started: its cell is full *)
    intros f H. destruct (N.eq_dec (pfid p) f) as [<-|E].
    + pose proof (inv_kind_ok s I a p KInstance Hl H) as M.
      destruct p as [fid [i|] sc|fid sc]; cbn [kind_match cached] in *; try contradiction; discriminate.
    + rewrite (cnt_cons_neq f (pfid p) _ E). apply (inv_inst s I f H).
  - intros f [[<-|H]|H]; [apply (inv_fid_lt s I a p Hl) | apply (inv_logs_lt s I f) ..]; auto.
Qed.

Lemma inv_complete s a p seen :
  Inv s -> plookup a (provs s) = Some p -> cached p = None -> Inv (complete s a p seen).
Proof.
  intros I Hl Hc. pose proof I as [? ? ? ? ? ? ? ? ?].
  pose proof (complete_lookup s a p seen) as CL.
  assert (SH : forall z q, plookup z (provs (complete s a p seen)) = Some q ->
                exists q0, plookup z (provs s) = Some q0 /\ pfid q0 = pfid q).
  { intros z q H. rewrite CL in H by exact Hl. destruct (slot_eqb_spec z a) as [->|Hn].
    - exists p. split; [exact Hl|]. injection H as <-. symmetry. apply pfid_filled.
    - exists q. split; [exact H | reflexivity]. }
  constructor; try assumption; cbn [complete nextf next insts completed].
  - intros z q H. destruct (SH z q H) as (q0 & H0 & <-). apply (inv_fid_lt s I z q0 H0).
  - intros z z' q q' H H' E. destruct (SH z q H) as (q0 & H0 & E0). destruct (SH z' q' H') as (q0' & H0' & E0').
    apply (inv_fid_inj s I z z' q0 q0' H0 H0'). congruence.
  - intros z fid i sc H. rewrite CL in H by exact Hl. destruct (slot_eqb_spec z a) as [->|Hn].
    + destruct p as [fid0 c sc0|fid0 sc0]; [|discriminate]. injection H as <- <- <-.
      split; [|lia]. exists seen. apply ilookup_head.
    + destruct (inv_cell s I z fid i sc H) as ((ds & Hds) & Hlt).
      split; [|lia]. exists ds. rewrite ilookup_skip; [exact Hds | lia].
  - intros z fid sc H. rewrite CL in H by exact Hl. destruct (slot_eqb_spec z a) as [->|Hn].
    + destruct p; discriminate.
    + rewrite cnt_cons_neq; [apply (inv_empty s I z fid sc H)|].
      intros E. apply Hn. symmetry. exact (inv_fid_inj s I a z p _ Hl H E).
  - intros z q k H Hin. rewrite CL in H by exact Hl. destruct (slot_eqb_spec z a) as [->|Hn].
    + injection H as <-. rewrite pfid_filled in Hin. pose proof (inv_kind_ok s I a p k Hl Hin) as M.
      destruct p as [fid0 [i0|] sc0|fid0 sc0]; try discriminate; destruct k; first [exact M | destruct M].
    + apply (inv_kind_ok s I z q k H Hin).
  - intros f k H Hne. destruct (N.eq_dec (pfid p) f) as [<-|E].
    + rewrite cnt_cons_eq. pose proof (inv_kind_ok s I a p k Hl H) as M.
      destruct p as [fid0 [i0|] sc0|fid0 sc0]; try discriminate.
      * cbn [pfid]. rewrite (inv_empty s I a fid0 sc0 Hl). lia.
      * destruct k; contradiction.
    + rewrite cnt_cons_neq; [apply (inv_once s I f k H Hne) | exact E].
  - intros f [H|[<-|H]]; [apply (inv_logs_lt s I f) | apply (inv_fid_lt s I a p Hl) | apply (inv_logs_lt s I f)]; auto.
Qed.

Lemma inv_both :
  both (fun _ s _ _ s' _ => Inv s -> Inv s') (fun _ _ s _ _ s' _ => Inv s -> Inv s').
Proof.
  apply resolve_preorder; auto.
  - intros s a p Hl Hc I. exact (inv_started s a p I Hl Hc).
  - intros s a p seen Hl Hc I. exact (inv_complete s a p seen I Hl Hc).
Qed.

Lemma inv_step s o : Inv s -> Inv (fst (step s o)).
Proof.
  intros I. destruct o as [k sl sc|sl]; cbn [step fst].
  - apply inv_register. exact I.
  - destruct (resolve (fuel_of s) s [] sl) as [s' r] eqn:E. cbn [fst].
    apply (proj1 inv_both _ _ _ _ _ _ E I).
Qed.

Lemma run_app s a b :
  run s (a ++ b) = let '(s1, xs) := run s a in let '(s2, ys) := run s1 b in (s2, xs ++ ys).
Proof.
  revert s. induction a as [|o t IH]; intros s; cbn [app run].
  - destruct (run s b); reflexivity.
  - destruct (step s o) as [s1 x]. rewrite IH. destruct (run s1 t) as [s2 xs].
    destruct (run s2 b) as [s3 ys]. reflexivity.
Qed.

Lemma run_rel (R : st -> st -> Prop) ops :
  (forall s, R s s) -> (forall a b c, R a b -> R b c -> R a c) ->
  (forall s o, In o ops -> R s (fst (step s o))) -> forall s, R s (fst (run s ops)).
Proof.
  intros Rrefl Rtrans. induction ops as [|o t IH]; intros Hstep s; cbn [run]; [apply Rrefl|].
  pose proof (Hstep s o (or_introl eq_refl)) as H1. destruct (step s o) as [s1 x].
  assert (H2 : R s1 (fst (run s1 t))) by (apply IH; intros; apply Hstep; right; assumption).
  destruct (run s1 t) as [s2 xs]. exact (Rtrans _ _ _ H1 H2).
Qed.

Lemma inv_run s ops : Inv s -> Inv (fst (run s ops)).
Proof. apply (run_rel (fun s s' => Inv s -> Inv s')); auto using inv_step. Qed.

Lemma inv_reachable ops : Inv (fst (run init ops)).
Proof. apply inv_run. apply inv_init. Qed.

Lemma step_stable s sl : stable s (fst (step s (Resolve sl))).
Proof.
  cbn [step]. destruct (resolve (fuel_of s) s [] sl) as [s' r] eqn:E. exact (resolve_stable _ _ _ _ _ _ E).
Qed.

(** unregistered => None, and nothing changes *)
Theorem unregistered_none s sl :
  plookup sl (provs s) = None -> step s (Resolve sl) = (s, ONone).
Proof.
  intros H. cbn [step]. unfold fuel_of. cbn [resolve kmem existsb]. rewrite H. reflexivity.
Qed.

Definition registers (sl : slot) (o : op) : bool :=
  match o with Register _ sl' _ => slot_eqb sl sl' | Resolve _ => false end.
Definition no_register (sl : slot) (ops : list op) : Prop := forallb (fun o => negb (registers sl o)) ops = true.

Lemma step_grows s sl o :
  registers sl o = false -> grows (plookup sl (provs s)) (plookup sl (provs (fst (step s o)))).
Proof.
  destruct o as [k sl' sc|sl']; cbn [registers]; intros H.
  - cbn [step fst]. rewrite register_lookup, H. apply grows_refl.
  - apply step_stable.
Qed.

Lemma run_grows s ops sl :
  no_register sl ops -> grows (plookup sl (provs s)) (plookup sl (provs (fst (run s ops)))).
Proof.
  intros H. revert s.
  apply (run_rel (fun s s' => grows (plookup sl (provs s)) (plookup sl (provs s')))).
  - intros s. apply grows_refl.
  - intros a b c. apply grows_trans.
  - intros s o Hin. apply step_grows. apply negb_true_iff. exact (proj1 (forallb_forall _ _) H o Hin).
Qed.

(** a key is unregistered exactly when no registration of it occurred *)
Lemma registered_run s ops sl :
  plookup sl (provs (fst (run s ops))) = None <-> plookup sl (provs s) = None /\ no_register sl ops.
Proof.
  unfold no_register. revert s. induction ops as [|o t IH]; intros s; cbn [run fst forallb].
  - tauto.
  - pose proof (step_grows s sl o) as G.
    destruct (step s o) as [s1 x] eqn:E. specialize (IH s1). destruct (run s1 t) as [s2 xs]. cbn [fst] in *.
    rewrite IH, andb_true_iff, negb_true_iff. destruct (registers sl o) eqn:R.
    + destruct o as [k sl' sc|sl']; [|discriminate]. cbn [step] in E. injection E as <- _.
      rewrite register_lookup. cbn [registers] in R. rewrite R. split; [intros [A _] | intros [_ [A _]]]; discriminate.
    + rewrite (grows_none _ _ (G eq_refl)). tauto.
Qed.

Theorem unregistered_history ops sl :
  no_register sl ops ->
  let s := fst (run init ops) in step s (Resolve sl) = (s, ONone).
Proof.
  intros H. cbn zeta. apply unregistered_none. apply registered_run. split; [reflexivity | exact H].
Qed.

(** a successful resolution: the instance was produced by the registration currently at that key,
    out of its cell or freshly (and then a singleton's cell holds it afterwards) *)
Lemma step_some s sl s' i f ds :
  Inv s -> step s (Resolve sl) = (s', OSome i f ds) ->
  exists p, plookup sl (provs s) = Some p /\ pfid p = f /\ i < next s' /\
    ((cached p = Some i /\ s' = s) \/
     (cached p = None /\ next s <= i /\ plookup sl (provs s') = Some (filled i p))).
Proof.
  intros I. cbn [step]. unfold fuel_of. cbn [resolve kmem existsb].
  destruct (plookup sl (provs s)) as [p|] eqn:El; [|discriminate].
  intros H. exists p. split; [reflexivity|]. revert H.
  destruct (cached p) as [j|] eqn:Ec; cbn [out_of].
  - destruct p as [fid [c|] sc|fid sc]; try discriminate Ec. injection Ec as ->.
    destruct (inv_cell s I sl fid j sc El) as ((ds' & ->) & Hlt). intros [= <- <- <- <-]. auto.
  - destruct (run_deps _ _ _ _) as [s1 d] eqn:Ed. destruct d as [seen| |]; try discriminate.
    cbn [out_of complete insts]. rewrite ilookup_head. intros [= <- <- <- <-].
    split; [reflexivity|]. split; [cbn [complete next]; lia|]. right.
    pose proof (deps_stable _ _ _ _ _ _ _ Ed) as (_ & _ & _ & Hn). cbn [mark_started next] in Hn.
    split; [reflexivity|]. split; [exact Hn|].
    rewrite complete_lookup, slot_eqb_refl; [reflexivity|]. rewrite (deps_self _ _ _ _ _ _ _ _ Ed). exact El.
Qed.

Theorem resolved_by_current s sl s' i f ds :
  Inv s -> step s (Resolve sl) = (s', OSome i f ds) ->
  exists p, plookup sl (provs s) = Some p /\ pfid p = f.
Proof. intros I H. destruct (step_some _ _ _ _ _ _ I H) as (p & Hp & Hf & _). eauto. Qed.

(** the registration found at a key is the latest one *)
Theorem latest_wins s k sl sc ops s3 i f ds :
  Inv s -> no_register sl ops ->
  let s1 := fst (step s (Register k sl sc)) in
  let s2 := fst (run s1 ops) in
  step s2 (Resolve sl) = (s3, OSome i f ds) -> f = nextf s.
Proof.
  intros I Hn s1 s2 H.
  assert (I2 : Inv s2) by (apply inv_run; apply inv_step; exact I).
  destruct (resolved_by_current _ _ _ _ _ _ I2 H) as (p & Hp & <-).
  pose proof (run_grows s1 ops sl Hn) as G. fold s2 in G. rewrite Hp in G.
  unfold s1 in G. cbn [step fst] in G. rewrite register_lookup, slot_eqb_refl in G.
  rewrite (grows_fid _ _ G). destruct k; reflexivity.
Qed.

(** distinct keys never alias: the producing registration sits at the resolved slot and nowhere else *)
Theorem no_alias s sl s' i f ds sl' p' :
  Inv s -> step s (Resolve sl) = (s', OSome i f ds) ->
  plookup sl' (provs s) = Some p' -> pfid p' = f -> sl' = sl.
Proof.
  intros I H Hp' Hf. destruct (resolved_by_current _ _ _ _ _ _ I H) as (p & Hp & E).
  apply (inv_fid_inj s I sl' sl p' p Hp' Hp). congruence.
Qed.

(** a resolution only touches slots reachable through dependency scripts *)
Inductive sreach (pv : pmap) : slot -> slot -> Prop :=
| sr_refl a : sreach pv a a
| sr_step a p c req b : plookup a pv = Some p -> In (c, req) (pscript p) -> sreach pv c b -> sreach pv a b.

Lemma sreach_stable s s' a b : stable s s' -> sreach (provs s') a b -> sreach (provs s) a b.
Proof.
  intros (_ & G & _) H. induction H as [a | a p c req b Hp Hin Hr IH]; [apply sr_refl|].
  pose proof (G a) as Ga. rewrite Hp in Ga. destruct (grows_script _ _ Ga) as (q & Hq & Hs).
  apply (sr_step _ a q c req b Hq); [rewrite Hs; exact Hin | exact IH].
Qed.

Lemma frame_both :
  both (fun _ s _ a s' _ => forall z, ~ sreach (provs s) a z -> plookup z (provs s') = plookup z (provs s))
       (fun _ _ s sc _ s' _ => forall z, (forall c req, In (c, req) sc -> ~ sreach (provs s) c z) ->
          plookup z (provs s') = plookup z (provs s)).
Proof.
  apply resolve_both; try reflexivity.
  - intros f s stk sl p s1 d Hk Hl Hc Hd HQ.
    assert (F : forall z, ~ sreach (provs s) sl z -> plookup z (provs s1) = plookup z (provs s)).
    { intros z Hz. apply HQ. intros c req Hin Hr. apply Hz. exact (sr_step _ sl p c req z Hl Hin Hr). }
    destruct d as [seen| |]; try exact F. intros z Hz.
    rewrite complete_lookup by (rewrite (deps_self _ _ _ _ _ _ _ _ Hd); exact Hl).
    destruct (slot_eqb_spec z sl) as [->|Hn]; [destruct Hz; apply sr_refl | exact (F z Hz)].
  - intros f stk s d req r seen s1 x a E HP _ z Hz. apply HP. apply (Hz d req). left. reflexivity.
  - intros f stk s d req r seen s1 x s2 dr E HP _ HQ z Hz.
    rewrite HQ; [apply HP; apply (Hz d req); left; reflexivity|].
    intros c req' Hin Hr. apply (Hz c req' (or_intror Hin)).
    exact (sreach_stable _ _ _ _ (resolve_stable _ _ _ _ _ _ E) Hr).
Qed.

Theorem resolve_frame s sl s' o z :
  step s (Resolve sl) = (s', o) -> ~ sreach (provs s) sl z -> plookup z (provs s') = plookup z (provs s).
Proof.
  cbn [step]. destruct (resolve (fuel_of s) s [] sl) as [s1 r] eqn:E. intros [= <- _].
  exact (proj1 frame_both _ _ _ _ _ _ E z).
Qed.

(** transient => a fresh instance on every resolution *)
Theorem transient_fresh s sl fid sc s' i f ds :
  Inv s -> plookup sl (provs s) = Some (PTransient fid sc) ->
  step s (Resolve sl) = (s', OSome i f ds) -> next s <= i /\ i < next s'.
Proof.
  intros I Hp H. destruct (step_some _ _ _ _ _ _ I H) as (p & Hp' & _ & B & [[Hc _]|(_ & A & _)]); [|auto].
  rewrite Hp in Hp'. injection Hp' as <-. discriminate.
Qed.

Lemma run_next_mono s ops : next s <= next (fst (run s ops)).
Proof.
  apply (run_rel (fun s s' => next s <= next s')); [intros; lia | intros; lia |].
  intros s0 [k sl sc|sl] _; [|apply step_stable]. cbn [step fst]. rewrite register_eq. cbn [next]. destruct k; lia.
Qed.

Lemma outs_lt s ops s' outs j f ds :
  Inv s -> run s ops = (s', outs) -> In (OSome j f ds) outs -> j < next s'.
Proof.
  revert s s' outs. induction ops as [|o t IH]; intros s s' outs I H Hin; cbn [run] in H.
  - injection H as <- <-. contradiction.
  - pose proof (inv_step s o I) as I1.
    destruct (step s o) as [s1 x] eqn:E. destruct (run s1 t) as [s2 xs] eqn:Er. injection H as <- <-.
    destruct Hin as [->|Hin]; [|exact (IH s1 s2 xs I1 Er Hin)].
    pose proof (run_next_mono s1 t) as M. rewrite Er in M. cbn [fst] in M.
    destruct o as [k sl sc|sl]; [cbn [step] in E; discriminate|].
    destruct (step_some _ _ _ _ _ _ I E) as (_ & _ & _ & B & _). lia.
Qed.

Theorem transient_never_repeats ops s outs sl fid sc s' i f ds :
  run init ops = (s, outs) -> plookup sl (provs s) = Some (PTransient fid sc) ->
  step s (Resolve sl) = (s', OSome i f ds) ->
  forall j f' ds', In (OSome j f' ds') outs -> j < i.
Proof.
  intros Hr Hp H j f' ds' Hin.
  assert (I : Inv s) by (pose proof (inv_reachable ops) as J; rewrite Hr in J; exact J).
  pose proof (outs_lt init ops s outs j f' ds' inv_init Hr Hin).
  destruct (transient_fresh _ _ _ _ _ _ _ _ I Hp H). lia.
Qed.

(** singleton => the factory completes at most once per registration; add_instance never runs one *)
Theorem singleton_once ops f k :
  let s := fst (run init ops) in
  In (f, k) (kinds s) -> k <> KTransient -> (cnt f (completed s) <= 1)%nat.
Proof. cbn zeta. apply inv_once. apply inv_reachable. Qed.

Theorem instance_factory_never_runs ops f :
  let s := fst (run init ops) in In (f, KInstance) (kinds s) -> cnt f (started s) = 0%nat.
Proof. cbn zeta. apply inv_inst. apply inv_reachable. Qed.

Lemma kinds_grow s ops x : In x (kinds s) -> In x (kinds (fst (run s ops))).
Proof.
  apply (run_rel (fun s s' => In x (kinds s) -> In x (kinds s'))); auto.
  intros s0 [k sl sc|sl] _ H.
  - cbn [step fst]. rewrite register_eq. right. exact H.
  - rewrite (proj1 (proj2 (proj2 (step_stable s0 sl)))). exact H.
Qed.

Lemma register_kind s k sl sc : In (nextf s, k) (kinds (register s k sl sc)).
Proof. rewrite register_eq. left. reflexivity. Qed.

Lemma cached_resolve s sl fid i sc :
  plookup sl (provs s) = Some (PSingleton fid (Some i) sc) ->
  exists f ds, step s (Resolve sl) = (s, OSome i f ds).
Proof.
  intros H. cbn [step]. unfold fuel_of. cbn [resolve kmem existsb]. rewrite H. cbn [cached out_of].
  destruct (ilookup i (insts s)) as [[f ds]|]; eauto.
Qed.

(** singleton: once a resolution has succeeded, every later resolution — whatever happens in
    between, short of registering the key again — returns the same instance and changes nothing *)
Theorem singleton_same s sl fid c sc s1 i f ds ops :
  Inv s -> plookup sl (provs s) = Some (PSingleton fid c sc) ->
  step s (Resolve sl) = (s1, OSome i f ds) ->
  no_register sl ops ->
  let s2 := fst (run s1 ops) in
  exists f' ds', step s2 (Resolve sl) = (s2, OSome i f' ds').
Proof.
  intros I Hp H Hn s2.
  destruct (step_some _ _ _ _ _ _ I H) as (p & Hp' & _ & _ & D).
  rewrite Hp in Hp'. injection Hp' as <-.
  assert (C1 : plookup sl (provs s1) = Some (PSingleton fid (Some i) sc)).
  { destruct D as [[Hc ->]|(_ & _ & Hl)]; [|exact Hl].
    destruct c as [c|]; [|discriminate]. injection Hc as ->. exact Hp. }
  apply (cached_resolve s2 sl fid i sc).
  pose proof (run_grows s1 ops sl Hn) as G. rewrite C1 in G. apply (grows_cached _ _ G). discriminate.
Qed.

(* why a resolution panics (and finding F-33: the cause may be a mere key clash) *)
(* [path] = the slots whose factories are running (innermost first).  [hit] decides when the slot
   being resolved counts as "already being resolved". *)
Inductive pcause (hit : list slot -> slot -> Prop) (pv : pmap) : list slot -> slot -> Prop :=
| pc_hit path a : hit path a -> pcause hit pv path a
| pc_missing path a sc v : lscript pv a = Some sc -> In (v, true) sc -> plookup v pv = None ->
                           pcause hit pv path a
| pc_dep path a sc v req : lscript pv a = Some sc -> In (v, req) sc -> pcause hit pv (a :: path) v ->
                           pcause hit pv path a.

(* what the code does: RESOLVING_STACK holds (type, name) keys, whatever the container *)
Definition hit_key (path : list slot) (a : slot) : Prop := In (skey a) (map skey path).
(* what "a dependency cycle" means: the very same registration slot is being resolved *)
Definition hit_slot (path : list slot) (a : slot) : Prop := In a path.

(* a cause seen after a resolution was already there before it: cells are only ever filled *)
Lemma pcause_stable hit s s' path a :
  stable s s' -> pcause hit (provs s') path a -> pcause hit (provs s) path a.
Proof.
  intros (_ & G & _) H.
  assert (L : forall z sc, lscript (provs s') z = Some sc -> lscript (provs s) z = Some sc).
  { intros z sc. unfold lscript. destruct (G z) as [->|(p & i & -> & Hc & ->)]; [auto|].
    rewrite Hc. destruct p; [discriminate | auto]. }
  induction H as [path a Hh | path a sc v Hs Hin Hn | path a sc v req Hs Hin Hc IH].
  - apply pc_hit. exact Hh.
  - eapply pc_missing; [apply L; exact Hs | exact Hin | exact (proj1 (grows_none _ _ (G v)) Hn)].
  - eapply pc_dep; [apply L; exact Hs | exact Hin | exact IH].
Qed.

Lemma resolve_none f s stk a s' : resolve f s stk a = (s', RNone) -> plookup a (provs s) = None.
Proof.
  destruct f as [|f]; cbn [resolve]; [discriminate|].
  destruct (kmem (skey a) stk); [discriminate|].
  destruct (plookup a (provs s)) as [p|]; [|reflexivity].
  destruct (cached p); [discriminate|].
  destruct (run_deps _ _ _ _) as [s1 d]. destruct d; discriminate.
Qed.

Lemma cause_both :
  both (fun _ s stk a _ r => forall path, stk = map skey path -> r = RPanic -> pcause hit_key (provs s) path a)
       (fun _ stk s sc _ _ d => forall path, stk = map skey path -> d = DPanic ->
          exists v req, In (v, req) sc /\
            (pcause hit_key (provs s) path v \/ (req = true /\ plookup v (provs s) = None))).
Proof.
  apply resolve_both; try (intros; discriminate).
  - intros f s stk sl Hk path -> _. apply pc_hit. apply kmem_In. exact Hk.
  - intros f s stk sl p s1 d Hk Hl Hc Hd HQ. destruct d; try (intros; discriminate). intros path -> _.
    destruct (HQ (sl :: path) eq_refl eq_refl) as (v & req & Hin & [Hp|[-> Hn]]).
    + eapply pc_dep; [apply lscript_of; eassumption | exact Hin | exact Hp].
    + eapply pc_missing; [apply lscript_of; eassumption | exact Hin | exact Hn].
  - intros f stk s d req r seen s1 x a E HP Ha path Hs ->. exists d, req. split; [left; reflexivity|].
    destruct (dep_abort_inv _ _ _ Ha) as [(_ & [->|(-> & ->)])|(Hd & _)]; [| |discriminate].
    + left. exact (HP path Hs eq_refl).
    + right. split; [reflexivity | exact (resolve_none _ _ _ _ _ E)].
  - intros f stk s d req r seen s1 x s2 dr E HP _ HQ path Hs Hd.
    destruct (HQ path Hs Hd) as (v & req' & Hin & Hc). exists v, req'. split; [right; exact Hin|].
    pose proof (resolve_stable _ _ _ _ _ _ E) as St.
    destruct Hc as [Hp|[-> Hn]]; [left; exact (pcause_stable _ _ _ _ _ St Hp) | right].
    split; [reflexivity | exact (proj1 (grows_none _ _ (proj1 (proj2 St) v)) Hn)].
Qed.

(** every panic has a cause in the state it started from: along scripts that would run, either a
    required dependency is unregistered, or a KEY met again while its factory is running *)
Theorem panic_has_cause s sl s' :
  step s (Resolve sl) = (s', OPanic) -> pcause hit_key (provs s) [] sl.
Proof.
  cbn [step]. destruct (resolve (fuel_of s) s [] sl) as [s1 r] eqn:E. intros [= _ Ho].
  apply (proj1 cause_both _ _ _ _ _ _ E [] eq_refl).
  destruct r as [|i| |]; cbn [out_of] in Ho; try discriminate; [|reflexivity].
  destruct (ilookup i (insts s1)) as [[f0 ds0]|]; discriminate.
Qed.

(** The full statement one would want — a panic only for a genuine cycle (the same registration
    slot met again) or a missing required dependency — is FALSE of the code (finding F-33): *)
Definition no_spurious_panic : Prop :=
  forall ops sl s', let s := fst (run init ops) in
    step s (Resolve sl) = (s', OPanic) -> pcause hit_slot (provs s) [] sl.

Definition f33_ops : list op :=
  [ Register KSingleton (0, (0, None)) [((1, (0, None)), true)];    (* container 0: T0 needs container 1's T0 *)
    Register KSingleton (1, (0, None)) [] ].                         (* container 1: T0, no dependencies *)

Theorem no_spurious_panic_refuted : ~ no_spurious_panic.
Proof.
  intros H. specialize (H f33_ops (0, (0, None))). vm_compute in H. specialize (H _ eq_refl).
  inversion H as [path a Hh | path a sc v Hs Hin Hn | path a sc v req Hs Hin Hc]; subst.
  - contradiction.
  - vm_compute in Hs. injection Hs as <-. destruct Hin as [Ev|[]]. injection Ev as <-.
    vm_compute in Hn. discriminate.
  - vm_compute in Hs. injection Hs as <-. destruct Hin as [Ev|[]]. injection Ev as <- <-.
    inversion Hc as [path a Hh | path a sc v Hs Hin Hn | path a sc v req Hs Hin Hc']; subst.
    + destruct Hh as [Eq|[]]. discriminate.
    + vm_compute in Hs. injection Hs as <-. contradiction.
    + vm_compute in Hs. injection Hs as <-. contradiction.
Qed.
