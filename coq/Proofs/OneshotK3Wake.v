(* The wake protocol of the oneshot recv future under a block_on executor
   (K3 model): a parked receiver always has a wake-up owed.  With the repair of F-37 (fixB): no
   reachable state in which nobody can step has a parked receiver (deadlock freedom), for every N >= 1,
   all programs and all schedules; refuted for the code before the repair by a concrete schedule. *)
From Coq Require Import List Arith Bool Lia.
From Fibre Require Import Common.Conc Chan.OneshotK3 Proofs.OneshotK3Base Proofs.OneshotK3Life
     Proofs.OneshotK3Slot Proofs.OneshotK3Vals.
Import ListNotations.

(* Zones of the receiver inside block_on(recv()).
   z2   from the registration of the waker to the park: the second try_recv (context CP2), the re-read
        of sender_count, the block_on loop.  There the registration is intact or the woken flag is set.
   lz   the part of z2 after the last load of the state word: what was loaded may be out of date, and
        whoever moved the state to SENT / CLOSED since then still owes its wake().
   bz   the block_on loop itself (flag check, park).
   and of a sender:
   unparking   between taking the waker and the unpark: a token is on its way.
   lastw       the last sender from its fetch_sub to its late wake(), the branches that lead to
               WTake WLate: with state TAKEN this is where the wake-up of a parked receiver comes from. *)
Definition z2 (p : rpc_t) : bool :=
  match p with
  | TLoad CP2 | TCas CP2 | TLock CP2 | TNone CP2 | TUnlock CP2 _ | TFLoad CP2 | TFCnt CP2 | TCnt CP2 | TClose CP2
  | PCntC | BChk | BPark => true
  | _ => false
  end.
Definition lz (p : rpc_t) : bool :=
  match p with TCnt CP2 | TClose CP2 | PCntC | BChk | BPark => true | _ => false end.
Definition bz (p : rpc_t) : bool := match p with BChk | BPark => true | _ => false end.
Definition unparking (p : spc_t) : bool := match p with WUnpark _ => true | _ => false end.
Definition lastw (p : spc_t) : bool :=
  match p with DCas | DLoad | DRd | DLoadR | WTake WLate => true | _ => false end.

Section Wake.
  Variable C : cfg.
  Variable n : nat.
  Variable sprog : nat -> sop.
  Hypothesis Hn : 1 <= n.

  Notation inr := (inr n).
  Notation LInv := (LInv n).

  (* What each clause is there for: a parked receiver is owed a wake-up by somebody who will still act.
     w_1   the registration is not lost: from register to the park the waker is registered for this
           poll, or it was taken and the flag is set.
     w_2   flag set at the park: the token is there or an unpark is on its way.
     w_j   registration intact and the state moved to SENT / CLOSED after the receiver last looked:
           the writer / closer has not done its wake() yet.
     w_jt  the same for TAKEN, where nobody moves the state any more: a sender has still to do its
           fetch_sub, or the last one is on its way to the late wake().  Needs the repair of F-37 (the
           re-read of sender_count): without it the last sender can be gone already.
     w_k2  EMPTY: a sender is still to come, or the last one is at its CAS EMPTY->CLOSED. *)
  Record WInv (s : st) : Prop := mkWInv {
    w_1 : z2 (rpc s) = true -> wk s = Some (gen s) \/ woken s = true;
    w_2 : rpc s = BPark -> woken s = true -> token s = true \/ exists t, unparking (spc s t) = true;
    w_j : forall k w, (k = Sent /\ w = WSend) \/ (k = Closed /\ w = WClosed) ->
          lz (rpc s) = true -> wk s = Some (gen s) -> woken s = false -> cs s = k -> exists t, spc s t = WTake w;
    w_jt : fixB C = true -> bz (rpc s) = true -> wk s = Some (gen s) -> woken s = false -> cs s = Taken ->
           (exists t, inr t /\ pre_fsub (spc s t) = true) \/ (exists t, lastw (spc s t) = true);
    w_k2 : cs s = Empty -> (exists t, inr t /\ pre_fsub (spc s t) = true) \/ (exists t, spc s t = DCas)
  }.

  Lemma WInv_init rp : WInv (init n rp).
  Proof.
    constructor; cbn; intros; try discriminate; try congruence; auto.
    left. exists 1. split; [unfold OneshotK3Life.inr; lia|reflexivity].
  Qed.

  Ltac rcasesW H := rcases H; try match goal with c : tctx |- _ => destruct c end; cbn [z2 lz bz].

  Lemma WInv_sstep s t s' e : inr t -> LInv s -> WInv s -> sstep sprog s t = Some (s', e) -> WInv s'.
  Proof.
    intros Rt L W H. apply (sstep_inv sprog) in H.
    assert (Hoth : pre_fsub (spc s t) = true -> cnt s <> 1 ->
                   exists u, inr u /\ pre_fsub (upd (spc s) t SArc u) = true).
    { intros A B. apply cntf_ex. rewrite (cntf_upd_dec _ pre_fsub) by first [exact Rt | exact A | reflexivity].
      pose proof (cntf_pos (fun u => pre_fsub (spc s u)) n t Rt A). rewrite <- (l_cnt _ _ L) in *. lia. }
    assert (Bl : bz (rpc s) = true -> lz (rpc s) = true /\ rd s = false).
    { intros Z. split; [destruct (rpc s); try discriminate Z; reflexivity|].
      apply (open_rd n s L); [apply (l_open _ _ L)|]; destruct (rpc s); try discriminate Z; reflexivity. }
    remember (spc s t) as p eqn:Epc in H. rewrite <- Epc in Hoth.
    constructor.
    - scases H; try exact (w_1 _ W); intros X; right;
        (destruct (w_1 _ W X) as [Y|Y]; [|rewrite Y; destruct (Nat.eqb g (gen s)); reflexivity]);
        match goal with E : wk s = Some _ |- _ => rewrite Y in E; injection E as <- end;
        rewrite Nat.eqb_refl; reflexivity.
    - scases H; try exact (w_2 _ W); intros X Y;
        first [ left; reflexivity | right; exists t; rewrite upd_eq; reflexivity
              | destruct (w_2 _ W X Y) as [Z|Z]; [left; exact Z|right];
                apply (ex_upd (fun _ q => unparking q = true)); [exact Z|]; rewrite <- Epc; intros Z2; discriminate Z2 ].
    - scases H; try exact (w_j _ W); intros k w KW Z K Wf X; pose proof KW as [[-> ->]|[-> ->]];
        first [ congruence | exists t; rewrite upd_eq; reflexivity
              | eapply (ex_upd (fun _ q => q = WTake _)); [exact (w_j _ W _ _ KW Z K Wf X)|];
                rewrite <- Epc; intros Z2; discriminate Z2 ].
    - scases H; try exact (w_jt _ W); intros F Z K Wf X; destruct (Bl Z) as [Zl Rdf];
        first [ congruence
              | left; exists t; split; [exact Rt|rewrite upd_eq; reflexivity]
              | right; exists t; rewrite upd_eq; reflexivity
              | left; apply Hoth; [reflexivity|assumption]
              (* the last sender takes the value at DCas2: the writer is still at its wake() *)
              | left; destruct (w_j _ W Sent WSend ltac:(auto) Zl K Wf ltac:(assumption)) as [u Xu]; exists u;
                split; [apply (inr_of_pc n s u L); rewrite Xu; discriminate|];
                rewrite upd_neq; [rewrite Xu; reflexivity|intros ->; rewrite <- Epc in Xu; discriminate Xu]
              | destruct (w_jt _ W F Z K Wf X) as [Y|Y];
                [ left; apply (ex_upd (fun x q => inr x /\ pre_fsub q = true)); [exact Y|];
                  rewrite <- Epc; intros [_ Z2]; discriminate Z2
                | right; apply (ex_upd (fun _ q => lastw q = true)); [exact Y|];
                  rewrite <- Epc; intros Z2; discriminate Z2 ] ].
    - scases H; try exact (w_k2 _ W); intros X;
        first [ congruence
              | left; exists t; split; [exact Rt|rewrite upd_eq; reflexivity]
              | right; exists t; rewrite upd_eq; reflexivity
              | left; apply Hoth; [reflexivity|assumption]
              | destruct (w_k2 _ W X) as [Y|Y];
                [ left; apply (ex_upd (fun x q => inr x /\ pre_fsub q = true)); [exact Y|];
                  rewrite <- Epc; intros [_ Z2]; discriminate Z2
                | right; apply (ex_upd (fun _ q => q = DCas)); [exact Y|];
                  rewrite <- Epc; intros Z2; discriminate Z2 ] ].
  Qed.

  Lemma WInv_rstep s s' e : LInv s -> WInv s -> rstep C s = Some (s', e) -> WInv s'.
  Proof.
    intros L W H. apply (rstep_inv C s s' e (l_tcas _ _ L) (l_unr _ _ L)) in H.
    remember (rpc s) as p eqn:Epc in H.
    pose proof (w_1 _ W) as A1. pose proof (w_j _ W) as Aj.
    pose proof (w_jt _ W) as Ajt. rewrite <- Epc in A1, Aj, Ajt.
    constructor.
    - rcasesW H; try exact (w_1 _ W); intros X; first [discriminate X | left; reflexivity | exact (A1 eq_refl)].
    - rcasesW H; try exact (w_2 _ W); intros X Y; congruence.
    - rcasesW H; try exact (w_j _ W); intros k w KW Z K Wf X;
        first [ exact (Aj k w KW eq_refl K Wf X) | discriminate Z
              | destruct KW as [[-> _]|[-> _]]; first [congruence | match goal with B : _ \/ _ |- _ => destruct B; congruence end] ].
    - rcasesW H; try exact (w_jt _ W); intros F Z K Wf X;
        first [ congruence | left; apply cntf_ex; rewrite <- (l_cnt _ _ L); lia | exact (Ajt F eq_refl K Wf X) ].
    - rcasesW H; try exact (w_k2 _ W); intros X; discriminate X.
  Qed.

  Theorem LW_reachable rp s : reachable (sys C n sprog rp) s -> LInv s /\ WInv s.
  Proof.
    intros R. split; [exact (LInv_reachable C n sprog rp s R)|]. revert s R.
    apply (lift_over C n sprog rp LInv); eauto using LInv_reachable, WInv_init, WInv_rstep, WInv_sstep.
  Qed.

  Lemma rdispatch_some s p : rdispatch C s p <> None.
  Proof.
    revert s. induction p as [|o r IH]; intros s; cbn [rdispatch].
    - destruct (rclosed s); unfold do_arc_r, do_cstore, rret; discriminate.
    - destruct o; destruct (rclosed s); try apply IH; unfold do_tload, do_cstore, rret; discriminate.
  Qed.

  Lemma sstep_none s t : sstep sprog s t = None -> spc s t = SDone.
  Proof.
    unfold sstep, do_srd, do_fsub, sret. destruct (spc s t); intros H;
      repeat split_guard H; first [reflexivity | discriminate H].
  Qed.

  Lemma rstep_none s : rstep C s = None -> rpc s = RDone \/ (rpc s = BPark /\ token s = false).
  Proof.
    unfold rstep, do_tload, do_cstore, do_arc_r, rret. destruct (rpc s); intros H;
      try (destruct (rdispatch_some _ _ H)); repeat split_guard H; try discriminate H; auto.
  Qed.

  (* no lost wake-up: the receiver is never parked (without a token) once every sender thread has
     finished: whoever made the wait condition true also delivered the wake *)
  Lemma parked_not_final s :
    fixB C = true -> LInv s -> WInv s ->
    (forall t, inr t -> spc s t = SDone) -> rpc s = BPark -> token s = false -> False.
  Proof.
    intros FB L W D P T.
    (* no sender thread is at a pc where a wake-up is still owed *)
    pose proof (done_pcs n s L D) as A.
    assert (Pin : forall t, inr t /\ pre_fsub (spc s t) = true -> False).
    { intros t [Ht X]. rewrite (D t Ht) in X. discriminate X. }
    assert (Wf : woken s = false).
    { destruct (woken s) eqn:Wk; [exfalso|reflexivity].
      destruct (w_2 _ W P Wk) as [X|[t X]]; [congruence|]. destruct (A t) as [E|E]; rewrite E in X; discriminate X. }
    assert (Wk : wk s = Some (gen s)).
    { destruct (w_1 _ W) as [X|X]; [rewrite P; reflexivity|exact X|congruence]. }
    assert (Z : lz (rpc s) = true /\ bz (rpc s) = true) by (rewrite P; split; reflexivity).
    destruct (cs s) eqn:Cs;
      [ destruct (w_k2 _ W Cs) as [[t X]|[t X]]; [destruct (Pin t X)|]
      | destruct (l_w3 _ _ L Cs) as [t [_ X]]
      | destruct (w_j _ W _ WSend ltac:(auto) (proj1 Z) Wk Wf Cs) as [t X]
      | destruct (w_jt _ W FB (proj2 Z) Wk Wf Cs) as [[t X]|[t X]]; [destruct (Pin t X)|]
      | destruct (w_j _ W _ WClosed ltac:(auto) (proj1 Z) Wk Wf Cs) as [t X] ];
      destruct (A t) as [E|E]; rewrite E in X; discriminate X.
  Qed.

  Section Thms.
    Variable rp : list rop.
    Variable s : st.
    Hypothesis R : reachable (sys C n sprog rp) s.
    Hypothesis FB : fixB C = true.

    Theorem k3_deadlock_free : quiescent (sys C n sprog rp) s -> all_done n s.
    Proof.
      intros Q. destruct (LW_reachable rp s R) as [L W].
      assert (D : forall t, inr t -> spc s t = SDone).
      { intros t [A B]. specialize (Q t tt). cbn [step sys Conc.step] in Q. unfold step in Q.
        destruct t as [|k]; [lia|]. destruct (Nat.leb_spec (S k) n) as [X|X]; [|lia].
        apply sstep_none. exact Q. }
      split; [|exact D].
      specialize (Q 0 tt). cbn [step sys Conc.step] in Q. unfold step in Q.
      destruct (rstep_none s Q) as [X|[P T]]; [exact X|exfalso].
      exact (parked_not_final s FB L W D P T).
    Qed.
  End Thms.
End Wake.

(* The code before the repair (cfg 0), F-37-oneshot.  Two sender clones; sender 1 sends and leaves;
   the receiver takes the value; its second recv() future reads state TAKEN and sender_count 1; the
   last sender's whole decrement_senders (fetch_sub -> 0 ... wake() on an empty AtomicWaker) runs
   before the registration; the re-check is try_recv, which answers Empty for TAKEN: Pending, parked,
   and nobody is left to wake it. *)
Definition sprog_f37 (t : nat) : sop := match t with 1 => SSend | _ => SDrop end.
Definition sys_f37 : system := sys (mkCfg false false) 2 sprog_f37 [RRecv; RRecv].
Definition sch_f37 : list (nat * unit) :=
  map (fun t => (t, tt)) (repeat 1 10 ++ repeat 0 7 ++ repeat 2 6 ++ repeat 0 3).
Definition st_f37 : st := fst (run sys_f37 (Conc.init sys_f37) sch_f37).

Lemma f37_witness :
  rpc st_f37 = BPark /\ token st_f37 = false /\ spc st_f37 1 = SDone /\ spc st_f37 2 = SDone /\
  rlog st_f37 = [RFVal 1] /\ cnt st_f37 = 0 /\ cs st_f37 = Taken.
Proof. vm_compute. repeat split. Qed.

Lemma f37_reachable : reachable sys_f37 st_f37.
Proof. exists sch_f37. unfold st_f37. reflexivity. Qed.

Lemma f37_quiescent : quiescent sys_f37 st_f37.
Proof.
  intros t c. destruct t as [|[|[|t]]].
  - vm_compute. reflexivity.
  - vm_compute. reflexivity.
  - vm_compute. reflexivity.
  - reflexivity.
Qed.

Theorem k3_deadlock_free_refuted_cfg0 :
  ~ (forall n sprog rp s, 1 <= n -> reachable (sys (mkCfg false false) n sprog rp) s ->
       quiescent (sys (mkCfg false false) n sprog rp) s -> all_done n s).
Proof.
  intros H.
  destruct (H 2 sprog_f37 [RRecv; RRecv] st_f37 ltac:(lia) f37_reachable f37_quiescent) as [X _].
  destruct f37_witness as [Y _]. rewrite Y in X. discriminate X.
Qed.
