(* InvC: after the last sender / receiver has closed, a WAITING record of the
   other side exists only while that closer is still scanning.  InvO: every signalled thread is on
   its way to the retry it owes (the ghost lists owedR / owedS only hold threads at "active"
   program points; with the F-08 repair a receiver signalled CLOSED re-drains, so it stays active
   until its next try_recv_core). *)
From Coq Require Import List NArith Arith Bool Lia Sorted.
From Fibre Require Import Common.Conc Chan.MpmcK3 Proofs.MpmcK3Base Proofs.MpmcK3Queue Proofs.MpmcK3Life Proofs.MpmcK3Wake1 Proofs.MpmcK3Wake2.
Import ListNotations.

Definition has_w (f : nat -> fl) (l : list (nat * nat)) : Prop := exists u g, In (u, g) l /\ f u = FWaiting.

Lemma has_w_sub f l l' : (forall x, In x l' -> In x l) -> has_w f l' -> has_w f l.
Proof. intros H (u & g & Hin & F). exists u, g. split; [apply H; exact Hin|exact F]. Qed.

Lemma has_w_upd f l n v : v <> FWaiting -> has_w (upd f n v) l -> has_w f l.
Proof.
  intros Hv (u & g & Hin & F). exists u, g. split; [exact Hin|].
  unfold upd in F. destruct (Nat.eqb u n); [contradiction|exact F].
Qed.

Lemma has_w_remove f i l : has_w f (remove_nth i l) -> has_w f l.
Proof. apply has_w_sub. intros x. apply remove_nth_In. Qed.
Lemma has_w_unlink f t g l : has_w f (unlink t g l) -> has_w f l.
Proof. apply has_w_sub. intros x Hx. apply unlink_In in Hx. tauto. Qed.
Lemma has_w_upd_notin f l n v : (forall g, ~ In (n, g) l) -> has_w (upd f n v) l -> has_w f l.
Proof.
  intros Hn (u & g & Hin & F). exists u, g. split; [exact Hin|].
  unfold upd in F. destruct (Nat.eqb_spec u n); [subst; exfalso; eapply Hn; exact Hin|exact F].
Qed.
Lemma has_w_nil f : ~ has_w f [].
Proof. intros (u & g & [] & _). Qed.

Lemma scanned_all f l i u g :
  passed f l i -> nth_error l i = Some (u, g) -> f u <> FWaiting -> (S i <? length l) = false -> ~ has_w f l.
Proof.
  intros P N F L (u' & g' & Hin & F'). apply Nat.ltb_ge in L.
  apply In_nth_error in Hin. destruct Hin as [j Hj].
  assert (Hjl : j < length l) by (apply nth_error_Some; congruence).
  destruct (Nat.eq_dec j i) as [->|Ne].
  - rewrite N in Hj. inversion Hj; subst. contradiction.
  - apply (P j u' g'); [lia|exact Hj|exact F'].
Qed.

(* b = true: the senders' count and the receivers' queue; b = false: the other way round *)
Definition cnt_of (b : bool) (s : st) : nat := if b then scnt s else rcnt s.
Definition wq (b : bool) (s : st) : list (nat * nat) := if b then wr s else ws s.

(* after the last sender / receiver has given its count back, a WAITING record of the other side
   exists only while that closer is still scanning the queue *)
Definition InvC (s : st) : Prop :=
  forall b, cnt_of b s = 0 -> has_w (flag s) (wq b s) -> exists h i w, pcs s h = DScan true i w /\ is_prod (prog s h) = b.

(* bring a has_w fact about the new state back to the old one *)
Ltac w_old W :=
  repeat first [ apply has_w_upd in W; [|discriminate]
               | apply has_w_remove in W
               | apply has_w_unlink in W ].

Definition closer (p : pc) : bool := match p with DScan true _ _ => true | _ => false end.

(* for each side: if a WAITING record is linked after the other side's last close, then either the
   mover is now the closer of that side, or the same was true before and the mover, if it was the
   closer of that side, still is *)
Lemma InvC_move s s' t p' :
  InvC s -> pcs s' = upd (pcs s) t p' -> (forall u, is_prod (prog s' u) = is_prod (prog s u)) ->
  (forall b, cnt_of b s' = 0 -> has_w (flag s') (wq b s') ->
   closer p' = true /\ is_prod (prog s t) = b \/
   cnt_of b s = 0 /\ has_w (flag s) (wq b s) /\ (closer (pcs s t) = true -> is_prod (prog s t) = b -> closer p' = true)) ->
  InvC s'.
Proof.
  intros HC Hp Hr Hm b Z W.
  assert (Hc : forall p, closer p = true -> exists i w, p = DScan true i w).
  { intros [] X; try discriminate X. destruct all; [eauto|discriminate X]. }
  destruct (Hm b Z W) as [[X Y]|(A & B & K)].
  - destruct (Hc _ X) as (i & w & ->). exists t, i, w. rewrite Hp, Hr, upd_eq. auto.
  - destruct (HC b A B) as (h & i & w & X & Y). destruct (Nat.eq_dec h t) as [->|N].
    + rewrite X in K. destruct (Hc _ (K eq_refl Y)) as (i' & w' & ->). exists t, i', w'. rewrite Hp, Hr, upd_eq. auto.
    + exists h, i, w. rewrite Hp, Hr, upd_neq by exact N. auto.
Qed.

Lemma InvC_same s s' t p' :
  InvC s -> pcs s' = upd (pcs s) t p' -> (forall u, is_prod (prog s' u) = is_prod (prog s u)) ->
  scnt s' = scnt s -> rcnt s' = rcnt s -> flag s' = flag s -> wr s' = wr s -> ws s' = ws s ->
  negb (closer (pcs s t)) || closer p' = true -> InvC s'.
Proof.
  intros HC Hp Hr Es Er Ef Ewr Ews Hk.
  apply (InvC_move s s' t p' HC Hp Hr). unfold cnt_of, wq. rewrite Es, Er, Ef, Ewr, Ews. intros b Z W.
  right. split; [exact Z|split; [exact W|]]. intros X _. rewrite X in Hk. exact Hk.
Qed.

Lemma InvC_step cap cf s t s' :
  InvL s -> InvE s -> InvP s -> InvC s -> Step cap cf s t s' -> InvC s'.
Proof.
  intros HL HE HP HC HS. pose proof (HP t) as Pt.
  destruct (not_linked t HE) as [Nlr Nls].
  destruct HS.
  all: try solve [ eapply InvC_same; [eassumption|st_simpl; reflexivity|first [reflexivity|exact (fin_role s t _)]|reflexivity..|];
                   try open_move; rewrite Epc; case_pc; reflexivity ].
  all: try open_move; rewrite Epc in Pt, Nlr, Nls; cbn [p_ok r_link s_link] in Pt, Nlr, Nls;
       try match type of Pt with scan_at _ _ _ => destruct Pt as [_ Pt] end.
  all: eapply (InvC_move s _ t _ HC); [st_simpl; reflexivity|reflexivity|]; intros [|]; unfold cnt_of, wq; st_simpl; rewrite Epc; intros Z W.
  (* the generic case: an old WAITING record, and the mover was not the closer *)
  all: try solve [ right; w_old W; split; [exact Z|split; [exact W|discriminate]] ].
  (* registration is refused once the other side is gone; the mover's own new flag is not linked on the other side *)
  all: try contradiction.
  all: try solve [ right; apply has_w_upd_notin in W; [split; [exact Z|split; [exact W|discriminate]]|auto] ].
  (* the last closer starts its scan unless nobody is linked *)
  all: try match goal with Epc : pcs _ _ = DLock |- _ =>
         solve [left; split; [|exact Ep]; rewrite Z; cbn [Nat.eqb andb];
                match type of W with has_w _ ?l => destruct l; [exfalso; exact (has_w_nil _ W)|reflexivity] end] end.
  (* the closing scan goes on, or is complete: then nobody on that side is WAITING any more *)
  all: destruct a; [cbn [andb]|right; w_old W; split; [exact Z|split; [exact W|discriminate]]].
  all: destruct (S i <? length (closing s t)) eqn:El; [right; w_old W; split; [exact Z|split; [exact W|reflexivity]]|].
  all: right; split; [exact Z|]; unfold closing in *; destruct (is_prod (prog s t));
       (split; [w_old W; exact W|intros _ Y; try discriminate Y]); exfalso; revert W; eapply scanned_all;
       [first [exact Pt|apply passed_upd; [discriminate|exact Pt]]|exact En| |exact El].
  all: first [rewrite upd_eq; discriminate|eapply (cas_failed t i HE); [|exact Ec]; auto].
Qed.
Lemma remove1_In t l x : In x (remove1 t l) -> In x l.
Proof.
  induction l as [|a l IH]; cbn; [tauto|]. destruct (Nat.eqb a t); [intros H; right; exact H|].
  intros [H|H]; [left; exact H|right; apply IH; exact H].
Qed.
Lemma remove1_NoDup t l : NoDup l -> NoDup (remove1 t l).
Proof.
  induction 1 as [|a l Ha Hl IH]; cbn; [constructor|]. destruct (Nat.eqb a t); [exact Hl|].
  constructor; [|exact IH]. intros X. apply Ha. eapply remove1_In. exact X.
Qed.
Lemma remove1_not_In t l : NoDup l -> ~ In t (remove1 t l).
Proof.
  induction 1 as [|a l Ha Hl IH]; cbn; [tauto|]. destruct (Nat.eqb_spec a t); [subst; exact Ha|].
  intros [X|X]; [contradiction|]. exact (IH X).
Qed.

(* the flag has left WAITING once its owner is past the wait loop *)
Definition post_wait (p : pc) : bool :=
  match p with
  | RFinal | TFinal | TCancelLock | TCancelUnlock | RUnlLock _ | RUnlUnlock _
  | SFinal | SUnlLock _ | SUnlUnlock _ => true
  | _ => false
  end.
(* a signalled receiver is on its way to the try_recv_core it owes *)
Definition act_r (p : pc) (f : fl) : bool :=
  match p with
  | RWLoad | RWNext | TWLoad | TWNext | RFinal | TFinal => f_fin f
  | RUnlLock _ | RUnlUnlock _ | RLock _ => true
  | _ => false
  end.
(* a sender signalled SUCCESS_SPACE is on its way to the try_send_core it owes *)
Definition act_s (p : pc) (f : fl) : bool :=
  match p with
  | SWLoad | SWNext | SFinal => f_ok f
  | SUnlLock false | SUnlUnlock false | SLock KSend | SScan KSend _ => true
  | _ => false
  end.

Record InvO (s : st) : Prop := {
  O_pw : forall u, post_wait (pcs s u) = true -> flag s u <> FWaiting;
  O_r : forall u, In u (owedR s) -> act_r (pcs s u) (flag s u) = true;
  O_s : forall u, In u (owedS s) -> act_s (pcs s u) (flag s u) = true;
  O_ndr : NoDup (owedR s);
  O_nds : NoDup (owedS s) }.

Lemma target_waits_r p v : r_link p = true -> in_sec p = false -> post_wait p = false -> act_r p v = f_fin v.
Proof. destruct p; cbn; intros A B C; try discriminate; try reflexivity. Qed.
Lemma target_waits_s p v : s_link p = true -> in_sec p = false -> post_wait p = false -> act_s p v = f_ok v.
Proof. destruct p; cbn; intros A B C; try discriminate; try reflexivity. Qed.
Lemma act_r_fin p f v : act_r p f = true -> f_fin v = true -> act_r p v = true.
Proof. destruct p; cbn; congruence. Qed.
Lemma tgt_not_owed p : r_link p = true \/ s_link p = true -> in_sec p = false -> post_wait p = false ->
  act_r p FWaiting = false /\ act_s p FWaiting = false.
Proof. destruct p; cbn; intros [A|A] B C; try discriminate; split; reflexivity. Qed.
Lemma act_s_ok p f v : act_s p f = true -> f_ok v = true -> act_s p v = true.
Proof. destruct p; cbn; congruence. Qed.

(* InvO for the steps that set a flag or edit owedR / owedS (wake CASes, cancel, registration, the
   lock acquisitions of try_send_core / try_recv_core that strike the mover off).  The goals after
   `constructor` are NoDup of the two lists, O_pw, and `forall uu, In uu owed' -> act (pcs' uu) (flag' uu) = true`.
   target_facts: about the record (n, g) a wake CAS has just taken from WAITING: its owner n is
   linked (InvE), not past its wait loop (O_pw) and not in the section (the mover is), hence at a
   pc where act_r / act_s is f_fin / f_ok of its flag (target_waits_r/s): false before, true after.
   So the target was not owed before (tgt_contra: the new head keeps NoDup) and is active now
   (tgt_active, tgt_active_pc: the target is not the mover).
   owed_old: a thread owed before the step.  If it is the mover, its old clause at the concrete pc
   decides (it goes to a pc that is still active, or was struck off: remove1_not_In in the caller);
   if it is another thread (owed_other), its pc is as before and its flag too unless it is the
   target just signalled, which was not owed. *)
Ltac target_facts HL Er Es Opw L1t Epc :=
  match goal with
  | N : nth_error ?l ?i = Some (?n, ?g), Fw : flag ?s ?n = FWaiting |- _ =>
      let Hn := fresh "Hn" in let Pw := fresh "Pw" in let Is := fresh "Is" in
      let Lk := fresh "Lk" in
      pose proof (nth_error_In _ _ N) as Hn;
      assert (Pw : post_wait (pcs s n) = false)
        by (destruct (post_wait (pcs s n)) eqn:Q; [exfalso; exact (Opw n Q Fw)|reflexivity]);
      first [ pose proof (proj1 (proj2 (Er _ _ Hn))) as Lk | pose proof (proj2 (Es _ _ Hn)) as Lk ];
      assert (Is : in_sec (pcs s n) = false)
        by (destruct (in_sec (pcs s n)) eqn:Q; [|reflexivity]; exfalso;
            apply (proj1 HL) in Q; rewrite (L1t eq_refl) in Q; inversion Q; subst;
            rewrite Epc in Lk; cbn in Lk; discriminate Lk)
  end.

Ltac tgt_contra Or Os X :=
  match goal with Fw : flag ?s ?n = FWaiting, Pw : post_wait (pcs ?s ?n) = false, Is : in_sec (pcs ?s ?n) = false, Lk : _ (pcs ?s ?n) = true |- _ =>
    let Ar := fresh "Ar" in let As := fresh "As" in let A := fresh "A" in
    first [ destruct (tgt_not_owed _ (or_introl Lk) Is Pw) as [Ar As] | destruct (tgt_not_owed _ (or_intror Lk) Is Pw) as [Ar As] ];
    first [ pose proof (Or _ X) as A; rewrite Fw, Ar in A; discriminate A
          | pose proof (Os _ X) as A; rewrite Fw, As in A; discriminate A ]
  end.

Ltac tgt_active :=
  match goal with Pw : post_wait (pcs ?s ?n) = false, Is : in_sec (pcs ?s ?n) = false, Lk : _ (pcs ?s ?n) = true |- _ =>
    first [ rewrite (target_waits_r _ _ Lk Is Pw); reflexivity
          | rewrite (target_waits_s _ _ Lk Is Pw); reflexivity ]
  end.

Ltac owed_other Or Os X :=
  first [ first [ apply Or | apply Os ]; exact X
        | unfold upd at 1;
          match goal with |- ?a _ (if Nat.eqb ?x ?n then _ else _) = true =>
            destruct (Nat.eqb_spec x n);
            [ subst; exfalso; tgt_contra Or Os X | first [ apply Or | apply Os ]; exact X ] end ].

Ltac tgt_active_pc t :=
  match goal with Pw : post_wait (pcs ?s ?n) = false, Is : in_sec (pcs ?s ?n) = false, Lk : _ (pcs ?s ?n) = true |- _ =>
    let Nt := fresh "Nt" in
    assert (Nt : n <> t) by (intros ->; match goal with Epc : pcs s t = _ |- _ => rewrite Epc in Is; cbn in Is; discriminate Is end);
    rewrite (upd_neq (pcs s) _ Nt); tgt_active
  end.

Ltac owed_old Or Os Ort Ost t X :=
  match goal with |- ?act (upd (pcs ?s) t ?p ?uu) ?f = true =>
    split_thr uu t;
    [ let A := fresh "A" in
      first [ pose proof (Ort X) as A | pose proof (Ost X) as A ];
      cbn [act_r act_s] in *; rewrite ?upd_eq;
      first [ exact A | reflexivity | discriminate A | rewrite A; reflexivity ]
    | owed_other Or Os X ]
  end.

(* a step that leaves the flags and the owed lists alone: what the mover's pc move has to respect *)
Definition o_keep (f : fl) (p p' : pc) : bool :=
  (negb (post_wait p') || post_wait p || negb (f_waiting f)) && (negb (act_r p f) || act_r p' f)
  && (negb (act_s p f) || act_s p' f).

Lemma InvO_same s s' t p' :
  InvO s -> pcs s' = upd (pcs s) t p' -> flag s' = flag s -> owedR s' = owedR s -> owedS s' = owedS s ->
  o_keep (flag s t) (pcs s t) p' = true -> InvO s'.
Proof.
  intros [Opw Or Os Ndr Nds] Hp Ef Er Es Hk.
  unfold o_keep in Hk. apply andb_prop in Hk. destruct Hk as [Hk K3]. apply andb_prop in Hk. destruct Hk as [K1 K2].
  constructor; rewrite ?Er, ?Es; try assumption; intros u; rewrite Hp, Ef; unfold upd; destruct (Nat.eqb_spec u t) as [->|]; auto; intros X.
  - rewrite X in K1. specialize (Opw t). destruct (post_wait (pcs s t)); [auto|]. destruct (flag s t); discriminate.
  - rewrite (Or t X) in K2. exact K2.
  - rewrite (Os t X) in K3. exact K3.
Qed.

Lemma InvO_step cap cf s t s' :
  redrain_on_close cf = true ->
  InvL s -> InvE s -> InvO s -> Step cap cf s t s' -> InvO s'.
Proof.
  intros Hcf HL HE HO HS. pose proof (E_deaf HE t) as Edt.
  destruct HS; try open_move; try congruence; rewrite Epc in Edt; cbn [deaf_pc deaf_ctx] in Edt; try discriminate Edt.
  all: try solve [ eapply InvO_same; [eassumption|st_simpl; reflexivity|reflexivity..|];
                   rewrite Epc; destruct (flag s t); try discriminate; cbn [f_fin f_ok]; case_pc; reflexivity ].
  all: destruct HE as [Lr Ls Nr Ns Eb Ed Eds]; destruct HO as [Opw Or Os Ndr Nds].
  all: pose proof (proj1 HL t) as L1t; pose proof (Opw t) as Opwt; pose proof (Or t) as Ort; pose proof (Os t) as Ost.
  all: rewrite Epc in L1t, Opwt, Ort, Ost; cbn [in_sec post_wait act_r act_s] in L1t, Opwt, Ort, Ost.
  all: try (unfold closing in En; destruct (is_prod (prog s t)) eqn:Ep; destruct a; cbn [andb orb]); case_pc.
  all: try target_facts HL Lr Ls Opw L1t Epc.
  all: constructor; st_simpl.
  (* NoDup *)
  all: try solve [ assumption | apply remove1_NoDup; assumption ].
  all: try solve [ constructor; [ intros X; tgt_contra Or Os X | assumption ] ].
  (* O_pw *)
  all: try match goal with |- forall u, post_wait _ = true -> _ => solve [ intros uu X; split_thr uu t;
         [ cbn [post_wait] in X; try discriminate X;
           first [ discriminate | apply Opwt; reflexivity
                 | intros Q; rewrite Q in *; discriminate
                 | unfold upd; match goal with |- (if ?b then _ else _) <> _ => destruct b end;
                   first [ discriminate | apply Opwt; reflexivity | intros Q; rewrite Q in *; discriminate ] ]
         | first [ apply Opw; exact X
                 | unfold upd; match goal with |- (if ?b then _ else _) <> _ => destruct b end;
                   [ discriminate | apply Opw; exact X ] ] ] ] end.
  (* O_r / O_s *)
  all: try solve [ intros uu X; owed_old Or Os Ort Ost t X ].
  all: try solve [ intros uu X; destruct (Nat.eq_dec uu t) as [->|Nt];
         [ exfalso; first [ exact (remove1_not_In _ _ Ndr X) | exact (remove1_not_In _ _ Nds X) ]
         | apply remove1_In in X; rewrite (upd_neq (pcs _) _ Nt); owed_other Or Os X ] ].
  all: try solve [ intros uu X; apply in_inv in X; destruct X as [<-|X];
         [ rewrite upd_eq; tgt_active_pc t | owed_old Or Os Ort Ost t X ] ].
  (* the cancel CAS succeeded: the mover had not been signalled *)
  intros uu X. split_thr uu t; [pose proof (Ort X) as A; rewrite Ew in A; discriminate A|exact (Or _ X)].
Qed.
