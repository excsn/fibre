(* Basics for the K3' rendezvous proofs (K3 = an atomic-step model, one step per
   traced event of the code, theorems for all schedules by invariant; K3' = the same for any
   number of threads running arbitrary programs): list / upd / count lemmas,
   classification of program counters, the steps of `step true` as rules (Step, read off the step
   function once; every invariant is lifted over the rules), and the first invariant (LockInv: the
   `core` mutex is held exactly by the thread whose pc is inside a critical section; pre-fix pcs
   are unreachable when the cancel CAS runs under the lock; pcs match roles). *)
From Coq Require Import List NArith Arith Bool Lia.
From Fibre Require Import Common.Lists Common.Conc Chan.RvK3.
Import ListNotations.

Lemma upd_eq A (f : nat -> A) t v : upd f t v t = v.
Proof. unfold upd. rewrite Nat.eqb_refl. reflexivity. Qed.

Lemma upd_neq A (f : nat -> A) t v u : u <> t -> upd f t v u = f u.
Proof. intros H. unfold upd. destruct (Nat.eqb_spec u t); [contradiction|reflexivity]. Qed.

Lemma mem_In t l : mem t l = true <-> In t l.
Proof.
  unfold mem. rewrite existsb_exists. split.
  - intros [x [Hx E]]. apply Nat.eqb_eq in E. subst. exact Hx.
  - intros H. exists t. split; [exact H|apply Nat.eqb_refl].
Qed.

Lemma mem_false t l : mem t l = false <-> ~ In t l.
Proof.
  rewrite <- mem_In. destruct (mem t l); split; intros H; try congruence; exfalso; apply H; reflexivity.
Qed.

Lemma rem_In u t l : In u (rem t l) <-> In u l /\ u <> t.
Proof.
  unfold rem. rewrite filter_In. split; intros [H1 H2]; split; auto.
  - intros ->. rewrite Nat.eqb_refl in H2. discriminate.
  - destruct (Nat.eqb_spec u t); [contradiction|reflexivity].
Qed.

Lemma rem_NoDup t l : NoDup l -> NoDup (rem t l).
Proof. apply NoDup_filter. Qed.

Lemma In_app_single A (u t : A) l : In u (l ++ [t]) <-> In u l \/ u = t.
Proof. rewrite in_app_iff. cbn. intuition. Qed.


Lemma cnt_S f n : cnt f (S n) = cnt f n + (if f n then 1 else 0).
Proof.
  unfold cnt. rewrite seq_S, filter_app, app_length. cbn [plus filter].
  destruct (f n); reflexivity.
Qed.

Lemma cnt_ext f g n : (forall u, u < n -> f u = g u) -> cnt f n = cnt g n.
Proof.
  induction n as [|n IH]; intros H; [reflexivity|].
  rewrite !cnt_S, IH by (intros u Hu; apply H; lia). rewrite (H n) by lia. reflexivity.
Qed.

Lemma cnt_dec f g n t :
  t < n -> f t = true -> g t = false -> (forall u, u <> t -> g u = f u) -> cnt f n = S (cnt g n).
Proof.
  induction n as [|n IH]; intros Ht Hf Hg H; [lia|].
  rewrite !cnt_S. destruct (Nat.eq_dec t n) as [->|N].
  - rewrite Hf, Hg. rewrite (@cnt_ext f g n) by (intros u Hu; symmetry; apply H; lia). lia.
  - rewrite (H n) by congruence. rewrite IH by (auto; lia). lia.
Qed.

Lemma cnt_pos f n : cnt f n <> 0 -> exists u, u < n /\ f u = true.
Proof.
  induction n as [|n IH]; intros H; [exfalso; apply H; reflexivity|].
  rewrite cnt_S in H. destruct (f n) eqn:E.
  - exists n. split; [lia|exact E].
  - destruct IH as [u [Hu Hf]]; [lia|]. exists u. split; [lia|exact Hf].
Qed.

Lemma cnt_zero f n u : cnt f n = 0 -> u < n -> f u = false.
Proof.
  induction n as [|n IH]; intros H Hu; [lia|].
  rewrite cnt_S in H. destruct (Nat.eq_dec u n) as [->|N].
  - destruct (f n); [lia|reflexivity].
  - apply IH; lia.
Qed.

Lemma role_lt cfg t b : role cfg t = Some b -> t < length cfg.
Proof.
  unfold role. intros H. destruct (nth_error cfg t) eqn:E; [|discriminate].
  apply nth_error_Some. congruence.
Qed.

Lemma sender_not_receiver cfg u : is_sender cfg u = true -> is_receiver cfg u = false.
Proof. unfold is_sender, is_receiver. destruct (role cfg u) as [[|]|]; congruence. Qed.

(* inside a critical section of `core` *)
Definition holds (p : pc) : bool :=
  match p with
  | SFul _ | SUnl _ _ | RFul _ | RUnl _ _ | CCas | CUnl _ | XUnl | DDisc _ | DUnl _ => true
  | _ => false
  end.

(* pcs of the pre-fix cancel path *)
Definition xpc (p : pc) : bool := match p with XLock | XUnl => true | _ => false end.

Definition spc (p : pc) : bool :=
  match p with
  | Idle | SLock _ | SFul _ | SUnl _ _ | SUnpark _ | SWait | SPark | SFinal
  | DLock | DDisc _ | DUnl _ | DUnpark _ | Done => true
  | _ => false
  end.
Definition rpc (p : pc) : bool :=
  match p with
  | Idle | RLock _ | RFul _ | RUnl _ _ | RUnpark _ _ | RWait | RPark | RFinal _ | RtLoad | RtDec
  | CLock | CCas | CUnl _ | XLock | XUnl
  | DLock | DDisc _ | DUnl _ | DUnpark _ | Done => true
  | _ => false
  end.

Ltac fsimpl :=
  cbn [lock sq rq scount rcount wstate cell gen token closed sprog rprog pcs seq handed results bad
       set_lock set_sq set_rq set_scount set_rcount set_wstate set_cell set_gen set_token set_closed
       set_sprog set_rprog set_pc set_seq set_handed log set_bad flag_bad
       s_done r_done new_frame end_frame] in *.

Ltac break_match H :=
  match type of H with
  | context [match ?x with _ => _ end] =>
      lazymatch x with
      | context [match _ with _ => _ end] => fail
      | _ => let y := fresh "v" in let E := fresh "E" in
             remember x as y eqn:E in H; symmetry in E; destruct y
      end
  end.

(* H : step true cfg s t c = Some (s', e).  Leaves one goal per (pc, branch) with s' and e
   substituted; Er : role cfg t = Some _, Epc : pcs s t = <pc>, and the branch conditions as
   equations E* in the context. *)
Ltac step_cases H :=
  unfold step in H;
  match type of H with context [role ?cfg ?t] =>
    let y := fresh "v" in remember (role cfg t) as y eqn:Er in H; symmetry in Er;
    destruct y as [[|]|]; [ unfold sstep in H | unfold rstep in H | discriminate H ] end;
  match type of H with context [pcs ?s ?t] =>
    let y := fresh "v" in remember (pcs s t) as y eqn:Epc in H; symmetry in Epc; destruct y end;
  try discriminate H;
  try (unfold dstep in H; match goal with E : pcs _ _ = _ |- _ => rewrite E in H end);
  unfold drop_start, try_lock, ret, s_done, r_done, end_frame, new_frame, cancel_cas in H;
  fsimpl; cbv beta iota zeta in H;
  repeat (break_match H; fsimpl; cbv beta iota zeta in H);
  try discriminate H;
  match type of H with Some (?a, ?b) = Some (?s', ?e) => inversion H; clear H; subst end.

Ltac split_thr u t :=
  destruct (Nat.eq_dec u t) as [->|?]; [rewrite ?upd_eq | rewrite ?upd_neq by assumption].

(* `step true`, read off once: Step s t b p s' = thread t (a sender iff b) at pc p takes s to s'.
   Rules that differ only in the pcs involved share a table (mv, seen, acq, rel, woke).  Premises
   are those the invariants need, so the rules admit slightly more than the function does; the
   program left after a call is of no interest to any invariant. *)

(* a failed send: the payload comes back *)
Definition sfail (v : val) (r : res) : Prop := r = PFull v \/ r = PClosed v \/ r = PGone v.

(* nothing but the pc changes *)
Inductive mv (s : st) (t : nat) : bool -> pc -> pc -> Prop :=
| mv_dropped b : closed s t = true -> mv s t b Idle Done
| mv_recv k : mv s t false Idle (RLock k)
| mv_slock b k : mv s t b (SLock k) (SLock k)
| mv_rlock b k : mv s t b (RLock k) (RLock k)
| mv_clock b : mv s t b CLock CLock
| mv_rtdec b : mv s t b RtDec CLock
| mv_dlock b : mv s t b DLock DLock
| mv_swait b : wstate s t = W -> mv s t b SWait SPark
| mv_rwait b : wstate s t = W -> mv s t b RWait RPark
| mv_rtload b : wstate s t = W -> mv s t b RtLoad RtDec
| mv_spark b : mv s t b SPark SWait
| mv_rpark b : mv s t b RPark RWait.

(* the thread finds its own state terminal (a load, or the lost cancel CAS) *)
Inductive seen : pc -> pc -> Prop :=
| seen_s : seen SWait SFinal
| seen_r : seen RWait (RFinal KRecv)
| seen_rt : seen RtLoad (RFinal KRt)
| seen_cas : seen CCas (CUnl false).

(* the lock is taken and no record is linked *)
Inductive acq (s : st) : pc -> pc -> Prop :=
| acq_sclosed k : acq s (SLock k) (SUnl k SUClosed)
| acq_sful k : rq s <> [] -> acq s (SLock k) (SFul k)
| acq_sfull : acq s (SLock KTry) (SUnl KTry SUFull)
| acq_rful k : sq s <> [] -> acq s (RLock k) (RFul k)
| acq_rdisc k : acq s (RLock k) (RUnl k RUDisc)
| acq_rempty : acq s (RLock KTryR) (RUnl KTryR RUEmpty)
| acq_clock : acq s CLock CCas
| acq_rtdec : acq s RtDec CCas.

(* unlock, the call goes on *)
Inductive rel : pc -> pc -> Prop :=
| rel_swoke k r : rel (SUnl k (SUWoke r)) (SUnpark r)
| rel_sparked k : rel (SUnl k SUParked) SWait
| rel_rwoke k p v : rel (RUnl k (RUWoke p v)) (RUnpark p v)
| rel_rparked k : rel (RUnl k RUParked) (match k with KRt => RtLoad | _ => RWait end)
| rel_lost : rel (CUnl false) (RFinal KRt)
| rel_drop ws : rel (DUnl ws) (match ws with [] => Done | _ => DUnpark ws end).

(* park / park_timeout returns *)
Inductive woke : pc -> pc -> Prop :=
| woke_s : woke SPark SWait
| woke_r : woke RPark RWait
| woke_rt : woke RtDec RtLoad.

(* a handle count went down to n; q is the queue of the other side *)
Inductive dropped (q : list nat) : nat -> pc -> Prop :=
| dropped_last : q <> [] -> dropped q 0 (DDisc [])
| dropped_other n : (n = 0 -> q = []) -> dropped q n (DUnl []).

(* try_send / try_recv / a call on a disconnected channel gives up under the lock *)
Inductive sgives : sun -> Prop := sgives_closed : sgives SUClosed | sgives_full : sgives SUFull.
Inductive rgives : run_ -> res -> Prop :=
| rgives_disc : rgives RUDisc RDisc
| rgives_empty : rgives RUEmpty REmpty.

Inductive Step (s : st) (t : nat) : bool -> pc -> st -> Prop :=
| St_mv b p p' : mv s t b p p' -> Step s t b p (set_pc s t p')
| St_seen b p p' : wstate s t <> W -> seen p p' -> Step s t b p (set_pc s t p')
| St_close b : Step s t b Idle (set_pc (set_closed s t true) t DLock)
| St_send k : Step s t true Idle (set_pc (set_seq s t (S (seq s t))) t (SLock k))
| St_send_closed l r : sfail (t, S (seq s t)) r ->
    Step s t true Idle (set_pc (log (set_sprog (set_seq s t (S (seq s t))) t l) t r) t Idle)
| St_recv_closed l : Step s t false Idle (set_pc (log (set_rprog s t l) t RDisc) t Idle)
| St_acq b p p' : lock s = None -> acq s p p' -> Step s t b p (set_pc (set_lock s (Some t)) t p')
| St_park_s : lock s = None -> rq s = [] -> rcount s <> 0 ->
    Step s t true (SLock KSend)
      (set_pc (new_frame (set_sq (set_lock s (Some t)) (sq s ++ [t])) t (Some (cur s t))) t (SUnl KSend SUParked))
| St_park_r k : lock s = None -> sq s = [] -> scount s <> 0 ->
    Step s t false (RLock k)
      (set_pc (new_frame (set_rq (set_lock s (Some t)) (rq s ++ [t])) t None) t (RUnl k RUParked))
| St_dec_s n p' : lock s = None -> n = pred (scount s) -> dropped (rq s) n p' ->
    Step s t true DLock (set_pc (set_scount (set_lock s (Some t)) n) t p')
| St_dec_r n p' : lock s = None -> n = pred (rcount s) -> dropped (sq s) n p' ->
    Step s t false DLock (set_pc (set_rcount (set_lock s (Some t)) n) t p')
| St_ful_r k r rest : rq s = r :: rest ->
    Step s t true (SFul k)
      (set_pc (set_handed (set_wstate (set_cell (flag_bad (set_rq s rest)
                                                          (negb (live (pcs s r)) || is_some (cell s r)))
                                                r (Some (cur s t))) r D)
                          (handed s ++ [(cur s t, r)])) t (SUnl k (SUWoke r)))
| St_ful_s k p rest : sq s = p :: rest ->
    Step s t false (RFul k)
      (set_pc (set_handed (set_wstate (set_cell (flag_bad (set_sq s rest)
                                                          (negb (live (pcs s p)) || negb (is_some (cell s p))))
                                                p None) p D)
                          (handed s ++ [(opt_or (cell s p) (cur s p), t)])) t
              (RUnl k (RUWoke p (opt_or (cell s p) (cur s p)))))
| St_disc_r ws r rest : rq s = r :: rest ->
    Step s t true (DDisc ws)
      (set_pc (set_wstate (flag_bad (set_rq s rest) (negb (live (pcs s r)))) r X) t
              (match rest with [] => DUnl (ws ++ [r]) | _ => DDisc (ws ++ [r]) end))
| St_disc_s ws p rest : sq s = p :: rest ->
    Step s t false (DDisc ws)
      (set_pc (set_wstate (flag_bad (set_sq s rest) (negb (live (pcs s p)))) p X) t
              (match rest with [] => DUnl (ws ++ [p]) | _ => DDisc (ws ++ [p]) end))
| St_cancel : wstate s t = W ->
    Step s t false CCas (set_pc (set_rq (set_wstate s t C) (rem t (rq s))) t (CUnl true))
| St_rel b p p' : rel p p' -> Step s t b p (set_pc (set_lock s None) t p')
| St_rel_sfail k o r : sgives o -> sfail (cur s t) r ->
    Step s t true (SUnl k o) (s_done (set_lock s None) t r)
| St_rel_rfail k o r : rgives o r -> Step s t false (RUnl k o) (r_done (set_lock s None) t r)
| St_rel_cancel :
    Step s t false (CUnl true) (r_done (end_frame (set_lock s None) t) t (RTimeout (cell s t)))
| St_wake_s r : Step s t true (SUnpark r) (s_done (set_token s r true) t (POk (cur s t)))
| St_wake_r p v : Step s t false (RUnpark p v) (r_done (set_token s p true) t (RVal v))
| St_wake_d b r rest :
    Step s t b (DUnpark (r :: rest))
      (set_pc (set_token s r true) t (match rest with [] => Done | _ => DUnpark rest end))
| St_woke b p p' : woke p p' -> Step s t b p (set_pc (set_token s t false) t p')
| St_final_s r : r = match wstate s t with D => POk (cur s t) | _ => PGone (cur s t) end ->
    Step s t true SFinal (s_done (end_frame s t) t r)
| St_final_val k v : wstate s t = D -> cell s t = Some v ->
    Step s t false (RFinal k) (r_done (end_frame s t) t (RVal v))
| St_final_timeout : wstate s t = C ->
    Step s t false (RFinal KRt) (r_done (end_frame s t) t (RTimeout (cell s t)))
| St_final_disc k fl : (wstate s t = D -> cell s t = None) ->
    fl = match wstate s t with D => true | _ => is_some (cell s t) end ->
    Step s t false (RFinal k) (r_done (flag_bad (end_frame s t) fl) t RDisc).

Lemma step_inv cfg s t c s' e :
  step true cfg s t c = Some (s', e) -> xpc (pcs s t) = false ->
  exists b, role cfg t = Some b /\ Step s t b (pcs s t) s'.
Proof.
  intros H Hx. step_cases H; rewrite Epc in *; try discriminate Hx.
  all: eexists; (split; [exact Er|]).
  (* one alternative per rule or table; a goal of another pc is refused at the pc index.  The three
     rules of the receiver's final load share their pc: give St_final_disc its `fl` and try
     St_final_val only on a goal that logs RVal, so that no rule is unified with a state that is
     not its own *)
  all: first
    [ eapply St_mv; constructor; assumption
    | eapply St_seen; [congruence | constructor]
    | eapply St_acq; [assumption | constructor; congruence]
    | eapply St_rel; constructor
    | eapply St_woke; constructor
    | eapply St_dec_s; [assumption | symmetry; eassumption | constructor; congruence]
    | eapply St_dec_r; [assumption | symmetry; eassumption | constructor; congruence]
    | eapply St_final_s; match goal with E : wstate _ _ = _ |- _ => rewrite E end; reflexivity
    | match goal with E : wstate _ _ = _ |- context [flag_bad (set_cell _ _ _) ?f] =>
        eapply St_final_disc with (fl := f); rewrite E; congruence end
    | match goal with |- context [RVal] => eapply St_final_val; eassumption end
    | eapply St_send_closed; unfold sfail, cur; fsimpl; rewrite upd_eq; auto
    | eapply St_rel_sfail; [constructor | unfold sfail; auto]
    | eapply St_rel_rfail; constructor
    | econstructor; congruence ].
Qed.

(* H : step true cfg s t c = Some (s', e), Hx : xpc (pcs s t) = false.  One goal per rule and table
   line (and per shape of a list or kind the new pc depends on), with b, Er : role cfg t = Some b,
   Epc : pcs s t = <pc>. *)
Ltac step_rules H Hx :=
  destruct (@step_inv _ _ _ _ _ _ H Hx) as (b & Er & HS); clear H;
  match type of HS with Step ?s ?t _ _ _ => remember (pcs s t) as p eqn:Epc in HS; symmetry in Epc end;
  destruct HS;
  repeat match goal with
         | M : mv _ _ _ _ _ |- _ => destruct M
         | M : seen _ _ |- _ => destruct M
         | M : acq _ _ _ |- _ => destruct M
         | M : rel _ _ |- _ => destruct M
         | M : woke _ _ |- _ => destruct M
         | M : dropped _ _ _ |- _ => destruct M
         | M : sgives _ |- _ => destruct M
         | M : rgives _ _ |- _ => destruct M
         | |- context [match ?x with _ => _ end] => is_var x; destruct x
         end.

Definition roleok (cfg : list tcfg) (s : st) (u : nat) : Prop :=
  match role cfg u with
  | Some true => spc (pcs s u) = true
  | Some false => rpc (pcs s u) = true
  | None => pcs s u = Idle
  end.

Record LockInv (cfg : list tcfg) (s : st) : Prop := {
  L_hold : forall u, holds (pcs s u) = true <-> lock s = Some u;
  L_x : forall u, xpc (pcs s u) = false;
  L_role : forall u, roleok cfg s u
}.

Lemma LockInv_init cfg : LockInv cfg (init cfg).
Proof.
  split; cbn.
  - intros u. split; intros H; discriminate H.
  - reflexivity.
  - intros u. unfold roleok. cbn. destruct (role cfg u) as [[|]|]; reflexivity.
Qed.

(* the lock follows the pc of the thread that moves *)
Lemma LockInv_upd cfg s s' t b p' :
  LockInv cfg s -> role cfg t = Some b ->
  pcs s' = upd (pcs s) t p' -> xpc p' = false -> (if b then spc p' else rpc p') = true ->
  lock s' = (if Bool.eqb (holds p') (holds (pcs s t)) then lock s else if holds p' then Some t else None) ->
  (holds p' = true -> holds (pcs s t) = false -> lock s = None) ->
  LockInv cfg s'.
Proof.
  intros [L1 L2 L3] Er Hp Hx Hc Hl Ha. pose proof (L1 t) as Lt. split; unfold roleok; rewrite Hp.
  - intros u. pose proof (L1 u) as Lu. rewrite Hl. split_thr u t.
    + destruct (holds p'), (holds (pcs s t)); cbn [Bool.eqb]; intuition congruence.
    + destruct (holds p'), (holds (pcs s t)); cbn [Bool.eqb]; intuition congruence.
  - intros u. split_thr u t; [exact Hx | apply L2].
  - intros u. split_thr u t; [|apply L3].
    rewrite Er. destruct b; exact Hc.
Qed.

Lemma LockInv_step cfg s t c s' e :
  LockInv cfg s -> step true cfg s t c = Some (s', e) -> LockInv cfg s'.
Proof.
  intros LI H. pose proof (L_role _ _ LI t) as Rt. unfold roleok in Rt.
  step_rules H (L_x _ _ LI t); rewrite Epc, Er in Rt.
  all: eapply LockInv_upd; [exact LI | exact Er | reflexivity | reflexivity | | rewrite Epc; reflexivity | ];
    [ try destruct b; first [reflexivity | exact Rt] | cbn [holds]; rewrite ?Epc; cbn [holds]; congruence ].
Qed.
