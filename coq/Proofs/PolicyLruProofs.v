(* Proofs/PolicyLruProofs.v — contract and order lemmas for LruP and FifoP. *)
From Fibre Require Import Common.Base Cache.PolicySpec Cache.PolicyLru Proofs.PolicyCommon.

Lemma pop_while_spec want r : forall freed vs f rest,
  pop_while want freed r = (vs, f, rest) ->
  exists taken, r = taken ++ rest /\ vs = keys taken /\ f = freed + total taken
    /\ (want <= f \/ rest = [])
    /\ (forall pre x, taken = pre ++ [x] -> freed + total pre < want).
Proof.
  induction r as [|[k c] t IH]; intros freed vs f rest H; cbn [pop_while] in H.
  - inversion H; subst. exists []. cbn [app keys map total]. repeat split; try lia.
    + right. reflexivity.
    + intros pre x Hx. destruct pre; discriminate.
  - destruct (N.ltb_spec freed want) as [Hlt|Hge].
    + destruct (pop_while want (freed + c) t) as [[vs1 f1] rest1] eqn:E.
      inversion H; subst. destruct (IH _ _ _ _ E) as [tk [Hr [Hv [Hf [Hs Hmin]]]]].
      exists ((k, c) :: tk). cbn [app keys map fst total]. repeat split.
      * rewrite Hr. reflexivity.
      * rewrite Hv. reflexivity.
      * lia.
      * exact Hs.
      * intros pre x Hx. destruct pre as [|p pre'].
        -- cbn [total]. lia.
        -- cbn [app] in Hx. inversion Hx; subst. cbn [total].
           specialize (Hmin pre' x eq_refl). lia.
    + inversion H; subst. exists []. cbn [app keys map total]. repeat split; try lia.
      intros pre x Hx. destruct pre; discriminate.
Qed.

(** The loop is always run on a reversed LruList (`pop_back`): the victims V
    are the back of the list, taken back to front, and no more than needed. *)
Lemma pop_while_rev want freed l vs f rest :
  pop_while want freed (rev l) = (vs, f, rest) ->
  exists V, l = rev rest ++ rev V /\ vs = keys V /\ f = freed + total V
    /\ (want <= f \/ rev rest = [])
    /\ (forall pre x, V = pre ++ [x] -> freed + total pre < want).
Proof.
  intros H. destruct (pop_while_spec _ _ _ _ _ _ H) as [V [Hr [Hv [Hf [Hs Hmin]]]]].
  exists V. repeat split; try assumption.
  - rewrite <- (rev_involutive l), Hr. apply rev_app_distr.
  - destruct Hs as [Hs|Hs]; [left; exact Hs | right; rewrite Hs; reflexivity].
Qed.

Lemma ll_evict_order n l l' vs f :
  ll_evict n l = (l', vs, f) ->
  exists V, l = l' ++ rev V /\ vs = keys V /\ f = total V
    /\ (n <= f \/ l' = [])
    /\ (forall pre x, V = pre ++ [x] -> total pre < n).
Proof.
  unfold ll_evict. destruct (pop_while n 0 (rev l)) as [[vs1 f1] rest] eqn:E.
  intros H. inversion H; subst. exact (pop_while_rev _ _ _ _ _ _ E).
Qed.

(* the segment [rev V] taken off the back of [l' ++ rev V], as a split of the tracked list *)
Lemma perm_back_split (l' V : list kc) : Permutation (l' ++ rev V) (V ++ l').
Proof.
  eapply Permutation_trans; [apply Permutation_app_comm|].
  apply Permutation_app_tail. apply Permutation_sym, Permutation_rev.
Qed.

Lemma ll_evict_ok n l l' vs f :
  NoDup (keys l) -> ll_evict n l = (l', vs, f) -> evict_ok l l' n vs f.
Proof.
  intros Hnd H. destruct (ll_evict_order _ _ _ _ _ H) as [V [Hl [Hv [Hf [Hs _]]]]].
  rewrite Hv. apply evict_ok_split; [exact Hnd | | exact Hf | exact Hs].
  rewrite Hl. apply perm_back_split.
Qed.

(* the Evict branch shared by [lru_step] and [fifo_step] *)
Lemma ll_evict_step_order l n :
  let '(l', o) := (let '(l', vs, f) := ll_evict n l in (l', OVictims vs f)) in
  exists V, o = OVictims (keys V) (total V) /\ l = l' ++ rev V
    /\ (n <= total V \/ l' = [])
    /\ (forall pre x, V = pre ++ [x] -> total pre < n).
Proof.
  destruct (ll_evict n l) as [[l' vs] f] eqn:E.
  destruct (ll_evict_order _ _ _ _ _ E) as [V [Hl [Hv [Hf [Hs Hmin]]]]].
  exists V. subst vs f. repeat split; assumption.
Qed.

Lemma lru_step_ok l cl : NoDup (keys l) ->
  let '(l', o) := lru_step l cl in step_ok admit_full l cl o l'.
Proof.
  intros H. destruct cl as [k c|k c|k|n|]; cbn [lru_step step_ok step_okG access_keep].
  - unfold ll_move_to_front. destruct (lookup k l) eqn:E; [|apply Permutation_refl].
    apply perm_rm_cons; assumption.
  - apply Permutation_refl.
  - apply Permutation_refl.
  - destruct (ll_evict n l) as [[l' vs] f] eqn:E. eapply ll_evict_ok; eauto.
  - reflexivity.
Qed.

Theorem lru_contract : contract admit_full LruP.
Proof.
  apply contractG_lift_nodup.
  - exact access_keep_NoDup.
  - exact admit_full_NoDup.
  - constructor.
  - exact lru_step_ok.
Qed.

(** LRU order: the list is the recency order.  A touch (access of a tracked
    key, or any admit) moves that key to the front and keeps the relative order
    of all others; remove keeps relative order; evict takes from the back. *)
Lemma lru_touch_front l k c :
  lookup k l = Some c -> fst (lru_step l (Access k 0)) = (k, c) :: rm k l.
Proof. intros H. cbn [lru_step fst]. unfold ll_move_to_front. rewrite H. reflexivity. Qed.

Lemma lru_admit_front l k c : fst (lru_step l (Admit k c)) = (k, c) :: rm k l.
Proof. reflexivity. Qed.

Lemma lru_access_untracked l k c : lookup k l = None -> fst (lru_step l (Access k c)) = l.
Proof. intros H. cbn [lru_step fst]. unfold ll_move_to_front. rewrite H. reflexivity. Qed.

Theorem lru_evict_least_recent l n :
  let '(l', o) := lru_step l (Evict n) in
  exists V, o = OVictims (keys V) (total V) /\ l = l' ++ rev V
    /\ (n <= total V \/ l' = [])
    /\ (forall pre x, V = pre ++ [x] -> total pre < n).
Proof. exact (ll_evict_step_order l n). Qed.

Lemma fifo_step_ok l cl : NoDup (keys l) ->
  let '(l', o) := fifo_step l cl in step_ok admit_keep_old l cl o l'.
Proof.
  intros H. destruct cl as [k c|k c|k|n|]; cbn [fifo_step step_ok step_okG access_keep].
  - apply Permutation_refl.
  - unfold admit_keep_old. destruct (lookup k l) eqn:E; [apply Permutation_refl|].
    unfold ll_push_front. rewrite rm_id; [apply Permutation_refl|].
    apply lookup_None. exact E.
  - apply Permutation_refl.
  - destruct (ll_evict n l) as [[l' vs] f] eqn:E. eapply ll_evict_ok; eauto.
  - reflexivity.
Qed.

Theorem fifo_contract_keep_old : contract admit_keep_old FifoP.
Proof.
  apply contractG_lift_nodup.
  - exact access_keep_NoDup.
  - exact admit_keep_old_NoDup.
  - constructor.
  - exact fifo_step_ok.
Qed.

(* insertion order: a fresh admit goes to the front, nothing else reorders *)
Lemma fifo_admit_fresh l k c :
  lookup k l = None -> fst (fifo_step l (Admit k c)) = (k, c) :: l.
Proof.
  intros H. cbn [fifo_step fst]. rewrite H. unfold ll_push_front.
  rewrite rm_id; [reflexivity | apply lookup_None; exact H].
Qed.

Lemma fifo_admit_tracked l k c c0 :
  lookup k l = Some c0 -> fst (fifo_step l (Admit k c)) = l.
Proof. intros H. cbn [fifo_step fst]. rewrite H. reflexivity. Qed.

Lemma fifo_access_noop l k c : fst (fifo_step l (Access k c)) = l.
Proof. reflexivity. Qed.

Theorem fifo_evict_oldest l n :
  let '(l', o) := fifo_step l (Evict n) in
  exists V, o = OVictims (keys V) (total V) /\ l = l' ++ rev V
    /\ (n <= total V \/ l' = [])
    /\ (forall pre x, V = pre ++ [x] -> total pre < n).
Proof. exact (ll_evict_step_order l n). Qed.

(** F-19: the full re-admission clause is false of the faithful Fifo model. *)
Theorem fifo_readmit_refuted : ~ contract admit_full FifoP.
Proof.
  intros H. specialize (H [Admit 1 1]). cbv zeta in H. destruct H as [_ H].
  specialize (H (Admit 1 50)). vm_compute in H.
  apply Permutation_length_1_inv in H. discriminate.
Qed.
