(* The invariant Inv = SInv /\ VInv holds in every reachable state of the K3
   ticket model, for every capacity, chunk size, table size, cadence, number of producers, programs
   and schedule; the capacity (C03) and slot-ownership (C09) theorems that follow from SInv. *)
From Fibre Require Import Common.Base Common.Conc Chan.TicketK3 Proofs.TicketK3Base Proofs.TicketK3Prod
  Proofs.TicketK3Cons Proofs.TicketK3Values.
From Coq Require Import ZifyBool ZifyNat ZifyN Arith.

Section Safety.
Variables cap cc n kk : N.
Variable np : nat.
Hypothesis Hcc : 0 < cc.
Hypothesis Hn : 0 < n.

Definition Inv (s : st) : Prop := SInv cap cc n s /\ VInv s.

(* only the pc of u (and fields no invariant reads) *)
Lemma Inv_p_pc s s' u p :
  Inv s -> same_core s s' -> same_val s s' -> progress s' = progress s -> drained s' = drained s ->
  cpc s' = cpc s -> ppc s' = updn (ppc s) u p ->
  (forall t, owns p t <-> owns (ppc s u) t) -> wval_of p = wval_of (ppc s u) -> done_of p = done_of (ppc s u) ->
  PInv cap cc n (hpos s) (retired s) (ids s) p -> Inv s'.
Proof.
  intros [I V] Hc Hv Epr Edr Ec Ep Ho Hw Hd Hp. split.
  - apply (SInv_p_pure cap cc n s s' u p); try assumption.
    + rewrite Epr. apply I.
    + rewrite Edr. apply I.
    + intros th _. rewrite (sv_pseq _ _ Hv). reflexivity.
    + intros _. rewrite (sv_pseq _ _ Hv). reflexivity.
  - apply (VInv_p_pure s s' u p); assumption.
Qed.

(* the API call of u returns *)
Lemma Inv_p_done_batch s u b fail :
  Inv s -> own_hi (ppc s u) = 0 -> wval_of (ppc s u) = None ->
  done_of (ppc s u) = bsent b -> bsent b <= btotal b -> fail = PFull \/ fail = PClosed ->
  Inv (p_done_batch s u b fail).
Proof.
  intros [I V] Ho Hw Hd Hle Hf. split; [|apply VInv_p_done_batch; assumption].
  unfold p_done_batch, p_done_n, set_ppc_at.
  eapply SInv_p_pure; [exact I | constructor; reflexivity | apply I | apply I | reflexivity | reflexivity | | | | | exact Logic.I].
  - intros th Hth. st_goal. apply updn_neq. exact Hth.
  - intros X. exfalso. apply X. reflexivity.
  - apply owns_none; [reflexivity | exact Ho].
  - rewrite Hw. reflexivity.
Qed.

(* try_send_run_batch back at the top of its loop *)
Lemma Inv_p_loop s u b :
  Inv s -> own_hi (ppc s u) = 0 -> wval_of (ppc s u) = None ->
  done_of (ppc s u) = bsent b -> bsent b <= btotal b -> Inv (p_loop s u b).
Proof.
  intros IV Ho Hw Hd Hle. unfold p_loop. destruct (N.eqb (bsent b) (btotal b)).
  - apply Inv_p_done_batch; auto.
  - unfold set_ppc_at. eapply Inv_p_pc; [exact IV | constructor; reflexivity | constructor; reflexivity | reflexivity
      | reflexivity | reflexivity | reflexivity | apply owns_none; [reflexivity | exact Ho]
      | rewrite Hw; reflexivity | rewrite Hd; reflexivity | exact Hle].
Qed.

Lemma Inv_p_closed_window s u b :
  Inv s -> own_hi (ppc s u) = 0 -> wval_of (ppc s u) = None ->
  done_of (ppc s u) = bsent b -> bsent b <= btotal b -> Inv (p_closed_window s u b).
Proof.
  intros IV Ho Hw Hd Hle. unfold p_closed_window.
  destruct (N.eqb (bsent b) (btotal b)); [|destruct (bcold b)]; try (apply Inv_p_done_batch; auto).
  apply Inv_p_loop; assumption.
Qed.

(* g_tail.fetch_add(m) *)
Lemma Inv_claim s u m p :
  Inv s -> own_hi (ppc s u) = 0 -> wval_of (ppc s u) = None -> 0 < m ->
  own_lo p = gtail s -> own_hi p = gtail s + m -> wval_of p = None -> done_of p = done_of (ppc s u) ->
  PInv cap cc n (hpos s) (retired s) (ids s) p ->
  Inv (set_ppc_at (set_tk (set_gtail s (gtail s + m)) (claim (tk s) (gtail s) m u)) u p).
Proof.
  intros [I V] Ho Hw Hm Hlo Hhi Hwp Hd Hp. pose proof (no_owns _ Ho) as Hno. split.
  - apply SInv_claim; assumption.
  - apply (VInv_claim cap cc n Hcc Hn); assumption.
Qed.

(* the proof obligations of Inv_p_pc for a step out of pc [Epc : ppc s u = ..]; the last one, PInv of
   the new pc, is left with the old pc's PInv [Pu] unfolded beside it *)
Ltac pc_only IV Epc :=
  eapply Inv_p_pc;
  [ exact IV | constructor; reflexivity | constructor; reflexivity | reflexivity | reflexivity | reflexivity
  | st_goal; reflexivity
  | intros ?; rewrite Epc; unfold owns; cbn [own_lo own_hi rt rv rm rw]; first [reflexivity | lia]
  | rewrite Epc; cbn [wval_of];
    first [reflexivity | match goal with H : rset _ = _ |- _ => rewrite H; reflexivity end]
  | rewrite Epc; cbn [done_of kitem rw rv bsent]; first [reflexivity | lia]
  | cbn [PInv]; unfold RInv, rset, rcur in *; cbn [rt rv rm rw bsent btotal bcold] in * ].

(* the pcs whose step only moves the pc (or tries a lock), to one that knows nothing more *)
Definition p_moves (pc : ppc_t) : bool :=
  match pc with
  | PS1 _ | PEs _ _ _ | PN1 _ _ | PN2 _ _ | PC0 _ | PC1 _ | PDropSub | PWk _ | PDone => true
  | _ => false
  end.

Lemma Inv_pstep s u c s' e : Inv s -> pstep cap cc n kk s u c = Some (s', e) -> Inv s'.
Proof.
  intros IV Hs. pose proof IV as [I V]. unfold pstep in Hs. destruct (ppc s u) eqn:Epc.
  all: pose proof (P_inv _ _ _ _ I u) as Pu; rewrite Epc in Pu; cbn [PInv] in Pu.
  (* first the steps that only move the pc *)
  all: try (assert (p_moves (ppc s u) = true) as _ by (rewrite Epc; reflexivity);
            unfold p_lock in Hs; inv_step Hs; unf_steps; split_goal;
            first [exact IV | pc_only IV Epc; first [exact Logic.I | exact Pu]]).
  - (* PIdle *) destruct (pprog s u) as [|[|k] r]; inv_step Hs; unf_steps; pc_only IV Epc; try exact Logic.I. lia.
  - (* PRd *) inv_step Hs. destruct (rdropped s).
    + (* try_send handing its item back is the batch call of one item that sent none *)
      apply (Inv_p_done_batch s u (mkB false 0 1) PClosed); rewrite ?Epc; auto. cbn [bsent btotal]. lia.
    + unf_steps. pc_only IV Epc. exact Logic.I.
  - (* PS2 *) inv_step Hs. destruct (win cap a (cnt x s)); [|destruct x].
    + unf_steps. pc_only IV Epc. exact Logic.I.
    + unf_steps. pc_only IV Epc. exact Logic.I.
    + apply (Inv_p_done_batch s u (mkB false 0 1) PFull); rewrite ?Epc; auto. cbn [bsent btotal]. lia.
  - (* PS3 *) inv_step Hs. apply Inv_claim; rewrite ?Epc; try reflexivity; try exact Logic.I; try exact IV.
  - (* PS4 *) inv_step Hs; unf_steps; pc_only IV Epc.
    pose proof (A_prog _ _ _ _ I). pose proof (A_drn _ _ _ _ I).
    unfold win, cnt, b2n. destruct (is_cold x); destruct (_ && _) eqn:Ew; repeat split; try lia; right; lia.
  - (* PE1 *) inv_step Hs; unf_steps.
    destruct (N.eqb_spec (ids s (ent n (cid_of cc (rcur r)))) (cid_of cc (rcur r))) as [Er|Er].
    + destruct (rset r) eqn:Ers; pc_only IV Epc; unfold resident.
      * rewrite N.ltb_lt in Ers. tauto.
      * tauto.
    + pc_only IV Epc. exact Pu.
  - (* PE2 *) inv_step Hs; unf_steps. destruct (N.ltb_spec (retired s) (cur + 1)) as [L|L]; pc_only IV Epc; [exact Pu|].
    split; [exact Pu | exact L].
  - (* PE3 *) inv_step Hs; unf_steps. destruct (N.eqb_spec (ids s (ent n (cid_of cc (rcur r)))) cur) as [Er|Er].
    + split; [eapply (SInv_install cap cc n Hcc Hn); [exact I | exact Epc | exact Er | reflexivity]|].
      eapply VInv_p_pure; [exact V | constructor; reflexivity | reflexivity | reflexivity|].
      rewrite Epc. destruct (rset r); reflexivity.
    + pc_only IV Epc. apply Pu.
  - (* PW0 *) destruct (SInv_wdata cap cc n Hcc Hn s u k r I Epc) as [Hd Hi]. rewrite Hd in Hs. inv_step Hs.
    split; [exact Hi|]. eapply VInv_p_pure; [exact V | constructor; reflexivity | reflexivity | reflexivity|].
    rewrite Epc. reflexivity.
  - (* PW1 *)
    destruct Pu as [[Pw [Pv [Pc Pb]]] Pres].
    set (r' := {| rt := rt r; rv := rv r; rm := rm r; rw := rw r + 1 |}) in *.
    match type of Hs with Some (set_ppc_at _ _ ?p, _) = _ =>
      assert (Hp : (forall t, owns p t <-> rcur r < t < rt r + rm r) /\ wval_of p = None /\
                   PInv cap cc n (hpos s) (retired s) (ids s) p);
      [|assert (Hdn : done_of p = done_of (PW1 k r) + (if rset r then 1 else 0))] end.
    { assert (Hr' : rcur r' = rcur r + 1) by (unfold rcur, r'; cbn [rt rw]; lia).
      (* while the run lasts its facts carry over to the next slot, and so does residency inside a chunk *)
      assert (HR : rw r' <> rm r -> RInv cap (hpos s) k r').
      { unfold RInv, r'. cbn [rt rv rm rw]. intros X. repeat split; try assumption; lia. }
      assert (Hres : N.eqb (idx_of cc (rcur r')) 0 = false -> resident cc n (ids s) (rcur r')).
      { rewrite Hr'. intros X. apply (resident_succ cc n Hcc); assumption. }
      destruct (N.eqb_spec (rw r') (rm r)) as [E1|E1];
        [|destruct (N.eqb (rw r') (rv r) || N.eqb (idx_of cc (rcur r')) 0) eqn:E2;
          [|apply Bool.orb_false_iff in E2; destruct E2 as [_ E2]; destruct (rset r') eqn:E3]].
      all: split; [intros t; unfold owns, rcur, r' in *; cbn [own_lo own_hi rt rw rm] in *; lia|].
      - split; [reflexivity|]. unfold r' in *. cbn [PInv rw rm rv] in *. repeat split; try assumption; lia.
      - split; [reflexivity | exact (HR E1)].
      - split; [reflexivity|]. apply N.ltb_lt in E3. exact (conj (HR E1) (conj E3 (Hres E2))).
      - split; [cbn [wval_of]; rewrite E3; reflexivity|]. exact (conj (HR E1) (Hres E2)). }
    { unfold rset. destruct (N.ltb_spec (rw r) (rv r));
        repeat match goal with |- context [if ?b then _ else _] => destruct b end;
        cbn [done_of kitem rw rv r']; lia. }
    destruct Hp as [Hp1 [Hp2 Hp3]].
    destruct (SInv_publish cap cc n Hcc Hn s u k r _ I Epc Hp1 Hp2 Hp3) as [Hd Hi]. rewrite Hd in Hs.
    change (N.eqb sEMPTY sEMPTY) with true in Hs. cbv iota in Hs. inv_step Hs.
    split; [exact Hi|]. apply (VInv_publish cap cc n Hcc Hn) with (k := k) (r := r); assumption.
  - (* PN3 *) inv_step Hs. destruct k as [x|b].
    + destruct (N.eqb_spec (rv r) 1) as [E1|E1].
      * apply (Inv_p_done_batch s u (mkB false 1 1) PFull); rewrite ?Epc; auto; cbn [done_of kitem bsent btotal]; lia.
      * unf_steps. pc_only IV Epc. exact Logic.I.
    + destruct (N.ltb (rv r) (rm r)); [apply Inv_p_closed_window | apply Inv_p_loop];
        rewrite ?Epc; auto; cbn [done_of kitem bsent btotal]; lia.
  - (* PB1 *) inv_step Hs. destruct (rdropped s); [apply Inv_p_done_batch | apply Inv_p_loop]; rewrite ?Epc; auto.
  - (* PL1 *) inv_step Hs. destruct (rdropped s).
    + apply Inv_p_done_batch; rewrite ?Epc; auto.
    + unf_steps. pc_only IV Epc. exact Pu.
  - (* PC2 *) inv_step Hs. match goal with |- context [N.eqb ?m 0] => destruct (N.eqb_spec m 0) as [Em|Em] end.
    + apply Inv_p_closed_window; rewrite ?Epc; auto.
    + unf_steps. pc_only IV Epc. split; lia.
  - (* PC3 *) inv_step Hs. apply Inv_claim; rewrite ?Epc; try reflexivity; try exact IV; try exact Pu. tauto.
  - (* PC4 *) inv_step Hs; unf_steps; pc_only IV Epc.
    pose proof (A_prog _ _ _ _ I). pose proof (A_drn _ _ _ _ I).
    unfold cnt. destruct (bcold b); cbn [is_cold]; repeat split; try lia.
Qed.

(* only the consumer's pc and the published counters (and fields no invariant reads) *)
Lemma Inv_c_pc s s' p :
  Inv s -> same_core s s' -> same_val s s' -> progress s' <= hpos s -> drained s' <= hpos s ->
  ppc s' = ppc s -> cpc s' = p ->
  taken p = taken (cpc s) -> (quiet p = true -> quiet (cpc s) = true) ->
  CInv cc n (ids s) (sstate s) (hcid s) (hidx s) p -> Inv s'.
Proof.
  intros [I V] Hc Hv Hpr Hdr Ep Ec Ht Hq Hp. split.
  - apply (SInv_c_pure cap cc n s s' p); try assumption. exact (sv_pseq _ _ Hv).
  - apply (VInv_c_pure s s' p); assumption.
Qed.

Lemma Inv_hlock s b : Inv s -> Inv (set_hlock s b).
Proof.
  intros IV. apply (Inv_c_pc s _ (cpc s)); try (constructor; reflexivity); try reflexivity; try apply IV. tauto.
Qed.

(* the API call returns *)
Lemma Inv_c_done_l s rs :
  Inv s -> taken (cpc s) = false -> flat_map cres_val rs = chand s -> Inv (c_done_l s rs).
Proof.
  intros [I V] Ht Hr. split; [|apply VInv_c_done_l; assumption].
  eapply SInv_c_pure; [exact I | constructor; reflexivity | apply I | apply I | reflexivity | reflexivity | reflexivity
                      | symmetry; exact Ht | exact Logic.I].
Qed.

(* the proof obligations of Inv_c_pc for a step out of pc [Epc : cpc s = ..]; the last one, CInv of
   the new pc, is left with the old pc's CInv [C] beside it *)
Ltac c_only IV Epc :=
  eapply Inv_c_pc;
  [ exact IV | constructor; reflexivity | constructor; reflexivity
  | st_goal; first [apply IV | apply N.le_refl] | st_goal; first [apply IV | apply N.le_refl]
  | reflexivity | reflexivity | rewrite Epc; reflexivity
  | rewrite Epc; st_goal; repeat match goal with d : dctx |- _ => destruct d end;
    cbn [quiet dgot0 fquiet negb andb is_run] in *; rewrite ?Bool.andb_true_r, ?Bool.andb_false_r;
    try tauto; try discriminate
  | cbn [CInv] ].

(* the pcs whose step only moves the pc (publishes a counter, tries a lock), to one that knows nothing *)
Definition c_moves (pc : cpc_t) : bool :=
  match pc with
  | CIdle | CLock _ | CD6 _ | CM1 _ | CM2 _ | CP1 _ | CP2 _ | CP3 _ | CP4 _ | CP5 _ | CFl _ | CDropSt
  | CWk _ | CDone => true
  | _ => false
  end.

Lemma Inv_cstep s c s' e : Inv s -> cstep cc n kk s c = Some (s', e) -> Inv s'.
Proof.
  intros IV Hs. pose proof IV as [I V]. unfold cstep in Hs. destruct (cpc s) eqn:Epc.
  all: pose proof (C_inv _ _ _ _ I) as C; rewrite Epc in C; cbn [CInv] in C.
  (* first the steps that only move the pc *)
  all: try (assert (c_moves (cpc s) = true) as _ by (rewrite Epc; reflexivity);
            unfold c_lock in Hs; inv_step Hs; unf_steps; split_goal;
            first [exact IV | c_only IV Epc; exact Logic.I]).
  - (* CD1 *) inv_step Hs. unf_steps.
    destruct (N.eqb_spec (ids s (ent n (hcid s))) (hcid s)) as [Er|Er]; cbn [negb]; [|split_goal; c_only IV Epc; exact Logic.I].
    destruct (N.eqb_spec (hidx s) cc) as [Ei|Ei]; c_only IV Epc.
    + split; assumption.
    + split; [assumption|]. pose proof (A_idx _ _ _ _ I). lia.
  - (* CD2 *) inv_step Hs. split; [apply (SInv_retire cap cc n Hcc Hn); assumption|].
    eapply VInv_c_pure; [exact V | constructor; reflexivity | reflexivity | reflexivity | rewrite Epc; reflexivity|].
    rewrite Epc. cbn [quiet]. tauto.
  - (* CD3 *) inv_step Hs. unf_steps.
    destruct (N.eqb_spec (sstate s (hslot cc n s)) sSET) as [Ea|Ea].
    + c_only IV Epc. destruct C as [C1 C2]. repeat split; assumption.
    + destruct (N.eqb_spec (sstate s (hslot cc n s)) sSKIP) as [Eb|Eb]; [|split_goal]; c_only IV Epc; try exact Logic.I.
      destruct C as [C1 C2]. repeat split; assumption.
  - (* CD4 *) destruct (SInv_take cap cc n Hcc Hn s d I Epc) as [v [Hd [Hv Hi]]]. rewrite Hd in Hs. inv_step Hs.
    split; [exact Hi | apply VInv_take; assumption].
  - (* CD5 *) inv_step Hs. destruct d as [| |site mx got]; destruct set; unf_steps; split_goal;
      (split; [eapply (SInv_advance cap cc n Hcc Hn); [exact I | exact Epc | reflexivity | exact Logic.I]
              | eapply (VInv_advance cap cc n Hcc Hn); [exact I | exact V | exact Epc | reflexivity |]]);
      cbn [quiet dgot0 negb andb]; rewrite ?Bool.andb_true_r, ?Bool.andb_false_r; try tauto; try discriminate.
    all: repeat match goal with |- context [N.eqb (?g + 1) 0] => destruct (N.eqb_spec (g + 1) 0); [lia|] end; try discriminate; try tauto.
  - (* CUnl *) inv_step Hs. unf_steps. fold (c_done_l (set_hlock s false)). split_goal.
    all: try (apply Inv_c_done_l;
              [apply Inv_hlock; exact IV | st_goal; rewrite Epc; reflexivity
              | st_goal; first [apply flat_vals_map
                               | cbn [flat_map cres_val app]; symmetry; apply (V_quiet _ V); rewrite Epc; cbn [quiet]; assumption]]).
    all: c_only IV Epc; exact Logic.I.
  - (* CSa *) inv_step Hs. unf_steps. fold (c_done_l s). split_goal.
    all: try (apply Inv_c_done_l; [exact IV | rewrite Epc; reflexivity
              | cbn [flat_map cres_val app]; symmetry; apply (V_quiet _ V); rewrite Epc; reflexivity]).
    all: c_only IV Epc; exact Logic.I.
  - (* CFu *) inv_step Hs. unf_steps. fold (c_done_l (set_hlock s false)). split_goal.
    all: try (apply Inv_c_done_l;
              [apply Inv_hlock; exact IV | st_goal; rewrite Epc; reflexivity
              | st_goal; first [apply flat_vals_map
                               | cbn [flat_map cres_val app]; symmetry; apply (V_quiet _ V); rewrite Epc; reflexivity]]).
    all: c_only IV Epc; exact Logic.I.
Qed.

Lemma SInv_init pp0 cp0 : SInv cap cc n (init np pp0 cp0).
Proof.
  constructor; cbn [init gtail progress drained retired ids sstate sdata hcid hidx hpos tk ppc cpc pseq bad]; try lia.
  - intros t. split; [lia | reflexivity].
  - intros t th. unfold owns. cbn [own_lo own_hi]. split; [discriminate | lia].
  - intros th. exact Logic.I.
  - intros t v H. discriminate H.
  - intros j Hj. apply N.mod_small. exact Hj.
  - intros j i Hj Hi. destruct (N.ltb_spec (j * cc + i) 0) as [L|_]; [lia | reflexivity].
  - intros j i Hj Hi. destruct (N.ltb_spec (j * cc + i) 0) as [L|_]; [lia | reflexivity].
  - intros t _ H. exfalso. apply H. reflexivity.
  - exact Logic.I.
Qed.

Theorem Inv_reachable pp0 cp0 s : reachable (sys cap cc n kk np pp0 cp0) s -> Inv s.
Proof.
  apply (invariant_lift (sys cap cc n kk np pp0 cp0) Inv).
  - split; [apply SInv_init | apply VInv_init].
  - intros s0 t c s' e IV Hs. destruct t as [|i]; cbn [step Conc.step sys] in Hs.
    + exact (Inv_cstep s0 c s' e IV Hs).
    + destruct (Nat.ltb i np); [|discriminate Hs]. exact (Inv_pstep s0 i c s' e IV Hs).
Qed.

Lemma SInv_reachable pp0 cp0 s : reachable (sys cap cc n kk np pp0 cp0) s -> SInv cap cc n s.
Proof. intros Hr. apply (Inv_reachable pp0 cp0 s Hr). Qed.

(* C03 *)
(* every published-and-undrained payload sits in the window [pos, pos + cap) *)
Theorem capacity_window pp0 cp0 s t v :
  reachable (sys cap cc n kk np pp0 cp0) s ->
  tk s t = TSet v -> hpos s <= t -> t < hpos s + cap.
Proof. intros Hr. apply (D_cap _ _ _ _ (SInv_reachable _ _ _ Hr)). Qed.

Theorem buffered_le_cap pp0 cp0 s :
  reachable (sys cap cc n kk np pp0 cp0) s -> (length (buffered s) <= N.to_nat cap)%nat.
Proof.
  intros Hr. pose proof (SInv_reachable _ _ _ Hr) as I. unfold buffered.
  pose proof (A_tail _ _ _ _ I) as Ht.
  destruct (N.le_gt_cases (gtail s) (hpos s + cap)) as [L|L].
  - pose proof (vals_in_length s (hpos s) (gtail s)). lia.
  - rewrite (vals_in_split s (hpos s) (hpos s + cap) (gtail s)) by lia.
    rewrite (vals_in_nil s (hpos s + cap) (gtail s)).
    + rewrite app_nil_r. pose proof (vals_in_length s (hpos s) (hpos s + cap)). lia.
    + intros t v Hr' Hv. pose proof (D_cap _ _ _ _ I t v Hv). lia.
Qed.

(* the counters are ordered; the cursor never passes an unwritten ticket *)
Theorem counters_ordered pp0 cp0 s :
  reachable (sys cap cc n kk np pp0 cp0) s ->
  progress s <= hpos s /\ drained s <= hpos s /\ hpos s <= gtail s /\
  hpos s = hcid s * cc + hidx s /\ retired s = hcid s /\
  (forall t th, tk s t = TOwn th -> hpos s <= t).
Proof.
  intros Hr. pose proof (SInv_reachable _ _ _ Hr) as I.
  repeat split; try apply I. intros t th. apply (own_ge _ _ _ _ _ _ I).
Qed.

(* C09 *)
(* the model's ownership-violation flag (payload cell overwritten live, state byte stored over a
   non-EMPTY one, take() of an empty cell) is never raised *)
Theorem no_ownership_violation pp0 cp0 s :
  reachable (sys cap cc n kk np pp0 cp0) s -> bad s = false.
Proof. intros Hr. apply (Bad _ _ _ _ (SInv_reachable _ _ _ Hr)). Qed.

(* a ticket has at most one owner (the thread whose claimed run contains it and has not yet stored its state) *)
Theorem owner_unique pp0 cp0 s t th1 th2 :
  reachable (sys cap cc n kk np pp0 cp0) s ->
  owns (ppc s th1) t -> owns (ppc s th2) t -> th1 = th2.
Proof.
  intros Hr H1 H2. pose proof (SInv_reachable _ _ _ Hr) as I.
  apply (B_own _ _ _ _ I) in H1. apply (B_own _ _ _ _ I) in H2. congruence.
Qed.

(* contents of every physical slot of the table, in terms of the ticket it currently stands for *)
Theorem slot_contents pp0 cp0 s j i :
  reachable (sys cap cc n kk np pp0 cp0) s -> j < n -> i < cc ->
  let t := ids s j * cc + i in
  sstate s (j * cc + i) = (if N.ltb t (hpos s) then sEMPTY else code (tk s t)) /\
  sdata s (j * cc + i) = (if N.ltb t (hpos s) then None else dataof (tk s) (ppc s) (pseq s) (taken (cpc s)) (hpos s) t).
Proof. intros Hr Hj Hi. pose proof (SInv_reachable _ _ _ Hr) as I. split; [apply (E_st _ _ _ _ I) | apply (E_dt _ _ _ _ I)]; assumption. Qed.

(* reset-on-drain: a chunk the consumer has retired has all its slots EMPTY and all its cells empty
   (this is what the consumer's EMPTY store on BOTH the SET and the SKIP arm maintains) *)
Theorem retired_chunk_all_empty pp0 cp0 s j i :
  reachable (sys cap cc n kk np pp0 cp0) s -> j < n -> i < cc -> ids s j < retired s ->
  sstate s (j * cc + i) = sEMPTY /\ sdata s (j * cc + i) = None.
Proof.
  intros Hr Hj Hi Hlt. pose proof (SInv_reachable _ _ _ Hr) as I.
  rewrite (A_ret _ _ _ _ I) in Hlt.
  assert (L : ids s j * cc + i < hpos s) by (rewrite (A_pos _ _ _ _ I); apply geo_lt; assumption).
  rewrite (E_st _ _ _ _ I j i Hj Hi), (E_dt _ _ _ _ I j i Hj Hi).
  destruct (N.ltb_spec (ids s j * cc + i) (hpos s)) as [_|X]; [split; reflexivity | lia].
Qed.

(* a chunk id is replaced in the table only when the old chunk is retired *)
Theorem reuse_only_retired pp0 cp0 s u k r cur :
  reachable (sys cap cc n kk np pp0 cp0) s -> ppc s u = PE3 k r cur -> cur < retired s.
Proof.
  intros Hr Epc. pose proof (P_inv _ _ _ _ (SInv_reachable _ _ _ Hr) u) as P.
  rewrite Epc in P. cbn [PInv] in P. lia.
Qed.

(* a written, undrained ticket keeps its chunk resident *)
Theorem written_stays_resident pp0 cp0 s t :
  reachable (sys cap cc n kk np pp0 cp0) s -> hpos s <= t -> code (tk s t) <> sEMPTY ->
  ids s (ent n (cid_of cc t)) = cid_of cc t.
Proof. intros Hr. apply (R_res _ _ _ _ (SInv_reachable _ _ _ Hr)). Qed.

End Safety.
