(* Proofs/CacheC13Proofs.v — C13: current_cost = cost of the resident entries
   (with the F-18 patch, or on unbounded caches), the refutations on the code as
   found (F-28, F-29, F-34, and the dropped Write event of F-18), and the capacity clause for a shard whose policy is
   in sync with its map. *)
From Fibre Require Import Common.Base Cache.PolicySpec Cache.PolicyLru Cache.AMap Cache.CacheOps Cache.CacheSpec
     Proofs.AMapProofs Proofs.PolicyCommon Proofs.PolicyLruProofs Proofs.CacheCoreProofs Proofs.CacheStepProofs.

Section C13.
  Set Default Proof Using "All".
  Variable P : policy.
  Variable c : cfg.
  Hypothesis Hn : 0 < c_shards c.

  Notation state := (state P).
  Notation find := (find P c).
  Notation wfp := (wfp P c).
  Notation smap := (smap P).

  (** ** sums over the shards *)
  Definition sum_sh (f : N -> Z) (l : list N) : Z := fold_right (fun j z => (f j + z)%Z) 0%Z l.

  Lemma resident_sum s : resident_cost P c s = sum_sh (fun j => map_cost (smap s j)) (nseq (c_shards c)).
  Proof. reflexivity. Qed.

  Lemma sum_sh_ext f g l : (forall j, In j l -> f j = g j) -> sum_sh f l = sum_sh g l.
  Proof.
    induction l as [|j t IH]; intros H; cbn [sum_sh fold_right]; [reflexivity|].
    fold (sum_sh f t) (sum_sh g t). rewrite (H j (or_introl eq_refl)), IH; [reflexivity|].
    intros j' Hj. apply H. right. exact Hj.
  Qed.

  Lemma sum_sh_upd f g l i :
    NoDup l -> In i l -> (forall j, j <> i -> g j = f j) -> sum_sh g l = (sum_sh f l - f i + g i)%Z.
  Proof.
    induction l as [|j t IH]; intros Hnd Hi Hg; [destruct Hi|].
    inversion Hnd as [|? ? Hni Hnd']; subst. cbn [sum_sh fold_right]. fold (sum_sh f t) (sum_sh g t).
    destruct Hi as [->|Hi].
    - rewrite (sum_sh_ext g f t); [lia|]. intros j' Hj. apply Hg. intros ->. contradiction.
    - rewrite IH by assumption. rewrite (Hg j); [lia|]. intros ->. contradiction.
  Qed.

  Lemma sum_sh_0 l : sum_sh (fun _ => 0%Z) l = 0%Z.
  Proof. induction l as [|j t IH]; cbn [sum_sh fold_right]; [reflexivity|]. fold (sum_sh (fun _ : N => 0%Z) t). lia. Qed.

  (** ** single-shard effects *)
  Lemma resident_ueff s s' i m' dcc de :
    ueff P s s' i m' dcc de -> i < c_shards c ->
    resident_cost P c s' = (resident_cost P c s - map_cost (smap s i) + map_cost m')%Z.
  Proof.
    intros [M _] Hi. rewrite !resident_sum.
    rewrite (sum_sh_upd (fun j => map_cost (smap s j)) (fun j => map_cost (smap s' j)) _ i).
    - rewrite M, N.eqb_refl. reflexivity.
    - apply nseq_NoDup.
    - apply nseq_In. exact Hi.
    - intros j Hne. rewrite M. destruct (N.eqb_spec j i); [contradiction | reflexivity].
  Qed.

  Definition drift (s : state) : Z := (st_cc P s - resident_cost P c s)%Z.

  Lemma drift_write s s' k e : wfp s -> write P c s s' k e -> drift s' = drift s.
  Proof.
    intros Hw [H _]. unfold drift.
    rewrite (resident_ueff _ _ _ _ _ _ H) by (apply shard_of_lt; exact Hn).
    destruct H as [_ [C _]]. rewrite C. rewrite map_cost_aput by apply Hw.
    unfold old_cost. rewrite find_smap. destruct (afind k (smap s (shard_of c k))); lia.
  Qed.

  Lemma drift_ueff_aset s s' k e e' :
    wfp s -> find s k = Some e -> e_cost e' = e_cost e ->
    ueff P s s' (shard_of c k) (aset k e' (smap s (shard_of c k))) 0 0 ->
    drift s' = drift s.
  Proof.
    intros Hw Hf Hc H. unfold drift.
    rewrite (resident_ueff _ _ _ _ _ _ H) by (apply shard_of_lt; exact Hn).
    destruct H as [_ [C _]]. rewrite C. rewrite find_smap in Hf.
    rewrite (map_cost_aset k e e') by (try apply Hw; exact Hf). lia.
  Qed.

  Lemma drift_same s s' :
    (forall j, smap s' j = smap s j) -> st_cc P s' = st_cc P s -> drift s' = drift s.
  Proof.
    intros M C. unfold drift. rewrite C, !resident_sum. f_equal. apply sum_sh_ext. intros j _. rewrite M. reflexivity.
  Qed.

  Lemma drift_refr Rk s s' : wfp s -> refr P c Rk s s' -> drift s' = drift s.
  Proof.
    intros Hw [K [R [C _]]]. unfold drift. rewrite C, !resident_sum. f_equal. apply sum_sh_ext. intros j _.
    (* same keys, entrywise same cost *)
    specialize (K j). specialize (R j). pose proof (proj1 Hw j) as Hnd.
    revert K R Hnd. generalize (smap s j) (smap s' j). intros m m'. revert m'.
    induction m as [|[k e] t IH]; intros [|[k' e'] t'] K R Hnd; cbn [akeys map fst] in K; try discriminate; [reflexivity|].
    inversion K; subst k'. inversion Hnd as [|? ? Hni Hnd']; subst.
    cbn [map_cost fold_right snd]. fold (map_cost t) (map_cost t').
    assert (Hc : e_cost e' = e_cost e).
    { specialize (R k). cbn [afind] in R. rewrite N.eqb_refl in R. cbn in R.
      apply (upd_fields P c Hn _ _ _ _ _ R). }
    rewrite Hc. f_equal. apply IH; [assumption | | assumption].
    intros k0. pose proof (R k0) as R0. cbn [afind] in R0.
    destruct (N.eqb_spec k0 k) as [Heq|Hne]; [|exact R0]. subst k0.
    assert (Ha : afind k t = None) by (apply afind_None_keys; exact Hni).
    assert (Hb : afind k t' = None).
    { apply afind_None_keys. unfold akeys in *. rewrite H1. exact Hni. }
    rewrite Ha, Hb. exact I.
  Qed.

  (** ** removal steps *)
  (* dropping D shard by shard lowers the summed map cost by the cost of D: peel the drops off
     one at a time, each from the shard map it was resident in *)
  Lemma sum_adel_drops (l : list N) (D : list drop) : forall f : N -> amap entry,
    NoDup l -> (forall d, In d D -> In (d_sh d) l) ->
    (forall j, NoDup (akeys (f j))) -> (forall j, NoDup (dkeys j D)) ->
    (forall d, In d D -> afind (d_key d) (f (d_sh d)) = Some (d_ent d)) ->
    sum_sh (fun j => map_cost (adel_all (dkeys j D) (f j))) l = (sum_sh (fun j => map_cost (f j)) l - dcost D)%Z.
  Proof.
    intros f Hl. revert f. induction D as [|d t IH]; intros f Hin Hw U F.
    - change (dcost []) with 0%Z. rewrite Z.sub_0_r. reflexivity.
    - set (f' := fun j => if N.eqb j (d_sh d) then adel (d_key d) (f j) else f j).
      assert (Hk : forall j, adel_all (dkeys j (d :: t)) (f j) = adel_all (dkeys j t) (f' j)).
      { intros j. unfold f', dkeys. cbn [filter]. rewrite (N.eqb_sym (d_sh d) j). destruct (N.eqb j (d_sh d)); reflexivity. }
      rewrite (sum_sh_ext _ (fun j => map_cost (adel_all (dkeys j t) (f' j)))) by (intros j _; rewrite Hk; reflexivity).
      assert (Ud : forall j, NoDup (dkeys j t) /\ (j = d_sh d -> ~ In (d_key d) (dkeys j t))).
      { intros j. specialize (U j). unfold dkeys in *. cbn [filter] in U. destruct (N.eqb_spec (d_sh d) j) as [E|Hne].
        - cbn [map] in U. inversion U as [|? ? Hni Hnd]. split; [exact Hnd | intros _; exact Hni].
        - split; [exact U | intros E; congruence]. }
      rewrite IH.
      + rewrite dcost_cons, (sum_sh_upd (fun j => map_cost (f j)) (fun j => map_cost (f' j)) l (d_sh d) Hl).
        * unfold f'. rewrite N.eqb_refl, (map_cost_adel (d_key d) (d_ent d)) by (try apply Hw; apply F; left; reflexivity). lia.
        * apply Hin. left. reflexivity.
        * intros j Hne. unfold f'. destruct (N.eqb_spec j (d_sh d)); [contradiction | reflexivity].
      + intros d' Hd'. apply Hin. right. exact Hd'.
      + intros j. unfold f'. destruct (N.eqb j (d_sh d)); [apply adel_NoDup|]; apply Hw.
      + intros j. apply Ud.
      + intros d' Hd'. unfold f'. destruct (N.eqb_spec (d_sh d') (d_sh d)) as [E|]; [|apply F; right; exact Hd'].
        rewrite afind_adel_other; [apply F; right; exact Hd'|].
        intros Hkk. apply (proj2 (Ud (d_sh d)) eq_refl). rewrite <- Hkk. apply In_dkeys. exists d'. auto.
  Qed.

  Lemma resident_mstep s s' D dcc :
    wfp s -> mstep P c s s' D dcc -> Forall (fun d => d_sh d < c_shards c) D ->
    resident_cost P c s' = (resident_cost P c s - dcost D)%Z.
  Proof.
    intros Hw [M [_ [_ [_ [_ [U F]]]]]] Hok. rewrite !resident_sum.
    rewrite (sum_sh_ext _ (fun j => map_cost (adel_all (dkeys j D) (smap s j)))) by (intros j _; rewrite M; reflexivity).
    apply sum_adel_drops; [apply nseq_NoDup | | apply Hw | exact U | exact F].
    intros d Hd. apply nseq_In. rewrite Forall_forall in Hok. apply Hok. exact Hd.
  Qed.

  (** ** every operation keeps the accounting exact (maintenance: when capacity cleanup is exact) *)
  Lemma c13_clear s : drift (do_clear P c s) = 0%Z.
  Proof.
    destruct (do_clear_spec P c Hn s) as [M [C _]]. unfold drift. rewrite C, resident_sum.
    rewrite (sum_sh_ext _ (fun _ => 0%Z)); [rewrite sum_sh_0; reflexivity|].
    intros j Hj. rewrite M. apply nseq_In in Hj. apply N.ltb_lt in Hj. rewrite Hj. reflexivity.
  Qed.

  Lemma c13_step s o :
    wfp s -> exact_cost c \/ is_maint o = false -> o <> OClear -> drift (fst (step P c s o)) = drift s.
  Proof.
    intros Hw Hx Ho. destruct (step_kind P c Hn s o Hw) as [H | H | k e v Hf H | D dcc H _ Hd | Hc _ | M _ _ _ C].
    - refine (proj2 (writes_inv P c Hn (fun s1 => drift s1 = drift s) o s _ _ H Hw eq_refl)).
      intros s0 s1 k e Hw0 HQ Hwr _. rewrite (drift_write s0 s1 k e Hw0 Hwr). exact HQ.
    - exact (drift_refr _ s _ Hw H).
    - eapply drift_ueff_aset; [exact Hw | exact Hf | | exact H]. reflexivity.
    - (* user removals are exact whatever the switches say *)
      assert (Hdcc : dcc = (- dcost D)%Z) by (destruct Hx as [Hx|Hx]; [apply H; exact Hx | exact (Hd Hx)]).
      destruct H as [H [Hok _]]. unfold drift. rewrite (resident_mstep s _ D dcc Hw H).
      + destruct H as [_ [C _]]. rewrite C, Hdcc. lia.
      + eapply Forall_impl; [|exact Hok]. intros d Hdok. apply Hdok.
    - contradiction.
    - apply drift_same; assumption.
  Qed.

  Theorem c13_cost_run ops : forall s,
    exact_cost c -> wfp s -> drift s = 0%Z -> drift (fst (run P c s ops)) = 0%Z.
  Proof.
    induction ops as [|o t IH]; intros s Hx Hw Hd; cbn [run fst]; [exact Hd|].
    assert (H1 : drift (fst (step P c s o)) = 0%Z).
    { destruct o; try (rewrite c13_step; [exact Hd | exact Hw | left; exact Hx | discriminate]). apply c13_clear. }
    pose proof (step_wfp P c Hn s o Hw) as Hw1.
    destruct (step P c s o) as [s1 x]. cbn [fst] in *.
    specialize (IH s1 Hx Hw1 H1). destruct (run P c s1 t) as [s2 xs]. exact IH.
  Qed.

  Theorem c13_cost now0 ops :
    exact_cost c ->
    st_cc P (state_after P c now0 ops) = resident_cost P c (state_after P c now0 ops).
  Proof.
    intros Hx. pose proof (c13_cost_run ops (init P now0) Hx (init_wfp P c Hn now0)) as H.
    unfold drift in H. unfold state_after.
    assert (H0 : (st_cc P (init P now0) - resident_cost P c (init P now0))%Z = 0%Z).
    { cbn [st_cc init]. rewrite resident_sum. change (sum_sh _ ?l) with (sum_sh (fun _ => 0%Z) l). rewrite sum_sh_0. reflexivity. }
    specialize (H H0). lia.
  Qed.
End C13.

Section C13cap.
  Set Default Proof Using "All".
  Variable P : policy.
  Variable c : cfg.
  Hypothesis Hn : 0 < c_shards c.

  Notation state := (state P).
  Notation smap := (smap P).
  Notation wfp := (wfp P c).

  Lemma lookup_without k vs T : lookup k (without vs T) = if mem k vs then None else lookup k T.
  Proof.
    unfold without. induction T as [|[k' c'] t IH]; cbn [filter lookup fst]; [destruct (mem k vs); reflexivity|].
    destruct (mem k' vs) eqn:Em; cbn [negb].
    - rewrite IH. destruct (N.eqb_spec k k') as [->|]; [rewrite Em; reflexivity | reflexivity].
    - cbn [lookup]. rewrite IH. destruct (N.eqb_spec k k') as [->|]; [rewrite Em; reflexivity | reflexivity].
  Qed.

  Lemma sumN_perm (f : N -> N) a b : Permutation a b -> sumN (map f a) = sumN (map f b).
  Proof. induction 1; cbn [map sumN]; lia. Qed.

  Lemma afind_all_None (m : amap entry) : (forall k, afind k m = None) -> m = [].
  Proof.
    destruct m as [|[k e] t]; [reflexivity|]. intros H. specialize (H k). cbn [afind] in H.
    rewrite N.eqb_refl in H. discriminate.
  Qed.

  Lemma cost_sum_nonneg (rem : list (N * entry)) : (0 <= cost_sum rem)%Z.
  Proof. induction rem as [|x r IH]; cbn [cost_sum fold_right]; [lia|]. fold (cost_sum r). lia. Qed.

  Lemma dcost_tracked T (D : list drop) :
    (forall d, In d D -> lookup (d_key d) T = Some (e_cost (d_ent d))) ->
    dcost D = Z.of_N (sumN (map (cost_of T) (map d_key D))).
  Proof.
    induction D as [|d t IH]; intros H; [reflexivity|].
    rewrite dcost_cons, IH by (intros d' Hd'; apply H; right; exact Hd').
    assert (Hc : cost_of T (d_key d) = e_cost (d_ent d)) by (unfold cost_of; rewrite (H d (or_introl eq_refl)); reflexivity).
    cbn [map sumN]. rewrite Hc. lia.
  Qed.

  Lemma dkeys_own i D :
    Forall (fun d => d_sh d = i) D -> forall j, dkeys j D = if N.eqb j i then map d_key D else [].
  Proof.
    induction 1 as [|d t Hd _ IH]; intros j; [destruct (N.eqb j i); reflexivity|].
    specialize (IH j). unfold dkeys in *. cbn [filter]. rewrite Hd, (N.eqb_sym i j).
    destruct (N.eqb j i); cbn [map]; [f_equal|]; exact IH.
  Qed.

  Lemma resident_nonneg s : (0 <= resident_cost P c s)%Z.
  Proof.
    rewrite (resident_sum P c Hn). generalize (nseq (c_shards c)). intros l.
    induction l as [|j t IH]; cbn [sum_sh fold_right]; [lia|]. fold (sum_sh (fun j => map_cost (smap s j)) t).
    assert (0 <= map_cost (smap s j))%Z; [|lia].
    generalize (smap s j). intros m. induction m as [|x r IHr]; cbn [map_cost fold_right]; [lia | fold (map_cost r); lia].
  Qed.

  (* capacity cleanup on a shard whose policy is in sync with its map *)
  Theorem c13_capacity_shard s i :
    wfp s -> i < c_shards c ->
    st_cc P s = resident_cost P c s -> (resident_cost P c s < Z.of_N U64)%Z ->
    in_sync P s i -> evict_ok_at P s i ->
    let s' := cleanup_cap P c i s in
    st_cc P s' = resident_cost P c s'
    /\ in_sync P s' i
    /\ (forall j, j <> i -> smap s' j = smap s j)
    /\ ((resident_cost P c s' <= Z.of_N (c_cap c))%Z \/ smap s' i = []).
  Proof.
    intros Hw Hi Hcc Hlt [HndT Hsync] Hev. cbn zeta.
    assert (Hobs : Z.of_N (cc_obs P s) = st_cc P s).
    { unfold cc_obs. rewrite Z2N.id by (apply Z.mod_pos_bound; reflexivity). apply Z.mod_small.
      pose proof (resident_nonneg s). lia. }
    unfold cleanup_cap. destruct (N.leb_spec (cc_obs P s) (c_cap c)) as [Hle|Hgt].
    { split; [exact Hcc|]. split; [split; assumption|]. split; [reflexivity|]. left. lia. }
    set (want := cc_obs P s - c_cap c).
    specialize (Hev want). cbn zeta in Hev.
    destruct (pstep P (s_pol P (st_sh P s i)) (Evict want)) as [p' o].
    destruct Hev as [vs [rel [-> [[Hvnd [Hvin [Hrel [Hperm Hsuff]]]] Hgreedy]]]].
    set (T := ptracked P (s_pol P (st_sh P s i))) in *.
    set (s1 := set_sh P s i (sh_pol P (st_sh P s i) p')).
    assert (H1 : idle P s s1) by (apply idle_set_sh; reflexivity).
    assert (Hp1 : s_pol P (st_sh P s1 i) = p') by (unfold s1; cbn [st_sh set_sh]; rewrite N.eqb_refl; reflexivity).
    set (s' := match vs with [] => s1 | _ :: _ => _ end).
    (* exactly the victims are dropped: each is resident, at the cost the policy recorded *)
    assert (Hshape : exists D,
               mstep P c s s' D (- Z.of_N rel) /\ Forall (fun d => d_sh d = i) D
               /\ (forall k, In k (map d_key D) <-> In k vs) /\ dcost D = Z.of_N rel
               /\ s_pol P (st_sh P s' i) = p').
    { unfold s'. destruct vs as [|v0 vt].
      { exists []. rewrite Hrel. split; [apply idle_mstep; exact H1|]. split; [constructor|].
        split; [tauto|]. split; [reflexivity | exact Hp1]. }
      destruct (fold_left (evict_victim P c i) (v0 :: vt) (s1, 0)) as [s2 freed] eqn:Ef.
      destruct (evict_victims_mstep P c i (v0 :: vt) s1 0 s2 freed Ef) as [D [H2 [R2 [G2 [Hfr P2]]]]].
      assert (Hall : Forall (fun d => d_sh d = i) D) by (eapply Forall_impl; [|exact R2]; intros d Hd; apply Hd).
      pose proof H2 as [M2 [_ [_ [_ [_ [U2 F2]]]]]].
      assert (Hin : forall k, In k (map d_key D) <-> In k (v0 :: vt)).
      { intros k. split.
        - intros Hk. apply in_map_iff in Hk. destruct Hk as [d [<- Hd]]. rewrite Forall_forall in R2. apply (R2 d Hd).
        - intros Hk. pose proof (Hvin k Hk) as Ht. apply In_keys_lookup in Ht. destruct Ht as [ck Hck].
          pose proof (Hsync k) as Hs. rewrite Hck in Hs. specialize (G2 k Hk).
          rewrite M2, afind_adel_all, (dkeys_own i D Hall), N.eqb_refl, (proj1 H1 i) in G2.
          destruct (mem k (map d_key D)) eqn:Em; [apply mem_In; exact Em|].
          rewrite G2 in Hs. discriminate. }
      assert (Hdc : dcost D = Z.of_N rel).
      { rewrite (dcost_tracked T D), Hrel.
        - f_equal. apply sumN_perm. apply NoDup_Permutation; [|exact Hvnd | exact Hin].
          specialize (U2 i). rewrite (dkeys_own i D Hall), N.eqb_refl in U2. exact U2.
        - intros d Hd. rewrite Forall_forall in Hall. specialize (F2 d Hd). rewrite (Hall d Hd), (proj1 H1 i) in F2.
          rewrite (Hsync (d_key d)), F2. reflexivity. }
      exists D. split; [|split; [exact Hall|]; split; [exact Hin|]; split; [exact Hdc|]].
      - destruct (mstep_trans P c _ _ _ _ _ _ _ (idle_mstep P c _ _ H1) H2) as [M [C R]].
        split; [exact M|]. split; [|exact R]. cbn [add_cc set_cc st_cc]. rewrite C, Hfr, Hdc.
        destruct (fix_f18 (c_fix c)); lia.
      - cbn [add_cc set_cc st_sh]. rewrite P2. exact Hp1. }
    clearbody s'. destruct Hshape as [D [Hm [Hall [Hin [Hdc Hpol]]]]].
    pose proof Hm as [M [C _]]. pose proof (dkeys_own i D Hall) as Hdk.
    assert (Hmem : forall k, mem k (map d_key D) = mem k vs).
    { intros k. destruct (mem k vs) eqn:E.
      - apply mem_In, Hin, mem_In. exact E.
      - apply mem_false_In. rewrite Hin. apply mem_false_In. exact E. }
    assert (Hmi : forall k, afind k (smap s' i) = if mem k vs then None else afind k (smap s i)).
    { intros k. rewrite M, Hdk, N.eqb_refl, afind_adel_all, Hmem. reflexivity. }
    assert (Hres' : resident_cost P c s' = (resident_cost P c s - Z.of_N rel)%Z).
    { rewrite (resident_mstep P c Hn s s' D _ Hw Hm), Hdc; [reflexivity|].
      eapply Forall_impl; [|exact Hall]. intros d ->. exact Hi. }
    assert (HndT' : NoDup (keys (ptracked P p'))) by (eapply perm_NoDup_keys; [exact Hperm | apply without_NoDup; exact HndT]).
    split; [rewrite C, Hres', Hcc; lia|]. split; [|split].
    - unfold in_sync. cbn zeta. rewrite Hpol. split; [exact HndT'|]. intros k.
      rewrite (lookup_perm (ptracked P p') (without vs T) k HndT' Hperm), lookup_without. unfold CacheSpec.smap in Hmi. rewrite Hmi.
      destruct (mem k vs); [reflexivity | apply Hsync].
    - intros j Hne. rewrite M, Hdk. destruct (N.eqb_spec j i); [contradiction | reflexivity].
    - destruct (N.ltb_spec (total T) want) as [Hl|Hg].
      + right. apply afind_all_None. intros k. rewrite Hmi. destruct (mem k vs) eqn:Em; [reflexivity|].
        specialize (Hgreedy Hl). rewrite Hgreedy in Hperm. apply Permutation_nil in Hperm.
        pose proof (lookup_without k vs T) as Hlw. rewrite Hperm, Em in Hlw. cbn [lookup] in Hlw.
        specialize (Hsync k). rewrite <- Hlw in Hsync. destruct (afind k (smap s i)); [discriminate | reflexivity].
      + left. specialize (Hsuff Hg). rewrite Hres', <- Hcc, <- Hobs. unfold want in *. lia.
  Qed.
End C13cap.

(** * the full statement and its refutations on the code as found *)
Definition C13_cost_full (P : policy) (c : cfg) : Prop :=
  forall now0 ops, st_cc P (state_after P c now0 ops) = resident_cost P c (state_after P c now0 ops).

Definition c13_cfg (cap : N) : cfg := mkCfg 1 cap None None 60 1 false true false false no_fixes.

(* F-28: insert, remove, maintenance admits the stale Write event; a later capacity
   eviction nominates the non-resident key and subtracts its cost *)
Definition c13_ops_F28 : list op :=
  [OInsert 1 100 5; ORemove 1; OMaint []; OInsert 2 101 4; OMaint []].

Lemma c13_cost_refuted_F28 : ~ C13_cost_full LruP (c13_cfg 3).
Proof. intros H. specialize (H 1000 c13_ops_F28). revert H. vm_compute. discriminate. Qed.

(* F-29: Fifo keeps the old cost of a re-admitted key *)
Definition c13_ops_F29 : list op :=
  [OInsert 1 100 1; OMaint []; OInsert 1 101 8; OInsert 2 102 8; OMaint []].

Lemma c13_cost_refuted_F29 : ~ C13_cost_full FifoP (c13_cfg 10).
Proof. intros H. specialize (H 1000 c13_ops_F29). revert H. vm_compute. discriminate. Qed.

(* F-34: run_maintenance drains at most 16 Write events per shard: the 17th (an
   overwrite of key 1 with another cost) is still queued when capacity cleanup runs *)
Definition c13_ops_F34 : list op :=
  [OInsert 1 100 1] ++ map (fun i => OInsert 2 (200 + i) 5) (nseq 15) ++ [OInsert 1 101 0; OMaint []].

Lemma c13_cost_refuted_F34 : ~ C13_cost_full LruP (c13_cfg 4).
Proof. intros H. specialize (H 1000 c13_ops_F34). revert H. vm_compute. discriminate. Qed.

(* lossy buffer: 513 Write events for one shard, the last ones are dropped, among them the
   overwrite of key 1 with cost 0; metrics() with introspection drains everything that was kept *)
Definition c13_cfg_intro (cap : N) : cfg := mkCfg 1 cap None None 60 1 false true false true no_fixes.
Definition c13_ops_lossy : list op :=
  [OInsert 1 100 1] ++ map (fun i => OInsert 2 (200 + i) 5) (nseq 512) ++ [OInsert 1 101 0; OCost; OMaint []].

Lemma c13_cost_refuted_lossy : ~ C13_cost_full LruP (c13_cfg_intro 4).
Proof. intros H. specialize (H 1000 c13_ops_lossy). revert H. vm_compute. discriminate. Qed.

(** * the evict clause for the recency-list policies (Lru, Fifo share LruList::evict) *)
Lemma ll_evict_ok_at (l : lru_list) n :
  NoDup (keys l) ->
  let '(l', vs, f) := ll_evict n l in
  evict_ok l l' n vs f /\ (total l < n -> l' = []).
Proof.
  intros Hnd. destruct (ll_evict n l) as [[l' vs] f] eqn:E. split; [apply ll_evict_ok; assumption|].
  intros Hlt. destruct (ll_evict_order _ _ _ _ _ E) as [V [Hl [_ [Hf [[Hs|Hs] _]]]]]; [|exact Hs].
  exfalso. subst l. rewrite total_app, total_rev in Hlt. lia.
Qed.

Lemma lru_evict_ok_at (c : cfg) (s : state LruP) i : in_sync LruP s i -> evict_ok_at LruP s i.
Proof.
  intros [Hnd _] n. cbn [pstep LruP lru_step ptracked] in *.
  pose proof (ll_evict_ok_at (s_pol LruP (st_sh LruP s i)) n Hnd) as H.
  destruct (ll_evict n (s_pol LruP (st_sh LruP s i))) as [[l' vs] f]. exists vs, f. split; [reflexivity | exact H].
Qed.

Lemma fifo_evict_ok_at (c : cfg) (s : state FifoP) i : in_sync FifoP s i -> evict_ok_at FifoP s i.
Proof.
  intros [Hnd _] n. cbn [pstep FifoP fifo_step ptracked] in *.
  pose proof (ll_evict_ok_at (s_pol FifoP (st_sh FifoP s i)) n Hnd) as H.
  destruct (ll_evict n (s_pol FifoP (st_sh FifoP s i))) as [[l' vs] f]. exists vs, f. split; [reflexivity | exact H].
Qed.

(** * the capacity clause at the level of run_maintenance, and its refutations *)
Definition C13_capacity_full (P : policy) (c : cfg) : Prop :=
  forall now0 ops,
    let s' := run_maintenance P c [] (state_after P c now0 ops) in
    (forall i, s_evq P (st_sh P s' i) = []) -> st_evdrops P s' = 0 ->
    (resident_cost P c s' <= Z.of_N (c_cap c))%Z.

(* F-28: the stale tracked key is nominated, nothing resident is freed *)
Lemma c13_capacity_refuted_F28 : ~ C13_capacity_full LruP (c13_cfg 3).
Proof.
  intros H. specialize (H 1000 [OInsert 1 100 5; ORemove 1; OMaint []; OInsert 2 101 4]).
  cbn zeta in H. assert (Hx : (4 <= 3)%Z); [|lia].
  apply H; [intros i; vm_compute; destruct i; reflexivity | vm_compute; reflexivity].
Qed.

(* F-29: Fifo believes key 1 still costs 8 *)
Lemma c13_capacity_refuted_F29 : ~ C13_capacity_full FifoP (c13_cfg 10).
Proof.
  intros H. specialize (H 1000 [OInsert 1 100 8; OMaint []; OInsert 1 101 1; OInsert 2 102 8; OInsert 3 103 8]).
  cbn zeta in H. assert (Hx : (16 <= 10)%Z); [|lia].
  apply H; [intros i; vm_compute; destruct i; reflexivity | vm_compute; reflexivity].
Qed.
