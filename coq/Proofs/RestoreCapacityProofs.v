(* Proofs/RestoreCapacityProofs.v — capacity after run_maintenance, for caches
   built empty and for caches built from a snapshot (whose restore path, since
   the repair of finding F-23, admits every restored entry to its policy).

   Invariant over insert / insert_with_ttl / clock / peek / iter / fully
   draining run_maintenance:
     - current_cost = sum of the resident costs (no wrap),
     - everything the policy tracks with no write pending is resident with
       exactly the tracked cost; the last pending write of a key describes the
       resident entry,
   and the cost of the residents the policy does NOT know (neither tracked nor
   pending), U, never grows.  After a fully draining run_maintenance:
     current_cost <= capacity  \/  current_cost <= U. *)
From Fibre Require Import Common.Base Cache.PolicySpec Cache.PolicyLru Cache.Iter Cache.Snapshot
     Proofs.PolicyCommon Proofs.PolicyLruProofs Proofs.IterProofs Proofs.SnapshotProofs.
From Coq Require Import ZifyBool ZifyNat ZifyN.

Lemma In_rm_pair k k' c l : In (k', c) (rm k l) <-> In (k', c) l /\ k' <> k.
Proof.
  rewrite rm_filter, filter_In. cbn [fst]. split; intros [H1 H2]; (split; [exact H1|]).
  - intros ->. rewrite N.eqb_refl in H2. discriminate.
  - destruct (N.eqb_spec k k'); [subst; contradiction|reflexivity].
Qed.

Lemma total_without : forall vs T,
  NoDup (keys T) -> NoDup vs -> total (without vs T) + sumN (map (cost_of T) vs) = total T.
Proof.
  induction vs as [|k vs IH]; intros T HT Hvs; cbn [map sumN].
  - rewrite without_nil. lia.
  - inversion Hvs as [|? ? Hni Hvs']; subst. rewrite without_cons.
    specialize (IH (rm k T) (rm_NoDup k T HT) Hvs').
    assert (Hc : map (cost_of (rm k T)) vs = map (cost_of T) vs).
    { apply map_ext_in. intros x Hx. unfold cost_of. rewrite lookup_rm_other; [reflexivity|].
      intros ->. contradiction. }
    rewrite Hc in IH. pose proof (total_rm k T HT). lia.
Qed.

Lemma cost_of_incl S T k : NoDup (keys T) -> incl S T -> In k (keys S) -> cost_of S k = cost_of T k.
Proof.
  intros HT Hin Hk. unfold cost_of. destruct (In_keys_lookup _ _ Hk) as [c Hl]. rewrite Hl.
  rewrite (NoDup_lookup k c T HT); [reflexivity|]. apply Hin, lookup_In, Hl.
Qed.

(** What an eviction (any policy's: only the C14 clause is used) does to a
    duplicate-free list T that contains the tracked list S pair for pair, when
    the victims are taken out of T as well: the survivors are pairs of what is
    left of T, T loses exactly the reported cost, and every tracked key is a
    victim or still tracked. *)
Lemma evict_superlist S S' T n vs f :
  NoDup (keys T) -> incl S T -> evict_ok S S' n vs f ->
  incl S' (without vs T)
  /\ total (without vs T) + f = total T
  /\ (forall k, In k (keys S) -> In k vs \/ In k (keys S')).
Proof.
  intros HT Hin [Hvs [Hsub [Hf [HP _]]]]. split; [|split].
  - intros p Hp. apply (Permutation_in _ HP) in Hp. unfold without in *.
    apply filter_In in Hp. apply filter_In. split; [apply Hin|]; apply Hp.
  - rewrite Hf, <- (total_without vs T HT Hvs). f_equal. f_equal. apply map_ext_in.
    intros k Hk. apply cost_of_incl; auto.
  - intros k Hk. destruct (in_dec N.eq_dec k vs) as [Hv|Hv]; [left; exact Hv|right].
    apply in_map_iff in Hk. destruct Hk as [[k' c] [<- Hp]]. cbn [fst] in Hv.
    apply (in_map fst _ (k', c)). apply (Permutation_in _ (Permutation_sym HP)).
    apply filter_In. split; [exact Hp|]. cbn [fst]. rewrite negb_true_iff, mem_false_In. exact Hv.
Qed.

Lemma total_filter_mono (P Q : kc -> bool) l :
  (forall x, In x l -> P x = true -> Q x = true) -> total (filter P l) <= total (filter Q l).
Proof.
  induction l as [|[k c] t IH]; intros H; cbn [filter total]; [lia|].
  assert (IH' : total (filter P t) <= total (filter Q t)) by (apply IH; intros x Hx; apply H; right; exact Hx).
  destruct (P (k, c)) eqn:EP.
  - rewrite (H (k, c) (or_introl eq_refl) EP). cbn [total]. lia.
  - destruct (Q (k, c)); cbn [total]; lia.
Qed.

Lemma total_filter_le (P : kc -> bool) l : total (filter P l) <= total l.
Proof.
  induction l as [|[k c] t IH]; cbn [filter total]; [lia|]. destruct (P (k, c)); cbn [total]; lia.
Qed.

Lemma filter_andb {A} (P Q : A -> bool) l : filter P (filter Q l) = filter (fun x => Q x && P x) l.
Proof.
  induction l as [|h t IH]; cbn [filter]; [reflexivity|].
  destruct (Q h); cbn [filter andb]; [destruct (P h); [f_equal|]; exact IH | exact IH].
Qed.

Lemma filter_id {A} (P : A -> bool) l : (forall x, In x l -> P x = true) -> filter P l = l.
Proof.
  induction l as [|h t IH]; intros H; cbn [filter]; [reflexivity|].
  rewrite (H h (or_introl eq_refl)). f_equal. apply IH. intros x Hx. apply H. right. exact Hx.
Qed.

(** the key/cost view [mkc] of a shard's map *)
Lemma keys_mkc m : keys (mkc m) = map ekey m.
Proof. unfold keys, mkc. rewrite map_map. reflexivity. Qed.

Lemma total_mkc m : total (mkc m) = sumN (map ecost m).
Proof. induction m as [|e t IH]; cbn [mkc map total sumN]; [reflexivity|]. fold (mkc t). rewrite IH. reflexivity. Qed.

Lemma mkc_remove_keys vs m : mkc (remove_keys vs m) = without vs (mkc m).
Proof.
  unfold remove_keys, without. induction m as [|e t IH]; cbn [filter mkc map fst]; [reflexivity|].
  destruct (negb (mem (ekey e) vs)); cbn [mkc map]; [f_equal|]; exact IH.
Qed.

Lemma remove_keys_nil m : remove_keys [] m = m.
Proof. apply filter_id. intros x _. reflexivity. Qed.

Lemma resident_In m k : resident m k = true <-> In k (map ekey m).
Proof.
  unfold resident. rewrite existsb_exists, in_map_iff. split.
  - intros [e [He Hk]]. apply N.eqb_eq in Hk. exists e. split; assumption.
  - intros [e [Hk He]]. exists e. split; [exact He|apply N.eqb_eq; exact Hk].
Qed.

(* what the victims actually take out of the map, and what stays, add up *)
Lemma removed_cost_partition vs m :
  total (mkc (remove_keys vs m)) + removed_cost vs m = total (mkc m).
Proof.
  unfold remove_keys, removed_cost. induction m as [|e t IH]; cbn [filter mkc map total sumN]; [lia|].
  fold (mkc t). destruct (mem (ekey e) vs); cbn [negb mkc map total sumN]; fold (mkc (filter (fun e0 => negb (mem (ekey e0) vs)) t)); lia.
Qed.

(** HashMap::insert, seen through [mkc], is what `on_admit` is to a policy: the
    key's pair is replaced (clause [admit_full]) and the old cost is returned *)
Lemma upsert_admit e : forall m m' old,
  NoDup (map ekey m) -> upsert e m = (m', old) ->
  admit_full (mkc m) (mkc m') (ekey e) (ecost e)
  /\ match old with Some o => ecost o | None => 0 end = cost_of (mkc m) (ekey e).
Proof.
  unfold admit_full, cost_of.
  induction m as [|h t IH]; intros m' old Hnd H; cbn [upsert] in H.
  - inversion H; subst. split; [apply Permutation_refl | reflexivity].
  - cbn [map] in Hnd. inversion Hnd as [|? ? Hni Hnd']; subst. cbn [mkc map rm lookup]. fold (mkc t).
    rewrite (N.eqb_sym (ekey e) (ekey h)).
    destruct (N.eqb_spec (ekey h) (ekey e)) as [Hk|Hk].
    + inversion H; subst. cbn [mkc map]. fold (mkc t). split; [|reflexivity].
      rewrite rm_id; [apply Permutation_refl|]. rewrite keys_mkc, <- Hk. exact Hni.
    + destruct (upsert e t) as [t' o] eqn:E. inversion H; subst.
      destruct (IH t' old Hnd' eq_refl) as [HP Hold]. split; [|exact Hold].
      cbn [mkc map]. fold (mkc t'). eapply Permutation_trans; [apply perm_skip; exact HP|apply perm_swap].
Qed.

Lemma sum_set_nth {A} (f : A -> N) (d x : A) : forall (l : list A) (i : nat),
  (i < length l)%nat ->
  sumN (map f (set_nth i x l)) + f (nth i l d) = sumN (map f l) + f x.
Proof.
  induction l as [|h t IH]; intros [|i] H; cbn [length] in H; try lia; cbn [set_nth map sumN nth]; [lia|].
  specialize (IH i). assert (Hi : (i < length t)%nat) by lia. specialize (IH Hi). lia.
Qed.

Lemma sum_nth_le {A} (f : A -> N) (d : A) : forall (l : list A) (i : nat),
  (i < length l)%nat -> f (nth i l d) <= sumN (map f l).
Proof.
  induction l as [|h t IH]; intros [|i] H; cbn [length] in H; try lia; cbn [map sumN nth]; [lia|].
  specialize (IH i). assert (Hi : (i < length t)%nat) by lia. specialize (IH Hi). lia.
Qed.

Lemma Forall_set_nth {A} (P : A -> Prop) (x : A) : forall (l : list A) (i : nat),
  Forall P l -> P x -> Forall P (set_nth i x l).
Proof.
  induction l as [|h t IH]; intros [|i] Hl Hx; cbn [set_nth]; try constructor; inversion Hl; subst; auto.
Qed.

Lemma wsub_ok a b : b <= a -> a < W64 -> wsub a b = a - b.
Proof.
  intros H1 H2. unfold wsub. assert (HW : 0 < W64) by (unfold W64; lia).
  rewrite (N.mod_small b) by lia.
  replace (a + W64 - b) with ((a - b) + 1 * W64) by lia.
  rewrite N.mod_add by lia. apply N.mod_small. lia.
Qed.

Lemma wadd_ok a b : a + b < W64 -> wadd a b = a + b.
Proof. intros H. unfold wadd. apply N.mod_small. exact H. Qed.

Definition known (sh : shardst) : list N := keys (sh_pol sh) ++ keys (sh_pend sh).
Definition unknownb (sh : shardst) (p : kc) : bool := negb (mem (fst p) (known sh)).
(* cost of the residents the policy has never been told about *)
Definition ucost (sh : shardst) : N := total (filter (unknownb sh) (mkc (sh_map sh))).
Definition res_cost (sh : shardst) : N := total (mkc (sh_map sh)).
Definition total_res (shs : list shardst) : N := sumN (map res_cost shs).
Definition U (shs : list shardst) : N := sumN (map ucost shs).

Record sh_acc (sh : shardst) : Prop := mkAcc {
  a_nodup : NoDup (map ekey (sh_map sh));
  a_pol : NoDup (keys (sh_pol sh));
  (* tracked with no write pending => resident with exactly the tracked cost *)
  a_tracked : forall k c, In (k, c) (sh_pol sh) ->
                In k (keys (sh_pend sh)) \/ In (k, c) (mkc (sh_map sh));
  (* the last pending write of a key describes the resident entry *)
  a_pend : forall p1 k c p2, sh_pend sh = p1 ++ (k, c) :: p2 -> ~ In k (keys p2) ->
             In (k, c) (mkc (sh_map sh))
}.

Lemma unknownb_spec sh p : unknownb sh p = true <-> ~ In (fst p) (known sh).
Proof. unfold unknownb. rewrite negb_true_iff. apply mem_false_In. Qed.

Lemma ucost_le_res sh : ucost sh <= res_cost sh.
Proof. apply total_filter_le. Qed.

(* with nothing pending, a duplicate-free policy list whose pairs are resident is in sync *)
Lemma sh_acc_synced m pol :
  NoDup (map ekey m) -> NoDup (keys pol) -> incl pol (mkc m) -> sh_acc (mkSh m pol []).
Proof.
  intros H1 H2 H3. constructor; cbn [sh_map sh_pol sh_pend]; [exact H1 | exact H2 | |].
  - intros k c Hi. right. apply H3. exact Hi.
  - intros p1 k c p2 Hs. destruct p1; discriminate.
Qed.

Lemma ins_shard_acc sh e m' old :
  sh_acc sh -> upsert e (sh_map sh) = (m', old) ->
  let sh' := mkSh m' (sh_pol sh) (sh_pend sh ++ [(ekey e, ecost e)]) in
  let oldc := match old with Some o => ecost o | None => 0 end in
  sh_acc sh' /\ ucost sh' <= ucost sh
  /\ res_cost sh' + oldc = res_cost sh + ecost e /\ oldc <= res_cost sh
  /\ incl (map ekey m') (ekey e :: map ekey (sh_map sh)).
Proof.
  intros [A1 A2 A3 A4] E. cbv zeta.
  destruct (upsert_admit e _ _ _ A1 E) as [HP Hold]. unfold admit_full in HP.
  set (k := ekey e) in *. set (T := mkc (sh_map sh)) in *.
  assert (HT : NoDup (keys T)) by (unfold T; rewrite keys_mkc; exact A1).
  pose proof (total_rm k T HT) as Hrm. pose proof (total_perm _ _ HP) as Htot. cbn [total] in Htot.
  assert (Hother : forall k0 c, k0 <> k -> In (k0, c) T -> In (k0, c) (mkc m')).
  { intros k0 c Hk Hi. apply (Permutation_in _ (Permutation_sym HP)). right.
    apply In_rm_pair. split; assumption. }
  assert (Hnew : In (k, ecost e) (mkc m')).
  { apply (Permutation_in _ (Permutation_sym HP)). left. reflexivity. }
  assert (Hlast : In k (keys (sh_pend sh ++ [(k, ecost e)]))).
  { rewrite keys_app. apply in_or_app. right. left. reflexivity. }
  split; [|split; [|split; [|split]]].
  - constructor; cbn [sh_map sh_pol sh_pend].
    + rewrite <- keys_mkc. eapply perm_NoDup_keys; [exact HP | apply NoDup_cons_rm; exact HT].
    + exact A2.
    + intros k0 c Hi. destruct (N.eq_dec k0 k) as [->|Hk]; [left; exact Hlast|].
      destruct (A3 k0 c Hi) as [Hp|Hm]; [|right; apply Hother; assumption].
      left. rewrite keys_app. apply in_or_app. left. exact Hp.
    + (* the write just queued is the last one; an older last write is of another key *)
      intros p1 k0 c p2 Hsplit Hni. destruct p2 as [|z p2' _] using rev_ind.
      * apply app_inj_tail in Hsplit. destruct Hsplit as [_ Hz]. inversion Hz; subst. exact Hnew.
      * change (p1 ++ (k0, c) :: p2' ++ [z]) with (p1 ++ ((k0, c) :: p2') ++ [z]) in Hsplit.
        rewrite app_assoc in Hsplit. apply app_inj_tail in Hsplit. destruct Hsplit as [Hp Hz]. subst z.
        rewrite keys_app in Hni. cbn [keys map fst] in Hni.
        apply Hother; [intros ->; apply Hni; apply in_or_app; right; left; reflexivity|].
        apply (A4 p1 k0 c p2' Hp). intros Hi. apply Hni. apply in_or_app. left. exact Hi.
  - (* the key just written is known; for the others, known before is known after *)
    unfold ucost. cbn [sh_map]. rewrite (total_perm _ _ (filter_perm _ _ _ HP)). cbn [filter].
    replace (unknownb _ (k, ecost e)) with false
      by (symmetry; apply negb_false_iff, mem_In, in_or_app; right; exact Hlast).
    rewrite rm_filter, filter_andb. apply total_filter_mono. intros x _.
    rewrite andb_true_iff, !unknownb_spec. unfold known. cbn [sh_pol sh_pend].
    intros [_ Hn] Hi. apply Hn. rewrite keys_app, app_assoc. apply in_or_app. left. exact Hi.
  - unfold res_cost. cbn [sh_map]. rewrite Hold. fold T. lia.
  - rewrite Hold. unfold res_cost. fold T. lia.
  - intros x Hx. rewrite <- keys_mkc in Hx. apply (Permutation_in _ (keys_perm _ _ HP)) in Hx.
    destruct Hx as [<-|Hx]; [left; reflexivity|right].
    apply rm_keys_subset in Hx. rewrite <- keys_mkc. apply Hx.
Qed.

(** admission of the drained write events *)

Lemma admit_all_NoDup : forall ws pol, NoDup (keys pol) -> NoDup (keys (admit_all ws pol)).
Proof.
  unfold admit_all. induction ws as [|[k c] r IH]; intros pol H; cbn [fold_left fst snd]; [exact H|].
  apply IH. unfold ll_push_front. apply NoDup_cons_rm. exact H.
Qed.

Lemma admit_all_keys : forall ws pol k,
  In k (keys ws) \/ In k (keys pol) -> In k (keys (admit_all ws pol)).
Proof.
  unfold admit_all. induction ws as [|[kw cw] r IH]; intros pol k H; cbn [fold_left fst snd keys map] in *.
  - destruct H as [[]|H]. exact H.
  - apply IH. unfold ll_push_front. cbn [keys map fst].
    destruct (N.eq_dec k kw) as [->|Hn]; [right; left; reflexivity|].
    destruct H as [[Hk|Hk]|Hk]; [congruence|left; exact Hk|].
    right. right. apply rm_keys_keep; assumption.
Qed.

Lemma admit_all_keys_inv : forall ws pol k,
  In k (keys (admit_all ws pol)) -> In k (keys ws) \/ In k (keys pol).
Proof.
  unfold admit_all. induction ws as [|[kw cw] r IH]; intros pol k H; cbn [fold_left fst snd keys map] in *.
  - right. exact H.
  - apply IH in H. destruct H as [H|H]; [left; right; exact H|].
    unfold ll_push_front in H. cbn [keys map fst] in H. destruct H as [<-|H]; [left; left; reflexivity|].
    right. apply rm_keys_subset in H. apply H.
Qed.

(* every tracked pair is the last drained write of its key, or an old pair of an undrained key *)
Lemma admit_all_spec : forall ws pol k c,
  In (k, c) (admit_all ws pol) ->
  (exists p1 p2, ws = p1 ++ (k, c) :: p2 /\ ~ In k (keys p2))
  \/ (~ In k (keys ws) /\ In (k, c) pol).
Proof.
  unfold admit_all. induction ws as [|[kw cw] r IH]; intros pol k c H; cbn [fold_left fst snd] in H.
  - right. split; [intros []|exact H].
  - apply IH in H. destruct H as [[p1 [p2 [Hr Hn]]]|[Hn H]].
    + left. exists ((kw, cw) :: p1), p2. split; [rewrite Hr; reflexivity|exact Hn].
    + unfold ll_push_front in H. destruct H as [H|H].
      * inversion H; subst. left. exists [], r. split; [reflexivity|exact Hn].
      * apply In_rm_pair in H. destruct H as [H Hk]. right. split; [|exact H].
        cbn [keys map fst]. intros [Hx|Hx]; [congruence|exact (Hn Hx)].
Qed.

Lemma last_occurrence k : forall l : list kc, In k (keys l) ->
  exists p1 c p2, l = p1 ++ (k, c) :: p2 /\ ~ In k (keys p2).
Proof.
  induction l as [|[k' c'] t IH]; cbn [keys map fst]; intros H; [contradiction|].
  destruct (in_dec N.eq_dec k (keys t)) as [Hi|Hn].
  - destruct (IH Hi) as [p1 [c [p2 [-> Hp]]]]. exists ((k', c') :: p1), c, p2. split; [reflexivity|exact Hp].
  - destruct H as [->|H]; [|contradiction]. exists [], c', t. split; [reflexivity|exact Hn].
Qed.

(** one shard of a fully draining run_maintenance *)

Lemma ucost_unknown sh : sh_pol sh = [] -> sh_pend sh = [] -> ucost sh = res_cost sh.
Proof.
  intros H1 H2. unfold ucost, res_cost. rewrite filter_id; [reflexivity|].
  intros x _. unfold unknownb, known. rewrite H1, H2. reflexivity.
Qed.

Lemma maint_one_spec cp sh cost :
  sh_acc sh -> (length (sh_pend sh) <= drain_limit)%nat -> res_cost sh <= cost -> cost < W64 ->
  exists sh' cost', maint_one (Some cp) sh cost = (sh', cost')
    /\ sh_acc sh'
    /\ cost' + res_cost sh = cost + res_cost sh'
    /\ cost' <= cost
    /\ ucost sh' <= ucost sh
    /\ (cost' <= cp \/ ucost sh' = res_cost sh')
    /\ incl (sh_map sh') (sh_map sh).
Proof.
  intros [A1 A2 A3 A4] Hdr Hres HW. unfold maint_one, res_cost in *.
  rewrite (firstn_all2 _ Hdr), (skipn_all2 _ Hdr).
  (* every pending write is for a resident key (its last write describes the resident
     entry), so the residency filter of fix 0a3449f drops nothing here *)
  assert (Hres_all : filter (fun w => resident (sh_map sh) (fst w)) (sh_pend sh) = sh_pend sh).
  { apply filter_id. intros [k c] Hx. cbn [fst]. apply resident_In.
    destruct (last_occurrence k _ (in_map fst _ _ Hx)) as [p1 [c1 [p2 [Hs Hn]]]].
    rewrite <- keys_mkc. exact (in_map fst _ _ (A4 p1 k c1 p2 Hs Hn)). }
  rewrite Hres_all. set (m := sh_map sh) in *.
  set (pol1 := admit_all (sh_pend sh) (sh_pol sh)).
  assert (Hm : NoDup (keys (mkc m))) by (rewrite keys_mkc; exact A1).
  assert (F1 : NoDup (keys pol1)) by (apply admit_all_NoDup; exact A2).
  assert (F2 : incl pol1 (mkc m)).
  { intros [k c] Hi. apply admit_all_spec in Hi. destruct Hi as [[p1 [p2 [Hs Hn]]]|[Hn Hi]].
    - apply (A4 p1 k c p2 Hs Hn).
    - destruct (A3 k c Hi) as [Hp|Hi']; [contradiction|exact Hi']. }
  assert (F3 : forall k, In k (known sh) -> In k (keys pol1)).
  { intros k Hk. apply admit_all_keys. unfold known in Hk. apply in_app_or in Hk. tauto. }
  (* the state after evicting [vs]: what the policy still tracks was known or is gone *)
  assert (Hpost : forall pol2 vs, NoDup (keys pol2) -> incl pol2 (without vs (mkc m)) ->
            (forall k, In k (keys pol1) -> In k vs \/ In k (keys pol2)) ->
            let sh' := mkSh (remove_keys vs m) pol2 [] in
            sh_acc sh' /\ ucost sh' <= ucost sh /\ incl (sh_map sh') m).
  { intros pol2 vs G0 G1 G3 sh'. split; [|split].
    - apply sh_acc_synced; [apply NoDup_map_filter; exact A1 | exact G0 |].
      rewrite mkc_remove_keys. exact G1.
    - unfold ucost, sh'. cbn [sh_map]. rewrite mkc_remove_keys. unfold without. rewrite filter_andb.
      apply total_filter_mono. intros x _.
      rewrite andb_true_iff, negb_true_iff, mem_false_In, !unknownb_spec. unfold known at 1.
      cbn [sh_pol sh_pend keys map]. rewrite app_nil_r. intros [Hn1 Hn2] Hi.
      destruct (G3 _ (F3 _ Hi)); contradiction.
    - apply incl_filter. }
  destruct (N.leb_spec cost cp) as [Hle|Hgt].
  - (* within capacity: nothing is evicted *)
    destruct (Hpost pol1 [] F1) as [P1 [P3 P4]];
      [rewrite without_nil; exact F2 | intros k Hk; right; exact Hk|].
    rewrite remove_keys_nil in *.
    exists (mkSh m pol1 []), cost. split; [reflexivity|]. split; [exact P1|].
    split; [reflexivity|]. split; [lia|]. split; [exact P3|]. split; [left; exact Hle | exact P4].
  - destruct (ll_evict (cost - cp) pol1) as [[pol2 vs] freed] eqn:E.
    pose proof (ll_evict_ok _ _ _ _ _ F1 E) as Hev.
    destruct (ll_evict_order _ _ _ _ _ E) as [_ [_ [_ [_ [Hs _]]]]].
    destruct (evict_superlist pol1 pol2 (mkc m) _ vs freed Hm F2 Hev) as [G1 [G2 G3]].
    destruct (Hpost pol2 vs (evict_core_NoDup _ _ _ _ F1 (evict_ok_core _ _ _ _ _ Hev)) G1 G3)
      as [P1 [P3 P4]].
    (* the victims are resident with exactly the tracked costs: what is actually
       removed (fix 496bcb6) is what the policy reported *)
    assert (Hact : removed_cost vs m = freed).
    { pose proof (removed_cost_partition vs m) as Hp. rewrite mkc_remove_keys in Hp. lia. }
    exists (mkSh (remove_keys vs m) pol2 []), (cost - freed). split.
    { (* without victims the code leaves map and cost alone, which is the same thing *)
      destruct vs; [|rewrite Hact, wsub_ok by lia; reflexivity].
      rewrite remove_keys_nil, without_nil in *. f_equal. lia. }
    split; [exact P1|].
    split; [cbn [sh_map]; rewrite mkc_remove_keys; lia|].
    split; [lia|]. split; [exact P3|]. split; [|exact P4].
    destruct Hs as [Hs|Hs]; [left; lia | right; apply ucost_unknown; [exact Hs | reflexivity]].
Qed.

(** all shards, in order, against the one global current_cost *)

Definition drained_shs (shs : list shardst) : Prop :=
  Forall (fun sh => (length (sh_pend sh) <= drain_limit)%nat) shs.

Lemma maint_shards_spec cp : forall shs cost,
  Forall sh_acc shs -> drained_shs shs -> total_res shs <= cost -> cost < W64 ->
  exists shs' cost', maint_shards (Some cp) shs cost = (shs', cost')
    /\ Forall sh_acc shs'
    /\ cost' + total_res shs = cost + total_res shs'
    /\ cost' <= cost
    /\ U shs' <= U shs
    /\ (cost' <= cp \/ U shs' = total_res shs')
    /\ Forall2 (fun sh' sh => incl (sh_map sh') (sh_map sh)) shs' shs.
Proof.
  induction shs as [|sh r IH]; intros cost Hacc Hdr Hres HW.
  - exists [], cost. cbn [maint_shards]. split; [reflexivity|]. split; [constructor|].
    split; [lia|]. split; [lia|]. split; [lia|]. split; [right; reflexivity|constructor].
  - inversion Hacc as [|? ? Ha Hacc']; subst. inversion Hdr as [|? ? Hd Hdr']; subst.
    unfold total_res in Hres. cbn [map sumN] in Hres. fold (total_res r) in Hres.
    destruct (maint_one_spec cp sh cost Ha Hd) as [sh' [c1 [E1 [A1 [S1 [L1 [U1 [D1 I1]]]]]]]]; [lia|exact HW|].
    destruct (IH c1 Hacc' Hdr') as [r' [c2 [E2 [A2 [S2 [L2 [U2 [D2 I2]]]]]]]]; [lia|lia|].
    exists (sh' :: r'), c2. cbn [maint_shards]. rewrite E1, E2.
    split; [reflexivity|]. split; [constructor; assumption|].
    unfold total_res, U in *. cbn [map sumN].
    split; [lia|]. split; [lia|]. split; [lia|]. split; [lia|constructor; assumption].
Qed.

Lemma U_le_res shs : U shs <= total_res shs.
Proof.
  induction shs as [|sh r IH]; [cbn; lia|]. unfold U, total_res in *. cbn [map sumN].
  pose proof (ucost_le_res sh). lia.
Qed.

Lemma total_res_concat shs : total_res shs = sumN (map ecost (concat (map sh_map shs))).
Proof.
  induction shs as [|sh r IH]; [reflexivity|]. unfold total_res in *. cbn [map sumN concat].
  rewrite map_app, sumN_app, <- IH. unfold res_cost. rewrite total_mkc. reflexivity.
Qed.

Record Inv (c : cache) : Prop := mkInv {
  i_wf : wf c;
  i_acc : Forall sh_acc (c_shs c);
  i_cost : c_cost c = total_res (c_shs c);      (* current_cost is exact *)
  i_w : c_cost c < W64
}.

Definition drained (c : cache) : Prop := drained_shs (c_shs c).

Lemma nth_maps shs j : nth j (map sh_map shs) [] = sh_map (nth j shs empty_sh).
Proof. exact (map_nth sh_map shs empty_sh j). Qed.

(* the shards may change as long as every key of shard j was there before or hashes to j *)
Lemma wf_update c c' :
  wf c -> length (c_shs c') = length (c_shs c) -> Forall sh_acc (c_shs c') ->
  (forall j k, In k (map ekey (sh_map (nth j (c_shs c') empty_sh))) ->
     In k (map ekey (sh_map (nth j (c_shs c) empty_sh))) \/ shard_idx (length (c_shs c)) k = j) ->
  wf c'.
Proof.
  intros [Hn Hwf] Hlen Hacc Hk. split; [lia|]. unfold maps in *.
  intros j Hj. rewrite map_length in *. rewrite nth_maps, Hlen. split.
  - apply a_nodup. apply Forall_nth; [exact Hacc | lia].
  - intros e He. destruct (Hk j (ekey e) (in_map ekey _ _ He)) as [Ho|Hh]; [|exact Hh].
    destruct (Hwf j) as [_ H2]; [rewrite map_length; lia|]. rewrite map_length, nth_maps in H2.
    apply in_map_iff in Ho. destruct Ho as [x [Hx Hi]]. rewrite <- Hx. apply H2. exact Hi.
Qed.

Lemma Forall2_len {A B} (R : A -> B -> Prop) l l' : Forall2 R l l' -> length l = length l'.
Proof. induction 1; cbn [length]; lia. Qed.

Lemma Forall2_nth_incl : forall (l' l : list shardst) j,
  Forall2 (fun sh' sh => incl (sh_map sh') (sh_map sh)) l' l ->
  incl (sh_map (nth j l' empty_sh)) (sh_map (nth j l empty_sh)).
Proof.
  induction l' as [|h' t' IH]; intros l j H; inversion H; subst.
  - destruct j; apply incl_refl.
  - destruct j as [|j]; cbn [nth]; [assumption|apply IH; assumption].
Qed.

Lemma maint_inv c cp :
  Inv c -> c_cap c = Some cp -> drained c ->
  let c' := run_maintenance c in
  Inv c' /\ c_cap c' = Some cp /\ U (c_shs c') <= U (c_shs c)
  /\ (c_cost c' <= cp \/ c_cost c' <= U (c_shs c')).
Proof.
  intros [Hwf Hacc Hcost HW] Hcap Hdr. unfold run_maintenance. rewrite Hcap.
  destruct (maint_shards_spec cp (c_shs c) (c_cost c) Hacc Hdr) as
    [shs' [cost' [E [A [S [L [Uu [D I]]]]]]]]; [lia|exact HW|].
  rewrite E. cbv zeta. cbn [c_shs c_cost c_cap].
  split; [|split; [reflexivity|split; [exact Uu|]]].
  - constructor; cbn [c_shs c_cost]; [|exact A|lia|lia].
    apply (wf_update c); cbn [c_shs]; [exact Hwf | eapply Forall2_len; exact I | exact A|].
    intros j k Hk. left. revert Hk. apply incl_map. apply Forall2_nth_incl. exact I.
  - destruct D as [D|D]; [left; exact D|right; lia].
Qed.

Lemma insert_inv c e :
  Inv c -> c_cost c + ecost e < W64 ->
  let c' := insert_entry c e in
  Inv c' /\ c_cap c' = c_cap c /\ U (c_shs c') <= U (c_shs c).
Proof.
  intros [Hwf Hacc Hcost HW] Hov. unfold insert_entry.
  set (n := length (c_shs c)) in *. set (i := shard_idx n (ekey e)).
  assert (Hi : (i < n)%nat) by (apply shard_idx_lt; apply Hwf).
  set (sh := nth i (c_shs c) empty_sh).
  assert (Hsh : sh_acc sh) by (apply Forall_nth; [exact Hacc|exact Hi]).
  destruct (upsert e (sh_map sh)) as [m' old] eqn:E.
  destruct (ins_shard_acc sh e m' old Hsh E) as [A [Uu [R [O M]]]].
  set (sh' := mkSh m' (sh_pol sh) (sh_pend sh ++ [(ekey e, ecost e)])) in *.
  set (oldc := match old with Some o => ecost o | None => 0 end) in *.
  cbv zeta. cbn [c_shs c_cost c_cap].
  pose proof (sum_set_nth res_cost empty_sh sh' (c_shs c) i Hi) as HR. fold sh in HR.
  pose proof (sum_set_nth ucost empty_sh sh' (c_shs c) i Hi) as HU. fold sh in HU.
  pose proof (sum_nth_le res_cost empty_sh (c_shs c) i Hi) as HL. fold sh in HL.
  fold (total_res (set_nth i sh' (c_shs c))) (total_res (c_shs c)) in HR, HL.
  fold (U (set_nth i sh' (c_shs c))) (U (c_shs c)) in HU.
  assert (Hc : wadd (wsub (c_cost c) oldc) (ecost e) = c_cost c - oldc + ecost e).
  { rewrite wsub_ok by lia. apply wadd_ok. lia. }
  split; [|split; [reflexivity|lia]].
  constructor; cbn [c_shs c_cost]; [| |rewrite Hc; lia..].
  - apply (wf_update c); cbn [c_shs]; [exact Hwf | apply set_nth_length | apply Forall_set_nth; assumption|].
    intros j k Hk. destruct (Nat.eq_dec j i) as [->|Hne]; [|rewrite nth_set_nth_neq in Hk by lia; left; exact Hk].
    rewrite nth_set_nth_eq in Hk by exact Hi. destruct (M k Hk) as [<-|Ho]; [right; reflexivity | left; exact Ho].
  - apply Forall_set_nth; assumption.
Qed.

(* the ops the capacity theorem ranges over (no fetch / iter_snapshot: they
   only refresh last_accessed; no snapshot: it starts a new cache) *)
Definition cap_op (o : op) : bool :=
  match o with
  | OIns _ _ _ | OInsTtl _ _ _ _ | OAdv _ | OPeek _ | OIter _ _ _ | OMaint | OCost => true
  | _ => false
  end.

Definition op_cost (o : op) : N :=
  match o with OIns _ _ c | OInsTtl _ _ c _ => c | _ => 0 end.

(* every run_maintenance in the sequence drains its buffers completely (at most
   16 pending writes per shard), and current_cost never reaches 2^64 *)
Fixpoint ok_run (c : cache) (os : list op) : Prop :=
  match os with
  | [] => True
  | o :: r => cap_op o = true /\ (o = OMaint -> drained c) /\ c_cost c + op_cost o < W64
              /\ ok_run (fst (step c o)) r
  end.

Lemma Inv_same c1 c2 : c_shs c1 = c_shs c2 -> c_cost c1 = c_cost c2 -> Inv c1 -> Inv c2.
Proof.
  intros Hs Hc [[Hn Hwf] Hacc Hcost HW]. unfold maps in *.
  constructor; [split|..]; unfold maps; rewrite <- ?Hs, <- ?Hc; assumption.
Qed.

Lemma step_inv c cp o :
  Inv c -> c_cap c = Some cp -> cap_op o = true -> (o = OMaint -> drained c) ->
  c_cost c + op_cost o < W64 ->
  let c' := fst (step c o) in
  Inv c' /\ c_cap c' = Some cp /\ U (c_shs c') <= U (c_shs c).
Proof.
  intros HI Hcap Hop Hdr Hov. cbv zeta.
  (* the ops that leave shards and current_cost alone *)
  assert (Hsame : forall c', c_shs c' = c_shs c -> c_cost c' = c_cost c -> c_cap c' = c_cap c ->
            Inv c' /\ c_cap c' = Some cp /\ U (c_shs c') <= U (c_shs c)).
  { intros c' H1 H2 H3. split; [exact (Inv_same c c' (eq_sym H1) (eq_sym H2) HI)|].
    rewrite H1, H3. split; [exact Hcap | lia]. }
  destruct o; cbn [cap_op] in Hop; try discriminate; cbn [step fst op_cost] in *;
    try (apply Hsame; reflexivity).
  - rewrite <- Hcap. apply insert_inv; assumption.
  - rewrite <- Hcap. apply insert_inv; assumption.
  - destruct (iterate_adv (maps c) (c_tti c) (Nat.max 1 batch) (c_now c) d K) as [out ok].
    apply Hsame; reflexivity.
  - destruct (maint_inv c cp HI Hcap (Hdr eq_refl)) as [H1 [H2 [H3 _]]]. auto.
Qed.

Lemma run_cons c o r : fst (run c (o :: r)) = fst (run (fst (step c o)) r).
Proof. cbn [run]. destruct (step c o) as [c1 x]. cbn [fst]. destruct (run c1 r) as [c2 xs]. reflexivity. Qed.

Lemma run_app c a b : fst (run c (a ++ b)) = fst (run (fst (run c a)) b).
Proof.
  revert c. induction a as [|o r IH]; intros c; [reflexivity|].
  cbn [app]. rewrite !run_cons. apply IH.
Qed.

Lemma ok_run_app c a b : ok_run c (a ++ b) -> ok_run c a /\ ok_run (fst (run c a)) b.
Proof.
  revert c. induction a as [|o r IH]; intros c H; [split; [exact I|exact H]|].
  cbn [app ok_run] in H. destruct H as [H1 [H2 [H3 H4]]]. destruct (IH _ H4) as [H5 H6].
  split; [cbn [ok_run]; tauto|]. rewrite run_cons. exact H6.
Qed.

Lemma run_inv cp : forall os c,
  Inv c -> c_cap c = Some cp -> ok_run c os ->
  let c' := fst (run c os) in
  Inv c' /\ c_cap c' = Some cp /\ U (c_shs c') <= U (c_shs c).
Proof.
  induction os as [|o r IH]; intros c HI Hcap Hok; cbv zeta.
  - cbn [run fst]. split; [exact HI|]. split; [exact Hcap|lia].
  - destruct Hok as [H1 [H2 [H3 H4]]]. rewrite run_cons.
    destruct (step_inv c cp o HI Hcap H1 H2 H3) as [S1 [S2 S3]].
    destruct (IH _ S1 S2 H4) as [R1 [R2 R3]]. split; [exact R1|]. split; [exact R2|lia].
Qed.

(** after any admissible history that ends in a fully draining run_maintenance:
    current_cost is exact, and it is within capacity unless what is left is
    entirely made of entries the policy was never told about *)
Theorem maint_capacity c cp os :
  Inv c -> c_cap c = Some cp -> ok_run c (os ++ [OMaint]) ->
  let cf := fst (run c (os ++ [OMaint])) in
  c_cost cf = total_res (c_shs cf)
  /\ (c_cost cf <= cp \/ c_cost cf <= U (c_shs c)).
Proof.
  intros HI Hcap Hok. cbv zeta. rewrite run_app.
  destruct (ok_run_app _ _ _ Hok) as [Ha [_ [Hdr _]]].
  destruct (run_inv cp os c HI Hcap Ha) as [R1 [R2 R3]].
  destruct (maint_inv _ cp R1 R2 (Hdr eq_refl)) as [S1 [_ [S3 S4]]].
  rewrite run_cons. cbn [run step fst]. split; [apply S1|].
  destruct S4 as [H|H]; [left; exact H|right; lia].
Qed.

Lemma Inv_new n cap ttl tti now : (0 < n)%nat -> Inv (new_cache n cap ttl tti now) /\ U (c_shs (new_cache n cap ttl tti now)) = 0.
Proof.
  intros Hn. unfold new_cache.
  assert (Hz : forall k, total_res (repeat empty_sh k) = 0 /\ U (repeat empty_sh k) = 0).
  { induction k as [|k [IH1 IH2]]; [split; reflexivity|]. unfold total_res, U in *. cbn [repeat map sumN].
    rewrite IH1, IH2. split; reflexivity. }
  split; [|apply Hz]. constructor; cbn [c_shs c_cost].
  - split; cbn [c_shs]; [rewrite repeat_length; exact Hn|].
    intros j Hj. unfold maps. cbn [c_shs]. rewrite nth_maps, nth_repeat.
    split; [constructor|intros e []].
  - apply Forall_forall. intros sh Hsh. apply repeat_spec in Hsh. subst sh.
    apply sh_acc_synced; [constructor | constructor | intros x []].
  - symmetry. apply Hz.
  - unfold W64. lia.
Qed.

(* what the repaired restore leaves in a bounded cache's shard: every resident is
   tracked by the shard's policy with its cost, nothing else is, nothing pending *)
Definition all_tracked (sh : shardst) : Prop :=
  sh_pend sh = []
  /\ NoDup (keys (sh_pol sh))
  /\ (forall e, In e (sh_map sh) -> In (ekey e) (keys (sh_pol sh)))
  /\ (forall k c, In (k, c) (sh_pol sh) -> In (k, c) (mkc (sh_map sh))).

Lemma all_tracked_ucost sh : all_tracked sh -> ucost sh = 0.
Proof.
  intros [_ [_ [H _]]]. unfold ucost.
  assert (Hf : filter (unknownb sh) (mkc (sh_map sh)) = []).
  { induction (sh_map sh) as [|e t IH]; [reflexivity|]. cbn [mkc map filter]. fold (mkc t).
    assert (Hk : unknownb sh (ekey e, ecost e) = false).
    { unfold unknownb, known. cbn [fst]. rewrite negb_false_iff, mem_In. apply in_or_app. left.
      apply H. left. reflexivity. }
    rewrite Hk. apply IH. intros x Hx. apply H. right. exact Hx. }
  rewrite Hf. reflexivity.
Qed.

Lemma U_all_tracked shs : Forall all_tracked shs -> U shs = 0.
Proof.
  induction 1 as [|sh r Hsh _ IH]; [reflexivity|]. unfold U in *. cbn [map sumN].
  rewrite (all_tracked_ucost sh Hsh), IH. reflexivity.
Qed.

Lemma restore_policy_tracks cp n i es :
  all_tracked (mkSh (filter (fun e => Nat.eqb (shard_idx n (ekey e)) i) es)
                    (restore_policy (Some cp) n i es) []).
Proof.
  unfold restore_policy. set (m := filter _ es).
  split; [reflexivity|]. cbn [sh_map sh_pol sh_pend]. split; [apply admit_all_NoDup; constructor|]. split.
  - intros e He. apply admit_all_keys. left. rewrite keys_mkc. apply in_map. exact He.
  - intros k c Hi. apply admit_all_spec in Hi. destruct Hi as [[p1 [p2 [Hs _]]]|[_ []]].
    rewrite Hs. apply in_or_app. right. left. reflexivity.
Qed.

(* the snapshot's entries in any order [ps] *)
Lemma Inv_restore c ps now' ttl' tti' cp :
  wf c -> c_cap c = Some cp -> Permutation ps (s_entries (snapshot c)) ->
  sumN (map ecost (filter (live (c_tti c) (c_now c)) (concat (maps c)))) < W64 ->
  let c' := restore (mkSnap ps (c_cap c) (length (c_shs c))) now' ttl' tti' in
  Inv c' /\ Forall all_tracked (c_shs c') /\ U (c_shs c') = 0.
Proof.
  intros Hwf Hcap Hperm Hlt. cbv zeta.
  destruct (restore_cost c ps now' ttl' tti' Hwf Hperm) as [Hc1 Hc2].
  pose proof (restore_wf c ps now' ttl' tti' Hwf Hperm) as Hwf'.
  pose proof (restore_shs c ps now' ttl' tti' Hwf Hperm) as Hshs.
  set (c' := restore (mkSnap ps (c_cap c) (length (c_shs c))) now' ttl' tti') in *.
  assert (Hall : Forall all_tracked (c_shs c')).
  { rewrite Hshs, Hcap. apply Forall_forall. intros sh Hsh. apply in_map_iff in Hsh.
    destruct Hsh as [i [<- _]]. apply restore_policy_tracks. }
  split; [|split; [exact Hall | apply U_all_tracked; exact Hall]].
  constructor; [exact Hwf'| |rewrite Hc1; symmetry; apply total_res_concat|rewrite Hc2; exact Hlt].
  apply Forall_forall. intros sh Hsh.
  destruct (proj1 (Forall_forall _ _) Hall sh Hsh) as [Hp [Hn [_ Ht]]].
  destruct sh as [m pol pend]. cbn [sh_map sh_pol sh_pend] in *. subst pend.
  apply sh_acc_synced; [|exact Hn|intros [k c0]; apply Ht].
  destruct (In_nth _ _ empty_sh Hsh) as [j [Hj Hnth]].
  destruct Hwf' as [_ Hw]. destruct (Hw j) as [H1 _]; [unfold maps; rewrite map_length; lia|].
  unfold maps in H1. rewrite nth_maps, Hnth in H1. exact H1.
Qed.

(** "honours its capacity like any other cache" — the baseline: a cache that
    was built empty *)
Theorem fresh_capacity n cp ttl tti now os :
  (0 < n)%nat ->
  let c := new_cache n (Some cp) ttl tti now in
  ok_run c (os ++ [OMaint]) ->
  let cf := fst (run c (os ++ [OMaint])) in
  c_cost cf <= cp /\ c_cost cf = total_res (c_shs cf).
Proof.
  intros Hn c Hok. cbv zeta. destruct (Inv_new n (Some cp) ttl tti now Hn) as [HI HU].
  destruct (maint_capacity c cp os HI eq_refl Hok) as [H1 H2]. split; [|exact H1].
  fold c in HU. destruct H2 as [H2|H2]; lia.
Qed.

(** a cache built from a snapshot (entries in any order), after the repair of
    F-23: exactly the same guarantee, because the restore leaves nothing unknown
    to the policies *)
Theorem restored_capacity c ps now' tti' cp os :
  wf c -> c_cap c = Some cp -> Permutation ps (s_entries (snapshot c)) ->
  sumN (map ecost (filter (live (c_tti c) (c_now c)) (concat (maps c)))) < W64 ->
  let c' := restore (mkSnap ps (c_cap c) (length (c_shs c))) now' None tti' in
  ok_run c' (os ++ [OMaint]) ->
  let cf := fst (run c' (os ++ [OMaint])) in
  c_cost cf <= cp /\ c_cost cf = total_res (c_shs cf).
Proof.
  intros Hwf Hcap Hperm Hlt c' Hok. cbv zeta.
  destruct (Inv_restore c ps now' None tti' cp Hwf Hcap Hperm Hlt) as [HI [_ HU]]. fold c' in HI, HU.
  destruct (maint_capacity c' cp os HI Hcap Hok) as [H1 H2].
  split; [|exact H1]. rewrite HU in H2. destruct H2 as [H2|H2]; lia.
Qed.

Lemma sumN_filter_le (f : entry -> bool) l : sumN (map ecost (filter f l)) <= sumN (map ecost l).
Proof.
  induction l as [|e t IH]; cbn [filter map sumN]; [lia|]. destruct (f e); cbn [map sumN]; lia.
Qed.

(** the full clauses of the property: the lifetime clause fails, the capacity clause holds *)

(* "remaining lifetimes no longer than the originals", all causes of expiry *)
Definition snapshot_lifetime_full : Prop :=
  forall c now' tti' e,
    wf c -> In e (filter (live (c_tti c) (c_now c)) (concat (maps c))) ->
    ole (life_left tti' now' (entry_of_p now' tti' (pentry_of (c_now c) e)))
        (life_left (c_tti c) (c_now c) e).

(* "from then on honours its capacity like any other cache": from any consistent
   cache state c (over capacity or not), any ordering ps of its snapshot, after
   any admissible history ending in a fully draining run_maintenance *)
Definition restored_capacity_full : Prop :=
  forall c ps now' tti' cp os,
    Inv c -> c_cap c = Some cp -> Permutation ps (s_entries (snapshot c)) ->
    let c' := restore (mkSnap ps (c_cap c) (length (c_shs c))) now' None tti' in
    ok_run c' (os ++ [OMaint]) ->
    let cf := fst (run c' (os ++ [OMaint])) in
    c_cost cf <= cp /\ c_cost cf = total_res (c_shs cf).

Ltac solve_ok_run :=
  cbn [ok_run app]; repeat (split; [first [reflexivity | discriminate | (vm_compute; reflexivity)
                                           | (intros _; unfold drained, drained_shs; vm_compute;
                                              repeat (apply Forall_cons; [cbn; lia|]); apply Forall_nil)]|]);
  try exact I.

(* an entry idle for 9 of its 10 ticks gets 10 fresh ticks from the restore *)
Definition w_tti : cache :=
  fst (run (new_cache 1 (Some 100) None (Some 10) 1000) [OIns 1 1 1; OAdv 9]).

Lemma w_tti_wf : wf w_tti.
Proof.
  destruct (Inv_new 1 (Some 100) None (Some 10) 1000) as [HI _]; [lia|].
  assert (Hok : ok_run (new_cache 1 (Some 100) None (Some 10) 1000) [OIns 1 1 1; OAdv 9]) by solve_ok_run.
  apply (run_inv 100 _ _ HI eq_refl Hok).
Qed.

Theorem snapshot_lifetime_refuted : ~ snapshot_lifetime_full.
Proof.
  intros H. specialize (H w_tti 1009 (Some 10) (mkE 1 1 1 0 1000) w_tti_wf).
  assert (Hin : In (mkE 1 1 1 0 1000) (filter (live (c_tti w_tti) (c_now w_tti)) (concat (maps w_tti))))
    by (vm_compute; left; reflexivity).
  specialize (H Hin).
  assert (Hx : ole (Some 10) (Some 1)) by exact H.
  cbn [ole] in Hx. lia.
Qed.

(* since the repair of F-23 the full clause holds *)
Theorem restored_capacity_holds : restored_capacity_full.
Proof.
  intros c ps now' tti' cp os HI Hcap Hperm c' Hok.
  apply (restored_capacity c ps now' tti' cp os); try assumption; [apply HI|].
  destruct HI as [_ _ Hcost HW]. rewrite Hcost, total_res_concat in HW. fold (maps c) in HW.
  pose proof (sumN_filter_le (live (c_tti c) (c_now c)) (concat (maps c))). lia.
Qed.

(* the former witness of F-23: a snapshot taken while the cache is over capacity
   (3 inserts of cost 4 into capacity 10, no maintenance yet).  The restored
   cache now ends its first run_maintenance at 8, like the original. *)
Definition w_cap : cache :=
  fst (run (new_cache 1 (Some 10) None None 1000) [OIns 1 1 4; OIns 2 2 4; OIns 3 3 4]).

Lemma w_cap_Inv : Inv w_cap.
Proof.
  destruct (Inv_new 1 (Some 10) None None 1000) as [HI _]; [lia|].
  assert (Hok : ok_run (new_cache 1 (Some 10) None None 1000) [OIns 1 1 4; OIns 2 2 4; OIns 3 3 4]) by solve_ok_run.
  apply (run_inv 10 _ _ HI eq_refl Hok).
Qed.

Example former_F23_witness :
  c_cost w_cap = 12
  /\ c_cost (fst (run w_cap [OMaint])) = 8
  /\ c_cost (fst (run (restore (snapshot w_cap) 1000 None None) [OMaint])) = 8
  /\ c_cost (fst (run (restore (reorder (snapshot w_cap)) 1000 None None) [OMaint])) = 8.
Proof. repeat split; vm_compute; reflexivity. Qed.
