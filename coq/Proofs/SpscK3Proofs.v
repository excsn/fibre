(* Proofs/SpscK3Proofs.v — invariants of the K3 SPSC model (Chan/SpscK3.v), for every capacity,
   every pair of programs and every schedule.
     LifeInv  handle lifecycle: flags / counts are functions of the pcs, Ring::drop runs alone
     Cells    the two waiter cells, each an instance of the protocol of SpscK3Cell.v      (C05)
     RingInv  index protocol, slot ownership, FIFO, conservation, teardown    (C01 C02 C03 C09)
     WC3/WP3  a waiter past its failed re-check: the condition still holds, or the other side
              still owes its gate read / is committed to wake_one, or the cell is empty     (C05)
   Structure of every step lemma: case split by thread and pc, the step equation is inverted into
   its branches (`inv_step`), the new state is a nest of setters that `st_goal` projects away. *)
From Fibre Require Import Common.Base Common.Conc Chan.SpscK3 Proofs.SpscK3Cell.
From Coq Require Import ZifyBool ZifyNat ZifyN.

Ltac unf_calls :=
  unfold p_push_ok, p_push_err, p_wake_done, c_pop_some, c_pop_none, c_wake_done, p_lock_pw,
    c_lock_cw, p_done_op, c_done_op, p_release, c_release in *.
Ltac unf_steps := unf_calls; unfold write_slot, take_slot in *.

(* break the step equation [H : ... = Some (s', e)] into its branches; a conditional at the head
   of the new state is split here, so that s' is replaced by a pure nest of setters *)
Ltac inv_step H :=
  first [ discriminate H
        | match type of H with
          | Some (match (if ?x then _ else _) with _ => _ end, _) = Some _ => destruct x eqn:?; inv_step H
          | Some (match ?x with _ => _ end, _) = Some _ => destruct x eqn:?; inv_step H
          | Some (_, _) = Some _ => injection H as <- <-
          | Some (if ?x then _ else _) = Some _ => destruct x eqn:?; inv_step H
          | (let '(_, _) := pop_core _ _ _ ?p in _) = Some _ => destruct p; cbn [pop_core] in H; inv_step H
          | (if ?x then _ else _) = Some _ => destruct x eqn:?; inv_step H
          | (match ?x with _ => _ end) = Some _ => destruct x eqn:?; inv_step H
          end ].

Ltac st_goal := cbn [tail head ch ct slots p_closed c_closed pdropped cdropped scount rcount p_rel c_rel cw_lock cw_slot recv_w c_notif tok_c pw_lock pw_slot send_w p_notif tok_p ppc cpc pprog cprog pseq accepted received dropped chand presults cresults bad
  set_tail set_head set_ch set_ct set_slots set_p_closed set_c_closed set_pdropped set_cdropped set_scount set_rcount set_p_rel set_c_rel set_cw_lock set_cw_slot set_recv_w set_c_notif set_tok_c set_pw_lock set_pw_slot set_send_w set_p_notif set_tok_p set_ppc set_cpc set_pprog set_cprog set_pseq set_accepted set_received set_dropped set_chand set_presults set_cresults set_bad].

(* split what the goal still scrutinises: pc components first *)
Ltac split_goal :=
  repeat match goal with
  | |- context [match ?x with _ => _ end] => is_var x; destruct x; cbv beta iota
  | |- context [if ?b then _ else _] => destruct b eqn:?
  | |- context [match ?x with _ => _ end] => destruct x eqn:?
  end.

Definition p_isrel pc := match pc with PDrain _ | PDone => true | _ => false end.
Definition c_isrel pc := match pc with CDrain _ | CDone => true | _ => false end.
Definition p_isdrain pc := match pc with PDrain _ => true | _ => false end.
Definition c_isdrain pc := match pc with CDrain _ => true | _ => false end.
Definition p_aftersub pc := match pc with PWake WDrop _ | PDrain _ | PDone => true | _ => false end.
Definition c_aftersub pc := match pc with CWake WDrop _ | CDrain _ | CDone => true | _ => false end.
Definition p_afterst pc := match pc with PDrSub => true | _ => p_aftersub pc end.
Definition c_afterst pc := match pc with CDrSub => true | _ => c_aftersub pc end.
Definition p_afterswap pc := match pc with PDrStore => true | _ => p_afterst pc end.
Definition c_afterswap pc := match pc with CDrStore => true | _ => c_afterst pc end.

Ltac cls := cbn [p_isrel c_isrel p_aftersub c_aftersub p_afterst c_afterst p_afterswap c_afterswap p_isdrain c_isdrain].
Ltac cls_all := cbn [p_isrel c_isrel p_aftersub c_aftersub p_afterst c_afterst p_afterswap c_afterswap p_isdrain c_isdrain] in *.

(* every lifecycle flag and count is a function of the owning thread's pc; Ring::drop runs only
   after the other thread has finished *)
Record LifeInv (s : st) : Prop := {
  L_prel : p_rel s = p_isrel (ppc s);
  L_crel : c_rel s = c_isrel (cpc s);
  L_pdr : p_isdrain (ppc s) = true -> cpc s = CDone;
  L_cdr : c_isdrain (cpc s) = true -> ppc s = PDone;
  L_sc : scount s = if p_aftersub (ppc s) then 0 else 1;
  L_rc : rcount s = if c_aftersub (cpc s) then 0 else 1;
  L_pcl : p_closed s = p_afterswap (ppc s);
  L_ccl : c_closed s = c_afterswap (cpc s);
  L_pd : pdropped s = p_afterst (ppc s);
  L_cd : cdropped s = c_afterst (cpc s)
}.

Lemma Life_init pp0 cp0 : LifeInv (init pp0 cp0).
Proof. constructor; cbn; try reflexivity; discriminate. Qed.

Section Life.
Variables cap phys : N.

Lemma Life_step s t c s' e : LifeInv s -> step cap phys s t c = Some (s', e) -> LifeInv s'.
Proof.
  intros [H1 H2 H3 H4 H5 H6 H7 H8 H9 H10] Hs.
  (* the same argument for either thread *)
  destruct t; cbn [step] in Hs;
    [unfold pstep in Hs; destruct (ppc s) eqn:Epc | unfold cstep in Hs; destruct (cpc s) eqn:Epc];
    rewrite ?Epc in H1, H2, H3, H4, H5, H6, H7, H8, H9, H10; cls_all;
    unf_steps; inv_step Hs; unf_steps; split_goal.
  all: constructor; st_goal; rewrite ?Epc; cls.
  all: try assumption; try reflexivity; try congruence.
  all: try (first [rewrite H5 | rewrite H6]; reflexivity).
  all: try (intros X; try discriminate X; first [specialize (H3 X) | specialize (H4 X)]; congruence).
  (* the thread releases last: the other one is done, not draining *)
  all: intros _; match goal with |- ?pc = _ => destruct pc eqn:Ec end; cls_all; try congruence;
    first [specialize (H4 eq_refl) | specialize (H3 eq_refl)]; discriminate.
Qed.
End Life.

(* phase of the consumer / producer as a waiter on its own cell, position as a waker on the other *)
Definition c_ph (pc : cpc_t) : wph :=
  match pc with
  | CPop (CLoop true) _ | CPop (CLoopD true) _ | CSc (SLoop true) | CPark | CFence => WReg
  | CSwap => WSwap
  | CPop _ _ | CSc _ | CSpinDec | CReg RgLock => WFresh
  | CReg RgSt => WRgSt
  | CReg RgUnlock => WRgUn
  | CUnreg _ UnLock => WUn0
  | CUnreg _ _ => WUn1
  | _ => WOut
  end.
Definition p_ph (pc : ppc_t) : wph :=
  match pc with
  | PCd (KLoop true) | PPush (KLoop true) _ | PPark | PFence => WReg
  | PSwap => WSwap
  | PCd _ | PPush _ _ | PSpinDec | PReg RgLock => WFresh
  | PReg RgSt => WRgSt
  | PReg RgUnlock => WRgUn
  | PUnreg _ UnLock => WUn0
  | PUnreg _ _ => WUn1
  | _ => WOut
  end.
Definition c_wk (pc : cpc_t) : option wk := match pc with CWake _ k => Some k | _ => None end.
Definition p_wk (pc : ppc_t) : option wk := match pc with PWake _ k => Some k | _ => None end.

Definition cw (s : st) : cell := mkCell (cw_lock s) (cw_slot s) (recv_w s) (c_notif s) (tok_c s).
Definition pw (s : st) : cell := mkCell (pw_lock s) (pw_slot s) (send_w s) (p_notif s) (tok_p s).

Record Cells (s : st) : Prop := {
  I_cw : CellInv (cw s) (c_ph (cpc s)) (p_wk (ppc s));
  I_pw : CellInv (pw s) (p_ph (ppc s)) (c_wk (cpc s))
}.

Lemma Cells_init pp0 cp0 : Cells (init pp0 cp0).
Proof. split; exact CellInv_init. Qed.

(* the pc classes the statements of C05 are written with *)
Definition c_reg pc := match pc with
  | CPop (CLoop true) _ | CPop (CLoopD true) _ | CSc (SLoop true) | CPark | CSwap | CFence => true | _ => false end.
Definition c_unreg0 pc := match pc with CUnreg _ UnLock => true | _ => false end.
Definition p_taking pc := match pc with PWake _ WkSt0 | PWake _ WkStN => true | _ => false end.
Definition p_reg pc := match pc with
  | PCd (KLoop true) | PPush (KLoop true) _ | PPark | PSwap | PFence => true | _ => false end.
Definition p_unreg0 pc := match pc with PUnreg _ UnLock => true | _ => false end.
Definition c_taking pc := match pc with CWake _ WkSt0 | CWake _ WkStN => true | _ => false end.

Lemma c_reg_ph pc : c_reg pc || c_unreg0 pc = w_reg (c_ph pc) || w_unreg0 (c_ph pc).
Proof. destruct pc; cbn; split_goal; reflexivity. Qed.
Lemma p_reg_ph pc : p_reg pc || p_unreg0 pc = w_reg (p_ph pc) || w_unreg0 (p_ph pc).
Proof. destruct pc; cbn; split_goal; reflexivity. Qed.
Lemma p_taking_wk pc : p_taking pc = k_taking (p_wk pc).
Proof. destruct pc; cbn; split_goal; reflexivity. Qed.
Lemma c_taking_wk pc : c_taking pc = k_taking (c_wk pc).
Proof. destruct pc; cbn; split_goal; reflexivity. Qed.

Section CellSteps.
Variables cap phys : N.

(* each branch of the step function is one transition of either cell *)
Ltac cells_fin Epc :=
  unf_steps; rewrite ?Epc; unfold cw, pw; st_goal;
  try match goal with |- context [negb ?b] => destruct b end;
  cbn [c_ph c_wk p_ph p_wk negb]; split_goal;
  (split; [reflexivity | split; constructor; first [reflexivity | assumption]]).

Lemma cstep_cells s c s' e :
  cstep phys s c = Some (s', e) ->
  ppc s' = ppc s /\
  waiter_step (cw s) (c_ph (cpc s)) (cw s') (c_ph (cpc s')) /\
  waker_step (pw s) (c_wk (cpc s)) (pw s') (c_wk (cpc s')).
Proof.
  unfold cstep. destruct (cpc s) eqn:Epc; intros H; unf_steps; inv_step H; cells_fin Epc.
Qed.

Lemma pstep_cells s c s' e :
  pstep cap phys s c = Some (s', e) ->
  cpc s' = cpc s /\
  waiter_step (pw s) (p_ph (ppc s)) (pw s') (p_ph (ppc s')) /\
  waker_step (cw s) (p_wk (ppc s)) (cw s') (p_wk (ppc s')).
Proof.
  unfold pstep. destruct (ppc s) eqn:Epc; intros H; unf_steps; inv_step H; cells_fin Epc.
Qed.

Lemma Cells_step s t c s' e : Cells s -> step cap phys s t c = Some (s', e) -> Cells s'.
Proof.
  intros [HC HP] Hs. destruct t; cbn [step] in Hs.
  - destruct (pstep_cells _ _ _ _ Hs) as (E & Tw & Tk). split; rewrite E.
    + exact (waker_step_inv _ _ _ _ _ HC Tk).
    + exact (waiter_step_inv _ _ _ _ _ HP Tw).
  - destruct (cstep_cells _ _ _ _ Hs) as (E & Tw & Tk). split; rewrite E.
    + exact (waiter_step_inv _ _ _ _ _ HC Tw).
    + exact (waker_step_inv _ _ _ _ _ HP Tk).
Qed.
End CellSteps.

Lemma mod_window a b m : 0 < m -> a <= b -> b < a + m -> a mod m = b mod m -> a = b.
Proof.
  intros Hm Hab Hlt He.
  pose proof (N.div_mod a m ltac:(lia)) as Ha. pose proof (N.div_mod b m ltac:(lia)) as Hb.
  pose proof (N.mod_lt a m ltac:(lia)) as Ra.
  rewrite <- He in Hb.
  assert (b / m = a / m) by nia.
  congruence.
Qed.

Lemma upd_eq f k v : upd f k v k = v.
Proof. unfold upd. rewrite N.eqb_refl. reflexivity. Qed.
Lemma upd_neq f k v x : x <> k -> upd f k v x = f x.
Proof. unfold upd. intros H. destruct (N.eqb_spec x k); congruence. Qed.

Lemma firstn_succ_nth (l : list N) n v :
  nth_error l n = Some v -> firstn (S n) l = firstn n l ++ [v].
Proof.
  revert l. induction n as [|n IH]; intros [|x l] H; cbn in *; try discriminate.
  - congruence.
  - rewrite (IH l H). reflexivity.
Qed.

(* slot ownership: the cells of the window [lo, hi) hold exactly the written payloads lo..hi-1,
   every other cell is empty *)
Definition Own (phys : N) (sl : N -> option N) (lo hi : N) (w : list N) : Prop :=
  (forall j, lo <= j < hi -> sl (j mod phys) = nth_error w (N.to_nat j)) /\
  (forall k, (forall j, lo <= j < hi -> j mod phys <> k) -> sl k = None).

Lemma own_target_free phys sl lo hi w :
  0 < phys -> Own phys sl lo hi w -> lo <= hi -> hi < lo + phys -> sl (hi mod phys) = None.
Proof.
  intros Hp [_ H2] Hle Hlt. apply H2. intros j Hj He.
  assert (j = hi) by (apply (mod_window j hi phys); [lia | lia | lia | exact He]). lia.
Qed.

Lemma own_write phys sl lo hi w v :
  0 < phys -> Own phys sl lo hi w -> lo <= hi -> hi < lo + phys -> N.of_nat (length w) = hi ->
  Own phys (upd sl (hi mod phys) (Some v)) lo (hi + 1) (w ++ [v]).
Proof.
  intros Hp [H1 H2] Hle Hlt Hlen. split.
  - intros j Hj. destruct (N.eq_dec j hi) as [->|Hne].
    + rewrite upd_eq. rewrite nth_error_app2 by lia.
      replace (N.to_nat hi - length w)%nat with 0%nat by lia. reflexivity.
    + rewrite upd_neq.
      * rewrite H1 by lia. rewrite nth_error_app1 by lia. reflexivity.
      * intros He. apply Hne. apply (mod_window j hi phys); [lia | lia | lia | exact He].
  - intros k Hk. rewrite upd_neq.
    + apply H2. intros j Hj. apply Hk. lia.
    + intros ->. apply (Hk hi); [lia | reflexivity].
Qed.

Lemma own_take phys sl lo hi w :
  0 < phys -> Own phys sl lo hi w -> lo < hi -> hi <= lo + phys ->
  sl (lo mod phys) = nth_error w (N.to_nat lo) /\
  Own phys (upd sl (lo mod phys) None) (lo + 1) hi w.
Proof.
  intros Hp [H1 H2] Hlt Hle. split; [apply H1; lia|]. split.
  - intros j Hj. rewrite upd_neq; [apply H1; lia|].
    intros He. assert (lo = j) by (apply (mod_window lo j phys); [lia | lia | lia | symmetry; exact He]). lia.
  - intros k Hk. destruct (N.eq_dec k (lo mod phys)) as [->|Hne].
    + apply upd_eq.
    + rewrite upd_neq by exact Hne. apply H2. intros j Hj.
      destruct (N.eq_dec j lo) as [->|Hjl]; [congruence | apply Hk; lia].
Qed.

(* the ring invariant: index order, capacity, cached-index licences, FIFO, slot ownership; once
   both threads are done the ring is empty.  What it needs to know of the two pcs is passed as
   booleans, so that the steps of push and pop below are lemmas about the ring data alone:
   wr / tk  a payload cell access has happened whose index store is outstanding;
   chk / ats  the free-cell / full-cell check has been passed, the cell access is next;
   rel  the consumer has released the shared state;  dn  both threads are done *)
Definition p_pastchk pc := match pc with PPush _ Slot | PPush _ StIdx => true | _ => false end.
Definition c_atslot pc := match pc with CPop _ Slot | CDrain Slot => true | _ => false end.
Definition p_atslot pc := match pc with PDrain Slot => true | _ => false end.
Definition p_isdone pc := match pc with PDone => true | _ => false end.
Definition c_isdone pc := match pc with CDone => true | _ => false end.

Record RingF (cap phys : N) (s : st) (wr tk chk ats rel dn : bool) : Prop := {
  R_o1 : ch s <= head s;
  R_lo : head s + b2n tk <= ct s;
  R_o3 : ct s <= tail s;
  R_cap : tail s <= head s + cap;
  R_hi : tail s + b2n wr <= ch s + cap;
  R_pchk : chk = true -> tail s < ch s + cap;
  R_cchk : ats = true -> head s < ct s;
  R_len : N.of_nat (length (accepted s)) = tail s;
  R_fifo : received s ++ dropped s = firstn (N.to_nat (head s + b2n tk)) (accepted s);
  R_drp : rel = false -> dropped s = [];
  R_own : Own phys (slots s) (head s + b2n tk) (tail s + b2n wr)
              (accepted s ++ (if wr then [pseq s] else []));
  R_bad : bad s = false;
  R_end : dn = true -> head s = tail s
}.

Definition RingInv (cap phys : N) (s : st) : Prop :=
  RingF cap phys s (wrote s) (took s) (p_pastchk (ppc s)) (c_atslot (cpc s) || p_atslot (ppc s))
        (c_isrel (cpc s)) (p_isdone (ppc s) && c_isdone (cpc s)).

Definition rdata (s : st) :=
  (tail s, head s, ch s, ct s, slots s, accepted s, received s, dropped s, bad s).

(* a step that leaves the ring data alone: a pc class may be entered only on the strength of the
   check the step has just made *)
Lemma Ring_frame cap phys s s' wr tk chk ats rel dn chk' ats' rel' dn' :
  RingF cap phys s wr tk chk ats rel dn ->
  rdata s' = rdata s -> (wr = true -> pseq s' = pseq s) ->
  (chk' = true -> chk = true \/ tail s < ch s + cap) ->
  (ats' = true -> ats = true \/ head s < ct s) ->
  (rel' = false -> rel = false) ->
  (dn' = true -> dn = true \/ head s = tail s) ->
  RingF cap phys s' wr tk chk' ats' rel' dn'.
Proof.
  intros [] D P I1 I2 I3 I4. injection D as E1 E2 E3 E4 E5 E6 E7 E8 E9.
  constructor; rewrite ?E1, ?E2, ?E3, ?E4, ?E5, ?E6, ?E7, ?E8, ?E9; auto.
  - intros X. destruct (I1 X); auto.
  - intros X. destruct (I2 X); auto.
  - destruct wr; [rewrite P by reflexivity|]; assumption.
  - intros X. destruct (I4 X); auto.
Qed.

Lemma firstn_app_l (l x : list N) n : (n <= length l)%nat -> firstn n (l ++ x) = firstn n l.
Proof.
  intros H. rewrite firstn_app. replace (n - length l)%nat with 0%nat by lia. cbn. apply app_nil_r.
Qed.

Lemma p_took_drain pc : p_isdrain pc = false -> p_took pc = false /\ p_atslot pc = false.
Proof. destruct pc; cbn; intros; try discriminate; split; reflexivity. Qed.
Lemma c_isdone_rel pc : c_isdone pc = true -> c_isrel pc = true.
Proof. destruct pc; cbn; congruence. Qed.
Lemma p_isdone_rel pc : p_isdone pc = true -> p_isrel pc = true.
Proof. destruct pc; cbn; congruence. Qed.

Lemma write_slot_cpc phys s : cpc (write_slot phys s) = cpc s.
Proof. unfold write_slot. destruct (slots s _); reflexivity. Qed.
Lemma take_slot_pcs phys b s : ppc (take_slot phys b s) = ppc s /\ cpc (take_slot phys b s) = cpc s.
Proof. unfold take_slot. destruct (slots s _), b; split; reflexivity. Qed.

Section R.
Variables cap phys : N.
Hypothesis Hcap : 0 < cap.
Hypothesis Hphys : cap <= phys.

Lemma Ring_init pp0 cp0 : RingInv cap phys (init pp0 cp0).
Proof.
  constructor; unfold Own; cbn; try lia; try reflexivity; try discriminate.
  split; intros; [exfalso; lia | reflexivity].
Qed.

Ltac ring_split H :=
  destruct H as [Ro1 Rlo Ro3 Rcap Rhi Rpchk Rcchk Rlen Rfifo Rdrp Rown Rbad Rend];
  cbn [b2n] in *; rewrite ?N.add_0_r, ?app_nil_r in *; constructor; st_goal; cbn [b2n];
  rewrite ?N.add_0_r, ?app_nil_r; try assumption; try discriminate.
(* index arithmetic, from the index clauses alone *)
Ltac ring_lia :=
  repeat match goal with
  | H : _ -> _ |- _ => clear H | H : Own _ _ _ _ _ |- _ => clear H
  | H : @eq (list _) _ _ |- _ => clear H | H : @eq bool _ _ |- _ => clear H
  end; lia.

(* the refresh reads of the cached counterpart index *)
Lemma Ring_set_ch s tk ats rel dn :
  RingF cap phys s false tk false ats rel dn ->
  RingF cap phys (set_ch s (head s)) false tk false ats rel dn.
Proof. intros H. ring_split H; ring_lia. Qed.

Lemma Ring_set_ct s wr tk chk ats rel dn :
  RingF cap phys s wr tk chk ats rel dn -> RingF cap phys (set_ct s (tail s)) wr tk chk ats rel dn.
Proof. intros H. ring_split H; try ring_lia. intros X. specialize (Rcchk X). ring_lia. Qed.

(* push: the payload cell write, then the tail store *)
Lemma Ring_write s tk ats rel dn :
  RingF cap phys s false tk true ats rel dn ->
  RingF cap phys (write_slot phys s) true tk true ats rel dn.
Proof.
  intros H. unfold write_slot.
  assert (Hfree : slots s (tail s mod phys) = None).
  { destruct H. cbn [b2n] in *. rewrite N.add_0_r in *.
    apply (own_target_free phys _ _ _ _ ltac:(lia) R_own0); specialize (R_pchk0 eq_refl); lia. }
  rewrite Hfree. ring_split H.
  - specialize (Rpchk eq_refl). ring_lia.
  - specialize (Rpchk eq_refl). apply own_write; [lia | assumption | ring_lia ..].
Qed.

Lemma Ring_publish s tk ats rel :
  RingF cap phys s true tk true ats rel false ->
  RingF cap phys (set_accepted (set_tail s (tail s + 1)) (accepted s ++ [pseq s])) false tk false ats rel false.
Proof.
  intros H. ring_split H; try ring_lia.
  - rewrite app_length. cbn [length]. ring_lia.
  - rewrite firstn_app_l by ring_lia. assumption.
Qed.

(* pop: the payload cell read, then the head store *)
Lemma Ring_take toRecv s wr chk dn :
  RingF cap phys s wr false chk true (negb toRecv) dn ->
  RingF cap phys (take_slot phys toRecv s) wr true chk false (negb toRecv) dn.
Proof.
  intros H. unfold take_slot.
  assert (Hown : slots s (head s mod phys) = nth_error (accepted s) (N.to_nat (head s)) /\
                 Own phys (upd (slots s) (head s mod phys) None) (head s + 1) (tail s + b2n wr)
                     (accepted s ++ (if wr then [pseq s] else []))).
  { destruct H. cbn [b2n] in *. rewrite N.add_0_r in *. specialize (R_cchk0 eq_refl).
    destruct (own_take phys _ _ _ _ ltac:(lia) R_own0 ltac:(lia) ltac:(lia)) as [A B].
    split; [|exact B]. rewrite A. apply nth_error_app1. lia. }
  destruct Hown as [Hv Hown].
  destruct (slots s (head s mod phys)) as [v|].
  - assert (E : firstn (N.to_nat (head s + 1)) (accepted s) = firstn (N.to_nat (head s)) (accepted s) ++ [v]).
    { replace (N.to_nat (head s + 1)) with (S (N.to_nat (head s))) by lia.
      apply firstn_succ_nth. congruence. }
    destruct toRecv; ring_split H; try (specialize (Rcchk eq_refl); ring_lia).
    + rewrite E, <- Rfifo, (Rdrp eq_refl), !app_nil_r. reflexivity.
    + rewrite E, <- Rfifo. apply app_assoc.
  - exfalso. destruct H. cbn [b2n] in *. rewrite N.add_0_r in *. specialize (R_cchk0 eq_refl).
    symmetry in Hv. apply nth_error_None in Hv. lia.
Qed.

Lemma Ring_advance s wr chk rel :
  RingF cap phys s wr true chk false rel false ->
  RingF cap phys (set_head s (head s + 1)) wr false chk false rel false.
Proof. intros H. ring_split H; ring_lia. Qed.

Ltac rcl_all := cbn [p_pastchk c_atslot p_atslot p_wrote c_took p_took c_isrel p_isdone c_isdone orb andb negb] in *.

(* [H] is the invariant of the state the step's data change leads to; the pc change is a frame *)
Ltac rframe H :=
  eapply Ring_frame;
  [ exact H | reflexivity | first [intros _; reflexivity | discriminate]
  | intros X; first [discriminate X | left; exact X | right; st_goal; lia]
  | intros X; first [discriminate X | left; exact X | right; st_goal; lia]
  | intros X; first [exact X | discriminate X | reflexivity]
  | intros X; first [discriminate X | left; exact X | right; apply N.eqb_eq; assumption | idtac] ].

Lemma Ring_step s t c s' e :
  LifeInv s -> RingInv cap phys s -> step cap phys s t c = Some (s', e) -> RingInv cap phys s'.
Proof.
  intros HL HR Hs. destruct t; cbn [step] in Hs.
  - unfold pstep in Hs. destruct (ppc s) eqn:Epc;
      try (pose proof (L_pdr _ HL ltac:(rewrite Epc; reflexivity)) as Ecd);
      unfold RingInv, wrote, SpscK3.took in HR; rewrite Epc in HR; try rewrite Ecd in HR; rcl_all;
      rewrite ?orb_false_r in HR;
      pose proof (R_lo _ _ _ _ _ _ _ _ _ HR) as Rlo; pose proof (R_o3 _ _ _ _ _ _ _ _ _ HR) as Ro3;
      unf_calls; inv_step Hs; unf_calls; split_goal.
    all: unfold RingInv, wrote, SpscK3.took; st_goal;
      rewrite ?write_slot_cpc, ?(proj2 (take_slot_pcs _ _ _)), ?Epc; try rewrite Ecd; rcl_all;
      rewrite ?orb_false_r.
    all: try solve [rframe HR].
    all: try solve [rframe (Ring_set_ch _ _ _ _ _ HR)].
    all: try solve [rframe (Ring_write _ _ _ _ _ HR)].
    all: try solve [rframe (Ring_publish _ _ _ _ HR)].
    all: try solve [rframe (Ring_set_ct _ _ _ _ _ _ _ HR)].
    all: try solve [rframe (Ring_take false _ _ _ _ HR)].
    all: try solve [rframe (Ring_advance _ _ _ _ HR)].
    (* the producer releases first: the consumer is not done *)
    all: rframe HR; apply c_isdone_rel in X; rewrite <- (L_crel _ HL) in X; congruence.
  - unfold cstep in Hs.
    (* a consumer that can step is not done, so the producer is not in Ring::drop *)
    destruct (p_isdrain (ppc s)) eqn:Ed; [rewrite (L_pdr _ HL Ed) in Hs; discriminate Hs|].
    destruct (p_took_drain _ Ed) as [Hnd1 Hnd2].
    destruct (cpc s) eqn:Epc;
      unfold RingInv, wrote, SpscK3.took in HR; rewrite Epc, ?Hnd1, ?Hnd2 in HR; rcl_all;
      rewrite ?andb_false_r in HR;
      pose proof (R_lo _ _ _ _ _ _ _ _ _ HR) as Rlo; pose proof (R_o3 _ _ _ _ _ _ _ _ _ HR) as Ro3;
      unf_calls; inv_step Hs; unf_calls; split_goal.
    all: unfold RingInv, wrote, SpscK3.took; st_goal;
      rewrite ?(proj1 (take_slot_pcs _ _ _)), ?Epc, ?Hnd1, ?Hnd2; rcl_all;
      rewrite ?andb_true_r, ?andb_false_r.
    all: try solve [rframe HR].
    all: try solve [rframe (Ring_set_ct _ _ _ _ _ _ _ HR)].
    all: try solve [rframe (Ring_take true _ _ _ _ HR)].
    all: try solve [rframe (Ring_take false _ _ _ _ HR)].
    all: try solve [rframe (Ring_advance _ _ _ _ HR)].
    all: rframe HR; apply p_isdone_rel in X; rewrite <- (L_prel _ HL) in X; congruence.
Qed.
End R.

Definition c_dz pc := match pc with CSc (SLoop true) | CPark => true | _ => false end.
Definition c_ispark pc := match pc with CPark => true | _ => false end.
Definition p_owes pc := match pc with PUnreg UOk _ | PNfFence | PNfLd => true | _ => false end.
Definition p_wklock pc := match pc with PWake _ WkLock => true | _ => false end.
Definition p_dwklock pc := match pc with PWake WDrop WkLock => true | _ => false end.
Definition p_ispark pc := match pc with PPark => true | _ => false end.
Definition p_d2z pc := match pc with PPush (KLoop true) LdA | PPush (KLoop true) LdB | PPark => true | _ => false end.
Definition c_owes pc := match pc with CUnreg CUVal _ | CNfFence | CNfLd => true | _ => false end.
Definition c_wklock pc := match pc with CWake _ WkLock => true | _ => false end.
Definition c_dpend pc := match pc with CDrSub | CWake WDrop WkLock => true | _ => false end.

Ltac wcl := cbn [c_dz c_ispark p_owes p_wklock p_dwklock p_ispark p_d2z c_owes c_wklock c_dpend c_ph p_ph w_rgst
                 p_aftersub c_aftersub p_afterst c_afterst p_isdrain c_isdrain orb andb negb].
Ltac wcl_all := cbn [c_dz c_ispark p_owes p_wklock p_dwklock p_ispark p_d2z c_owes c_wklock c_dpend c_ph p_ph w_rgst
                 p_aftersub c_aftersub p_afterst c_afterst p_isdrain c_isdrain orb andb negb] in *.

(* the consumer is past its failed re-check (ring empty, then sender alive) *)
Record WC3 (s : st) : Prop := {
  W_D : c_dz (cpc s) = true ->
        head s = ct s /\ (tail s = ct s \/ p_owes (ppc s) = true \/ p_wklock (ppc s) = true \/ cw_slot s = false);
  W_D2 : c_ispark (cpc s) = true ->
        p_aftersub (ppc s) = false \/ p_dwklock (ppc s) = true \/ cw_slot s = false
}.

(* the producer is past its failed re-check (receiver alive, then ring full) *)
Record WP3 (cap : N) (s : st) : Prop := {
  V_D : p_ispark (ppc s) = true ->
        cap <= tail s - ch s /\ (head s = ch s \/ c_owes (cpc s) = true \/ c_wklock (cpc s) = true \/ pw_slot s = false);
  V_D2 : p_d2z (ppc s) = true ->
        c_afterst (cpc s) = false \/ c_dpend (cpc s) = true \/ pw_slot s = false
}.

Lemma c_dz_ph pc : c_dz pc = true -> w_rgst (c_ph pc) = false.
Proof. destruct pc; cbn; split_goal; cbn; congruence. Qed.
Lemma p_ispark_ph pc : p_ispark pc = true -> w_rgst (p_ph pc) = false.
Proof. destruct pc; cbn; split_goal; cbn; congruence. Qed.

Section W.
Variables cap phys : N.

Ltac fin := intros; wcl_all; first [discriminate | assumption | solve [auto]].

(* both directions in one pass over the step function.  For a waiter that stays past its
   re-check, a step of the other thread either leaves the disjunction alone, or moves it to the
   next disjunct (store -> owes the gate read -> committed to wake_one -> cell emptied); the gate
   read may drop the obligation only on reading 0, and then the cell is empty (C_G) *)
Lemma Stale_step s t c s' e :
  LifeInv s -> Cells s -> WC3 s -> WP3 cap s -> step cap phys s t c = Some (s', e) ->
  WC3 s' /\ WP3 cap s'.
Proof.
  intros HL [HC HP] [D1 D2] [E1 E2] Hs.
  pose proof (L_sc _ HL) as Lsc. pose proof (L_rc _ HL) as Lrc. pose proof (L_pdr _ HL) as Lpdr.
  pose proof (L_cdr _ HL) as Lcdr. pose proof (L_pcl _ HL) as Lpcl. pose proof (L_ccl _ HL) as Lccl.
  pose proof (L_cd _ HL) as Lcd. clear HL.
  pose proof (C_G _ _ _ HC) as G. pose proof (C_G _ _ _ HP) as G'. unfold cw, pw in G, G'.
  cbn [slot gate] in G, G'. clear HC HP.
  destruct t; cbn [step] in Hs;
    [unfold pstep in Hs; destruct (ppc s) eqn:Epc | unfold cstep in Hs; destruct (cpc s) eqn:Epc];
    rewrite ?Epc in *; wcl_all; unf_steps; inv_step Hs; unf_steps; split_goal.
  all: split; constructor; st_goal; rewrite ?Epc; wcl.
  all: try assumption.
  all: try solve [fin].
  all: try congruence.
  all: try (rewrite Lsc in *; discriminate); try (rewrite Lrc in *; discriminate).
  all: try (rewrite (Lpdr eq_refl) in *; wcl_all; discriminate).
  all: try (rewrite (Lcdr eq_refl) in *; wcl_all; discriminate).
  (* the waiter's own re-check *)
  all: try (intros _; split; [first [apply N.eqb_eq | apply N.leb_le]; assumption | left; reflexivity]).
  all: try (intros X; destruct k as [| |[]]; discriminate X).
  all: try (intros _; destruct (p_aftersub (ppc s)); [rewrite Lsc in *; discriminate | left; reflexivity]).
  (* the other thread's steps *)
  all: intros X; first [destruct (D1 X) as [A B] | destruct (E1 X) as [A B]]; split; [exact A|]; auto.
  all: try (destruct B as [B|[B|[B|B]]]; auto; discriminate B).
  - destruct (cw_slot s) eqn:Es; [exfalso | auto].
    match goal with Hz : (recv_w s =? 0) = true |- _ =>
      rewrite (G eq_refl (c_dz_ph _ X)) in Hz; discriminate Hz end.
  - destruct (pw_slot s) eqn:Es; [exfalso | auto].
    match goal with Hz : (send_w s =? 0) = true |- _ =>
      rewrite (G' eq_refl (p_ispark_ph _ X)) in Hz; discriminate Hz end.
Qed.
End W.

Record Inv (cap phys : N) (s : st) : Prop := {
  I_life : LifeInv s;
  I_cells : Cells s;
  I_ring : RingInv cap phys s;
  I_wc3 : WC3 s;
  I_wp3 : WP3 cap s
}.

Lemma WC3_init pp0 cp0 : WC3 (init pp0 cp0).
Proof. constructor; cbn; intros; discriminate. Qed.
Lemma WP3_init cap pp0 cp0 : WP3 cap (init pp0 cp0).
Proof. constructor; cbn; intros; discriminate. Qed.

Section Main.
Variables cap phys : N.
Hypothesis Hcap : 0 < cap.
Hypothesis Hphys : cap <= phys.
Variable pp0 : list pop.
Variable cp0 : list cop.

Lemma Inv_init : Inv cap phys (init pp0 cp0).
Proof.
  constructor; [apply Life_init | apply Cells_init | apply Ring_init; assumption
               | apply WC3_init | apply WP3_init].
Qed.

Lemma Inv_step s t c s' e : Inv cap phys s -> step cap phys s t c = Some (s', e) -> Inv cap phys s'.
Proof.
  intros [HL HC HR H3 H4] Hs. constructor.
  - eapply Life_step; eassumption.
  - eapply Cells_step; eassumption.
  - eapply Ring_step; eassumption.
  - eapply Stale_step; eassumption.
  - eapply Stale_step; eassumption.
Qed.

Theorem Inv_reachable s : reachable (sys cap phys pp0 cp0) s -> Inv cap phys s.
Proof.
  apply (invariant_lift (sys cap phys pp0 cp0) (Inv cap phys)).
  - exact Inv_init.
  - intros s0 t c s' e. exact (Inv_step s0 t c s' e).
Qed.

(* C03 *)
Theorem occupancy_bounded s :
  reachable (sys cap phys pp0 cp0) s -> head s <= tail s /\ tail s - head s <= cap.
Proof.
  intros Hr. destruct (I_ring _ _ _ (Inv_reachable s Hr)) as [Ro1 Rlo Ro3 Rcap _ _ _ _ _ _ _ _ _].
  lia.
Qed.

(* push reports Err only when the ring holds exactly cap items at the refresh read *)
Theorem push_err_only_when_full s k :
  reachable (sys cap phys pp0 cp0) s -> ppc s = PPush k LdB ->
  N.leb cap (tail s - head s) = true -> tail s = head s + cap.
Proof.
  intros Hr _ E. destruct (I_ring _ _ _ (Inv_reachable s Hr)) as [Ro1 Rlo Ro3 Rcap _ _ _ _ _ _ _ _ _].
  lia.
Qed.

(* pop reports None only when the ring is empty at the refresh read (by the test itself) *)
Theorem pop_none_only_when_empty s k :
  cpc s = CPop k LdB -> N.eqb (head s) (tail s) = true -> tail s - head s = 0.
Proof. intros _ E. lia. Qed.

(* C02 / C01 *)
(* what the consumer took, what Ring::drop dropped and what the ring still owns, concatenated in
   this order, is exactly the sequence of payloads the producer wrote, in send order *)
Theorem fifo_conservation s :
  reachable (sys cap phys pp0 cp0) s ->
  received s ++ dropped s ++ buffered s = written s.
Proof.
  intros Hr. destruct (I_ring _ _ _ (Inv_reachable s Hr)) as [_ Rlo Ro3 _ _ _ _ Rlen Rfifo _ _ _ _].
  unfold buffered. rewrite app_assoc, Rfifo.
  rewrite <- (firstn_skipn (N.to_nat (lo s)) (written s)) at 2. f_equal.
  unfold written, lo. symmetry. apply firstn_app_l. lia.
Qed.

(* C09 *)
Theorem slot_ownership s :
  reachable (sys cap phys pp0 cp0) s ->
  bad s = false /\
  (forall j, lo s <= j < hi s -> slots s (j mod phys) = nth_error (written s) (N.to_nat j)) /\
  (forall k, (forall j, lo s <= j < hi s -> j mod phys <> k) -> slots s k = None).
Proof.
  intros Hr. destruct (I_ring _ _ _ (Inv_reachable s Hr)) as [_ _ _ _ _ _ _ _ _ _ [O1 O2] Rb _].
  split; [exact Rb | split; [exact O1 | exact O2]].
Qed.

(* after both handles are gone and Ring::drop has run: every cell is empty and every accepted
   payload was either received or dropped by the teardown, exactly once, in order *)
Theorem teardown_drains_residue s :
  reachable (sys cap phys pp0 cp0) s -> ppc s = PDone -> cpc s = CDone ->
  (forall k, slots s k = None) /\ received s ++ dropped s = accepted s.
Proof.
  intros Hr Ep Ec. pose proof (Inv_reachable s Hr) as HI.
  destruct (I_ring _ _ _ HI) as [_ _ _ _ _ _ _ Rlen Rfifo _ [O1 O2] _ Rend].
  unfold took, wrote in *. rewrite Ep, Ec in *. cbn [c_took p_took p_wrote p_isdone c_isdone orb andb b2n] in *.
  specialize (Rend eq_refl).
  split.
  - intros k. apply O2. intros j Hj. lia.
  - rewrite Rfifo. apply firstn_all2. lia.
Qed.

(* C05 *)
(* a thread that cannot move (spurious wake-ups aside) is done, or parked without a token *)
Lemma quiescent_pcs s : quiescent_ns cap phys s ->
  (ppc s = PDone \/ producer_parked s) /\ (cpc s = CDone \/ consumer_parked s).
Proof.
  intros Hq. split; [destruct (Hq TP) as [H _] | destruct (Hq TC) as [H _]]; revert H; cbn [step];
    [unfold pstep, producer_parked; destruct (ppc s) | unfold cstep, consumer_parked; destruct (cpc s)];
    intros H; auto.
  all: try (right; split; [reflexivity|];
            match goal with H : (if ?b then _ else _) = None |- ?b = _ => destruct b; [discriminate H | reflexivity] end).
  all: exfalso; unf_steps;
    repeat match goal with
           | H : (let '(_, _) := pop_core _ _ _ ?p in _) = None |- _ => destruct p; cbn [pop_core] in H
           | H : (match ?x with _ => _ end) = None |- _ => destruct x eqn:?
           | H : Some _ = None |- _ => discriminate H
           end.
Qed.

(* no lost wakeup, safety form: in a reachable state where nobody can move (spurious wake-ups
   aside), a parked consumer faces an empty ring and a live sender, a parked producer faces a
   full ring and a live receiver.  The other thread is done or parked, hence not in wake_one, so
   the registration is still in the cell (parked_slot) and WC3 / WP3 leave only that. *)
Theorem no_lost_wakeup s :
  reachable (sys cap phys pp0 cp0) s -> quiescent_ns cap phys s ->
  (consumer_parked s -> head s = tail s /\ scount s <> 0) /\
  (producer_parked s -> tail s = head s + cap /\ cdropped s = false).
Proof.
  intros Hr Hq. destruct (quiescent_pcs s Hq) as [Hp Hc].
  destruct (Inv_reachable s Hr) as [HL [HC HP] HR [D D2] [E E2]].
  pose proof (L_sc _ HL) as Lsc. pose proof (L_cd _ HL) as Lcd. pose proof (R_cap _ _ _ _ _ _ _ _ _ HR) as Rcap.
  split.
  - intros [Ec Et]. rewrite Ec in *.
    assert (Hsl : cw_slot s = true)
      by (apply (parked_slot _ _ HC Et); destruct Hp as [Ep | [Ep _]]; rewrite Ep; reflexivity).
    rewrite Hsl in *. destruct (D eq_refl) as [Dh Dd]. specialize (D2 eq_refl).
    destruct Hp as [Ep | [Ep _]]; rewrite Ep in *; cbn [p_owes p_wklock p_dwklock p_aftersub] in *.
    all: split; [destruct Dd as [X | [X | [X | X]]]; congruence
                | destruct D2 as [X | [X | X]]; try discriminate X; rewrite Lsc; discriminate].
  - intros [Ep Et]. rewrite Ep in *.
    assert (Hsl : pw_slot s = true)
      by (apply (parked_slot _ _ HP Et); destruct Hc as [Ec | [Ec _]]; rewrite Ec; reflexivity).
    rewrite Hsl in *. destruct (E eq_refl) as [Eh Ed]. specialize (E2 eq_refl).
    destruct Hc as [Ec | [Ec _]]; rewrite Ec in *; cbn [c_owes c_wklock c_dpend c_afterst c_aftersub] in *.
    all: split; [assert (head s = ch s) by (destruct Ed as [X | [X | [X | X]]]; congruence);
                 clear - H Eh Rcap Hcap; lia
                | destruct E2 as [X | [X | X]]; try discriminate X; exact Lcd].
Qed.

(* the waker's store through the registered `notified` pointer targets a call that is still
   registered *)
Theorem notified_store_live s :
  reachable (sys cap phys pp0 cp0) s ->
  (p_taking (ppc s) = true -> c_reg (cpc s) || c_unreg0 (cpc s) = true) /\
  (c_taking (cpc s) = true -> p_reg (ppc s) || p_unreg0 (ppc s) = true).
Proof.
  intros Hr. destruct (I_cells _ _ _ (Inv_reachable s Hr)) as [HC HP]. split; intros X.
  - rewrite c_reg_ph. rewrite p_taking_wk in X. exact (proj1 (C_Lv _ _ _ HC X)).
  - rewrite p_reg_ph. rewrite c_taking_wk in X. exact (proj1 (C_Lv _ _ _ HP X)).
Qed.

(* hence: the protocol cannot deadlock -- the only quiescent reachable states are the final ones *)
Theorem deadlock_free s :
  reachable (sys cap phys pp0 cp0) s -> quiescent_ns cap phys s -> ppc s = PDone /\ cpc s = CDone.
Proof.
  intros Hr Hq. destruct (no_lost_wakeup s Hr Hq) as [NC NP].
  pose proof (I_life _ _ _ (Inv_reachable s Hr)) as HL.
  pose proof (L_sc _ HL) as Lsc. pose proof (L_cd _ HL) as Lcd.
  destruct (quiescent_pcs s Hq) as [[Ep | Pp] [Ec | Cp]]; [auto | exfalso ..].
  - destruct (NC Cp) as [_ X]. rewrite Ep in Lsc. exact (X Lsc).
  - destruct (NP Pp) as [_ X]. rewrite Ec in Lcd. cbn in Lcd. congruence.
  - destruct (NC Cp) as [He _]. destruct (NP Pp) as [Hf _]. lia.
Qed.
End Main.

