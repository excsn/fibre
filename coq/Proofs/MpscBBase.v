(* Proofs/MpscBBase.v — proof infrastructure for the bounded-MPSC K2 model: symbolic execution
   tactics, capacity invariant G1, structural invariant GS. *)
From Fibre Require Import Common.Base Chan.MpscB.
From Fibre Require Export Proofs.MpscCommon.
From Coq Require Import ZifyBool ZifyNat ZifyN.
(* there is no division here, but with this hook the [lia] calls of these proofs cost a fraction
   of what they cost without (half in MpscBInv, a tenth in the wake and send proofs) *)
Ltac Zify.zify_post_hook ::= Z.div_mod_to_equations.

Lemma len_app {A} (a b : list A) : len (a ++ b) = len a + len b.
Proof. unfold len. rewrite app_length. lia. Qed.

Lemma len_nil {A} : len (@nil A) = 0.
Proof. reflexivity. Qed.

Lemma len_cons {A} (x : A) l : len (x :: l) = 1 + len l.
Proof. unfold len. cbn [length]. lia. Qed.

Lemma len_firstn {A} n (l : list A) : len (firstn n l) = N.min (N.of_nat n) (len l).
Proof. unfold len. rewrite firstn_length. lia. Qed.

(** [wake_list] only touches the wake counters and the wake event log *)
Lemma wake_list_eq l : forall s,
  wake_list l s = set_evw (set_wk s (wk (wake_list l s))) (evw (wake_list l s)).
Proof.
  induction l as [|[f w] t IH]; intros s; cbn [wake_list].
  - destruct s; reflexivity.
  - rewrite IH at 1. reflexivity.
Qed.

(** the fields [deq1]/[deqn]/[flush]/[publish] can change: q unpub rcv sq wk evw *)
Definition deq_frame (s s' : st) : Prop :=
  s' = set_evw (set_wk (set_sq (set_rcv (set_unpub (set_q s (q s')) (unpub s')) (rcv s')) (sq s'))
                       (wk s')) (evw s').

Lemma deq_frame_refl s : deq_frame s s.
Proof. unfold deq_frame. destruct s; reflexivity. Qed.

Lemma deq_frame_trans a b c : deq_frame a b -> deq_frame b c -> deq_frame a c.
Proof. unfold deq_frame. intros H1 H2. rewrite H2. rewrite H1. reflexivity. Qed.

Lemma flush_frame s : deq_frame s (flush s).
Proof.
  unfold deq_frame, flush, publish, notify_senders, wake.
  destruct (0 <? unpub s); [|destruct s; reflexivity].
  cbn [sq set_unpub]. destruct (sq s) as [|[f w] r]; destruct s; reflexivity.
Qed.

Lemma deq1_frame s : deq_frame s (fst (deq1 s)).
Proof.
  unfold deq_frame, deq1, publish, notify_senders, wake.
  destruct (q s) as [|v r] eqn:Eq; cbn [fst]; [destruct s; reflexivity|].
  cbn [kk unpub set_rcv set_unpub set_q sq].
  destruct (kk s <=? unpub s + 1); [|destruct s; reflexivity].
  cbn [sq set_unpub set_rcv set_q]. destruct (sq s) as [|[f w] t]; destruct s; reflexivity.
Qed.

Lemma deqn_frame n : forall s, deq_frame s (fst (deqn n s)).
Proof.
  induction n as [|n IH]; intros s; cbn [deqn]; [apply deq_frame_refl|].
  pose proof (deq1_frame s) as H1.
  destruct (deq1 s) as [s1 [v|]] eqn:E; cbn [fst] in *; [|exact H1].
  specialize (IH s1). destruct (deqn n s1) as [s2 vs] eqn:E2. cbn [fst] in *.
  eapply deq_frame_trans; eauto.
Qed.

(** what the dequeue primitives do to the queue and the received list *)
Lemma flush_q s : q (flush s) = q s /\ rcv (flush s) = rcv s.
Proof.
  unfold flush, publish, notify_senders, wake. destruct (0 <? unpub s); [|auto].
  cbn [sq set_unpub]. destruct (sq s) as [|[f w] r]; cbn; auto.
Qed.

Lemma deq1_q s :
  match deq1 s with
  | (s1, Some v) => q s = v :: q s1 /\ rcv s1 = rcv s ++ [v]
  | (s1, None) => q s = [] /\ s1 = s
  end.
Proof.
  unfold deq1, publish, notify_senders, wake. destruct (q s) as [|v r] eqn:E; [auto|].
  cbn [kk unpub set_rcv set_unpub set_q sq].
  destruct (kk s <=? unpub s + 1); [|cbn; auto].
  cbn [sq set_unpub set_rcv set_q]. destruct (sq s) as [|[f w] t]; cbn; auto.
Qed.

Lemma deqn_q n : forall s,
  q s = snd (deqn n s) ++ q (fst (deqn n s)) /\ rcv (fst (deqn n s)) = rcv s ++ snd (deqn n s).
Proof.
  induction n as [|n IH]; intros s; cbn [deqn fst snd app].
  - rewrite app_nil_r. auto.
  - pose proof (deq1_q s) as H1. destruct (deq1 s) as [s1 [v|]] eqn:E.
    + destruct H1 as [Hq Hr]. specialize (IH s1). destruct (deqn n s1) as [s2 vs] eqn:E2.
      cbn [fst snd] in *. destruct IH as [A B]. rewrite Hq, B, Hr, A, <- app_assoc. auto.
    + destruct H1 as [Hq ->]. cbn [fst snd app]. rewrite app_nil_r. auto.
Qed.

Lemma deqn_nil n s : snd (deqn n s) = [] -> n <> O -> q s = [] /\ fst (deqn n s) = s.
Proof.
  destruct n as [|n]; [congruence|]. intros H _. cbn [deqn] in *.
  pose proof (deq1_q s) as H1. destruct (deq1 s) as [s1 [v|]] eqn:E.
  - destruct (deqn n s1); discriminate.
  - cbn [fst]. exact H1.
Qed.

Ltac unf :=
  unfold do_try_send, do_send, do_try_send_b, do_send_b, do_try_recv, do_recv, do_recv_t0,
    do_try_recv_b, do_recv_b, do_close, do_drop_h, do_clone, do_to_async, do_to_sync, obs,
    do_mk_send, do_mk_send_b, do_mk_recv, do_poll, do_drop_f, do_poll_next,
    poll_recv_core, poll_recv_b_core, recv_tail, close_h, destroy, push, pushl,
    notify_receiver, wake_all_senders, put_h, put_f, unreg_send, note_lost, note_multi,
    use, giveback, dropv, wake in *.

Lemma G1_flush s : G1 s -> G1 (flush s).
Proof.
  unfold G1. pose proof (flush_frame s) as F. pose proof (flush_q s) as [Q _].
  rewrite Q. rewrite F. cbn [cap]. auto.
Qed.

Ltac cb := cbn [cap kk q unpub scount rdrop sq rw hs fs wk used acc rcv back drp qdrp lost multi
  evw evd fix03 fixcl
  set_cap set_kk set_q set_unpub set_scount set_rdrop set_sq set_rw set_hs set_fs set_wk set_used
  set_acc set_rcv set_back set_drp set_qdrp set_lost set_multi set_evw set_evd set_fix03 set_fixcl
  fst snd is_nil pend_of].
Ltac cbh := cbn [cap kk q unpub scount rdrop sq rw hs fs wk used acc rcv back drp qdrp lost multi
  evw evd fix03 fixcl
  set_cap set_kk set_q set_unpub set_scount set_rdrop set_sq set_rw set_hs set_fs set_wk set_used
  set_acc set_rcv set_back set_drp set_qdrp set_lost set_multi set_evw set_evd set_fix03 set_fixcl
  fst snd is_nil pend_of] in *.

(** wake counters only grow *)
Definition wk_le (s s' : st) : Prop := forall x, wk s x <= wk s' x.

Lemma wk_le_refl s : wk_le s s.
Proof. intros x. lia. Qed.

Lemma wk_le_trans a b c : wk_le a b -> wk_le b c -> wk_le a c.
Proof. intros H1 H2 x. specialize (H1 x). specialize (H2 x). lia. Qed.

Lemma flush_wk s : wk_le s (flush s).
Proof.
  unfold wk_le, flush, publish, notify_senders, wake. intros x.
  destruct (0 <? unpub s); [|lia]. cbn [sq set_unpub]. destruct (sq s) as [|[f w] r]; cbn; [lia|].
  destruct (x =? w); lia.
Qed.

Lemma deq1_wk s : wk_le s (fst (deq1 s)).
Proof.
  unfold wk_le, deq1, publish, notify_senders, wake. intros x.
  destruct (q s) as [|v r]; cbn [fst]; [lia|].
  cbn [kk unpub set_rcv set_unpub set_q sq].
  destruct (kk s <=? unpub s + 1); [|cbn; lia].
  cbn [sq set_unpub set_rcv set_q]. destruct (sq s) as [|[f w] t]; cbn; [lia|]. destruct (x =? w); lia.
Qed.

Lemma deqn_wk n : forall s, wk_le s (fst (deqn n s)).
Proof.
  induction n as [|n IH]; intros s; cbn [deqn]; [apply wk_le_refl|].
  pose proof (deq1_wk s) as H1.
  destruct (deq1 s) as [s1 [v|]] eqn:E; cbn [fst] in *; [|exact H1].
  specialize (IH s1). destruct (deqn n s1) as [s2 vs] eqn:E2. cbn [fst] in *.
  eapply wk_le_trans; eauto.
Qed.

Lemma wake_list_wk l : forall s, wk_le s (wake_list l s).
Proof.
  induction l as [|[f w] t IH]; intros s; cbn [wake_list]; [apply wk_le_refl|].
  eapply wk_le_trans; [|apply IH]. intros x. unfold wake. cbn. destruct (x =? w); lia.
Qed.

Lemma OF_inj a b : OF a = OF b -> a = b.
Proof. congruence. Qed.

Lemma OH_inj a b : OH a = OH b -> a = b.
Proof. congruence. Qed.

(** [wake_list] (recursive) becomes its closed form *)
Ltac dm_wl :=
  match goal with
  | |- context [wake_list ?l ?s] =>
      let X := fresh "X" in let EX := fresh "EX" in
      let WK := fresh "WK" in let EW := fresh "EW" in
      remember (wake_list l s) as X eqn:EX; rewrite (wake_list_eq l s) in EX;
      remember (wk (wake_list l s)) as WK; remember (evw (wake_list l s)) as EW;
      subst X; cb
  end.

(** [deq1]/[deqn]/[flush] are not unfolded: the new state is a fresh variable that agrees with
    the old one outside q unpub rcv sq wk evw ([F]), with [Q] for q/rcv and [MW] for wk *)
Ltac fr_deq1 s :=
  let F := fresh "F" in let Q := fresh "Q" in let M := fresh "MW" in let s1 := fresh "s" in
  pose proof (deq1_frame s) as F; pose proof (deq1_q s) as Q; pose proof (deq1_wk s) as M;
  destruct (deq1 s) as [s1 [?|]]; cbn [fst] in F, M; unfold deq_frame in F;
  [ rewrite F; cb | clear F M; let Q1 := fresh "Q" in destruct Q as [Q Q1]; subst s1 ].

Ltac fr_deqn n s :=
  let F := fresh "F" in let Q := fresh "Q" in let M := fresh "MW" in let E := fresh "E" in
  pose proof (deqn_frame n s) as F; pose proof (deqn_q n s) as Q; pose proof (deqn_wk n s) as M;
  destruct (deqn n s) as [? ?] eqn:E; cbn [fst snd] in F, Q, M; unfold deq_frame in F;
  rewrite F; cb.

Ltac fr_flush x :=
  let F := fresh "F" in let Q := fresh "Q" in let M := fresh "MW" in
  let s2 := fresh "s" in let E := fresh "E" in
  pose proof (flush_frame x) as F; pose proof (flush_q x) as Q; pose proof (flush_wk x) as M;
  remember (flush x) as s2 eqn:E; clear E; unfold deq_frame in F; rewrite F; cb;
  cbn [q rcv set_q set_rcv set_unpub set_sq set_wk set_evw set_rw] in Q.

Ltac fr_frame t :=
  lazymatch t with
  | deq1 ?s => fr_deq1 s
  | deqn ?n ?s => fr_deqn n s
  | flush ?x => fr_flush x
  end.

(** what [head_step] does better than a case split; [fr] is [fr_frame] unless the invariant at
    hand looks inside [deq1]/[flush] *)
Ltac prim fr c :=
  lazymatch c with
  | poll_recv_core _ _ _ _ => unfold poll_recv_core
  | poll_recv_b_core _ _ _ _ _ => unfold poll_recv_b_core
  | deq1 _ => fr c
  | deqn _ _ => fr c
  | context [flush ?y] => fr (flush y)
  end.

(** matches left inside the final state (in [pushl], [close_h], [note_lost], ...) *)
Ltac dm_any fr :=
  match goal with
  | |- context [match ?x with _ => _ end] =>
      lazymatch x with
      | context [match _ with _ => _ end] => fail
      | _ => first [ match goal with H : x = _ |- _ => rewrite H end | destruct x eqn:? ]
      end
  | |- context [flush ?x] =>
      lazymatch x with
      | context [match _ with _ => _ end] => fail
      | _ => fr (flush x)
      end
  end.

(** symbolic execution of the [exec s o] in the goal: the head phase on [post Q (exec s o)] with the
    rest of the goal hidden in [Q], then the matches left inside the final state *)
Ltac sx_head fr Q :=
  match goal with |- context [exec ?s ?o] => pattern (exec s o) end;
  match goal with |- ?P ?x => set (Q := P); change (post Q x) end;
  cbn [exec]; repeat (head_step ltac:(fun c => prim fr c); cb); unfold post.
Ltac sx_rest fr := unf; cbh; repeat (cb; first [dm_wl | dm_any fr]).

Ltac symex_with fr := let Q := fresh "Q" in sx_head fr Q; subst Q; cbn beta; sx_rest fr; cb.

(** the same with [Q] hidden to the end: for goals that mention the final state many times *)
Ltac symex_late := let Q := fresh "Q" in sx_head fr_frame Q; sx_rest fr_frame; subst Q; cbn beta; cb.

Ltac symex := symex_with fr_frame.

Ltac lens := rewrite ?len_app, ?len_cons, ?len_nil, ?len_firstn in *.

(** * C03: capacity invariant (all ops) *)

Ltac fin1 :=
  unfold G1, window_open, window_open_cold, hot_slack, cold_slack in *; cbh;
  repeat match goal with H : _ /\ _ |- _ => destruct H end;
  repeat match goal with H : @eq (list N) _ _ |- _ => apply (f_equal (@len N)) in H end;
  lens; try lia.

Lemma exec_G1 s o : G1 s -> G1 (fst (exec s o)).
Proof.
  intros G0. destruct o; symex; try assumption. all: fin1.
Qed.

Lemma aget_aset_eq {A} k (v : A) l : aget k (aset k v l) = Some v.
Proof. unfold aset. cbn [aget]. rewrite N.eqb_refl. reflexivity. Qed.

Lemma aget_adel_eq {A} k (l : list (N * A)) : aget k (adel k l) = None.
Proof.
  induction l as [|[k' v] t IH]; cbn [adel aget]; [reflexivity|].
  destruct (N.eqb_spec k k') as [->|Hn]; [exact IH|].
  cbn [aget]. destruct (N.eqb_spec k k'); [congruence | exact IH].
Qed.

Lemma aget_adel_neq {A} k k' (l : list (N * A)) : k' <> k -> aget k' (adel k l) = aget k' l.
Proof.
  intros Hne. induction l as [|[k2 v] t IH]; cbn [adel aget]; [reflexivity|].
  destruct (N.eqb_spec k k2) as [->|Hn].
  - destruct (N.eqb_spec k' k2); [congruence | exact IH].
  - cbn [aget]. destruct (N.eqb_spec k' k2); [reflexivity | exact IH].
Qed.

Lemma aget_aset_neq {A} k k' (v : A) l : k' <> k -> aget k' (aset k v l) = aget k' l.
Proof.
  intros Hne. unfold aset. cbn [aget]. destruct (N.eqb_spec k' k); [congruence|].
  apply aget_adel_neq. exact Hne.
Qed.

Lemma aget_None_keys {A} k (l : list (N * A)) : aget k l = None <-> ~ In k (keysN l).
Proof.
  induction l as [|[k' v] t IH]; cbn [aget keysN map fst]; [tauto|].
  destruct (N.eqb_spec k k') as [->|Hn].
  - split; [discriminate | intros H; exfalso; apply H; left; reflexivity].
  - rewrite IH. unfold keysN. split; [intros H [E|I]; [congruence|auto] | intros H I; apply H; right; exact I].
Qed.

Lemma keys_adel {A} k x (l : list (N * A)) : In x (keysN (adel k l)) <-> In x (keysN l) /\ x <> k.
Proof.
  unfold keysN. induction l as [|[k' v] t IH]; cbn [adel map fst In]; [tauto|].
  destruct (N.eqb_spec k k') as [->|Hn]; cbn [map fst In]; rewrite IH.
  - split; [intros [I B]; split; [right; exact I | exact B]|].
    intros [[E|I] B]; [congruence | split; assumption].
  - split.
    + intros [E|[I B]]; [subst; split; [left; reflexivity | congruence] | split; [right; exact I | exact B]].
    + intros [[E|I] B]; [left; exact E | right; split; assumption].
Qed.

Lemma NoDup_adel {A} k (l : list (N * A)) : NoDup (keysN l) -> NoDup (keysN (adel k l)).
Proof.
  induction l as [|[k' v] t IH]; cbn [adel keysN map fst]; intros H; [constructor|].
  inversion H as [|? ? Hni Hnd]; subst.
  destruct (N.eqb_spec k k') as [->|Hn]; [apply IH; exact Hnd|].
  cbn [keysN map fst]. constructor; [|apply IH; exact Hnd].
  intros Hi. apply keys_adel in Hi. destruct Hi as [Hi _]. contradiction.
Qed.

Lemma NoDup_aset {A} k (v : A) l : NoDup (keysN l) -> NoDup (keysN (aset k v l)).
Proof.
  intros H. unfold aset. cbn [keysN map fst]. constructor; [|apply NoDup_adel; exact H].
  intros Hi. apply keys_adel in Hi. destruct Hi as [_ Hi]. congruence.
Qed.

Lemma adel_id {A} k (l : list (N * A)) : aget k l = None -> adel k l = l.
Proof.
  induction l as [|[k' v] t IH]; cbn [adel aget]; [reflexivity|].
  destruct (N.eqb_spec k k'); [discriminate|]. intros H. f_equal. apply IH. exact H.
Qed.

Lemma aget_some_nonempty {A} k (l : list (N * A)) v : aget k l = Some v -> l <> [].
Proof. destruct l; [discriminate | congruence]. Qed.

Lemma aget_In {A} k (l : list (N * A)) v : aget k l = Some v -> In (k, v) l.
Proof.
  induction l as [|[k' v'] t IH]; cbn [aget]; [discriminate|].
  destruct (N.eqb_spec k k'); [intros E; inversion E; subst; left; reflexivity | right; auto].
Qed.

Lemma no_futs F h f fr :
  existsb (fun p : N * frec => fh (snd p) =? h) F = false -> aget f F = Some fr -> fh fr <> h.
Proof.
  intros H G E. apply aget_In in G.
  assert (existsb (fun p : N * frec => fh (snd p) =? h) F = true); [|congruence].
  apply existsb_exists. exists (f, fr). split; [assumption|]. cbn. apply N.eqb_eq. exact E.
Qed.

Lemma has_futs_false h s f fr : has_futs h s = false -> aget f (fs s) = Some fr -> fh fr <> h.
Proof. apply no_futs. Qed.

Ltac ag :=
  repeat match goal with
  | H : context [aget ?k (aset ?k _ _)] |- _ => rewrite aget_aset_eq in H
  | |- context [aget ?k (aset ?k _ _)] => rewrite aget_aset_eq
  | H : context [aget ?k (adel ?k _)] |- _ => rewrite aget_adel_eq in H
  | |- context [aget ?k (adel ?k _)] => rewrite aget_adel_eq
  | H : ?a <> ?b |- context [aget ?a (aset ?b _ _)] => rewrite (aget_aset_neq b a) by exact H
  | H : ?a <> ?b |- context [aget ?a (adel ?b _)] => rewrite (aget_adel_neq b a) by exact H
  | H : ?a <> ?b, H2 : context [aget ?a (aset ?b _ _)] |- _ => rewrite (aget_aset_neq b a) in H2 by exact H
  | H : ?a <> ?b, H2 : context [aget ?a (adel ?b _)] |- _ => rewrite (aget_adel_neq b a) in H2 by exact H
  | H : context [aget ?a (aset ?b _ _)] |- _ => destruct (N.eq_dec a b); [subst|]
  | H : context [aget ?a (adel ?b _)] |- _ => destruct (N.eq_dec a b); [subst|]
  | |- context [aget ?a (aset ?b _ _)] => destruct (N.eq_dec a b); [subst|]
  | |- context [aget ?a (adel ?b _)] => destruct (N.eq_dec a b); [subst|]
  end.

Ltac somes :=
  repeat first
  [ opt_step
  | match goal with
    | H : OF _ = OF _ |- _ => apply OF_inj in H; subst
    | H : OH _ = OH _ |- _ => apply OH_inj in H; subst
    | H : OF _ = OH _ |- _ => discriminate H
    | H : OH _ = OF _ |- _ => discriminate H
    end ].

Lemma adel_aset {A} k (v : A) l : adel k (aset k v l) = adel k l.
Proof.
  unfold aset. cbn [adel]. rewrite N.eqb_refl.
  induction l as [|[k' v'] t IH]; cbn [adel]; [reflexivity|].
  destruct (N.eqb_spec k k') as [->|Hn]; [exact IH|].
  cbn [adel]. destruct (N.eqb_spec k k'); [congruence|]. f_equal. exact IH.
Qed.

Lemma open_tx_aset h r l : open_tx (aset h r l) = (if isopen r then 1 else 0) + open_tx (adel h l).
Proof.
  unfold open_tx, aset. cbn [filter snd]. destruct (isopen r); rewrite ?len_cons; lia.
Qed.

Lemma open_tx_adel h l : NoDup (keysN l) ->
  open_tx l = open_tx (adel h l) + match aget h l with Some r => if isopen r then 1 else 0 | None => 0 end.
Proof.
  unfold open_tx. induction l as [|[k v] t IH]; cbn [keysN map fst adel aget filter snd]; intros H; [reflexivity|].
  inversion H as [|? ? Hni Hnd]; subst.
  destruct (N.eqb_spec h k) as [->|Hn].
  - assert (E : aget k t = None) by (apply aget_None_keys; exact Hni).
    rewrite (adel_id k t E). destruct (isopen v); rewrite ?len_cons; lia.
  - cbn [filter snd]. specialize (IH Hnd). destruct (isopen v); rewrite ?len_cons; lia.
Qed.

(** [GS] reads four fields *)
Definition gs (H : list (N * hrec)) (F : list (N * frec)) (n : N) (rd : bool) : Prop :=
  NoDup (keysN H) /\ NoDup (keysN F)
  /\ (forall f fr, aget f F = Some fr ->
        exists r, aget (fh fr) H = Some r /\ hasync r = true /\ htx r = negb (is_recv_kind (fk fr)))
  /\ (forall h r, aget h H = Some r -> htx r = false -> h = 1)
  /\ n = open_tx H
  /\ (rd = false <-> exists r, aget 1 H = Some r /\ htx r = false /\ hclosed r = false).

Lemma GS_gs s : GS s = gs (hs s) (fs s) (scount s) (rdrop s).
Proof. reflexivity. Qed.

Section GSsteps.
Variables (H : list (N * hrec)) (F : list (N * frec)) (n : N) (rd : bool).
Hypothesis G : gs H F n rd.

(** the record at [h] is replaced: same side; same mode unless no future borrows [h] *)
Lemma gs_set_h h r r' n' rd' :
  aget h H = Some r -> htx r' = htx r ->
  (hasync r' = hasync r \/ existsb (fun p => fh (snd p) =? h) F = false) ->
  n' + (if isopen r then 1 else 0) = n + (if isopen r' then 1 else 0) ->
  (if htx r then rd' = rd else (rd' = false <-> hclosed r' = false)) ->
  gs (aset h r' H) F n' rd'.
Proof.
  destruct G as (N1&N2&FO&RO&SC&RL). intros A T AS Cn Crd.
  split; [apply NoDup_aset, N1|]. split; [exact N2|]. split; [|split; [|split]].
  - intros f fr Af. destruct (FO f fr Af) as (r0&B&C&D). destruct (N.eq_dec (fh fr) h) as [E|E].
    + rewrite E in *. rewrite A in B. apply Some_inj in B. subst r0. exists r'. rewrite aget_aset_eq.
      split; [reflexivity|]. destruct AS as [AS|AS]; [split; congruence|].
      exfalso. exact (no_futs F h f fr AS Af E).
    + exists r0. rewrite (aget_aset_neq h (fh fr) r' H E). auto.
  - intros k x Ak Tx. destruct (N.eq_dec k h) as [->|E].
    + rewrite aget_aset_eq in Ak. apply Some_inj in Ak. subst x. apply (RO h r A). congruence.
    + rewrite (aget_aset_neq h k r' H E) in Ak. exact (RO k x Ak Tx).
  - rewrite open_tx_aset. pose proof (open_tx_adel h H N1) as E. rewrite A in E.
    destruct (isopen r), (isopen r'); lia.
  - destruct (htx r) eqn:Tr.
    + subst rd'. destruct (N.eq_dec 1 h) as [<-|E]; [|rewrite (aget_aset_neq h 1 r' H E); exact RL].
      rewrite aget_aset_eq. split.
      * intros X. apply RL in X. destruct X as (x&Ax&Tx&_). congruence.
      * intros (x&Ax&Tx&_). apply Some_inj in Ax. congruence.
    + pose proof (RO h r A Tr). subst h. rewrite aget_aset_eq. split.
      * intros X. exists r'. split; [reflexivity|]. split; [congruence | apply Crd, X].
      * intros (x&Ax&_&Cx). apply Some_inj in Ax. subst x. apply Crd, Cx.
Qed.

Lemma gs_close_tx h r : aget h H = Some r -> htx r = true -> hclosed r = false ->
  gs (aset h (with_closed r) H) F (n - 1) rd.
Proof.
  intros A T C. assert (O : isopen r = true) by (unfold isopen; rewrite T, C; reflexivity).
  apply (gs_set_h h r); auto; [|rewrite T; reflexivity].
  rewrite O. unfold isopen. cbn [with_closed htx hclosed negb]. rewrite andb_false_r.
  destruct G as (N1&_&_&_&SC&_). pose proof (open_tx_adel h H N1) as E. rewrite A, O in E. lia.
Qed.

Lemma gs_close_rx h r : aget h H = Some r -> htx r = false -> gs (aset h (with_closed r) H) F n true.
Proof.
  intros A T. apply (gs_set_h h r); auto.
  - unfold isopen. cbn [with_closed htx]. rewrite T. reflexivity.
  - rewrite T. cbn. split; discriminate.
Qed.

(** the mode ([with_async]) or the registration ([with_reg]) of [h] changes *)
Lemma gs_set_mode h r r' : aget h H = Some r -> htx r' = htx r -> hclosed r' = hclosed r ->
  (hasync r' = hasync r \/ existsb (fun p => fh (snd p) =? h) F = false) ->
  gs (aset h r' H) F n rd.
Proof.
  intros A T C AS. apply (gs_set_h h r); auto.
  - unfold isopen. rewrite T, C. reflexivity.
  - destruct G as (_&_&_&RO&_&RL). destruct (htx r) eqn:Tr; [reflexivity|].
    pose proof (RO h r A Tr). subst h. rewrite RL, C. split.
    + intros (x&Ax&_&Cx). congruence.
    + intros X. exists r. auto.
Qed.

Lemma gs_del_h h r n' rd' :
  aget h H = Some r -> existsb (fun p => fh (snd p) =? h) F = false ->
  n' = n - (if isopen r then 1 else 0) ->
  (if htx r || hclosed r then rd' = rd else rd' = true) ->
  gs (adel h H) F n' rd'.
Proof.
  destruct G as (N1&N2&FO&RO&SC&RL). intros A NF Cn Crd.
  split; [apply NoDup_adel, N1|]. split; [exact N2|]. split; [|split; [|split]].
  - intros f fr Af. destruct (FO f fr Af) as (r0&B&C&D). exists r0.
    rewrite (aget_adel_neq h (fh fr) H (no_futs F h f fr NF Af)). auto.
  - intros k x Ak Tx. destruct (N.eq_dec k h) as [->|E].
    + rewrite aget_adel_eq in Ak. discriminate Ak.
    + rewrite (aget_adel_neq h k H E) in Ak. exact (RO k x Ak Tx).
  - pose proof (open_tx_adel h H N1) as E. rewrite A in E. destruct (isopen r); lia.
  - destruct (N.eq_dec 1 h) as [<-|E].
    + rewrite aget_adel_eq. split; [|intros (x&Ax&_); discriminate Ax]. intros X. exfalso.
      destruct (htx r) eqn:Tr; [|destruct (hclosed r) eqn:Cr]; cbn [orb] in Crd; subst rd'; try discriminate X.
      all: apply RL in X; destruct X as (x&Ax&Tx&Cx); congruence.
    + rewrite (aget_adel_neq h 1 H E). destruct (htx r) eqn:Tr; [cbn [orb] in Crd; subst rd'; exact RL|].
      exfalso. exact (E (eq_sym (RO h r A Tr))).
Qed.

Lemma gs_new_h h2 a c : aget h2 H = None ->
  gs (aset h2 (mkH true a c false None) H) F (if c then n else n + 1) rd.
Proof.
  destruct G as (N1&N2&FO&RO&SC&RL). intros A.
  split; [apply NoDup_aset, N1|]. split; [exact N2|]. split; [|split; [|split]].
  - intros f fr Af. destruct (FO f fr Af) as (r0&B&C&D). exists r0.
    rewrite aget_aset_neq; [auto|]. intros E. rewrite E in B. congruence.
  - intros k x Ak Tx. destruct (N.eq_dec k h2) as [->|E].
    + rewrite aget_aset_eq in Ak. apply Some_inj in Ak. subst x. discriminate Tx.
    + rewrite (aget_aset_neq h2 k _ H E) in Ak. exact (RO k x Ak Tx).
  - rewrite open_tx_aset, (adel_id h2 H A). unfold isopen. cbn [htx hclosed andb]. destruct c; cbn [negb]; lia.
  - destruct (N.eq_dec 1 h2) as [<-|E]; [|rewrite (aget_aset_neq h2 1 _ H E); exact RL].
    rewrite aget_aset_eq. split.
    + intros X. apply RL in X. destruct X as (x&Ax&_). congruence.
    + intros (x&Ax&Tx&_). apply Some_inj in Ax. subst x. discriminate Tx.
Qed.

Lemma gs_put_f f h k p r : aget h H = Some r -> hasync r = true -> htx r = negb (is_recv_kind k) ->
  gs H (aset f (mkF h k p) F) n rd.
Proof.
  destruct G as (N1&N2&FO&RO&SC&RL). intros A AS T.
  split; [exact N1|]. split; [apply NoDup_aset, N2|]. split; [|auto].
  intros g fr Ag. destruct (N.eq_dec g f) as [->|E].
  - rewrite aget_aset_eq in Ag. apply Some_inj in Ag. subst fr. exists r. auto.
  - rewrite (aget_aset_neq f g _ F E) in Ag. exact (FO g fr Ag).
Qed.

(** a poll rewrites its own entry: same handle, same side *)
Lemma gs_upd_f f fr k p : aget f F = Some fr -> is_recv_kind k = is_recv_kind (fk fr) ->
  gs H (aset f (mkF (fh fr) k p) F) n rd.
Proof.
  intros A K. destruct G as (_&_&FO&_). destruct (FO f fr A) as (r&B&C&D).
  apply (gs_put_f f (fh fr) k p r B C). rewrite K. exact D.
Qed.

Lemma gs_del_f f : gs H (adel f F) n rd.
Proof.
  destruct G as (N1&N2&FO&RO&SC&RL).
  split; [exact N1|]. split; [apply NoDup_adel, N2|]. split; [|auto].
  intros g fr Ag. destruct (N.eq_dec g f) as [->|E].
  - rewrite aget_adel_eq in Ag. discriminate Ag.
  - rewrite (aget_adel_neq f g F E) in Ag. exact (FO g fr Ag).
Qed.

End GSsteps.

Lemma exec_GS s o : GS s -> GS (fst (exec s o)).
Proof.
  intros G. destruct o; symex; try exact G.
  (* what is left changed a table: the goal says how, and there is one lemma per way *)
  all: rewrite GS_gs in *; cb; try exact G; bools.
  all: rewrite ?adel_aset.
  all: lazymatch goal with
       | |- gs (aset _ (with_closed _) _) _ (_ - 1) _ => eapply gs_close_tx; eassumption
       | |- gs (aset _ (with_closed _) _) _ _ true => eapply gs_close_rx; eassumption
       | |- gs (aset _ (with_async _ _) _) _ _ _ => eapply gs_set_mode; eauto
       | |- gs (aset _ (with_reg _ _ _) _) _ _ _ => eapply gs_set_mode; eauto
       | |- gs (aset _ (mkH true _ ?c _ _) _) _ _ _ => apply (gs_new_h _ _ _ _ G _ _ c); assumption
       | |- gs _ (adel _ _) _ _ => apply gs_del_f, G
       | |- gs _ (aset _ (mkF (fh _) _ _) _) _ _ =>
           eapply gs_upd_f; [exact G | eassumption |];
           match goal with E : fk _ = _ |- _ => rewrite E end; reflexivity
       | |- gs _ (aset _ _ _) _ _ => eapply gs_put_f; eauto
       | |- gs (adel _ _) _ _ _ =>
           eapply gs_del_h; [exact G | eassumption | eassumption | |]; unfold isopen;
           repeat match goal with
           | E : htx _ = _ |- _ => rewrite E
           | E : hclosed _ = _ |- _ => rewrite E
           end; rewrite ?andb_false_r, ?orb_true_r; cbn [andb orb negb]; rewrite ?N.sub_0_r; reflexivity
       end.
Qed.
