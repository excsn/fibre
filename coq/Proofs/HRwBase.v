(* Proofs/HRwBase.v — basics for the HybridRwLock proofs: list lemmas, classification of program
   counters, inversion of `rdispatch`, step case-analysis tactic. *)
From Coq Require Import List NArith Arith Bool Lia.
From Fibre Require Import Common.Conc Sync.HMutex Sync.HRwLock Proofs.HMutexBase.
Import ListNotations.

Lemma qmem_In t l : qmem t l = true <-> exists b, In (t, b) l.
Proof.
  unfold qmem. rewrite existsb_exists. split.
  - intros [[u b] [Hx E]]. cbn in E. apply Nat.eqb_eq in E. subst. exists b. exact Hx.
  - intros [b H]. exists (t, b). split; [exact H|]. cbn. apply Nat.eqb_refl.
Qed.

Lemma qrem_In u b t l : In (u, b) (qrem t l) <-> In (u, b) l /\ u <> t.
Proof. exact (filter_key_In fst t (u, b) l). Qed.

Lemma nwriters_In u l : In (u, true) l -> nwriters l <> 0.
Proof.
  unfold nwriters. intros H. assert (X : In (u, true) (filter snd l)) by (apply filter_In; split; [exact H|reflexivity]).
  destruct (filter snd l); [destruct X|discriminate].
Qed.

(* which guard a thread holds at a pc *)
Definition holdsk (k : rw) (p : rpc) : bool :=
  match p with
  | RCS k' | RURel k' => rw_eqb k k'
  | RLLSwap (RLX q) | RLLLoad (RLX q) | RLLSpin (RLX q) | RFix1 (RFX q) | RFix2 (RFX q) | RXUnl q
  | RFix1 (RFQ q) | RFix2 (RFQ q) | RQUnl q true => rw_eqb k (rkind_q q)
  | _ => false
  end.

Definition rinlist (p : rpc) : bool :=
  match p with
  | RQRearm _ | RQFor _ | RQLoad _ | RQCas _ _ _ _ | RFix1 _ | RFix2 _ | RQUnl _ _ | RXUnl _
  | RWSweep _ | RWUnl _ | RDUnl => true
  | _ => false
  end.

Definition rstart_actx (f : option (rw * bool)) (a : ractx) : Prop :=
  match f with
  | None => (exists k, a = RALock k) \/ (exists k, a = RAFirst k true) \/ (exists k, a = RATry k)
            \/ (exists k, a = RAFirst k false)
  | Some (k', _) => (exists k, a = RATry k) \/ a = RAPoll k' false
  end.

Lemma rw_eqb_eq a b : rw_eqb a b = true -> a = b.
Proof. destruct a, b; cbn; congruence. Qed.

Lemma rdispatch_inv s t c p s' e :
  rdispatch s t c p = Some (s', e) ->
  exists p',
    ((rfut s t <> None /\ rdo_llswap (rs_prog s t p') t RLDrop = Some (s', e)) \/
     (rfut s t <> None /\ rdo_wait (rs_prog s t p') t c = Some (s', e))) \/
    (exists a, rstart_actx (rfut s t) a /\ rdo_taload (rs_prog s t p') t a = Some (s', e)).
Proof.
  revert s. induction p as [|o r IH]; intros s H; cbn [rdispatch] in H.
  - destruct (rfut s t) eqn:F; [|discriminate]. exists []. left. left. split; [congruence|exact H].
  - destruct o.
    + destruct (rfut s t) eqn:F.
      * exists (ROLock k :: r). left. left. split; [congruence|exact H].
      * exists r. right. exists (RALock k). split; [cbn; eauto|exact H].
    + exists r. right. exists (RATry k). split; [|exact H]. destruct (rfut s t) as [[k' b]|]; cbn; eauto.
    + destruct (rfut s t) eqn:F.
      * exists (ROAsync k :: r). left. left. split; [congruence|exact H].
      * exists r. right. exists (RAFirst k true). split; [cbn; eauto|exact H].
    + destruct (rfut s t) as [[k' b]|] eqn:F.
      * destruct (rw_eqb k k') eqn:EK.
        -- apply rw_eqb_eq in EK. subst k'. exists r. right. exists (RAPoll k false). split; [cbn; auto|exact H].
        -- exists (ROPoll k :: r). left. left. split; [congruence|exact H].
      * exists r. right. exists (RAFirst k false). split; [cbn; eauto 6|exact H].
    + destruct (rfut s t) eqn:F.
      * exists r. left. left. split; [congruence|exact H].
      * apply IH in H. rewrite F in H. exact H.
    + destruct (rfut s t) eqn:F.
      * exists r. left. right. split; [congruence|exact H].
      * apply IH in H. rewrite F in H. exact H.
Qed.

(* rflush ends in RIdle or RWWake and only sets block_on flags *)
Lemma rflush_pcs s t ws u : u <> t -> rpcs (rflush s t ws) u = rpcs s u.
Proof.
  revert s. induction ws as [|[k h] r IH]; intros s Hu; cbn [rflush]; [|destruct k; [| |exact (IH s Hu)]];
    cbn; apply upd_neq; exact Hu.
Qed.

Lemma rflush_pc_cases s t ws : rpcs (rflush s t ws) t = RIdle \/ exists h r, rpcs (rflush s t ws) t = RWWake h r.
Proof.
  revert s. induction ws as [|[k h] r IH]; intros s; cbn [rflush].
  - left. cbn. apply upd_eq.
  - destruct k; try apply IH; right; exists h, r; cbn; apply upd_eq.
Qed.

Lemma rflush_same s t ws :
  wl (rflush s t ws) = wl s /\ wp (rflush s t ws) = wp s /\ hq (rflush s t ws) = hq s /\ rd (rflush s t ws) = rd s
  /\ rllock (rflush s t ws) = rllock s /\ rqueue (rflush s t ws) = rqueue s /\ rnarm (rflush s t ws) = rnarm s
  /\ rnwk (rflush s t ws) = rnwk s /\ rtoken (rflush s t ws) = rtoken s /\ rfut (rflush s t ws) = rfut s
  /\ wholders (rflush s t ws) = wholders s /\ rholders (rflush s t ws) = rholders s.
Proof.
  revert s. induction ws as [|[k h] r IH]; intros s; cbn [rflush]; [|destruct k; try apply IH]; cbn; repeat split.
Qed.

Lemma rflush_wp s t ws : wp (rflush s t ws) = wp s.               Proof. apply rflush_same. Qed.
Lemma rflush_queue s t ws : rqueue (rflush s t ws) = rqueue s.    Proof. apply rflush_same. Qed.
Lemma rflush_narm s t ws : rnarm (rflush s t ws) = rnarm s.       Proof. apply rflush_same. Qed.
Lemma rflush_nwk s t ws : rnwk (rflush s t ws) = rnwk s.          Proof. apply rflush_same. Qed.
Lemma rflush_token s t ws : rtoken (rflush s t ws) = rtoken s.    Proof. apply rflush_same. Qed.
Lemma rflush_fut s t ws : rfut (rflush s t ws) = rfut s.          Proof. apply rflush_same. Qed.
Lemma rflush_rholders s t ws : rholders (rflush s t ws) = rholders s. Proof. apply rflush_same. Qed.

Ltac rsimpl_in H :=
  cbn [wl wp hq rd rllock rqueue rnarm rnwk rtoken rbwoken rprog rpcs rfut wholders rholders rresults
       rs_word rs_wl rs_wp rs_hq rs_rd rs_llock rs_queue rs_narm rs_nwk rs_token rs_bwoken rs_prog rs_pc
       rs_fut rs_wholders rs_rholders rlog] in H.

Ltac rbreak_match H :=
  match type of H with
  | context [match ?x with _ => _ end] =>
      lazymatch x with
      | context [match _ with _ => _ end] => fail
      | _ => let y := fresh "v" in let E := fresh "E" in
             remember x as y eqn:E in H; symmetry in E; destruct y
      end
  end.

(* case analysis of one step; the wake list of RWUnl / RWWake stays symbolic (rflush) *)
Ltac rstep_cases H :=
  unfold rwstep in H;
  match type of H with context [rpcs ?s ?t] =>
    let y := fresh "v" in remember (rpcs s t) as y eqn:Epc in H; symmetry in Epc; destruct y end;
  cbv beta iota in H;
  [ apply rdispatch_inv in H;
    let p' := fresh "p'" in let a := fresh "a" in let Ha := fresh "Ha" in let Hf := fresh "Hf" in
    destruct H as [p' [[[Hf H]|[Hf H]]|[a [Ha H]]]];
    [ | | unfold rstart_actx in Ha;
          match type of Ha with context [rfut ?s ?t] =>
            let y := fresh "v" in remember (rfut s t) as y eqn:Ef in Ha; symmetry in Ef;
            destruct y as [[? ?]|] end;
          repeat match type of Ha with _ \/ _ => destruct Ha as [Ha|Ha] end;
          lazymatch type of Ha with ex _ => destruct Ha as [? Ha] | _ => idtac end; subst a ]
  | .. ];
  unfold rdo_taload, ta_fail, rdo_llswap, rdo_wait, rafter_llock, rblock_next, rdo_fix1, after_acq_a, rret in H;
  rsimpl_in H; cbv beta iota zeta in H;
  repeat (rbreak_match H; rsimpl_in H; cbv beta iota zeta in H);
  try discriminate H;
  match type of H with Some _ = Some _ => injection H as <- <- end;
  repeat match goal with
         | E : ?x = _ |- _ =>
             is_var x;
             lazymatch type of x with
             | ractx => subst x | rqctx => subst x | rlctx => subst x | bool => subst x | rfixk => subst x
             | option _ => subst x | wk => subst x | rpc => subst x | rw => subst x | prod _ _ => subst x
             end
         end.

Lemma rstep_probe s t c s' e : rwstep s t c = Some (s', e) -> True.
Proof. intros _. exact I. Qed.

Ltac rsimpl_goal :=
  cbn [wl wp hq rd rllock rqueue rnarm rnwk rtoken rbwoken rprog rpcs rfut wholders rholders rresults
       rs_word rs_wl rs_wp rs_hq rs_rd rs_llock rs_queue rs_narm rs_nwk rs_token rs_bwoken rs_prog rs_pc
       rs_fut rs_wholders rs_rholders rlog].

(* case analysis on the rw / bool variables a hypothesis mentions *)
Ltac case_vars_of H :=
  repeat match type of H with context [?x] =>
           is_var x; lazymatch type of x with rw => destruct x | bool => destruct x end
         end.
