(* Proofs/HMutexQueue.v — wait-list invariants of the HybridMutex model:
   InvP (future ownership vs pc), InvC (NoDup list, every thread knows whether its node is linked:
   no dangling node), InvD (HAS_QUEUED over-approximates the list), InvE (node states / waiter handles). *)
From Coq Require Import List NArith Arith Bool Lia.
From Fibre Require Import Common.Lists Common.Conc Sync.HMutex Proofs.HMutexBase Proofs.HMutexGuard.
Import ListNotations.

(* ---- per-thread consistency of `fut` (does the thread own a future node, block_on or not)
   with its program counter *)
Definition futok (p : pc) (f : option bool) : Prop :=
  match p with
  | TALoad (ASpin _) | TACas (ASpin _) _ | Yield _ | SpinNext _
  | LLSwap (LQ (QSync _)) | LLLoad (LQ (QSync _)) | LLSpin (LQ (QSync _))
  | QRearm (QSync _) | QFor (QSync _) | QLoad (QSync _) | QCas (QSync _) _ | QFix (QSync _) | QUnl (QSync _) _
  | PLoad | Park
  | LLSwap (LX (QSync _)) | LLLoad (LX (QSync _)) | LLSpin (LX (QSync _)) | XFix (QSync _) | XUnl (QSync _)
  | TALoad ALock | TACas ALock _ | TALoad (AFirst _) | TACas (AFirst _) _ => f = None
  | TALoad (APoll b) | TACas (APoll b) _ | PollNext b => f = None \/ f = Some b
  | LLSwap (LQ (QFut b)) | LLLoad (LQ (QFut b)) | LLSpin (LQ (QFut b))
  | QRearm (QFut b) | QFor (QFut b) | QLoad (QFut b) | QCas (QFut b) _ | QFix (QFut b) | QUnl (QFut b) _
  | LLSwap (LX (QFut b)) | LLLoad (LX (QFut b)) | LLSpin (LX (QFut b)) | XFix (QFut b) | XUnl (QFut b) => f = Some b
  | BPark => f = Some true
  | LLSwap LDrop | LLLoad LDrop | LLSpin LDrop | DFix | DUnl | DLoad => f = Some false
  | Idle | TALoad ATry | TACas ATry _ | CS | UFand | LLSwap LWake | LLLoad LWake | LLSpin LWake
  | WMark | WUnl _ | WWake _ | WaitW => f <> Some true
  end.

Definition InvP s := forall u, futok (pcs s u) (fut s u).

Lemma InvP_step s t c s' e : InvP s -> mstep s t c = Some (s', e) -> InvP s'.
Proof.
  intros P H. pose proof (P t) as Pt.
  step_cases H; rewrite Epc in Pt; cbn [futok] in Pt; unfold InvP; fsimpl_goal; intros u; split_thr u t;
    try apply P; cbn [futok]; rewrite ?upd_eq; auto; try congruence.
  all: try (destruct Pt as [Pt|Pt]); destruct (fut s t) as [[|]|]; auto; congruence.
Qed.

(* ---- what a thread knows about the linkage of its own node *)
Definition fl (f : option bool) : option bool := match f with Some _ => Some true | None => Some false end.

Definition lk (p : pc) (f : option bool) : option bool :=
  match p with
  | TALoad (ASpin l) | TACas (ASpin l) _ | Yield l | SpinNext l => Some l
  | LLSwap (LQ (QSync l)) | LLLoad (LQ (QSync l)) | LLSpin (LQ (QSync l)) | QRearm (QSync l) => Some l
  | LLSwap (LQ (QFut _)) | LLLoad (LQ (QFut _)) | LLSpin (LQ (QFut _)) | QRearm (QFut _) => None
  | LLSwap (LX _) | LLLoad (LX _) | LLSpin (LX _) => Some true
  | LLSwap LDrop | LLLoad LDrop | LLSpin LDrop => Some true
  | QFor _ | QLoad _ | QCas _ _ | QUnl _ false | PLoad | Park | BPark => Some true
  | QFix _ | QUnl _ true | XFix _ | XUnl _ | DFix | DUnl | DLoad => Some false
  | _ => fl f
  end.

Definition linkok (s : mstate) (u : nat) : Prop :=
  match lk (pcs s u) (fut s u) with
  | Some true => In u (queue s)
  | Some false => ~ In u (queue s)
  | None => True
  end.

Definition InvC s := NoDup (queue s) /\ forall u, linkok s u.


Ltac mem_hyps :=
  repeat match goal with
         | E : mem _ _ = true |- _ => apply mem_In in E
         | E : mem _ _ = false |- _ => apply mem_false in E
         end.

Lemma InvC_step s t c s' e : InvP s -> InvC s -> mstep s t c = Some (s', e) -> InvC s'.
Proof.
  intros P [C1 C2] H. pose proof (P t) as Pt. pose proof (C2 t) as Ct. unfold linkok in Ct.
  step_cases H; rewrite Epc in Pt, Ct; cbn [futok lk fl] in Pt, Ct; unfold InvC, linkok; fsimpl_goal.
  all: try solve [ split; [ assumption | intros u; split_thr u t; [ cbn [lk fl]; rewrite ?upd_eq; auto | apply C2 ] ] ].
  all: mem_hyps.
  all: split;
    [ try assumption; try (apply rem_NoDup; assumption);
      try (apply NoDup_snoc; [assumption|]; destruct (fut s t) as [[|]|]; cbn [fl] in *; tauto)
    | intros u; split_thr u t;
      [ cbn [lk fl]; rewrite ?upd_eq; destruct (fut s t) as [[|]|]; cbn [fl] in *;
        rewrite ?rem_In, ?In_app1; try tauto; try congruence; intuition congruence
      | specialize (C2 u); unfold linkok in C2; destruct (lk (pcs s u) (fut s u)) as [[|]|];
        rewrite ?rem_In, ?In_app1; tauto ] ].
Qed.

(* ---- HAS_QUEUED over-approximates list contents, except while the only queued node's
   owner is between its link and its fetch_or *)
Definition InvD s :=
  hasq s = false -> forall u, In u (queue s) -> queue s = [u] /\ exists q, pcs s u = QFor q.

Lemma InvD_step s t c s' e : InvB s -> InvC s -> InvD s -> mstep s t c = Some (s', e) -> InvD s'.
Proof.
  intros [B1 B2] [C1 C2] D H. pose proof (C2 t) as Ct. unfold linkok in Ct.
  step_cases H; rewrite Epc in Ct; cbn [lk fl] in Ct; unfold InvD; fsimpl_goal.
  (* hasq and queue untouched: a queued u with hasq = false is at QFor, so u is not the stepping thread *)
  all: try solve [ intros Hq u Hu; destruct (D Hq u Hu) as [Q1 [qq Q2]]; split_thr u t;
                   [ rewrite Epc in Q2; discriminate Q2 | split; [assumption | exists qq; assumption] ] ].
  all: try solve [ intros Hq; discriminate Hq ].
  (* fix_flags on an empty list *)
  all: try solve [ intros _ u Hu; match goal with E : queue _ = [] |- _ => rewrite E in Hu end; destruct Hu ].
  (* the stepping thread unlinks itself: it was not the QFor thread *)
  all: try solve [ intros Hq u Hu; apply rem_In in Hu; destruct Hu as [Hu Hne];
                   destruct (D Hq u Hu) as [Q1 [qq Q2]]; rewrite Q1; cbn [rem filter];
                   destruct (Nat.eqb_spec u t); [contradiction|]; cbn [negb];
                   split; [reflexivity | rewrite upd_neq by assumption; exists qq; assumption] ].
  (* the stepping thread links itself: with hasq = false the list was empty *)
  all: intros Hq u Hu;
       assert (HE : queue s = []) by
         (destruct (queue s) as [|x l] eqn:EQ; [reflexivity|]; exfalso;
          assert (Hx : In x (queue s)) by (rewrite EQ; left; reflexivity);
          destruct (D Hq x Hx) as [_ [qq Q2]];
          assert (L1 : llock s = Some x) by (apply B1; rewrite Q2; reflexivity);
          assert (L2 : llock s = Some t) by (apply B1; rewrite Epc; reflexivity);
          assert (x = t) by congruence; subst x; rewrite Epc in Q2; discriminate Q2);
       rewrite HE in *; cbn [app] in *; destruct Hu as [<-|[]];
       split; [reflexivity | rewrite upd_eq; eexists; reflexivity].
Qed.

(* ---- waiter nodes: a linked node without a waiter handle has been marked WOKEN; the handle
   registered in a linked node is the one of its owner; inside its own queue section after the
   re-arm the owner's node is WAITING *)
Definition kindok (k : wk) (p : pc) (f : option bool) : Prop :=
  match k with
  | WThread => insync p = true
  | WBlock => f = Some true
  | WCount => f = Some false
  end.

Definition armed_sec (p : pc) : bool :=
  match p with QFor _ | QLoad _ | QCas _ _ | QUnl _ false => true | _ => false end.

Definition InvE s :=
  (forall h, In h (queue s) -> narm s h = None -> nwk s h = true)
  /\ (forall h k, In h (queue s) -> narm s h = Some k -> kindok k (pcs s h) (fut s h))
  /\ (forall u, armed_sec (pcs s u) = true -> nwk s u = false).

Lemma armed_inlist p : armed_sec p = true -> inlist p = true.
Proof. destruct p; cbn; try discriminate; auto. Qed.

(* One pass over the steps for the three clauses.  Clause 1: the list only loses nodes, a re-armed node
   has a handle, a marked node is WOKEN.  Clause 3: only wake_next marks a node, and it holds the list
   lock, so the marked node's owner is not inside a queue section.  Clause 2 is left for the end. *)
Lemma InvE_step s t c s' e :
  InvB s -> InvC s -> InvP s -> InvE s -> mstep s t c = Some (s', e) -> InvE s'.
Proof.
  intros [B1 B2] [C1 C2] P [E1 [E2 E3]] H.
  pose proof (E3 t) as E3t. pose proof (E2 t) as E2t. pose proof (C2 t) as Ct. pose proof (P t) as Pt. unfold linkok in Ct.
  step_cases H; rewrite Epc in E3t, E2t, Ct, Pt; cbn [armed_sec lk fl futok] in E3t, Ct, Pt; unfold InvE; fsimpl_goal;
    (split;
      [ first
        [ exact E1
        | solve [ intros h Hin; apply rem_In in Hin; destruct Hin as [Hin _]; apply E1; exact Hin ]
        | solve [ intros h Hin; split_thr h t;
                  [ discriminate | try (apply In_app1 in Hin; destruct Hin as [Hin|Hin]; [|contradiction]); apply E1; exact Hin ] ]
        | intros h Hin; match goal with |- upd _ ?n _ _ = _ -> _ => split_thr h n end; [ reflexivity | apply E1; exact Hin ] ]
      | split;
        [ intros hh kk Hin Hk; try (apply rem_In in Hin; destruct Hin as [Hin Hne])
        | first
          [ solve [ intros u; split_thr u t; [ cbn [armed_sec]; auto; try discriminate | apply E3 ] ]
          | intros u; split_thr u t; [ cbn [armed_sec]; discriminate | ];
            intros Hu; match goal with |- upd _ ?n _ _ = _ => destruct (Nat.eq_dec u n) as [->|Hn] end;
            [ | rewrite upd_neq by assumption; apply E3; exact Hu ];
            exfalso; apply armed_inlist in Hu; apply B1 in Hu;
            assert (L2 : llock s = Some t) by (apply B1; rewrite Epc; reflexivity); congruence ] ] ]).
  all: try solve [ split_thr hh t; [ try contradiction;
                     specialize (E2t kk Hin Hk); destruct kk; cbn [kindok insync] in *; auto; try congruence
                   | apply E2; assumption ] ].
  1-2: (split_thr hh t;
        [ destruct Pt as [Pt|Pt]; rewrite Pt in *; cbn [fl] in Ct; [contradiction|];
          specialize (E2t kk Hin Hk); destruct kk; cbn [kindok insync] in *; congruence
        | apply E2; assumption ]).
  1-4: (try (apply In_app1 in Hin); revert Hk; split_thr hh t; intros Hk;
        [ injection Hk as <-; try (destruct blk); cbn [kindok insync]; auto
        | apply E2; [tauto | assumption] ]).
  all: (revert Hk; match goal with |- upd _ ?n _ _ = _ -> _ => destruct (Nat.eq_dec hh n) as [->|Hn] end;
        [ rewrite upd_eq; discriminate | rewrite upd_neq by assumption; intros Hk ];
        split_thr hh t; [ specialize (E2t kk Hin Hk); destruct kk; cbn [kindok insync] in *; auto; discriminate
                        | apply E2; assumption ]).
Qed.
