(* Proofs/PolicySieveProofs.v — contract for SieveP and ClockP. *)
From Fibre Require Import Common.Base Cache.PolicySpec Cache.PolicySieve Proofs.PolicyCommon.

Definition etr (l : list ent) : list kc := map ekc l.

Lemma etr_app a b : etr (a ++ b) = etr a ++ etr b.
Proof. apply map_app. Qed.

Lemma etr_erm k l : etr (erm k l) = rm k (etr l).
Proof.
  induction l as [|[[k' c'] f'] t IH]; cbn [erm etr map ekc rm fst ekey]; [reflexivity|].
  destruct (N.eqb k k'); [exact IH|]. cbn [etr map ekc fst]. f_equal. exact IH.
Qed.

Lemma etr_eset k l : etr (eset k l) = etr l.
Proof.
  induction l as [|[[k' c'] f'] t IH]; cbn [eset etr map ekc fst ekey]; [reflexivity|].
  destruct (N.eqb k k'); cbn [etr map ekc fst]; f_equal; exact IH.
Qed.

Lemma ehas_lookup k l : ehas k l = match lookup k (etr l) with Some _ => true | None => false end.
Proof.
  induction l as [|[[k' c'] f'] t IH]; cbn [ehas etr map ekc lookup fst ekey]; [reflexivity|].
  destruct (N.eqb k k'); [reflexivity | exact IH].
Qed.

Lemma eindex_lookup k l : (eindex k l = None) <-> lookup k (etr l) = None.
Proof.
  induction l as [|[[k' c'] f'] t IH]; cbn [eindex etr map ekc lookup fst ekey]; [tauto|].
  destruct (N.eqb k k'); [split; discriminate|].
  destruct (eindex k t) as [i|].
  - split; intros H; [discriminate|]. apply IH in H. discriminate.
  - split; intros H; [apply IH|]; reflexivity.
Qed.

Lemma etr_firstn_skipn n l : etr l = etr (firstn n l ++ skipn n l).
Proof. rewrite firstn_skipn. reflexivity. Qed.

(** the hand's scan changes flags only: it finds the first unflagged entry ... *)
Lemma scan_some l cl v rest :
  scan l = (cl, Some (v, rest)) -> exists fl, l = fl ++ v :: rest /\ etr cl = etr fl.
Proof.
  revert cl. induction l as [|e t IH]; intros cl H; cbn [scan] in H; [discriminate|].
  destruct (eflag e) eqn:Ef.
  - destruct (scan t) as [cl1 r1] eqn:E. inversion H; subst.
    destruct (IH _ eq_refl) as [fl [Hl He]].
    exists (e :: fl). cbn [app etr map]. split; [rewrite Hl | f_equal]; [reflexivity | exact He].
  - inversion H; subst. exists []. split; reflexivity.
Qed.

Lemma scan_some_perm pre l cl v rest :
  scan l = (cl, Some (v, rest)) ->
  Permutation (etr (pre ++ l)) (ekc v :: etr (pre ++ cl ++ rest)).
Proof.
  intros H. destruct (scan_some _ _ _ _ H) as [fl [-> He]].
  rewrite !etr_app, He. cbn [etr map]. rewrite !app_assoc.
  apply Permutation_sym, Permutation_middle.
Qed.

(** ... or every entry was flagged *)
Lemma scan_none l cl : scan l = (cl, None) -> etr cl = etr l.
Proof.
  revert cl. induction l as [|e t IH]; intros cl H; cbn [scan] in H.
  - inversion H. reflexivity.
  - destruct (eflag e).
    + destruct (scan t) as [cl1 r1] eqn:E. inversion H; subst.
      cbn [etr map]. f_equal. apply IH. reflexivity.
    + discriminate.
Qed.

(* what a failed scan leaves behind is unflagged, so a second scan that runs
   into it finds a victim *)
Lemma scan_twice_none l cl a cl2 : scan l = (cl, None) -> scan (a ++ cl) = (cl2, None) -> l = [].
Proof.
  intros H. revert cl2. induction a as [|x a IH]; intros cl2; cbn [app scan].
  - destruct l as [|e t]; [reflexivity|]. cbn [scan] in H. destruct (eflag e); [|discriminate].
    destruct (scan t) as [cl1 r1]. inversion H; subst. cbn [scan eclear eflag snd]. discriminate.
  - destruct (eflag x); [|discriminate]. destruct (scan (a ++ cl)) as [c r] eqn:E.
    intros H2. inversion H2; subst. eapply IH. reflexivity.
Qed.

Definition sieve_tr (s : sieve) : list kc := etr (sv_r s).

Lemma sieve_one_some s v s' :
  sieve_evict_one s = Some (v, s') -> Permutation (sieve_tr s) (ekc v :: sieve_tr s').
Proof.
  unfold sieve_evict_one, sieve_tr. rewrite (etr_firstn_skipn (sv_hand s) (sv_r s)).
  destruct (scan (skipn (sv_hand s) (sv_r s))) as [cl [[v1 rest]|]] eqn:E.
  - intros H. inversion H; subst. apply scan_some_perm. exact E.
  - rewrite etr_app, <- (scan_none _ _ E), <- etr_app.
    destruct (firstn (sv_hand s) (sv_r s) ++ cl) as [|v1 rest]; [discriminate|].
    intros H. inversion H; subst. apply Permutation_refl.
Qed.

Lemma sieve_one_none s : sieve_evict_one s = None -> sieve_tr s = [].
Proof.
  unfold sieve_evict_one, sieve_tr. rewrite (etr_firstn_skipn (sv_hand s) (sv_r s)).
  destruct (scan (skipn (sv_hand s) (sv_r s))) as [cl [[v1 rest]|]] eqn:E; [discriminate|].
  rewrite etr_app, <- (scan_none _ _ E), <- etr_app.
  destruct (firstn (sv_hand s) (sv_r s) ++ cl); [reflexivity | discriminate].
Qed.

Lemma sieve_step_ok s cl : NoDup (keys (sieve_tr s)) ->
  let '(s', o) := sieve_step s cl in step_ok admit_full (sieve_tr s) cl o (sieve_tr s').
Proof.
  intros H. destruct cl as [k c|k c|k|n|]; cbn [sieve_step step_ok step_okG access_keep].
  - unfold sieve_tr. cbn [sv_r]. rewrite etr_eset. apply Permutation_refl.
  - unfold sieve_tr, sieve_admit, admit_full. cbn [sv_r]. rewrite etr_app, etr_erm.
    apply Permutation_sym, Permutation_cons_append.
  - unfold sieve_tr, sieve_remove. cbn [sv_r]. rewrite etr_erm. apply Permutation_refl.
  - destruct (evict_loop sieve_evict_one (length (sv_r s)) n 0 s []) as [[s' vs] f] eqn:E.
    refine (evict_loop_ok _ sieve_tr (fun s v s' _ => sieve_one_some s v s') sieve_one_none
              _ _ _ _ _ _ H _ E).
    unfold sieve_tr, etr. rewrite map_length. apply le_n.
  - reflexivity.
Qed.

Theorem sieve_contract : contract admit_full SieveP.
Proof.
  apply contractG_lift_nodup.
  - exact access_keep_NoDup.
  - exact admit_full_NoDup.
  - constructor.
  - exact sieve_step_ok.
Qed.

Definition clock_tr (s : clock) : list kc := etr (ck_o s).

Lemma clock_one_some s v s' :
  clock_evict_one s = Some (v, s') -> Permutation (clock_tr s) (ekc v :: clock_tr s').
Proof.
  unfold clock_evict_one, clock_tr.
  set (h := if Nat.leb (length (ck_o s)) (ck_hand s) then O else ck_hand s).
  rewrite (etr_firstn_skipn h (ck_o s)).
  destruct (scan (skipn h (ck_o s))) as [cl [[v1 rest]|]] eqn:E.
  - intros H. inversion H; subst. apply scan_some_perm. exact E.
  - rewrite etr_app, <- (scan_none _ _ E), <- etr_app.
    destruct (scan (firstn h (ck_o s) ++ cl)) as [cl2 [[v2 rest2]|]] eqn:E2; [|discriminate].
    intros H. inversion H; subst. apply (scan_some_perm [] _ _ _ _ E2).
Qed.

Lemma clock_one_none s : clock_evict_one s = None -> clock_tr s = [].
Proof.
  unfold clock_evict_one, clock_tr.
  set (h := if Nat.leb (length (ck_o s)) (ck_hand s) then O else ck_hand s).
  destruct (scan (skipn h (ck_o s))) as [cl [[v1 rest]|]] eqn:E; [discriminate|].
  destruct (scan (firstn h (ck_o s) ++ cl)) as [cl2 [[v2 rest2]|]] eqn:E2; [discriminate|].
  intros _. pose proof (scan_twice_none _ _ _ _ E E2) as Hnil.
  (* the hand is inside a non-empty order, so there is something from the hand on *)
  destruct (ck_o s) as [|e0 t0]; [reflexivity|]. exfalso.
  apply (f_equal (@length _)) in Hnil. rewrite skipn_length in Hnil. subst h.
  destruct (Nat.leb_spec (length (e0 :: t0)) (ck_hand s)); cbn [length] in *; lia.
Qed.

(* re-admission of a tracked key: its cost is replaced in place *)
Lemma esetcost_id k c l : ~ In k (keys (etr l)) -> esetcost k c l = l.
Proof.
  induction l as [|[[k' c'] f'] t IH]; cbn [esetcost etr map ekc keys fst ekey]; intros H; [reflexivity|].
  destruct (N.eqb_spec k k') as [->|Hn]; [exfalso; apply H; left; reflexivity|].
  f_equal. apply IH. intros Hi. apply H. right. exact Hi.
Qed.

Lemma etr_esetcost k c l c0 :
  NoDup (keys (etr l)) -> lookup k (etr l) = Some c0 ->
  Permutation (etr (esetcost k c l)) ((k, c) :: rm k (etr l)).
Proof.
  induction l as [|[[k' c'] f'] t IH];
    cbn [esetcost etr map ekc keys fst ekey lookup rm eflag snd]; intros Hnd Hl; [discriminate|].
  inversion Hnd as [|? ? Hni Hnd']; subst.
  destruct (N.eqb_spec k k') as [->|Hn].
  - cbn [etr map ekc fst]. fold (etr (esetcost k' c t)). fold (etr t).
    rewrite (esetcost_id k' c t Hni), (rm_id k' (etr t) Hni). apply Permutation_refl.
  - cbn [etr map ekc fst]. fold (etr (esetcost k c t)). fold (etr t).
    eapply Permutation_trans; [|apply perm_swap]. constructor. apply IH; assumption.
Qed.

Lemma clock_step_ok s cl : NoDup (keys (clock_tr s)) ->
  let '(s', o) := clock_step s cl in step_ok admit_full (clock_tr s) cl o (clock_tr s').
Proof.
  intros H. destruct cl as [k c|k c|k|n|]; cbn [clock_step step_ok step_okG access_keep].
  - unfold clock_tr. cbn [ck_o]. rewrite etr_eset. apply Permutation_refl.
  - unfold clock_admit, admit_full. rewrite ehas_lookup. fold (clock_tr s).
    destruct (lookup k (clock_tr s)) eqn:E; unfold clock_tr at 1; cbn [ck_o].
    + exact (etr_esetcost k c (ck_o s) n H E).
    + rewrite etr_app. fold (clock_tr s). rewrite rm_id by (apply lookup_None; exact E).
      apply Permutation_sym, Permutation_cons_append.
  - unfold clock_remove. destruct (eindex k (ck_o s)) eqn:E.
    + unfold clock_tr. cbn [ck_o]. rewrite etr_erm. apply Permutation_refl.
    + apply eindex_lookup in E. fold (clock_tr s) in E.
      rewrite rm_id; [apply Permutation_refl | apply lookup_None; exact E].
  - destruct (evict_loop clock_evict_one (length (ck_o s)) n 0 s []) as [[s' vs] f] eqn:E.
    refine (evict_loop_ok _ clock_tr (fun s v s' _ => clock_one_some s v s') clock_one_none
              _ _ _ _ _ _ H _ E).
    unfold clock_tr, etr. rewrite map_length. apply le_n.
  - reflexivity.
Qed.

Theorem clock_contract : contract admit_full ClockP.
Proof.
  apply contractG_lift_nodup.
  - exact access_keep_NoDup.
  - exact admit_full_NoDup.
  - constructor.
  - exact clock_step_ok.
Qed.
