(* Proofs/RendezvousBase.v — what every proof about the rendezvous model (Chan/Rendezvous.v) starts
   from: association-list lemmas, the structural invariant WF, and the list of transitions a step
   can be ([tstep], [step_inv]). *)
From Fibre Require Import Common.Base Chan.Rendezvous.

Ltac deq a b := destruct (N.eqb_spec a b); subst.

Section Assoc.
Context {A : Type}.
Implicit Types (m : list (N * A)) (g : A -> A).

Lemma aget_aupd k k' g m :
  aget k' (aupd k g m) = if N.eqb k k' then option_map g (aget k' m) else aget k' m.
Proof.
  induction m as [|[k0 a] t IH]; cbn [aget aupd].
  - destruct (N.eqb k k'); reflexivity.
  - destruct (N.eqb_spec k k0) as [E1|E1]; cbn [aget];
      destruct (N.eqb_spec k' k0) as [E2|E2]; subst;
      rewrite ?N.eqb_refl; try reflexivity; try exact IH.
    + destruct (N.eqb_spec k0 k'); [congruence | reflexivity].
    + destruct (N.eqb_spec k k0); [congruence | reflexivity].
Qed.

Lemma aget_aupd_eq k g m : aget k (aupd k g m) = option_map g (aget k m).
Proof. rewrite aget_aupd, N.eqb_refl. reflexivity. Qed.

Lemma aget_aupd_neq k k' g m : k <> k' -> aget k' (aupd k g m) = aget k' m.
Proof. intros H. rewrite aget_aupd. deq k k'; [congruence | reflexivity]. Qed.

Lemma keys_aupd k g m : map fst (aupd k g m) = map fst m.
Proof.
  induction m as [|[k0 a] t IH]; cbn [aupd map fst]; [reflexivity|].
  deq k k0; cbn [map fst]; [reflexivity | rewrite IH; reflexivity].
Qed.

Lemma aget_Some_In k a m : aget k m = Some a -> In (k, a) m.
Proof.
  induction m as [|[k0 a0] t IH]; cbn [aget]; intros H; [discriminate|].
  deq k k0.
  - inversion H; subst. left. reflexivity.
  - right. apply IH. exact H.
Qed.

Lemma aget_Some_key k a m : aget k m = Some a -> In k (map fst m).
Proof. intros H. apply aget_Some_In in H. apply (in_map fst) in H. exact H. Qed.

Lemma aget_None_key k m : aget k m = None <-> ~ In k (map fst m).
Proof.
  induction m as [|[k0 a0] t IH]; cbn [aget map fst].
  - split; auto.
  - deq k k0.
    + split; [discriminate | intros H; exfalso; apply H; left; reflexivity].
    + rewrite IH. split.
      * intros H [He|Hi]; [congruence | auto].
      * intros H Hi. apply H. right. exact Hi.
Qed.

Lemma In_aget k a m : NoDup (map fst m) -> In (k, a) m -> aget k m = Some a.
Proof.
  induction m as [|[k0 a0] t IH]; cbn [aget map fst]; intros Hn Hi; [contradiction|].
  inversion Hn as [|x l Hnot Hn']; subst.
  destruct Hi as [He|Hi].
  - inversion He; subst. rewrite N.eqb_refl. reflexivity.
  - deq k k0.
    + exfalso. apply Hnot. apply (in_map fst) in Hi. exact Hi.
    + apply IH; assumption.
Qed.

Lemma ahas_true k m : ahas k m = true <-> In k (map fst m).
Proof.
  unfold ahas. destruct (aget k m) eqn:E.
  - split; [intros _; eapply aget_Some_key; eauto | reflexivity].
  - split; [discriminate | intros H; apply aget_None_key in E; contradiction].
Qed.

Lemma ahas_false k m : ahas k m = false <-> ~ In k (map fst m).
Proof.
  rewrite <- ahas_true. destruct (ahas k m); split; intros H; try congruence;
    exfalso; apply H; reflexivity.
Qed.

Lemma aget_app k m m' :
  aget k (m ++ m') = match aget k m with Some a => Some a | None => aget k m' end.
Proof.
  induction m as [|[k0 a0] t IH]; cbn [aget app]; [reflexivity|].
  deq k k0; [reflexivity | exact IH].
Qed.

Lemma aget_adel_neq k k' m : k <> k' -> aget k' (adel k m) = aget k' m.
Proof.
  intros Hn. induction m as [|[k0 a0] t IH]; cbn [aget adel]; [reflexivity|].
  deq k k0.
  - deq k' k0; [congruence | reflexivity].
  - cbn [aget]. deq k' k0; [reflexivity | exact IH].
Qed.

Lemma keys_adel_incl k m x : In x (map fst (adel k m)) -> In x (map fst m).
Proof.
  induction m as [|[k0 a0] t IH]; cbn [adel map fst]; [auto|].
  deq k k0; cbn [map fst]; intros H.
  - right. exact H.
  - destruct H as [H|H]; [left; exact H | right; apply IH; exact H].
Qed.

Lemma keys_adel_nodup k m : NoDup (map fst m) -> NoDup (map fst (adel k m)).
Proof.
  induction m as [|[k0 a0] t IH]; cbn [adel map fst]; intros Hn; [constructor|].
  inversion Hn as [|x l Hnot Hn']; subst.
  deq k k0; [exact Hn'|].
  cbn [map fst]. constructor; [|apply IH; exact Hn'].
  intros Hi. apply Hnot. eapply keys_adel_incl. exact Hi.
Qed.

Lemma aget_adel_eq k m : NoDup (map fst m) -> aget k (adel k m) = None.
Proof.
  induction m as [|[k0 a0] t IH]; cbn [adel map fst]; intros Hn; [reflexivity|].
  inversion Hn as [|x l Hnot Hn']; subst.
  deq k k0.
  - apply aget_None_key. exact Hnot.
  - cbn [aget]. deq k k0; [congruence | apply IH; exact Hn'].
Qed.

Lemma keys_adel_notin k m : NoDup (map fst m) -> ~ In k (map fst (adel k m)).
Proof. intros Hn. apply aget_None_key. apply aget_adel_eq. exact Hn. Qed.

Lemma In_adel k k' a m : k <> k' -> In (k', a) m -> In (k', a) (adel k m).
Proof.
  intros Hne. induction m as [|[k0 a0] t IH]; cbn [adel]; [auto|].
  intros [He|Hi].
  - inversion He; subst. deq k k'; [congruence | left; reflexivity].
  - deq k k0; [exact Hi | right; apply IH; exact Hi].
Qed.

Lemma In_aupd_inv k g k' a m : In (k', a) (aupd k g m) -> In k' (map fst m).
Proof.
  intros H. apply (in_map fst) in H. rewrite keys_aupd in H. exact H.
Qed.

Lemma aupd_comm k k' g g' m : k <> k' -> aupd k g (aupd k' g' m) = aupd k' g' (aupd k g m).
Proof.
  intros Hne. induction m as [|[k0 a0] t IH]; cbn [aupd]; [reflexivity|].
  destruct (N.eqb_spec k' k0) as [E1|E1]; destruct (N.eqb_spec k k0) as [E2|E2]; cbn [aupd];
    try congruence; destruct (N.eqb_spec k' k0); destruct (N.eqb_spec k k0); congruence.
Qed.

Lemma adel_aupd k g m : adel k (aupd k g m) = adel k m.
Proof.
  induction m as [|[k0 a0] t IH]; cbn [adel aupd]; [reflexivity|].
  deq k k0; cbn [adel]; [rewrite N.eqb_refl; reflexivity|].
  destruct (N.eqb_spec k k0); [congruence | rewrite IH; reflexivity].
Qed.

Lemma adel_absent k m : aget k m = None -> adel k m = m.
Proof.
  induction m as [|[k0 a0] t IH]; cbn [adel aget]; [reflexivity|].
  deq k k0; [discriminate | intros H; rewrite (IH H); reflexivity].
Qed.
End Assoc.

(* queue records: values are waker ids *)
Lemma In_qrefresh f w f' w' q :
  In (f', w') (qrefresh f w q) -> In f' (map fst q).
Proof. unfold qrefresh. apply In_aupd_inv. Qed.

Lemma qhas_true f q : qhas f q = true <-> In f (map fst q).
Proof. unfold qhas. apply ahas_true. Qed.

Lemma qhas_false f q : qhas f q = false <-> ~ In f (map fst q).
Proof. unfold qhas. apply ahas_false. Qed.

Lemma qhas_In f w (q : list (N * N)) : In (f, w) q -> qhas f q = true.
Proof. intros H. apply qhas_true. apply (in_map fst) in H. exact H. Qed.

Lemma fut_disc_idem r : fut_disc (fut_disc r) = fut_disc r.
Proof. reflexivity. Qed.

Lemma aget_disc_all f q m :
  aget f (disc_all q m) = if qhas f q then option_map fut_disc (aget f m) else aget f m.
Proof.
  revert m. induction q as [|[g w] t IH]; intros m; cbn [disc_all].
  - reflexivity.
  - rewrite IH. rewrite aget_aupd. unfold qhas, ahas. cbn [aget].
    deq f g.
    + rewrite N.eqb_refl. destruct (aget g t); destruct (aget g m); reflexivity.
    + deq g f; [congruence | reflexivity].
Qed.

Lemma keys_disc_all q m : map fst (disc_all q m) = map fst m.
Proof.
  revert m. induction q as [|[g w] t IH]; intros m; cbn [disc_all]; [reflexivity|].
  rewrite IH. apply keys_aupd.
Qed.

(** the structural invariant (it does not mention the two counters) *)
Section WFdef.
Variables (H : list (N * handle)) (F : list (N * fut)) (SQ RQ : list (N * N)).

Definition sq_ok : Prop := forall f w, In (f, w) SQ ->
  exists r, aget f F = Some r /\ f_side r = Tx /\ f_reg r = true /\ f_st r = WAITING
            /\ f_cell r = Some (f_val r).

Definition rq_ok : Prop := forall f w, In (f, w) RQ ->
  exists r, aget f F = Some r /\ f_side r = Rx /\ f_reg r = true /\ f_st r = WAITING
            /\ f_cell r = None.

Definition fut_ok (f : N) (r : fut) : Prop :=
  match f_side r with
  | Tx => (f_cell r = None \/ f_cell r = Some (f_val r))
          /\ (f_reg r = true -> f_st r = WAITING -> qhas f SQ = true)
  | Rx => (forall v, f_cell r = Some v -> f_st r = DONE /\ f_reg r = true)
          /\ (f_reg r = true -> f_st r = DONE -> f_cell r <> None)
  end
  /\ (exists hd, aget (f_h r) H = Some hd /\ h_side hd = f_side r).

Record WFc : Prop := mkWF {
  wf_fs : NoDup (map fst F);
  wf_hs : NoDup (map fst H);
  wf_sqk : NoDup (map fst SQ);
  wf_rqk : NoDup (map fst RQ);
  wf_sq : sq_ok;
  wf_rq : rq_ok;
  wf_excl : SQ = [] \/ RQ = [];
  wf_fut : forall f r, aget f F = Some r -> fut_ok f r;
}.
End WFdef.

Definition WF (s : state) : Prop := WFc (hs s) (fs s) (sq s) (rq s).

Lemma WF_init a : WF (init a).
Proof.
  constructor; cbn.
  - constructor.
  - repeat constructor; cbn; intuition congruence.
  - constructor.
  - constructor.
  - intros f w [].
  - intros f w [].
  - left. reflexivity.
  - intros f r H. discriminate.
Qed.

(** every step is one of the following transitions.  The case analysis of [step] is done here,
    once; each theorem about all steps goes through [step_inv].  A transition carries the guards
    that some theorem needs, not all that the code tests. *)
Definition send_op (blocking : bool) (h v : N) : op := if blocking then Send h v else TrySend h v.
Definition recv_op (k : rkind) (h : N) : op :=
  match k with RTry => TryRecv h | RBlock => Recv h | RTimeout0 => RecvTimeout0 h end.

Definition mark_closed (s : state) (h : N) : state := set_hs s (aupd h h_close (hs s)).

(* drop_sender / drop_receiver *)
Inductive closes (s : state) : side -> state -> out -> list ev -> Prop :=
| C_panic (sd : side) (Hz : match sd with Tx => scnt s | Rx => rcnt s end = 0) : closes s sd s OPanic []
| C_dec_tx (Hz : scnt s <> 0) : closes s Tx (set_scnt s (N.pred (scnt s))) OOk []
| C_dec_rx (Hz : rcnt s <> 0) : closes s Rx (set_rcnt s (N.pred (rcnt s))) OOk []
| C_last_tx (Hz : scnt s <> 0) :
    closes s Tx (mkS (hs s) (disc_all (rq s) (fs s)) (sq s) [] (N.pred (scnt s)) (rcnt s)) OOk (wakes_of (rq s))
| C_last_rx (Hz : rcnt s <> 0) :
    closes s Rx (mkS (hs s) (disc_all (sq s) (fs s)) [] (rq s) (scnt s) (N.pred (rcnt s))) OOk (wakes_of (sq s)).

(* The hypotheses are named: [destruct] hands these names to the case at hand. *)
Inductive tstep (c : cfg) (s : state) : op -> state -> out -> list ev -> Prop :=
| T_na o : tstep c s o s ONa []
| T_block o : tstep c s o s OBlock []
| T_send_fail (b : bool) h v r (Ho : if b then r = OClosed else r = OClosedV v \/ r = OFull v) :
    tstep c s (send_op b h v) s r [EIntro v; if b then EDropArg v else EBack v]
| T_handoff b h hd v g w rest
    (Hl : h_live_side s h Tx = Some hd) (Hcl : h_closed hd = false) (Hrq : rq s = (g, w) :: rest) :
    tstep c s (send_op b h v) (handoff_to_receiver s g w rest v) OOk
          [EIntro v; EOffer v; EHand v; EAck v; EWake w]
| T_recv_fail k h r (Ho : r = OEmpty \/ r = ODisc) : tstep c s (recv_op k h) s r []
| T_take o r g w rest rg v
    (Hsq : sq s = (g, w) :: rest) (Hg : aget g (fs s) = Some rg) (Hc : f_cell rg = Some v)
    (Ho : (exists k h, o = recv_op k h /\ r = OVal v) \/ (exists f w', o = Poll f w' /\ r = OReadyVal v)) :
    tstep c s o (mkS (hs s) (aupd g (fut_done None) (fs s)) rest (rq s) (scnt s) (rcnt s)) r
          [EHand v; ERecv v; EWake w]
| T_take_panic o (Hsq : sq s <> []) (Ht : take_from_sender s = None)
    (Ho : (exists k h, o = recv_op k h) \/ (exists f w, o = Poll f w)) : tstep c s o s OPanic []
| T_timeout h : tstep c s (RecvTimeout0 h) (set_rq s (if multi_rx c then rq s else [])) OTimeout []
| T_close_err h : tstep c s (Close h) s OCloseErr []
| T_close h hd s' r e
    (Hh : aget h (hs s) = Some hd) (Hcl : h_closed hd = false)
    (Hk : closes (mark_closed s h) (h_side hd) s' r e) :
    tstep c s (Close h) s' r e
| T_droph_closed h hd
    (Hh : aget h (hs s) = Some hd) (Hcl : h_closed hd = true) (Hb : borrowed s h = false) :
    tstep c s (DropH h) (set_hs s (adel h (hs s))) ONone []
| T_droph h hd s1 r e
    (Hh : aget h (hs s) = Some hd) (Hcl : h_closed hd = false) (Hb : borrowed s h = false)
    (Hk : closes (mark_closed s h) (h_side hd) s1 r e) :
    tstep c s (DropH h) (set_hs s1 (adel h (hs s1))) (match r with OPanic => OPanic | _ => ONone end) e
| T_clone_closed h h' hd
    (Hh : aget h (hs s) = Some hd) (Hh' : ahas h' (hs s) = false)
    (Hf : fix_clone c = true) (Hcl : h_closed hd = true) :
    tstep c s (Clone h h') (set_hs s (hs s ++ [(h', mkH (h_side hd) (h_async hd) true)])) ONone []
| T_clone_open h h' hd
    (Hh : aget h (hs s) = Some hd) (Hh' : ahas h' (hs s) = false)
    (Hf : fix_clone c && h_closed hd = false) :
    tstep c s (Clone h h')
          (match h_side hd with
           | Tx => set_scnt (set_hs s (hs s ++ [(h', mkH (h_side hd) (h_async hd) false)])) (N.succ (scnt s))
           | Rx => set_rcnt (set_hs s (hs s ++ [(h', mkH (h_side hd) (h_async hd) false)])) (N.succ (rcnt s))
           end) ONone []
| T_conv h hd (Hh : aget h (hs s) = Some hd) (Hb : borrowed s h = false) :
    tstep c s (Conv h)
          (set_hs s (aupd h (fun x => mkH (h_side x) (negb (h_async x))
                                         (if fix_conv c then h_closed x else false)) (hs s))) ONone []
| T_obs h hd (Hh : aget h (hs s) = Some hd) :
    tstep c s (Obs h) s
          (OObs (match h_side hd with Tx => N.eqb (rcnt s) 0 | Rx => N.eqb (scnt s) 0 end) 0 true true 0) []
| T_mksend f h hd v (Hl : h_live_side s h Tx = Some hd) (Hn : ahas f (fs s) = false) :
    tstep c s (MkSend f h v) (set_fs s (fs s ++ [(f, mkF Tx h (Some v) WAITING false v false)])) ONone [EIntro v]
| T_mkrecv f h hd (Hl : h_live_side s h Rx = Some hd) (Hn : ahas f (fs s) = false) :
    tstep c s (MkRecv f h) (set_fs s (fs s ++ [(f, mkF Rx h None WAITING false 0 false)])) ONone []
| T_poll_same f w r (Ho : r = OReadyOk \/ r = OReadyClosed \/ r = OReadyDisc) : tstep c s (Poll f w) s r []
| T_poll_handoff f w r0 v g w' rest
    (Hg : aget f (fs s) = Some r0) (Hsd : f_side r0 = Tx) (Hr : f_reg r0 = false) (Hc : f_cell r0 = Some v)
    (Hf : fix_fut c && handle_closed s (f_h r0) = false) (Hrq : rq s = (g, w') :: rest) :
    tstep c s (Poll f w)
          (mkS (hs s) (aupd g (fut_done (Some v)) (aupd f fut_sent (fs s))) (sq s) rest (scnt s) (rcnt s))
          OReadyOk [EOffer v; EHand v; EAck v; EWake w']
| T_park_tx f w r0 v
    (Hg : aget f (fs s) = Some r0) (Hsd : f_side r0 = Tx) (Hr : f_reg r0 = false) (Hc : f_cell r0 = Some v)
    (Hf : fix_fut c && handle_closed s (f_h r0) = false) (Hrq : rq s = []) :
    tstep c s (Poll f w) (mkS (hs s) (aupd f fut_park (fs s)) (sq s ++ [(f, w)]) (rq s) (scnt s) (rcnt s))
          OPending [EOffer v]
| T_park_rx f w r0
    (Hg : aget f (fs s) = Some r0) (Hsd : f_side r0 = Rx) (Hr : f_reg r0 = false)
    (Hsq : sq s = []) (Hz : scnt s <> 0) :
    tstep c s (Poll f w)
          (mkS (hs s) (aupd f fut_park (fs s)) (sq s) (push_receiver c f w (rq s)) (scnt s) (rcnt s))
          OPending []
| T_repoll_tx f w r0
    (Hg : aget f (fs s) = Some r0) (Hsd : f_side r0 = Tx) (Hr : f_reg r0 = true) (Hst : f_st r0 = WAITING)
    (Hq : qhas f (sq s) = true) :
    tstep c s (Poll f w) (mkS (hs s) (aupd f fut_repoll (fs s)) (qrefresh f w (sq s)) (rq s) (scnt s) (rcnt s))
          OPending []
| T_repoll_rx f w r0
    (Hg : aget f (fs s) = Some r0) (Hsd : f_side r0 = Rx) (Hr : f_reg r0 = true) (Hst : f_st r0 = WAITING)
    (Hq : qhas f (rq s) = true) :
    tstep c s (Poll f w) (mkS (hs s) (aupd f fut_repoll (fs s)) (sq s) (qrefresh f w (rq s)) (scnt s) (rcnt s))
          OPending []
| T_unreg f w r0
    (Hg : aget f (fs s) = Some r0) (Hr : f_reg r0 = true) (Hst : f_st r0 <> DONE)
    (Hq : f_st r0 = WAITING -> qhas f (match f_side r0 with Tx => sq s | Rx => rq s end) = false) :
    tstep c s (Poll f w) (set_fs s (aupd f (fut_unreg (f_cell r0)) (fs s)))
          (match f_side r0 with Tx => OReadyClosed | Rx => OReadyDisc end) []
| T_unreg_ack f w r0
    (Hg : aget f (fs s) = Some r0) (Hsd : f_side r0 = Tx) (Hr : f_reg r0 = true) (Hst : f_st r0 = DONE) :
    tstep c s (Poll f w) (set_fs s (aupd f (fut_unreg (f_cell r0)) (fs s))) OReadyOk [EAck (f_val r0)]
| T_unreg_val f w r0 v
    (Hg : aget f (fs s) = Some r0) (Hsd : f_side r0 = Rx) (Hr : f_reg r0 = true) (Hst : f_st r0 = DONE)
    (Hc : f_cell r0 = Some v) :
    tstep c s (Poll f w) (set_fs s (aupd f (fut_unreg None) (fs s))) (OReadyVal v) [ERecv v]
| T_poll_panic f w r0
    (Hg : aget f (fs s) = Some r0) (Hsd : f_side r0 = Rx) (Hr : f_reg r0 = true) (Hst : f_st r0 = DONE)
    (Hc : f_cell r0 = None) :
    tstep c s (Poll f w) s OPanic []
| T_dropf f r0 (Hg : aget f (fs s) = Some r0) :
    tstep c s (DropF f) (fst (fst (drop_fut s f r0))) ONone (drop_cell_ev r0).

Lemma closes_inv s h hd s' r e :
  h_closed hd = false -> do_close s h hd = (s', r, e) -> closes (mark_closed s h) (h_side hd) s' r e.
Proof.
  unfold do_close. intros -> Hs. fold (mark_closed s h) in Hs.
  destruct (h_side hd); [unfold core_drop_sender in Hs|unfold core_drop_receiver in Hs].
  - destruct (N.eqb_spec (scnt (mark_closed s h)) 0) as [Z|Z]; [inversion Hs; subst; apply (C_panic _ Tx Z)|].
    destruct (N.eqb (N.pred (scnt (mark_closed s h))) 0); inversion Hs; subst;
      [apply (C_last_tx _ Z)|apply (C_dec_tx _ Z)].
  - destruct (N.eqb_spec (rcnt (mark_closed s h)) 0) as [Z|Z]; [inversion Hs; subst; apply (C_panic _ Rx Z)|].
    destruct (N.eqb (N.pred (rcnt (mark_closed s h))) 0); inversion Hs; subst;
      [apply (C_last_rx _ Z)|apply (C_dec_rx _ Z)].
Qed.

Lemma core_send_inv c b s h hd v s' r e :
  h_live_side s h Tx = Some hd -> h_closed hd = false -> core_send b s v = (s', r, e) ->
  tstep c s (send_op b h v) s' r (if b then match r with OBlock => [] | _ => EIntro v :: e end else EIntro v :: e).
Proof.
  intros Hl Hc Hs. unfold core_send in Hs. destruct (N.eqb (rcnt s) 0).
  - destruct b; inversion Hs; subst; [apply (T_send_fail c _ true)|apply (T_send_fail c _ false)]; auto.
  - destruct (rq s) as [|[g w] rest] eqn:Hrq.
    + destruct b; inversion Hs; subst; [apply T_block|apply (T_send_fail c _ false); auto].
    + destruct b; inversion Hs; subst; eapply T_handoff; eauto.
Qed.

(* try_recv, recv, recv_timeout(0): the wrappers differ only in the sync-handle test *)
Lemma recv_inv c k s h s' r e : step c s (recv_op k h) = (s', r, e) -> tstep c s (recv_op k h) s' r e.
Proof.
  intros Hs.
  assert (Hk : core_recv c k s = (s', r, e) \/ (s', r, e) = (s, ONa, []) \/ (s', r, e) = (s, ODisc, [])).
  { destruct k; cbn [recv_op step] in Hs; destruct (h_live_side s h Rx) as [hd|]; auto;
      try (destruct (h_async hd); [auto|]); destruct (h_closed hd); auto. }
  destruct Hk as [Hk|[Hk|Hk]]; [clear Hs|inversion Hk; apply T_na|inversion Hk; apply T_recv_fail; auto].
  unfold core_recv in Hk. rename Hk into Hs. destruct (sq s) as [|[g w] rest] eqn:Hsq.
  - destruct (N.eqb (scnt s) 0); [inversion Hs; subst; apply T_recv_fail; auto|].
    destruct k; inversion Hs; subst; [apply (T_recv_fail c _ RTry); auto|apply T_block|apply T_timeout].
  - unfold take_from_sender in Hs. rewrite Hsq in Hs.
    destruct (aget g (fs s)) as [rg|] eqn:Hg; [destruct (f_cell rg) as [v|] eqn:Hc|]; inversion Hs; subst;
      try (eapply T_take; eauto);
      (apply T_take_panic; [congruence|unfold take_from_sender; rewrite Hsq, Hg, ?Hc; reflexivity|eauto]).
Qed.

Theorem step_inv c s o s' r e : step c s o = (s', r, e) -> tstep c s o s' r e.
Proof.
  intros Hs. destruct o; cbn [step] in Hs.
  - destruct (h_live_side s h Tx) as [hd|] eqn:Hl; [|inversion Hs; apply T_na].
    destruct (h_closed hd) eqn:Hc; [inversion Hs; apply (T_send_fail c s' false); auto|].
    destruct (core_send false s v) as [[s1 r1] e1] eqn:Hk. inversion Hs; subst.
    exact (core_send_inv c false _ _ _ _ _ _ _ Hl Hc Hk).
  - destruct (h_live_side s h Tx) as [hd|] eqn:Hl; [|inversion Hs; apply T_na].
    destruct (h_async hd); [inversion Hs; apply T_na|].
    destruct (h_closed hd) eqn:Hc; [inversion Hs; apply (T_send_fail c s' true); auto|].
    destruct (core_send true s v) as [[s1 r1] e1] eqn:Hk. inversion Hs; subst.
    exact (core_send_inv c true _ _ _ _ _ _ _ Hl Hc Hk).
  - exact (recv_inv c RTry _ _ _ _ _ Hs).
  - exact (recv_inv c RBlock _ _ _ _ _ Hs).
  - exact (recv_inv c RTimeout0 _ _ _ _ _ Hs).
  - destruct (aget h (hs s)) as [hd|] eqn:Hg; [|inversion Hs; apply T_na].
    destruct (h_closed hd) eqn:Hc.
    + unfold do_close in Hs. rewrite Hc in Hs. inversion Hs. apply T_close_err.
    + eapply T_close; eauto using closes_inv.
  - destruct (aget h (hs s)) as [hd|] eqn:Hg; [|inversion Hs; apply T_na].
    destruct (borrowed s h) eqn:Hb; [inversion Hs; apply T_na|].
    destruct (do_close s h hd) as [[s1 r1] e1] eqn:Hk. inversion Hs; subst.
    destruct (h_closed hd) eqn:Hc.
    + unfold do_close in Hk. rewrite Hc in Hk. inversion Hk; subst. eapply T_droph_closed; eauto.
    + eapply T_droph; eauto using closes_inv.
  - destruct (aget h (hs s)) as [hd|] eqn:Hg; [|inversion Hs; apply T_na].
    destruct (ahas h' (hs s)) eqn:Hh; [inversion Hs; apply T_na|].
    destruct (negb _); [inversion Hs; apply T_na|].
    destruct (fix_clone c && h_closed hd) eqn:Hf; inversion Hs; subst.
    + apply andb_true_iff in Hf. destruct Hf. eapply T_clone_closed; eauto.
    + eapply T_clone_open; eauto.
  - destruct (aget h (hs s)) as [hd|] eqn:Hg; [|inversion Hs; apply T_na].
    destruct (borrowed s h) eqn:Hb; inversion Hs; subst; [apply T_na|eapply T_conv; eauto].
  - destruct (aget h (hs s)) as [hd|] eqn:Hg; inversion Hs; subst; [eapply T_obs; eauto|apply T_na].
  - destruct (h_live_side s h Tx) as [hd|] eqn:Hl; [|inversion Hs; apply T_na].
    destruct (negb (h_async hd) || ahas f (fs s)) eqn:Hc; inversion Hs; subst; [apply T_na|].
    apply orb_false_iff in Hc. eapply T_mksend; [exact Hl|apply Hc].
  - destruct (h_live_side s h Rx) as [hd|] eqn:Hl; [|inversion Hs; apply T_na].
    destruct (negb (h_async hd) || ahas f (fs s)) eqn:Hc; inversion Hs; subst; [apply T_na|].
    apply orb_false_iff in Hc. eapply T_mkrecv; [exact Hl|apply Hc].
  - destruct (aget f (fs s)) as [r0|] eqn:Hg; [|inversion Hs; apply T_na].
    destruct (f_side r0) eqn:Hsd; [unfold poll_send in Hs|unfold poll_recv in Hs]; destruct (f_reg r0) eqn:Hr.
    + destruct (f_st r0) eqn:Hst; [destruct (qhas f (sq s)) eqn:Hq|..]; inversion Hs; subst;
        try (eapply T_repoll_tx; eauto; fail); try (eapply T_unreg_ack; eauto; fail);
        pose proof (T_unreg c s f w r0 Hg Hr) as T; rewrite Hsd in T; apply T; congruence.
    + destruct (f_cell r0) as [v|] eqn:Hc; [|inversion Hs; apply T_poll_same; auto].
      destruct (fix_fut c && handle_closed s (f_h r0)) eqn:Hf; [inversion Hs; apply T_poll_same; auto|].
      destruct (N.eqb (rcnt s) 0); [inversion Hs; apply T_poll_same; auto|].
      destruct (rq s) as [|[g w'] rest] eqn:Hrq; inversion Hs; subst; [|eapply T_poll_handoff; eauto].
      pose proof (T_park_tx c s f w r0 v Hg Hsd Hr Hc Hf Hrq) as T. rewrite Hrq in T. exact T.
    + destruct (f_st r0) eqn:Hst; [destruct (qhas f (rq s)) eqn:Hq|destruct (f_cell r0) eqn:Hc|..];
        inversion Hs; subst;
        try (eapply T_repoll_rx; eauto; fail); try (eapply T_unreg_val; eauto; fail);
        try (eapply T_poll_panic; eauto; fail);
        pose proof (T_unreg c s f w r0 Hg Hr) as T; rewrite Hsd in T; apply T; congruence.
    + destruct (fix_fut c && handle_closed s (f_h r0)); [inversion Hs; apply T_poll_same; auto|].
      destruct (sq s) as [|[g w'] rest] eqn:Hsq.
      * destruct (N.eqb_spec (scnt s) 0) as [Z|Z]; inversion Hs; subst; [apply T_poll_same; auto|].
        pose proof (T_park_rx c s f w r0 Hg Hsd Hr Hsq Z) as T. rewrite Hsq in T. exact T.
      * unfold take_from_sender in Hs. rewrite Hsq in Hs.
        destruct (aget g (fs s)) as [rg|] eqn:Hgg; [destruct (f_cell rg) as [v|] eqn:Hc|]; inversion Hs; subst;
          try (eapply T_take; eauto);
          (apply T_take_panic; [congruence|unfold take_from_sender; rewrite Hsq, Hgg, ?Hc; reflexivity|eauto]).
  - destruct (aget f (fs s)) as [r0|] eqn:Hg; [|inversion Hs; apply T_na].
    unfold drop_fut in Hs. inversion Hs. apply (T_dropf c s f r0 Hg).
Qed.
