(* Proofs/TicketK3Cons.v — SInv is preserved by the state changes of the consumer steps. *)
From Fibre Require Import Common.Base Common.Conc Chan.TicketK3 Proofs.TicketK3Base.
From Coq Require Import ZifyBool ZifyNat ZifyN Arith.

Lemma dataof_not_cursor tkf pcf sq tak hp hp' t :
  t <> hp -> dataof tkf pcf sq tak hp t = dataof tkf pcf sq false hp' t.
Proof.
  intros H. unfold dataof. destruct (tkf t); try reflexivity.
  destruct (N.eqb_spec t hp); [contradiction|]. rewrite Bool.andb_false_r. reflexivity.
Qed.

Section Cons.
Variables cap cc n : N.
Hypothesis Hcc : 0 < cc.
Hypothesis Hn : 0 < n.

(* ------------------------------------------------------------ D2: consumer_retired.store(cid + 1) *)
Lemma SInv_retire s d :
  SInv cap cc n s -> cpc s = CD2 d ->
  SInv cap cc n (set_cpc (set_hidx (set_hcid (set_retired s (hcid s + 1)) (hcid s + 1)) 0) (CD1 d)).
Proof.
  intros I Epc. pose proof I as [A1 A2 A3 A4 A5 A6 B1 B2 B3 P D T Es Ed R C Bd].
  rewrite Epc in C. cbn [CInv] in C. destruct C as [C1 C2].
  constructor; st_goal; try assumption; try reflexivity.
  - nia.
  - lia.
  - intros th. apply (PInv_mono cap cc n (hpos s) _ (retired s)); [lia | lia | apply P].
  - rewrite Epc in Ed. exact Ed.
Qed.

(* ------------------------------------------------------------ D4: the payload take *)
Lemma SInv_take s d :
  SInv cap cc n s -> cpc s = CD4 d ->
  exists v, sdata s (hslot cc n s) = Some v /\ tk s (hpos s) = TSet v /\
  SInv cap cc n (set_cpc (set_chand (set_received (set_sdata s (updN (sdata s) (hslot cc n s) None))
                                                  (received s ++ [v])) (chand s ++ [v])) (CD5 d true)).
Proof.
  intros I Epc. pose proof I as [A1 A2 A3 A4 A5 A6 B1 B2 B3 P D T Es Ed R C Bd].
  rewrite Epc in C. cbn [CInv] in C. destruct C as [C1 [C2 C3]].
  destruct (cursor_slot cap cc n Hcc Hn s I C1 C2) as [S1 S2]. fold (hslot cc n s) in C3. rewrite C3 in S1.
  destruct (cursor_resident cap cc n Hcc s I C1 C2) as [Hres Hsl].
  destruct (tk s (hpos s)) as [| |v|] eqn:Etk; try discriminate S1.
  exists v. unfold dataof in S2. rewrite Etk, Epc in S2. cbn [taken andb] in S2.
  split; [exact S2|]. split; [reflexivity|].
  constructor; st_goal; try assumption.
  - rewrite <- Hsl. apply (cells_change cc n Hcc Hn _ _ _ T _ _ _ _ (hpos s) Ed (N.le_refl _) Hres).
    + rewrite updN_eq. unfold dataof. rewrite Etk, N.eqb_refl. reflexivity.
    + intros q Hq. apply updN_neq. exact Hq.
    + intros t Hne. rewrite Epc. apply dataof_not_cursor. exact Hne.
  - cbn [CInv]. repeat split; assumption.
Qed.

(* ------------------------------------------------------------ D5: state.store(EMPTY), cursor advance *)
Lemma SInv_advance s d b u p :
  SInv cap cc n s -> cpc s = CD5 d b -> taken p = false ->
  CInv cc n (ids s) (updN (sstate s) (hslot cc n s) sEMPTY) (hcid s) (hidx s + 1) p ->
  SInv cap cc n (set_cpc (set_unpub (set_hpos (set_hidx (set_sstate s (updN (sstate s) (hslot cc n s) sEMPTY))
                                                        (hidx s + 1)) (hpos s + 1)) u) p).
Proof.
  intros I Epc Htk Hp. pose proof I as [A1 A2 A3 A4 A5 A6 B1 B2 B3 P D T Es Ed R C Bd].
  rewrite Epc in C.
  assert (C' : ids s (ent n (hcid s)) = hcid s /\ hidx s < cc /\ sstate s (hslot cc n s) = (if b then sSET else sSKIP)).
  { destruct b; cbn [CInv] in C; exact C. }
  clear C. destruct C' as [C1 [C2 C3]].
  destruct (cursor_slot cap cc n Hcc Hn s I C1 C2) as [S1 S2]. rewrite C3 in S1.
  destruct (cursor_resident cap cc n Hcc s I C1 C2) as [Hres Hsl].
  assert (Hw : code (tk s (hpos s)) <> sEMPTY) by (rewrite <- S1; destruct b; discriminate).
  assert (Hlt : hpos s < gtail s).
  { destruct (N.lt_ge_cases (hpos s) (gtail s)) as [L|L]; [exact L|]. apply B1 in L. rewrite L in Hw. exfalso. apply Hw. reflexivity. }
  assert (Hd : sdata s (hslot cc n s) = None).
  { rewrite S2. unfold dataof. rewrite Epc. destruct (tk s (hpos s)) as [| |v|] eqn:Etk; try reflexivity.
    - exfalso. apply Hw. reflexivity.
    - destruct b; [cbn [taken andb]; rewrite N.eqb_refl; reflexivity | discriminate S1]. }
  constructor; st_goal; try assumption.
  - lia.
  - lia.
  - lia.
  - lia.
  - lia.
  - intros t L. destruct (N.eq_dec t (hpos s)) as [->|Hne]; [exact Hw | apply B2; lia].
  - intros th. apply (PInv_mono cap cc n (hpos s) _ (retired s)); [lia | lia | apply P].
  - intros t v Ht L. specialize (D t v Ht). lia.
  - rewrite <- Hsl. apply (cells_next cc n Hcc Hn _ _ _ T _ _ _ _ Es Hres); [apply updN_eq | | reflexivity].
    intros q Hq. apply updN_neq. exact Hq.
  - rewrite Htk. apply (cells_next cc n Hcc Hn _ _ _ T _ _ _ _ Ed Hres); [rewrite Hsl; exact Hd | reflexivity |].
    intros t L. symmetry. apply dataof_not_cursor. lia.
  - intros t L. apply R. lia.
Qed.

End Cons.
