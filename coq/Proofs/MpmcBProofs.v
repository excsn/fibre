(* Property-level theorems of the bounded-MPMC K2 model (C01–C04, C06, C09),
   derived from the invariant of Proofs/MpmcBInv.v (preserved by every step: Proofs/MpmcBStep.v). *)
From Fibre Require Import Common.Base Chan.MpmcB Proofs.MpmcBBase Proofs.MpmcBInv Proofs.MpmcBStep.
From Coq Require Import ZifyBool ZifyNat ZifyN.

(* Four relations, each weaker than the one before, over the seven fields the properties speak of:
     quiet   fx, cap kept, taints only raised, and sc, q, recvd, acc kept (every waking / marking / cancelling helper);
     calm    the same, but sc may drop (close);
     cfg     only the first line: fx, cap kept, taints only raised (every step);
     np      sc does not grow and q is kept or loses its head to recvd (every step [pushing] is false for).
   The field-by-field frame of MpmcBInv.v ([frame b]) gives quiet for the wake primitives. *)
Definition cfg (s s' : st) : Prop := fx s' = fx s /\ cap s' = cap s /\ tle (tn s) (tn s').

Definition quiet (s s' : st) : Prop :=
  cfg s s' /\ sc s' = sc s /\ q s' = q s /\ recvd s' = recvd s /\ acc s' = acc s.

Lemma cfg_refl s : cfg s s.
Proof. split; [reflexivity | split; [reflexivity | apply tle_refl]]. Qed.

Lemma cfg_same s s' : (fx s', cap s', tn s') = (fx s, cap s, tn s) -> cfg s s'.
Proof. intros E. injection E as E1 E2 E3. split; [exact E1 | split; [exact E2|]]. rewrite E3. apply tle_refl. Qed.

Lemma cfg_trans a b c : cfg a b -> cfg b c -> cfg a c.
Proof. intros (A & B & T1) (C & D & T2). split; [congruence | split; [congruence | eapply tle_trans; eauto]]. Qed.

Lemma quiet_same s s' :
  (fx s', cap s', tn s', sc s', q s', recvd s', acc s') = (fx s, cap s, tn s, sc s, q s, recvd s, acc s) -> quiet s s'.
Proof.
  intros E. injection E as E1 E2 E3 E4 E5 E6 E7. split; [|auto]. split; [exact E1 | split; [exact E2|]]. rewrite E3. apply tle_refl.
Qed.

Lemma quiet_refl s : quiet s s.
Proof. apply quiet_same. reflexivity. Qed.

Lemma quiet_trans a b c : quiet a b -> quiet b c -> quiet a c.
Proof.
  intros (C1 & A1 & A2 & A3 & A4) (C2 & B1 & B2 & B3 & B4). split; [eapply cfg_trans; eauto|]. repeat split; congruence.
Qed.

Lemma quiet_mark_bad b s : quiet s (mark_bad b s).
Proof. destruct b; apply quiet_same; reflexivity. Qed.

Definition raises (g : taints -> taints) : Prop := forall t, tle t (g t).

Lemma quiet_taint g b s : raises g -> quiet s (taint g b s).
Proof.
  intros Hg. destruct b; [|apply quiet_refl]. split; [|auto]. split; [reflexivity | split; [reflexivity | apply Hg]].
Qed.

Lemma quiet_wake_one b s : quiet s (wake_one b s).
Proof.
  destruct (wake_one_frame b s) as (A & B & C & D & _ & _ & _ & _ & E & F & _ & _ & _ & T & _).
  apply quiet_same. congruence.
Qed.

Lemma quiet_mark_all new l : forall s, quiet s (mark_all new l s).
Proof.
  induction l as [|[f w] t IH]; intros s; cbn [mark_all]; [apply quiet_refl|].
  destruct (getF f s) as [x|]; [|apply IH].
  destruct (is_waiting (f_state x)); [|apply IH].
  eapply quiet_trans; [|apply IH]. eapply quiet_trans; [|apply quiet_mark_bad]. apply quiet_same. reflexivity.
Qed.

Lemma quiet_cancel_reg f x s : quiet s (cancel_reg f x s).
Proof.
  unfold cancel_reg. destruct (f_reg x); [|apply quiet_refl].
  destruct (f_recv x); (destruct (is_success (f_state x)); [|apply quiet_same; reflexivity]);
    (match goal with |- context [fx12 ?a] => destruct (fx12 a) end;
       [|eapply quiet_trans; [|apply quiet_taint; exact tle_set_t12]; apply quiet_same; reflexivity]).
  - match goal with |- context [match q ?a with _ => _ end] => destruct (q a) end; [apply quiet_same; reflexivity|].
    eapply quiet_trans; [|apply (quiet_wake_one true)]. apply quiet_same. reflexivity.
  - match goal with |- context [is_full ?a] => destruct (is_full a) end; [apply quiet_same; reflexivity|].
    eapply quiet_trans; [|apply (quiet_wake_one false)]. apply quiet_same. reflexivity.
Qed.

Lemma quiet_hand_one_recv s : quiet s (hand_one_recv s).
Proof. eapply quiet_trans; [|apply (quiet_wake_one true)]. apply quiet_same. reflexivity. Qed.

Lemma quiet_wake_senders n : forall s, quiet s (wake_senders n s).
Proof.
  induction n as [|n IH]; intros s; cbn [wake_senders]; [apply quiet_refl|].
  eapply quiet_trans; [apply (quiet_wake_one false) | apply IH].
Qed.

Lemma try_send_core_shape v s :
  let r := try_send_core v s in
  cfg s (fst r) /\ sc (fst r) = sc s /\ recvd (fst r) = recvd s /\
  match snd r with
  | TsOk => q (fst r) = q s ++ [v] /\ acc (fst r) = acc s ++ [v]
  | _ => fst r = s
  end.
Proof.
  cbv zeta. unfold try_send_core. destruct (rc s =? 0); [cbn [fst snd]; split; [apply cfg_refl | auto]|].
  destruct (is_full s); [cbn [fst snd]; split; [apply cfg_refl | auto]|].
  cbn [fst snd]. rewrite wake_one_recv_is.
  destruct (quiet_wake_one true s) as (C & A1 & A2 & A3 & A4). unfold push. st_simpl.
  rewrite A1, A2, A3, A4. auto.
Qed.

Lemma try_recv_core_shape s :
  let r := try_recv_core s in
  cfg s (fst r) /\ sc (fst r) = sc s /\ acc (fst r) = acc s /\
  match snd r with
  | TrVal v => q s = v :: q (fst r) /\ recvd (fst r) = recvd s ++ [v]
  | TrEmpty => fst r = s /\ q s = [] /\ sc s <> 0
  | TrDisc => fst r = s /\ q s = [] /\ sc s = 0
  end.
Proof.
  cbv zeta. unfold try_recv_core. destruct (q s) as [|v t] eqn:E.
  - destruct (N.eqb_spec (sc s) 0); cbn [fst snd]; (split; [apply cfg_refl | auto]).
  - cbn [fst snd]. rewrite wake_one_send_is.
    destruct (quiet_wake_one false (with_recvd (recvd s ++ [v]) (with_q t s))) as (C & A1 & A2 & A3 & A4).
    split; [exact C|]. rewrite A1, A2, A3, A4. auto.
Qed.

Definition calm (s s' : st) : Prop :=
  cfg s s' /\ sc s' <= sc s /\ q s' = q s /\ recvd s' = recvd s /\ acc s' = acc s.

Lemma quiet_calm s s' : quiet s s' -> calm s s'.
Proof. intros (C & A1 & A2). split; [exact C|]. split; [lia | exact A2]. Qed.

Lemma calm_quiet a b c : calm a b -> quiet b c -> calm a c.
Proof.
  intros (C1 & A1 & A2 & A3 & A4) (C2 & B1 & B2 & B3 & B4). split; [eapply cfg_trans; eauto|].
  split; [lia|]. repeat split; congruence.
Qed.

Lemma calm_same s s' :
  (fx s', cap s', tn s', q s', recvd s', acc s') = (fx s, cap s, tn s, q s, recvd s, acc s) -> sc s' <= sc s -> calm s s'.
Proof.
  intros E Hs. injection E as E1 E2 E3 E4 E5 E6. split; [|auto]. split; [exact E1 | split; [exact E2|]]. rewrite E3. apply tle_refl.
Qed.

Lemma do_close_shape h x s : calm s (fst (do_close h x s)).
Proof.
  unfold do_close. destruct (h_closed x); [apply quiet_calm, quiet_refl|].
  assert (Hdec : forall n m, n <= sc s -> calm s (with_sc n (with_rc m (setH h (set_closed true x) s)))).
  { intros n m Hn. apply calm_same; [reflexivity | exact Hn]. }
  destruct (h_tx x).
  - unfold close_tx. cbn [sc setH with_hs]. destruct (sc s =? 0); [apply quiet_calm, quiet_same; reflexivity|].
    cbn [fst]. match goal with |- context [if ?c then _ else _] => destruct c end.
    + eapply calm_quiet; [|apply quiet_mark_all]. apply (Hdec (sc s - 1) (rc s)). lia.
    + apply (Hdec (sc s - 1) (rc s)). lia.
  - unfold close_rx. cbn [rc setH with_hs]. destruct (rc s =? 0); [apply quiet_calm, quiet_same; reflexivity|].
    cbn [fst]. set (s2 := with_rc (rc s - 1) (setH h (set_closed true x) s)).
    assert (H2 : calm s s2) by (apply (Hdec (sc s) (rc s - 1)); lia).
    destruct (rc s2 =? 0); [eapply calm_quiet; [exact H2 | apply quiet_mark_all]|].
    destruct (asq s2) as [|[f w] t]; [exact H2|]. destruct (getF f s2) as [y|]; [|exact H2].
    destruct (is_waiting (f_state y)); [|exact H2].
    eapply calm_quiet; [exact H2|]. eapply quiet_trans; [|apply quiet_mark_bad]. apply quiet_same. reflexivity.
Qed.

Lemma send_try_shape f w x s :
  let r := send_try f w x s in
  cfg s (fst r) /\ sc (fst r) = sc s /\ recvd (fst r) = recvd s /\ (q (fst r) = q s \/ exists v, q (fst r) = q s ++ [v]).
Proof.
  cbv zeta. unfold send_try. destruct (f_item x) as [v|]; [|cbn [fst]; split; [exact (cfg_refl s) | auto]].
  pose proof (try_send_core_shape v (setF f (set_item None x) s)) as P. cbv zeta in P.
  destruct (try_send_core v (setF f (set_item None x) s)) as [s1 r]. cbn [fst snd] in P. destruct P as (C & A & B & Q).
  destruct r; cbn [fst]; st_simpl; [destruct Q as [Q _]; rewrite A, B, Q; split; [exact C | eauto] | subst s1; split; [exact (cfg_refl s) | auto] ..].
Qed.

Lemma poll_send_shape f w x s :
  let r := poll_send f w x s in
  cfg s (fst r) /\ sc (fst r) = sc s /\ recvd (fst r) = recvd s /\ (q (fst r) = q s \/ exists v, q (fst r) = q s ++ [v]).
Proof.
  cbv zeta. unfold poll_send. destruct (f_reg x); [|apply send_try_shape].
  destruct (f_state x); [destruct (queued f (asq s)) | | | destruct (queued f (asq s))];
    try (cbn [fst]; split; [exact (cfg_refl s) | auto]).
  apply (send_try_shape f w (set_reg false x) (with_asq (remove_first f (asq s)) s)).
Qed.

(* the completion step of recv_try *)
Lemma quiet_finish f (b : bool) x s1 :
  quiet s1 (let s := setF f (set_done (set_reg false x)) s1 in
            if b then if fx06 (fx s) then with_arq (unlink f (arq s)) s else taint set_t06 (queued f (arq s)) s
            else s).
Proof.
  cbv zeta. destruct b; [|apply quiet_same; reflexivity].
  cbn [fx setF with_fs]. destruct (fx06 (fx s1)); [apply quiet_same; reflexivity|].
  eapply quiet_trans; [|apply quiet_taint; exact tle_set_t06]. apply quiet_same. reflexivity.
Qed.

(* what the result of a RecvFuture poll says, seen from state s: a value is the head of the queue; [D] is what
   Disconnected stands for *)
Definition recv_out (s : st) (r : st * res) (D : Prop) : Prop :=
  cfg s (fst r) /\ sc (fst r) = sc s /\
  match snd r with
  | RReadyVal v => q s = v :: q (fst r) /\ recvd (fst r) = recvd s ++ [v]
  | RReadyDisc => q (fst r) = q s /\ recvd (fst r) = recvd s /\ D
  | RPending => q (fst r) = q s /\ recvd (fst r) = recvd s /\ q s = [] /\ sc s <> 0
  | _ => False
  end.

Lemma recv_try_shape f w b x s : recv_out s (recv_try f w b x s) (q s = [] /\ sc s = 0).
Proof.
  unfold recv_out, recv_try. pose proof (try_recv_core_shape s) as P. cbv zeta in P.
  destruct (try_recv_core s) as [s1 [v| |]]; cbn [fst snd] in *; destruct P as (C & A & _ & P).
  - destruct (quiet_finish f b x s1) as (C1 & A1 & B1 & D1 & _). cbv zeta in *.
    split; [eapply cfg_trans; eauto|]. rewrite A1, B1, D1. auto.
  - destruct P as (-> & P2 & P3). destruct (queued f (arq s)); cbn [fst snd]; (split; [exact (cfg_refl s) | auto]).
  - destruct P as (-> & P2 & P3). destruct (quiet_finish f b x s) as (C1 & A1 & B1 & D1 & _). cbv zeta in *.
    split; [exact C1|]. rewrite A1, B1, D1. auto.
Qed.

(* RecvFuture::poll: Disconnected means drained and senderless, or the CLOSED-woken shortcut (F-08, tainting
   t08 exactly when the buffer was not empty) *)
Lemma poll_recv_shape f w x s :
  let r := poll_recv f w x s in
  recv_out s r ((q s = [] /\ sc s = 0) \/ (fx08 (fx s) = false /\ (q s <> [] -> t08 (tn (fst r)) = true))).
Proof.
  cbv zeta. unfold poll_recv.
  (* recv_try from s, or from s with f's entry unlinked *)
  assert (Hgen : forall b y s0 D, quiet s s0 -> recv_out s (recv_try f w b y s0) ((q s = [] /\ sc s = 0) \/ D)).
  { intros b y s0 D (C0 & A0 & B0 & D0 & _). destruct (recv_try_shape f w b y s0) as (C & A & P).
    split; [eapply cfg_trans; eauto|]. rewrite A, A0 in *. split; [reflexivity|].
    destruct (snd (recv_try f w b y s0)); try exact P; rewrite B0, D0 in P; try exact P.
    destruct P as (P1 & P2 & P3). auto. }
  destruct (f_reg x); [|apply Hgen, quiet_refl].
  destruct (f_state x); try apply Hgen, quiet_refl.
  cbn [fx with_arq]. destruct (fx08 (fx s)) eqn:E8; [apply Hgen, quiet_same; reflexivity|].
  unfold recv_out. cbn [fst snd]. set (s1 := with_arq (unlink f (arq s)) s).
  destruct (quiet_taint set_t08 (negb (lenq s1 =? 0)) s1 tle_set_t08) as (C & A & B & D & _).
  st_simpl. split; [exact C|]. rewrite A, B, D. repeat split. right. split; [reflexivity|].
  intros Hne. unfold taint. change (lenq s1) with (lenq s).
  destruct (lenq s =? 0) eqn:E0; [apply (lenq0 s) in E0; contradiction | reflexivity].
Qed.

Lemma send_loop_shape vs : forall s,
  let r := send_loop vs s in
  cfg s (fst r) /\ sc (fst r) = sc s /\ recvd (fst r) = recvd s /\
  exists sent, vs = sent ++ snd r /\ q (fst r) = q s ++ sent.
Proof.
  induction vs as [|v r IH]; intros s; cbn [send_loop]; cbv zeta.
  - cbn [fst snd]. split; [apply cfg_refl|]. repeat split. exists []. split; [reflexivity | symmetry; apply app_nil_r].
  - destruct (is_full s).
    + cbn [fst snd]. split; [apply cfg_refl|]. repeat split. exists []. split; [reflexivity | symmetry; apply app_nil_r].
    + destruct (IH (push v (hand_one_recv s))) as (C & A & B & sent & E1 & E2).
      destruct (quiet_hand_one_recv s) as (C1 & A1 & B1 & D1 & _). unfold push in *. st_simpl.
      split; [eapply cfg_trans; [exact C1 | exact C]|]. split; [congruence|]. split; [congruence|].
      exists (v :: sent). split; [cbn [app]; f_equal; exact E1|]. rewrite E2, B1, <- app_assoc. reflexivity.
Qed.

Definition np (s s' : st) : Prop :=
  sc s' <= sc s /\ (q s' = q s \/ exists v, q s = v :: q s' /\ recvd s' = recvd s ++ [v]) /\
  (q s' = q s -> recvd s' = recvd s).

(* the steps whose effect is not [np]: the ones that can append to the queue, and also Clone (the sender count may
   grow) and TryRecvBatch (several items may be popped); see [step_eff] for what each of them does instead *)
Definition pushing (o : op) : bool :=
  match o with
  | TrySend _ | Send _ | Poll _ _ | Clone _ _ | TrySendBatch _ _ _ | TryRecvBatch _ _ _ => true
  | _ => false
  end.

(* the send forms push only through an open sender handle *)
Definition send_eff (s : st) (h : N) (s' : st) : Prop :=
  sc s' = sc s /\ recvd s' = recvd s /\
  (q s' = q s \/ exists x, getH h s = Some x /\ h_live x = true /\ h_tx x = true /\ h_closed x = false).

Definition clone_eff (s : st) (h : N) (s' : st) : Prop :=
  q s' = q s /\ recvd s' = recvd s /\
  (sc s' = sc s \/ exists x, getH h s = Some x /\ h_live x = true /\ h_tx x = true
                             /\ (h_closed x = true -> fx33 (fx s) = false /\ t33 (tn s') = true)).

Definition poll_eff (s : st) (f : N) (s' : st) : Prop :=
  sc s' <= sc s /\
  ((q s' = q s /\ recvd s' = recvd s) \/ (exists v, q s = v :: q s' /\ recvd s' = recvd s ++ [v]) \/
   (exists x v, getF f s = Some x /\ f_recv x = false /\ f_live x = true /\ recvd s' = recvd s /\ q s' = q s ++ [v]
                /\ (handle_closed (f_h x) s = true -> fx03f (fx s) = false /\ t03f (tn s') = true))).

Definition drain_eff (s s' : st) : Prop :=
  sc s' = sc s /\ exists vs, q s = vs ++ q s' /\ recvd s' = recvd s ++ vs.

Definition step_eff (s : st) (o : op) (s' : st) : Prop :=
  match o with
  | TrySend h | Send h | TrySendBatch _ h _ => send_eff s h s'
  | Clone h _ => clone_eff s h s'
  | Poll f _ => poll_eff s f s'
  | TryRecvBatch _ _ _ => drain_eff s s'
  | _ => np s s'
  end.

Lemma np_calm s s' : calm s s' -> np s s'.
Proof. intros (_ & A & B & C & _). unfold np. rewrite B, C. auto. Qed.

Lemma np_after a b c : quiet a b -> np b c -> np a c.
Proof. intros (_ & A & B & C & _) (D & E & F). unfold np. rewrite <- A, <- B, <- C. auto. Qed.

(* a step that changes nothing any kind speaks of *)
Lemma eff_quiet s o s' : quiet s s' -> cfg s s' /\ step_eff s o s'.
Proof.
  intros Q. pose proof Q as (C & A1 & A2 & A3 & A4). split; [exact C|].
  destruct o; cbn [step_eff]; try apply np_calm, quiet_calm, Q; unfold send_eff, clone_eff, poll_eff, drain_eff; auto.
  - split; [lia | auto].
  - split; [exact A1|]. exists []. rewrite A2, A3, app_nil_r. auto.
Qed.

Lemma tn_taint b g s : tn (taint g b s) = if b then g (tn s) else tn s.
Proof. destruct b; reflexivity. Qed.

Lemma step_shape s o : cfg s (fst (step s o)) /\ step_eff s o (fst (step s o)).
Proof.
  unfold step. set (s1 := with_bad false (with_dk [] (with_wk [] s))).
  assert (Q1 : quiet s s1) by (apply quiet_same; reflexivity).
  pose proof (eff_quiet s o s1 Q1) as H1.
  (* the tail of the two single sends: [k] hands the payload back or destroys it *)
  assert (Hsend : forall h x (k : N -> st -> st) r0 r1 r2 r3,
            (forall v t, (fx (k v t), cap (k v t), tn (k v t), sc (k v t), q (k v t), recvd (k v t), acc (k v t))
                         = (fx t, cap t, tn t, sc t, q t, recvd t, acc t)) ->
            getH h s = Some x -> h_live x = true -> h_tx x = true ->
            let '(v, s2) := fresh s1 in
            let s' := fst (if h_closed x then ret (k v s2) r0
                           else match try_send_core v s2 with
                                | (s3, TsOk) => ret s3 r1 | (s3, TsFull) => ret (k v s3) r2 | (s3, TsClosed) => ret (k v s3) r3
                                end) in
            cfg s s' /\ send_eff s h s').
  { intros h x k r0 r1 r2 r3 Hk Hg Hl Htx. unfold fresh. cbv zeta. set (s2 := with_next (next s1 + 1) s1).
    assert (Hfail : cfg s (k (next s1) s2) /\ send_eff s h (k (next s1) s2)).
    { apply (eff_quiet s (TrySend h)). eapply quiet_trans; [|apply quiet_same, Hk]. apply quiet_same. reflexivity. }
    destruct (h_closed x) eqn:Hc; [exact Hfail|].
    pose proof (try_send_core_shape (next s1) s2) as P. cbv zeta in P.
    destruct (try_send_core (next s1) s2) as [s3 r]. cbn [fst snd] in P. destruct P as (C & A & B & P).
    destruct r; cbn [ret fst]; [|subst s3; exact Hfail ..].
    split; [exact C|]. split; [exact A|]. split; [exact B|]. right. exists x. auto. }
  (* the tail of the three single receives *)
  assert (Hrecv : forall s0 r1 r2 r3, quiet s s0 ->
            let s' := fst (match try_recv_core s0 with
                           | (s2, TrVal v) => ret s2 (r1 v) | (s2, TrEmpty) => ret s2 r2 | (s2, TrDisc) => ret s2 r3
                           end) in
            cfg s s' /\ np s s').
  { intros s0 r1 r2 r3 Q0. pose proof (try_recv_core_shape s0) as P. cbv zeta in *.
    destruct (try_recv_core s0) as [s2 r]. cbn [fst snd] in P. destruct P as (C & A & _ & P).
    assert (cfg s s2 /\ np s s2); [|destruct r; assumption].
    split; [eapply cfg_trans; [apply Q0 | exact C]|]. apply (np_after s s0 s2 Q0). unfold np. rewrite A. split; [lia|].
    destruct r as [v| |]; [|destruct P as [-> _]; auto ..]. destruct P as [P1 P2]. split; [right; eauto|].
    intros E. rewrite E in P1. apply (f_equal (@length N)) in P1. cbn [length] in P1. lia. }
  destruct o; cbn [step_eff] in *.
  - (* TrySend *)
    change (getH h s1) with (getH h s). destruct (getH h s) as [x|] eqn:Hg; [|exact H1].
    destruct (h_live x) eqn:Hl; cbn [negb]; [|exact H1]. destruct (h_tx x) eqn:Htx; cbn [negb]; [|exact H1].
    apply (Hsend h x give_back); auto.
  - (* TryRecv *)
    destruct (getH h s1) as [x|]; [|exact H1]. destruct (h_live x); cbn [negb]; [|exact H1].
    destruct (h_tx x); [exact H1|]. destruct (h_closed x); [exact H1|]. apply Hrecv, Q1.
  - (* Send *)
    change (getH h s1) with (getH h s). destruct (getH h s) as [x|] eqn:Hg; [|exact H1].
    destruct (h_live x) eqn:Hl; cbn [negb]; [|exact H1].
    destruct (negb (h_tx x) || h_async x) eqn:Ek; [exact H1|].
    assert (Htx : h_tx x = true) by (destruct (h_tx x); [reflexivity | discriminate]).
    destruct (negb (rc s1 =? 0) && is_full s1); [exact H1|].
    pose proof (Hsend h x destroy RClosed ROk RClosed RClosed (fun v t => eq_refl) Hg Hl Htx) as P.
    unfold fresh in *. cbv zeta in P. destruct (h_closed x); [exact P|].
    destruct (try_send_core (next s1) (with_next (next s1 + 1) s1)) as [s3 [| |]]; exact P.
  - (* Recv *)
    destruct (getH h s1) as [x|]; [|exact H1]. destruct (h_live x); cbn [negb]; [|exact H1].
    destruct (h_tx x || h_async x); [exact H1|].
    match goal with |- context [if ?c then ret s1 RWouldBlock else _] => destruct c end; [exact H1|].
    destruct (h_closed x); [exact H1|]. apply Hrecv, Q1.
  - (* RecvTimeout *)
    destruct (getH h s1) as [x|]; [|exact H1]. destruct (h_live x); cbn [negb]; [|exact H1].
    destruct (h_tx x || h_async x); [exact H1|].
    destruct (h_closed x && fx03 (fx s1)); [exact H1|].
    apply Hrecv. eapply quiet_trans; [exact Q1 | apply quiet_taint; exact tle_set_t03].
  - (* Clone *)
    change (getH h s1) with (getH h s). change (getH h2 s1) with (getH h2 s). change (fx s1) with (fx s).
    destruct (getH h s) as [x|] eqn:Hg; [|exact H1].
    destruct (h_live x) eqn:Hl; cbn [negb]; [|exact H1]. destruct (getH h2 s); [exact H1|].
    destruct (h_closed x && fx33 (fx s)) eqn:Ec; cbn [ret fst]; [apply (eff_quiet s (Clone h h2)), quiet_same; reflexivity|].
    destruct (quiet_taint set_t33 (h_closed x) s1 tle_set_t33) as (C & A & B & D & _).
    split; [destruct (h_tx x); (eapply cfg_trans; [exact C|]); apply cfg_same; reflexivity|].
    unfold clone_eff. destruct (h_tx x) eqn:Htx; st_simpl; rewrite ?A, ?B, ?D; [|auto].
    split; [reflexivity|]. split; [reflexivity|]. right. exists x. repeat split; auto.
    + rewrite H in Ec. exact Ec.
    + rewrite tn_taint, H. reflexivity.
  - (* Close *)
    destruct (getH h s1) as [x|]; [|exact H1]. destruct (h_live x); cbn [negb]; [|exact H1].
    pose proof (do_close_shape h x s1) as C. destruct (do_close h x s1) as [s2 r]. cbn [fst ret] in *.
    split; [eapply cfg_trans; [apply Q1 | apply C] | apply (np_after s s1 s2 Q1), np_calm, C].
  - (* DropH *)
    destruct (getH h s1) as [x|]; [|exact H1]. destruct (h_live x); cbn [negb]; [|exact H1].
    destruct (borrowed h s1); [exact H1|].
    pose proof (do_close_shape h x s1) as C. destruct (do_close h x s1) as [s2 r]. cbn [fst ret] in *.
    match goal with |- context [maybe_free ?a] => assert (Q : quiet s2 (maybe_free a)) end.
    { unfold maybe_free. match goal with |- context [any_live ?a] => destruct (any_live a) end; apply quiet_same; reflexivity. }
    pose proof (calm_quiet _ _ _ C Q) as C2.
    split; [eapply cfg_trans; [apply Q1 | apply C2] | apply (np_after s s1 _ Q1), np_calm, C2].
  - (* Convert *)
    destruct (getH h s1) as [x|]; [|exact H1]. destruct (h_live x); cbn [negb]; [|exact H1].
    destruct (getH h2 s1); [exact H1|]. destruct (borrowed h s1); [exact H1|]. cbn [ret fst].
    apply (eff_quiet s (Convert h h2)). eapply quiet_trans; [exact Q1|].
    eapply quiet_trans; [apply (quiet_taint set_t07); exact tle_set_t07 | apply quiet_same; reflexivity].
  - (* Observe *)
    destruct (getH h s1) as [x|]; [|exact H1]. destruct (h_live x); exact H1.
  - (* MkSend *)
    destruct (getH h s1) as [x|]; [|exact H1]. destruct (h_live x); cbn [negb]; [|exact H1].
    destruct (negb (h_tx x && h_async x)); [exact H1|]. destruct (getF f s1); [exact H1|].
    apply (eff_quiet s (MkSend f h)), quiet_same. reflexivity.
  - (* MkRecv *)
    destruct (getH h s1) as [x|]; [|exact H1]. destruct (h_live x); cbn [negb]; [|exact H1].
    destruct (negb (negb (h_tx x) && h_async x)); [exact H1|]. destruct (getF f s1); [exact H1|].
    apply (eff_quiet s (MkRecv f h)), quiet_same. reflexivity.
  - (* Poll *)
    change (getF f s1) with (getF f s). change (fx s1) with (fx s).
    destruct (getF f s) as [x|] eqn:Hg; [|exact H1]. destruct (f_live x) eqn:Hl; cbn [negb]; [|exact H1].
    destruct (f_done x); [exact H1|]. change (handle_closed (f_h x) s1) with (handle_closed (f_h x) s).
    destruct (handle_closed (f_h x) s && fx03f (fx s)) eqn:Ec.
    + cbn [ret fst]. apply (eff_quiet s (Poll f w)). eapply quiet_trans; [exact Q1|].
      eapply quiet_trans; [apply quiet_cancel_reg | apply quiet_same; reflexivity].
    + set (s2 := taint set_t03f (handle_closed (f_h x) s) s1).
      assert (Q2 : quiet s s2) by (eapply quiet_trans; [exact Q1 | apply quiet_taint; exact tle_set_t03f]).
      pose proof Q2 as (C2 & A & B & D & _). unfold poll_eff.
      destruct (f_recv x) eqn:Hrv.
      * pose proof (poll_recv_shape f w x s2) as P. unfold recv_out in P.
        destruct (poll_recv f w x s2) as [s3 r]. cbn [fst snd ret] in *. destruct P as (C & E & P).
        split; [eapply cfg_trans; eauto|]. split; [lia|]. rewrite B, D in P.
        destruct r; try contradiction; [left; tauto | right; left; eexists; exact P | left; tauto].
      * pose proof (poll_send_shape f w x s2) as P. cbv zeta in P.
        destruct (poll_send f w x s2) as [s3 r]. cbn [fst ret] in *. destruct P as (C & P1 & P2 & P3).
        split; [eapply cfg_trans; eauto|]. split; [lia|]. rewrite B in P3. rewrite D in P2.
        destruct P3 as [E|[v E]]; [left; auto|]. right. right. exists x, v. repeat split; auto.
        -- rewrite H in Ec. exact Ec.
        -- destruct C as (_ & _ & _ & T & _). destruct (t03f (tn s3)) eqn:E3; [reflexivity|]. specialize (T eq_refl).
           subst s2. rewrite tn_taint, H in T. discriminate.
  - (* DropF *)
    destruct (getF f s1) as [x|]; [|exact H1]. destruct (f_live x); cbn [negb]; [|exact H1].
    cbn [ret fst]. apply (eff_quiet s (DropF f)). eapply quiet_trans; [exact Q1|].
    eapply quiet_trans; [apply quiet_cancel_reg|]. destruct (f_item x); apply quiet_same; reflexivity.
  - (* TrySendBatch *)
    change (getH h s1) with (getH h s). destruct (getH h s) as [x|] eqn:Hg; [|exact H1].
    destruct (h_live x) eqn:Hl; cbn [negb]; [|exact H1]. destruct (h_tx x) eqn:Htx; cbn [negb]; [|exact H1].
    set (s2 := with_next (next s1 + n) s1).
    assert (Hfail : forall cl sent un s3, quiet s s3 ->
              let s' := fst (let s4 := with_back (back s3 ++ un) s3 in
                             if inplace then (if cl && (sent =? 0) then ret s4 (RMClosed un) else ret s4 (RMOk sent un))
                             else ret s4 (RBErr sent cl un)) in
              cfg s s' /\ send_eff s h s').
    { intros cl sent un s3 Q3. cbv zeta. destruct inplace; [destruct (cl && (sent =? 0))|]; cbn [ret fst];
        (apply (eff_quiet s (TrySend h)); eapply quiet_trans; [exact Q3 | apply quiet_same; reflexivity]). }
    assert (Q2 : quiet s s2) by (apply quiet_same; reflexivity).
    destruct (n =? 0); [destruct inplace; exact (eff_quiet s (TrySend h) s2 Q2)|].
    destruct (h_closed x) eqn:Hc; [apply Hfail; exact Q2|].
    change (rc s2) with (rc s1). destruct (rc s1 =? 0); [apply Hfail; exact Q2|].
    destruct (send_loop_shape (seqN (next s1) (N.to_nat n)) s2) as (C & A & B & sent & E1 & E2).
    destruct (send_loop (seqN (next s1) (N.to_nat n)) s2) as [s3 un]. cbn [fst snd] in *.
    assert (P : cfg s (with_back (back s3 ++ un) s3) /\ send_eff s h (with_back (back s3 ++ un) s3)).
    { split; [exact C|]. split; [exact A|]. split; [exact B|]. right. exists x. auto. }
    destruct un as [|u un']; [destruct inplace; exact P|].
    destruct inplace; [destruct (false && _)|]; exact P.
  - (* TryRecvBatch *)
    destruct (getH h s1) as [x|]; [|exact H1]. destruct (h_live x); cbn [negb]; [|exact H1].
    destruct (h_tx x); [exact H1|]. destruct (m =? 0); [destruct inplace; exact H1|].
    destruct (h_closed x); [exact H1|].
    change (q s1) with (q s). destruct (Nat.min (N.to_nat m) (length (q s))) as [|k']; [destruct (sc s1 =? 0); exact H1|].
    cbn [ret fst]. destruct (quiet_wake_senders (N.to_nat m) (drain (S k') s1)) as (C & A & B & D & _).
    split; [exact C|]. unfold drain_eff. rewrite A, B, D. split; [reflexivity|].
    exists (firstn (S k') (q s)). split; [symmetry; apply firstn_skipn | reflexivity].
Qed.

Lemma cfg_step s o : cfg s (fst (step s o)).
Proof. apply step_shape. Qed.

Lemma np_step s o : pushing o = false -> np s (fst (step s o)).
Proof. intros Hp. pose proof (proj2 (step_shape s o)) as P. destruct o; try discriminate Hp; exact P. Qed.

Lemma poll_structural s f w : poll_eff s f (fst (step s (Poll f w))).
Proof. apply (step_shape s (Poll f w)). Qed.

Lemma cfg_run os : forall s, cfg s (fst (run s os)).
Proof.
  induction os as [|o r IH]; intros s; cbn [run]; [apply cfg_refl|].
  pose proof (cfg_step s o) as C. destruct (step s o) as [s1 x]. cbn [fst] in C.
  specialize (IH s1). destruct (run s1 r) as [s2 xs]. cbn [fst] in *. eapply cfg_trans; eauto.
Qed.

Lemma fx_after c a f os : fx (state_after c a f os) = f.
Proof. unfold state_after. destruct (cfg_run os (init c a f)) as (A & _ & _). exact A. Qed.

Lemma cap_after c a f os : cap (state_after c a f os) = c.
Proof. unfold state_after. destruct (cfg_run os (init c a f)) as (_ & A & _). exact A. Qed.

(** * C01: conservation (every payload id is in exactly one place), no duplicate, no phantom *)
Definition ids (n : N) : list N := map N.of_nat (seq 0 (N.to_nat n)).

(* ids held by live futures (SendFuture.item) *)
Definition cell_ids (s : st) : list N :=
  flat_map (fun e => if f_live (snd e) then match f_item (snd e) with Some v => [v] | None => [] end else []) (fs s).

Lemma occ_cell_ids s v : occ v (cell_ids s) = cells s v.
Proof.
  unfold cell_ids, cells. induction (fs s) as [|[k x] t IH]; cbn [flat_map cnt snd]; [reflexivity|].
  rewrite occ_app, IH. unfold cellp. destruct (f_live x); cbn [andb]; [|reflexivity].
  destruct (f_item x) as [u|]; cbn [occ]; [|reflexivity]. destruct (v =? u); reflexivity.
Qed.

Lemma ids_seqN n : ids n = seqN 0 (N.to_nat n).
Proof.
  unfold ids. change 0 with (N.of_nat 0). generalize 0%nat. induction (N.to_nat n) as [|k IH]; intros a; cbn [seq map seqN]; [reflexivity|].
  rewrite IH. do 2 f_equal. lia.
Qed.

Lemma occ_ids v n : occ v (ids n) = if v <? n then 1%nat else 0%nat.
Proof.
  rewrite ids_seqN, occ_seqN, N2Nat.id. destruct (N.leb_spec 0 v); [reflexivity | lia].
Qed.

Definition conservation (s : st) : Prop :=
  Permutation (recvd s ++ q s ++ cell_ids s ++ back s ++ dropped s) (ids (next s))
  /\ NoDup (recvd s) /\ NoDup (acc s) /\ incl (recvd s) (acc s).

Lemma Inv_conservation s : Inv s -> conservation s.
Proof.
  intros [HD _]. destruct HD as [A B C].
  assert (Hle : forall v l, (occ v l <= tot s v + occ v [])%nat -> (occ v l <= 1)%nat).
  { intros v l H. rewrite (C v) in H. destruct (v <? next s); lia. }
  split; [|split; [|split]].
  - apply occ_perm. intros v. rewrite !occ_app, occ_cell_ids, occ_ids. specialize (C v). unfold tot in C. cbn [occ] in C. lia.
  - apply occ_NoDup. intros v. apply (Hle v). unfold tot. lia.
  - rewrite B. apply occ_NoDup. intros v. apply (Hle v). rewrite occ_app. unfold tot. lia.
  - rewrite B. intros v Hv. apply in_or_app. left. exact Hv.
Qed.

Theorem mpmcb_conservation c a f os : conservation (state_after c a f os).
Proof. apply Inv_conservation, Inv_reachable. Qed.

(** * C02: the channel is a FIFO queue: accepted = received ++ buffered, in order *)
Theorem mpmcb_fifo c a f os : let s := state_after c a f os in acc s = recvd s ++ q s.
Proof. cbv zeta. apply (d_fifo _ _ (proj1 (Inv_reachable c a f os))). Qed.

(** * C03: capacity *)
Theorem mpmcb_capacity c a f os : let s := state_after c a f os in (length (q s) <= N.to_nat c)%nat.
Proof.
  cbv zeta. pose proof (d_cap _ _ (proj1 (Inv_reachable c a f os))) as H. unfold nq, ncap in H.
  rewrite cap_after in H. exact H.
Qed.

Definition unchanged_data (s s' : st) : Prop :=
  q s' = q s /\ acc s' = acc s /\ recvd s' = recvd s.

(* try_send / send *)
Definition send_spec (blocking : bool) (s : st) (h : N) (s' : st) (o : out) : Prop :=
  forall x, getH h s = Some x -> h_live x = true -> h_tx x = true -> (blocking = true -> h_async x = false) ->
  match o_res o with
  | ROk => h_closed x = false /\ rc s <> 0 /\ (length (q s) < N.to_nat (cap s))%nat
           /\ q s' = q s ++ [next s] /\ acc s' = acc s ++ [next s] /\ recvd s' = recvd s
  | RFull v => blocking = false /\ v = next s /\ h_closed x = false /\ rc s <> 0 /\ length (q s) = N.to_nat (cap s)
               /\ unchanged_data s s' /\ back s' = back s ++ [v]
  | RClosedV v => blocking = false /\ v = next s /\ (h_closed x = true \/ rc s = 0)
                  /\ unchanged_data s s' /\ back s' = back s ++ [v]
  | RClosed => blocking = true /\ (h_closed x = true \/ rc s = 0)
               /\ unchanged_data s s' /\ dropped s' = dropped s ++ [next s]
  | RWouldBlock => blocking = true /\ rc s <> 0 /\ length (q s) = N.to_nat (cap s) /\ unchanged_data s s'
  | _ => False
  end.

(* the core call of a single send, seen from the state before the step: s2 is s with the event log cleared
   and the payload id taken *)
Lemma send_core_seen s :
  Inv s ->
  let s2 := with_next (next s + 1) (reset s) in
  match try_send_core (next s) s2 with
  | (s3, TsOk) => rc s <> 0 /\ (length (q s) < N.to_nat (cap s))%nat
                  /\ q s3 = q s ++ [next s] /\ acc s3 = acc s ++ [next s] /\ recvd s3 = recvd s
  | (s3, TsFull) => s3 = s2 /\ rc s <> 0 /\ length (q s) = N.to_nat (cap s)
  | (s3, TsClosed) => s3 = s2 /\ rc s = 0
  end.
Proof.
  intros H0. cbv zeta. pose proof (InvH_fresh (reset s) (Inv_reset s H0)) as (D & W & _).
  pose proof (try_send_core_spec (next s) (with_next (next s + 1) (reset s)) D W) as P.
  destruct (try_send_core (next s) (with_next (next s + 1) (reset s))) as [s3 [| |]]; [|exact P ..].
  destruct P as (_ & _ & A & B & C & D' & E & _). auto.
Qed.

Lemma try_send_spec s h : Inv s -> send_spec false s h (fst (step s (TrySend h))) (snd (step s (TrySend h))).
Proof.
  intros H0 x Hg Hl Htx _. pose proof (send_core_seen s H0) as P. cbv zeta in P.
  unfold step. fold (reset s). change (getH h (reset s)) with (getH h s). rewrite Hg, Hl, Htx. cbn [negb]. unfold fresh. cbn [fst snd]. change (next (reset s)) with (next s).
  destruct (h_closed x) eqn:Hc; [cbn [ret o_res snd fst]; unfold unchanged_data; auto 10|].
  destruct (try_send_core (next s) (with_next (next s + 1) (reset s))) as [s3 [| |]]; cbn [ret o_res snd fst].
  - split; [reflexivity | exact P].
  - destruct P as (-> & Hrc & Hfull). unfold unchanged_data. auto 10.
  - destruct P as (-> & Hrc). unfold unchanged_data. auto 10.
Qed.

Lemma send_blocking_spec s h : Inv s -> send_spec true s h (fst (step s (Send h))) (snd (step s (Send h))).
Proof.
  intros H0 x Hg Hl Htx Has. specialize (Has eq_refl). pose proof (send_core_seen s H0) as P. cbv zeta in P.
  pose proof (is_full_spec s (d_cap _ _ (proj1 H0))) as Hfs.
  unfold step. fold (reset s). change (getH h (reset s)) with (getH h s). rewrite Hg, Hl, Htx, Has. cbn [negb orb].
  change (rc (reset s)) with (rc s). change (is_full (reset s)) with (is_full s).
  destruct (negb (rc s =? 0) && is_full s) eqn:Eb.
  - apply andb_prop in Eb. destruct Eb as [E1 E2]. apply negb_true_iff, N.eqb_neq in E1. apply Hfs in E2.
    cbn [ret o_res snd fst]. unfold unchanged_data. auto 10.
  - unfold fresh. cbn [fst snd]. change (next (reset s)) with (next s).
    destruct (h_closed x) eqn:Hc; [cbn [ret o_res snd fst]; unfold unchanged_data; auto 10|].
    destruct (try_send_core (next s) (with_next (next s + 1) (reset s))) as [s3 [| |]]; cbn [ret o_res snd fst].
    + split; [reflexivity | exact P].
    + (* the step was issued because the buffer was not full *)
      destruct P as (_ & Hrc & Hfull). apply Hfs in Hfull. apply N.eqb_neq in Hrc. rewrite Hrc, Hfull in Eb. discriminate.
    + destruct P as (-> & Hrc). unfold unchanged_data. auto 10.
Qed.

(* try_recv / recv / recv_timeout *)
Inductive rkind := KTry | KBlock | KTimed.

Definition recv_spec (k : rkind) (s : st) (h : N) (s' : st) (o : out) : Prop :=
  forall x, getH h s = Some x -> h_live x = true -> h_tx x = false -> (k <> KTry -> h_async x = false) ->
  match o_res o with
  | RVal v => q s = v :: q s' /\ recvd s' = recvd s ++ [v] /\ acc s' = acc s
              /\ (h_closed x = false \/ (k = KTimed /\ fx03 (fx s) = false /\ t03 (tn s') = true))
  | REmpty => k = KTry /\ h_closed x = false /\ q s = [] /\ sc s <> 0 /\ unchanged_data s s'
  | RTimeout => k = KTimed /\ q s = [] /\ sc s <> 0 /\ unchanged_data s s'
                /\ (h_closed x = false \/ (fx03 (fx s) = false /\ t03 (tn s') = true))
  | RDisc => unchanged_data s s' /\ (h_closed x = true \/ (q s = [] /\ sc s = 0))
  | RWouldBlock => k = KBlock /\ q s = [] /\ unchanged_data s s'
  | _ => False
  end.

Lemma unchanged_refl s : unchanged_data s s.
Proof. unfold unchanged_data. auto. Qed.

Lemma try_recv_spec s h : recv_spec KTry s h (fst (step s (TryRecv h))) (snd (step s (TryRecv h))).
Proof.
  intros x Hg Hl Htx _. unfold step. fold (reset s). change (getH h (reset s)) with (getH h s). rewrite Hg, Hl, Htx. cbn [negb].
  destruct (h_closed x) eqn:Hc; [cbn [ret o_res snd fst]; unfold unchanged_data; auto 10|].
  pose proof (try_recv_core_shape (reset s)) as P. cbv zeta in P.
  destruct (try_recv_core (reset s)) as [s3 [v| |]]; cbn [ret o_res snd fst] in *; destruct P as (_ & _ & Ea & P).
  - destruct P. auto.
  - destruct P as (-> & Hq & Hsc). unfold unchanged_data. auto 10.
  - destruct P as (-> & Hq & Hsc). unfold unchanged_data. auto 10.
Qed.

Lemma recv_blocking_spec s h : recv_spec KBlock s h (fst (step s (Recv h))) (snd (step s (Recv h))).
Proof.
  intros x Hg Hl Htx Has. assert (Ha : h_async x = false) by (apply Has; discriminate).
  unfold step. fold (reset s). change (getH h (reset s)) with (getH h s). rewrite Hg, Hl, Htx, Ha. cbn [negb orb].
  match goal with |- context [if ?c then ret (reset s) RWouldBlock else _] => destruct c eqn:Eb end.
  - apply andb_prop in Eb. destruct Eb as [E1 _]. apply (lenq0 s) in E1.
    cbn [ret o_res snd fst]. unfold unchanged_data. auto 10.
  - destruct (h_closed x) eqn:Hc; [cbn [ret o_res snd fst]; unfold unchanged_data; auto 10|].
    pose proof (try_recv_core_shape (reset s)) as P. cbv zeta in P.
    destruct (try_recv_core (reset s)) as [s3 [v| |]]; cbn [ret o_res snd fst] in *; destruct P as (_ & _ & Ea & P).
    + destruct P. auto.
    + destruct P as (-> & Hq & Hsc). unfold unchanged_data. auto 10.
    + destruct P as (-> & Hq & Hsc). unfold unchanged_data. auto 10.
Qed.

Lemma recv_timeout_spec s h : recv_spec KTimed s h (fst (step s (RecvTimeout h))) (snd (step s (RecvTimeout h))).
Proof.
  intros x Hg Hl Htx Has. assert (Ha : h_async x = false) by (apply Has; discriminate).
  unfold step. fold (reset s). change (getH h (reset s)) with (getH h s). rewrite Hg, Hl, Htx, Ha. cbn [negb orb].
  change (fx (reset s)) with (fx s).
  destruct (h_closed x && fx03 (fx s)) eqn:Ec.
  { apply andb_prop in Ec. cbn [ret o_res snd fst]. unfold unchanged_data. tauto. }
  set (s2 := taint set_t03 (h_closed x) (reset s)).
  destruct (quiet_taint set_t03 (h_closed x) (reset s) tle_set_t03) as (_ & Esc & Eq & Er & Ea). fold s2 in Esc, Eq, Er, Ea.
  (* on a closed handle the F-03 event has just been recorded *)
  assert (Hcl : h_closed x = false \/ (fx03 (fx s) = false /\ t03 (tn s2) = true)).
  { destruct (h_closed x); [right | left; reflexivity]. split; [exact Ec | reflexivity]. }
  pose proof (try_recv_core_shape s2) as P. cbv zeta in P.
  destruct (try_recv_core s2) as [s3 [v| |]]; cbn [ret o_res snd fst] in *; destruct P as ((_ & _ & T) & _ & Ea3 & P).
  - destruct P as [Hq Hr]. rewrite Eq in Hq. rewrite Er in Hr. rewrite Ea in Ea3.
    repeat split; auto. destruct Hcl as [C|[C1 C2]]; [left; exact C | right].
    repeat split; auto. destruct T as (T & _). destruct (t03 (tn s3)); [reflexivity | rewrite (T eq_refl) in C2; discriminate].
  - destruct P as (-> & Hq & Hsc). rewrite Eq in Hq. rewrite Esc in Hsc. unfold unchanged_data. auto 10.
  - destruct P as (-> & Hq & Hsc). rewrite Eq in Hq. rewrite Esc in Hsc. unfold unchanged_data. auto 10.
Qed.

(** * C04: the disconnect protocol *)
(* Disconnected, once true (no sender, buffer drained), stays true and nothing is received any more —
   unless one of the recorded events F-07 / F-33 / F-03f occurs *)
Theorem disc_final s o :
  Inv s -> sc s = 0 -> q s = [] ->
  let s' := fst (step s o) in
  t07 (tn s') = false -> t33 (tn s') = false -> t03f (tn s') = false ->
  sc s' = 0 /\ q s' = [] /\ recvd s' = recvd s.
Proof.
  intros H Hsc Hq. cbv zeta. intros T7 T33 T3f.
  destruct (step_shape s o) as [(_ & _ & TL) P]. destruct TL as (_ & _ & _ & L7 & _ & _ & _). specialize (L7 T7).
  (* a push needs an open sender handle: there is none *)
  assert (Hsend : forall h, send_eff s h (fst (step s o)) -> sc (fst (step s o)) = 0 /\ q (fst (step s o)) = [] /\ recvd (fst (step s o)) = recvd s).
  { intros h (A & B & C). split; [congruence|]. split; [|exact B].
    destruct C as [E|[x (Hg & Hl & Htx & Hc)]]; [congruence|].
    destruct (open_tx_alive s h x H L7 Hg Hl Htx Hc Hsc). }
  assert (Hnp : np s (fst (step s o)) -> sc (fst (step s o)) = 0 /\ q (fst (step s o)) = [] /\ recvd (fst (step s o)) = recvd s).
  { intros (A & B & C). split; [lia|].
    destruct B as [E|[v [E _]]]; [split; [congruence | apply C; exact E] | rewrite Hq in E; discriminate]. }
  destruct o; cbn [step_eff] in P; try apply (Hsend h P); try apply (Hnp P).
  - (* Clone *)
    destruct P as (A & B & C). split; [|split; [congruence | exact B]].
    destruct C as [E|[x (Hg & Hl & Htx & Hcl)]]; [congruence|].
    pose proof (no_open_tx s H L7 Hsc h x Hg Hl Htx) as Hc. destruct (Hcl Hc) as [_ T]. congruence.
  - (* Poll *)
    destruct P as (A & B). split; [lia|].
    destruct B as [[E1 E2]|[[v [E _]]|[x [v (Hg & Hrv & Hl & _ & _ & Hcl)]]]].
    + split; congruence.
    + rewrite Hq in E. discriminate.
    + exfalso. destruct (w_fh s (proj1 (proj2 H)) f x Hg Hl) as [hh [Hh (Hlh & Htxh & _)]]. rewrite Hrv in Htxh. cbn in Htxh.
      pose proof (no_open_tx s H L7 Hsc (f_h x) hh Hh Hlh Htxh) as Hc.
      assert (Ehc : handle_closed (f_h x) s = true) by (unfold handle_closed; rewrite Hh; exact Hc).
      destruct (Hcl Ehc) as [_ T]. congruence.
  - (* TryRecvBatch *)
    destruct P as (A & vs & E1 & E2).
    split; [congruence|]. rewrite Hq in E1. symmetry in E1. apply app_eq_nil in E1. destruct E1 as [-> E1].
    split; [exact E1 | rewrite E2; apply app_nil_r].
Qed.

(* close(): first call Ok, any later call CloseError; a panic (count underflow) only after F-07 *)
Definition close_spec (s : st) (h : N) (s' : st) (o : out) : Prop :=
  forall x, getH h s = Some x -> h_live x = true ->
  (h_closed x = true -> o_res o = RCloseErr /\ unchanged_data s s' /\ sc s' = sc s /\ rc s' = rc s) /\
  (h_closed x = false ->
     (o_res o = ROk \/ (o_res o = RPanic /\ t07 (tn s) = true)) /\ unchanged_data s s'
     /\ exists y, getH h s' = Some y /\ h_closed y = true).

Lemma close_step_spec s h : Inv s -> close_spec s h (fst (step s (Close h))) (snd (step s (Close h))).
Proof.
  intros H0. pose proof (Inv_reset s H0) as H1.
  unfold step. fold (reset s). set (s1 := reset s) in *.
  unfold close_spec. intros x Hg Hl. change (getH h s1 = Some x) in Hg. rewrite Hg, Hl. cbn [negb].
  destruct (do_close_inv h x s1 H1 Hg Hl) as [_ (_ & y & Hy & Hly & Hcy)].
  destruct (do_close_shape h x s1) as (_ & _ & Eq & Er & Ea).
  split.
  - intros Hc. unfold do_close. rewrite Hc. cbn [ret fst snd o_res]. unfold unchanged_data. repeat split; reflexivity.
  - intros Hc. split; [|split].
    + unfold do_close. rewrite Hc.
      destruct (if h_tx x then close_tx (setH h (set_closed true x) s1) else close_rx (setH h (set_closed true x) s1)) eqn:E;
        cbn [ret fst snd o_res]; [left; reflexivity|].
      right. split; [reflexivity|].
      destruct (t07 (tn s)) eqn:T; [reflexivity|]. exfalso.
      destruct (h_tx x) eqn:Htx.
      * unfold close_tx in E. change (sc (setH h (set_closed true x) s1)) with (sc s1) in E.
        destruct (N.eqb_spec (sc s1) 0) as [E0|]; [|discriminate]. destruct (open_tx_alive s1 h x H1 T Hg Hl Htx Hc E0).
      * unfold close_rx in E. change (rc (setH h (set_closed true x) s1)) with (rc s1) in E.
        destruct (N.eqb_spec (rc s1) 0) as [E0|]; [|discriminate]. destruct (open_rx_alive s1 h x H1 T Hg Hl Htx Hc E0).
    + destruct (do_close h x s1) as [s2 r]. cbn [fst ret] in *. unfold unchanged_data. auto.
    + destruct (do_close h x s1) as [s2 r]. cbn [fst ret] in *. exists y. auto.
Qed.

(** * C06: wake accounting and registrations, as consequences of the invariant *)
Definition wake_ok (s : st) : Prop :=
  (* receive side: some receiver parked-unwoken and the buffer non-empty => a woken receiver is on its way *)
  (t06 (tn s) = false -> t12 (tn s) = false ->
     (0 < cnt pw_r (fs s))%nat -> q s <> [] -> (0 < cnt pi_r (fs s))%nat) /\
  (* send side: some sender parked-unwoken and a free slot => a woken sender is on its way *)
  (t12 (tn s) = false ->
     (0 < cnt pw_s (fs s))%nat -> (length (q s) < N.to_nat (cap s))%nat -> (0 < cnt pi_s (fs s))%nat) /\
  (* disconnection wakes everybody *)
  (sc s = 0 -> cnt pw_r (fs s) = 0%nat) /\ (rc s = 0 -> cnt pw_s (fs s) = 0%nat).

Lemma Inv_wake_ok s : Inv s -> wake_ok s.
Proof.
  intros [HD [HW HK]]. destruct HK as [_ K2 K3]. unfold nq, ncap in *.
  split; [|split; [|split]].
  - intros T1 T2 Hp Hq. specialize (K2 T1 T2). destruct (q s); [congruence|]. cbn [length] in K2. lia.
  - intros T Hp Hl. specialize (K3 T). lia.
  - intros E. apply (no_waiting true); [exact HW | apply (w_sc0 s HW E)].
  - intros E. apply (no_waiting false); [exact HW | apply (w_rc0 s HW E)].
Qed.

(* no registration points at a future that is gone or completed *)
Definition no_dangling (s : st) : Prop :=
  (forall f w, In (f, w) (asq s) -> exists x, getF f s = Some x /\ f_live x = true /\ f_done x = false /\ f_reg x = true) /\
  (t06 (tn s) = false ->
   forall f w, In (f, w) (arq s) -> exists x, getF f s = Some x /\ f_live x = true /\ f_done x = false /\ f_reg x = true).

Lemma Inv_no_dangling s : Inv s -> no_dangling s.
Proof.
  intros [_ [HW _]]. split.
  - intros f w Hi. destruct (w_asq_k s HW f w Hi) as [x [Hg [_ Hr]]]. destruct (w_reg s HW f x Hg Hr). eauto 6.
  - intros T f w Hi. destruct (w_arq_reg s HW T f w Hi) as [x [Hg Hr]]. destruct (w_reg s HW f x Hg Hr). eauto 6.
Qed.

(* a registered, still-WAITING future always has its waiter queued (it cannot be forgotten) *)
Lemma Inv_registered_queued s f x :
  Inv s -> getF f s = Some x -> f_reg x = true -> is_waiting (f_state x) = true ->
  In f (akeys (if f_recv x then arq s else asq s)).
Proof. intros [_ [HW _]]. apply (w_wq s HW). Qed.

(** * C09: every id ends Returned or Dropped, exactly once *)
Definition all_gone (s : st) : Prop := forall h x, getH h s = Some x -> h_live x = false.

Lemma Inv_teardown s :
  Inv s -> all_gone s ->
  freed s = true /\
  forall v, (occ v (recvd s) + occ v (back s) + occ v (dropped s) + occ v (q s))%nat
            = if v <? next s then 1%nat else 0%nat.
Proof.
  intros [HD [HW _]] Hg. split.
  - rewrite (w_freed s HW). unfold any_live.
    destruct (existsb (fun e : N * handle => h_live (snd e)) (hs s)) eqn:E; [|reflexivity].
    apply (live_exists (hs s) (w_hnd s HW)) in E. destruct E as [h [x [Hx Hl]]].
    rewrite (Hg h x Hx) in Hl. discriminate.
  - intros v. pose proof (d_cons _ _ HD v) as C. unfold tot in C. cbn [occ] in C.
    assert (Hc : cells s v = 0%nat).
    { unfold cells. apply cnt_zero. intros f x Hi. unfold cellp.
      destruct (f_live x) eqn:Hl; [|reflexivity]. exfalso.
      assert (Hf : getF f s = Some x) by (apply In_aget; [apply (w_fnd s HW) | exact Hi]).
      destruct (w_fh s HW f x Hf Hl) as [h [Hh (Hlh & _)]]. rewrite (Hg _ _ Hh) in Hlh. discriminate. }
    rewrite Hc in C. lia.
Qed.

Lemma all_fixed_no_taint s : Inv s -> fx s = all_fixes ->
  t03 (tn s) = false /\ t03f (tn s) = false /\ t06 (tn s) = false /\ t07 (tn s) = false /\
  t08 (tn s) = false /\ t12 (tn s) = false /\ t33 (tn s) = false.
Proof.
  intros [_ [HW _]] E. pose proof (w_taint s HW) as T. rewrite E in T. unfold taint_ok, all_fixes in T. cbn in T.
  destruct T as (A&B&C&D&F&G&I). repeat split; auto.
Qed.

(* a poll on a closed handle: rejected if repaired, otherwise the F-03f event is recorded *)
Lemma poll_closed_handle s f w x :
  getF f s = Some x -> f_live x = true -> f_done x = false -> handle_closed (f_h x) s = true ->
  (fx03f (fx s) = true ->
     o_res (snd (step s (Poll f w))) = (if f_recv x then RReadyDisc else RReadyClosed)
     /\ q (fst (step s (Poll f w))) = q s /\ recvd (fst (step s (Poll f w))) = recvd s) /\
  (fx03f (fx s) = false -> t03f (tn (fst (step s (Poll f w)))) = true).
Proof.
  intros Hg Hl Hd Hc. unfold step. set (s1 := with_bad false (with_dk [] (with_wk [] s))).
  change (getF f s1) with (getF f s). change (fx s1) with (fx s). rewrite Hg.
  change (handle_closed (f_h x) s1) with (handle_closed (f_h x) s).
  rewrite Hl, Hd, Hc. cbn [negb andb]. split; intros E; rewrite E.
  - cbn [ret fst snd o_res]. destruct (quiet_cancel_reg f x s1) as (_ & _ & B & C & _). st_simpl. rewrite B, C. auto.
  - set (s2 := taint set_t03f true s1).
    destruct (f_recv x).
    + pose proof (poll_recv_shape f w x s2) as ((_ & _ & T) & _). destruct (poll_recv f w x s2) as [s3 r]. cbn [fst ret] in *.
      destruct T as (_ & T & _). destruct (t03f (tn s3)) eqn:E3; [reflexivity|]. specialize (T eq_refl). discriminate.
    + pose proof (poll_send_shape f w x s2) as ((_ & _ & T) & _). destruct (poll_send f w x s2) as [s3 r]. cbn [fst ret] in *.
      destruct T as (_ & T & _). destruct (t03f (tn s3)) eqn:E3; [reflexivity|]. specialize (T eq_refl). discriminate.
Qed.

(** * statements over all histories (pinned in Props/C0x_mpmcb.v) *)
Section Pinned.
  Variables (c : N) (a : bool) (f : fixes) (os : list op).
  Let s := state_after c a f os.

  (* C03: try_send succeeds exactly when the handle is open, a receiver is counted, and there is room *)
  Lemma P_try_send_exact h x :
    getH h s = Some x -> h_live x = true -> h_tx x = true ->
    (o_res (snd (step s (TrySend h))) = ROk <->
     h_closed x = false /\ rc s <> 0 /\ (length (q s) < N.to_nat c)%nat).
  Proof.
    intros Hg Hl Htx. pose proof (try_send_spec s h (Inv_reachable c a f os) x Hg Hl Htx (fun E => match Bool.diff_false_true E with end)) as P.
    assert (Ec : cap s = c) by apply cap_after. rewrite Ec in P.
    split.
    - intros E. rewrite E in P. tauto.
    - intros (A & B & C). destruct (o_res (snd (step s (TrySend h)))); try contradiction; try reflexivity.
      + destruct P as (_ & _ & _ & _ & P & _). lia.
      + destruct P as (_ & _ & [P|P] & _); congruence.
      + destruct P as (P & _). discriminate.
      + destruct P as (P & _). discriminate.
  Qed.

  (* C04: counts = open handles, unless F-07 *)
  Lemma P_counts : t07 (tn s) = false ->
    sc s = N.of_nat (cnt open_tx (hs s)) /\ rc s = N.of_nat (cnt open_rx (hs s)).
  Proof. intros T. apply (k_cnt s (proj2 (proj2 (Inv_reachable c a f os))) T). Qed.

  Lemma P_taint_ok : taint_ok f (tn s).
  Proof. pose proof (w_taint s (proj1 (proj2 (Inv_reachable c a f os)))) as T. unfold s in T at 1. rewrite fx_after in T. exact T. Qed.

  Lemma P_taint_ok_step o : taint_ok f (tn (fst (step s o))).
  Proof.
    pose proof (w_taint _ (proj1 (proj2 (Inv_step s o (Inv_reachable c a f os))))) as T. destruct (cfg_step s o) as (Ef & _).
    rewrite Ef in T. unfold s in T at 1. rewrite fx_after in T. exact T.
  Qed.

  (* C04: a poll that reports Disconnected on an open handle has drained the buffer, unless F-08 *)
  Lemma P_poll_disc fid w x :
    getF fid s = Some x -> f_live x = true -> f_done x = false -> f_recv x = true ->
    handle_closed (f_h x) s = false ->
    o_res (snd (step s (Poll fid w))) = RReadyDisc ->
    q s = [] \/ (fx08 f = false /\ t08 (tn (fst (step s (Poll fid w)))) = true).
  Proof.
    intros Hg Hl Hd Hrv Hc. unfold step. set (s1 := with_bad false (with_dk [] (with_wk [] s))).
    change (getF fid s1) with (getF fid s). rewrite Hg.
    change (handle_closed (f_h x) s1) with (handle_closed (f_h x) s).
    rewrite Hl, Hd, Hc, Hrv. cbn [negb andb]. unfold taint.
    pose proof (proj2 (proj2 (poll_recv_shape fid w x s1))) as P. cbv zeta in P.
    destruct (poll_recv fid w x s1) as [s2 r]. cbn [fst snd ret o_res] in *. intros ->.
    destruct P as (_ & _ & [[P _]|[P1 P2]]); [left; exact P|].
    destruct (q s) eqn:E; [left; reflexivity|]. right.
    change (fx s1) with (fx s) in P1. unfold s in P1 at 1. rewrite fx_after in P1. split; [exact P1|].
    apply P2. change (q s1) with (q s). rewrite E. discriminate.
  Qed.

  (* C06: after drop(future) the future is gone and, by no_dangling, so is its registration *)
  Lemma P_dropf_unlinked fid x :
    getF fid s = Some x -> f_live x = true ->
    let s' := fst (step s (DropF fid)) in
    ~ In fid (akeys (asq s')) /\ (t06 (tn s') = false -> ~ In fid (akeys (arq s'))).
  Proof.
    intros Hg Hl. cbv zeta.
    assert (Hdead : exists y, getF fid (fst (step s (DropF fid))) = Some y /\ f_live y = false).
    { unfold step. set (s1 := with_bad false (with_dk [] (with_wk [] s))).
      change (getF fid s1) with (getF fid s). rewrite Hg, Hl. cbn [negb ret fst].
      destruct (getF fid (cancel_reg fid x s1)) as [y|];
        destruct (f_item x); unfold destroy; st_simpl;
        (eexists; split; [apply aget_aset_same | reflexivity]). }
    destruct Hdead as [y [Hy Hly]].
    pose proof (Inv_step s (DropF fid) (Inv_reachable c a f os)) as H'. destruct (Inv_no_dangling _ H') as [A B].
    split.
    - intros Hi. destruct (akeys_In _ _ Hi) as [w Hw]. destruct (A fid w Hw) as [z [Hz [Hlz _]]]. congruence.
    - intros T Hi. destruct (akeys_In _ _ Hi) as [w Hw]. destruct (B T fid w Hw) as [z [Hz [Hlz _]]]. congruence.
  Qed.
End Pinned.

(** * the recorded deviations: full clause refuted on the faithful model ([no_fixes]), the clause
    holds outside the recorded event (taint), and holds outright once the repair is switched on *)

(* F-07: to_sync/to_async reset the closed flag, so the counts drift from the open handles *)
Definition counts_exact (f : fixes) : Prop :=
  forall c a os, let s := state_after c a f os in
  sc s = N.of_nat (cnt open_tx (hs s)) /\ rc s = N.of_nat (cnt open_rx (hs s)).

Lemma counts_refuted_F07 : ~ counts_exact no_fixes.
Proof.
  intros H. specialize (H 2 false [Clone 0 2; Close 0; Convert 0 3; DropH 3]). vm_compute in H.
  destruct H as [H _]. discriminate.
Qed.

Lemma counts_fixed f : fx07 f = true -> counts_exact f.
Proof.
  intros E c a os. cbv zeta. apply P_counts. destruct (P_taint_ok c a f os) as (_&_&_&T&_). auto.
Qed.

(* close() does not panic outside F-07 *)
Lemma no_panic_close c a f os h x :
  let s := state_after c a f os in
  getH h s = Some x -> h_live x = true -> t07 (tn s) = false -> o_res (snd (step s (Close h))) <> RPanic.
Proof.
  cbv zeta. intros Hg Hl T E.
  destruct (close_step_spec _ h (Inv_reachable c a f os) x Hg Hl) as [A B].
  destruct (h_closed x) eqn:Hc.
  - destruct (A eq_refl) as [A1 _]. congruence.
  - destruct (B eq_refl) as [[B1|[_ B1]] _]; congruence.
Qed.

(* F-03: recv_timeout does not test the handle's own closed flag *)
Definition rt_closed_rejects (f : fixes) : Prop :=
  forall c a os h x, let s := state_after c a f os in
  getH h s = Some x -> h_live x = true -> h_tx x = false -> h_async x = false -> h_closed x = true ->
  o_res (snd (step s (RecvTimeout h))) = RDisc.

Lemma rt_closed_refuted_F03 : ~ rt_closed_rejects no_fixes.
Proof.
  intros H. specialize (H 2 false [TrySend 0; Close 1] 1 (mkH false false true true)).
  vm_compute in H. specialize (H eq_refl eq_refl eq_refl eq_refl eq_refl). discriminate.
Qed.

Lemma rt_closed_except_F03 c a f os h x :
  let s := state_after c a f os in
  getH h s = Some x -> h_live x = true -> h_tx x = false -> h_async x = false -> h_closed x = true ->
  o_res (snd (step s (RecvTimeout h))) = RDisc \/ t03 (tn (fst (step s (RecvTimeout h)))) = true.
Proof.
  cbv zeta. intros Hg Hl Htx Ha Hc.
  pose proof (recv_timeout_spec (state_after c a f os) h x Hg Hl Htx (fun _ => Ha)) as P.
  destruct (o_res (snd (step (state_after c a f os) (RecvTimeout h)))); try contradiction; auto.
  - destruct P as (_ & _ & _ & [P|(_ & _ & P)]); [congruence | right; exact P].
  - destruct P as (P & _). discriminate.
  - destruct P as (_ & _ & _ & _ & [P|(_ & P)]); [congruence | right; exact P].
  - destruct P as (P & _). discriminate.
Qed.

Lemma rt_closed_fixed f : fx03 f = true -> rt_closed_rejects f.
Proof.
  intros E c a os h x. cbv zeta. intros Hg Hl Htx Ha Hc.
  destruct (rt_closed_except_F03 c a f os h x Hg Hl Htx Ha Hc) as [P|P]; [exact P|].
  destruct (P_taint_ok_step c a f os (RecvTimeout h)) as (T & _). rewrite (T E) in P. discriminate.
Qed.

(* F-03f: a future's poll does not test the closed flag of the handle it borrows *)
Definition poll_closed_rejects (f : fixes) : Prop :=
  forall c a os fid w x, let s := state_after c a f os in
  getF fid s = Some x -> f_live x = true -> f_done x = false -> handle_closed (f_h x) s = true ->
  o_res (snd (step s (Poll fid w))) = (if f_recv x then RReadyDisc else RReadyClosed).

Lemma poll_closed_refuted_F03f : ~ poll_closed_rejects no_fixes.
Proof.
  intros H. specialize (H 2 true [Close 0; MkSend 10 0] 10 100 (mkF false 0 (Some 0) Waiting false true false)).
  vm_compute in H. specialize (H eq_refl eq_refl eq_refl eq_refl). discriminate.
Qed.

Lemma poll_closed_except_F03f c a f os fid w x :
  let s := state_after c a f os in
  getF fid s = Some x -> f_live x = true -> f_done x = false -> handle_closed (f_h x) s = true ->
  o_res (snd (step s (Poll fid w))) = (if f_recv x then RReadyDisc else RReadyClosed)
  \/ t03f (tn (fst (step s (Poll fid w)))) = true.
Proof.
  cbv zeta. intros Hg Hl Hd Hc. destruct (poll_closed_handle _ fid w x Hg Hl Hd Hc) as [A B].
  destruct (fx03f (fx (state_after c a f os))); [left; apply A; reflexivity | right; apply B; reflexivity].
Qed.

Lemma poll_closed_fixed f : fx03f f = true -> poll_closed_rejects f.
Proof.
  intros E c a os fid w x. cbv zeta. intros Hg Hl Hd Hc.
  destruct (poll_closed_handle _ fid w x Hg Hl Hd Hc) as [A _]. apply A. rewrite fx_after. exact E.
Qed.

(* F-33 (and F-07, F-03f): Disconnected is final *)
Definition disc_is_final (f : fixes) : Prop :=
  forall c a os o, let s := state_after c a f os in
  sc s = 0 -> q s = [] ->
  let s' := fst (step s o) in sc s' = 0 /\ q s' = [] /\ recvd s' = recvd s.

Lemma disc_final_refuted_F33 : ~ disc_is_final no_fixes.
Proof.
  intros H. specialize (H 2 false [Close 0] (Clone 0 2)). vm_compute in H.
  destruct (H eq_refl eq_refl) as [H1 _]. discriminate.
Qed.

Lemma disc_final_refuted_F03f : ~ disc_is_final no_fixes.
Proof.
  intros H. specialize (H 2 true [Close 0; MkSend 10 0] (Poll 10 100)). vm_compute in H.
  destruct (H eq_refl eq_refl) as (_ & H1 & _). discriminate.
Qed.

Lemma disc_final_refuted_F07 : ~ disc_is_final no_fixes.
Proof.
  intros H. specialize (H 2 false [Close 0; Convert 0 2] (TrySend 2)). vm_compute in H.
  destruct (H eq_refl eq_refl) as (_ & H1 & _). discriminate.
Qed.

Lemma disc_final_except c a f os o :
  let s := state_after c a f os in
  sc s = 0 -> q s = [] ->
  let s' := fst (step s o) in
  t07 (tn s') = false -> t33 (tn s') = false -> t03f (tn s') = false ->
  sc s' = 0 /\ q s' = [] /\ recvd s' = recvd s.
Proof. cbv zeta. apply disc_final. apply Inv_reachable. Qed.

Lemma disc_final_fixed f : fx07 f = true -> fx33 f = true -> fx03f f = true -> disc_is_final f.
Proof.
  intros E1 E2 E3 c a os o. cbv zeta. intros Hsc Hq.
  destruct (P_taint_ok_step c a f os o) as (_ & T3 & _ & T7 & _ & _ & T33).
  apply disc_final_except; auto.
Qed.

(* F-08: a RecvFuture woken CLOSED reports Disconnected without re-draining *)
Definition future_disc_drained (f : fixes) : Prop :=
  forall c a os fid w x, let s := state_after c a f os in
  getF fid s = Some x -> f_live x = true -> f_done x = false -> f_recv x = true ->
  handle_closed (f_h x) s = false ->
  o_res (snd (step s (Poll fid w))) = RReadyDisc -> q s = [].

Lemma future_disc_refuted_F08 : ~ future_disc_drained no_fixes.
Proof.
  intros H.
  specialize (H 2 true [Clone 1 2; MkRecv 10 1; MkRecv 11 2; Poll 10 100; Poll 11 101; TrySend 0; Close 0]
                11 101 (mkF true 2 None WClosed true true false)).
  vm_compute in H. specialize (H eq_refl eq_refl eq_refl eq_refl eq_refl eq_refl). discriminate.
Qed.

Lemma future_disc_except_F08 c a f os fid w x :
  let s := state_after c a f os in
  getF fid s = Some x -> f_live x = true -> f_done x = false -> f_recv x = true ->
  handle_closed (f_h x) s = false ->
  o_res (snd (step s (Poll fid w))) = RReadyDisc ->
  q s = [] \/ (fx08 f = false /\ t08 (tn (fst (step s (Poll fid w)))) = true).
Proof. cbv zeta. apply P_poll_disc. Qed.

Lemma future_disc_fixed f : fx08 f = true -> future_disc_drained f.
Proof.
  intros E c a os fid w x. cbv zeta. intros Hg Hl Hd Hr Hc Ho.
  destruct (P_poll_disc c a f os fid w x Hg Hl Hd Hr Hc Ho) as [P|[P _]]; [exact P | congruence].
Qed.

(* F-06: a registered RecvFuture that completes leaves its waiter entry queued *)
Definition no_dangling_full (f : fixes) : Prop :=
  forall c a os, let s := state_after c a f os in
  forall fid w, In (fid, w) (arq s) ->
  exists x, getF fid s = Some x /\ f_live x = true /\ f_done x = false /\ f_reg x = true.

Lemma no_dangling_refuted_F06 : ~ no_dangling_full no_fixes.
Proof.
  intros H.
  specialize (H 2 true [Clone 1 2; MkRecv 10 1; MkRecv 11 2; Poll 10 100; Poll 11 101; TrySend 0; Poll 11 101; DropF 11] 11 101).
  vm_compute in H. destruct (H (or_introl eq_refl)) as [x [Hx [Hl _]]].
  inversion Hx; subst x. discriminate.
Qed.

(* ... and the next send then writes into the dropped future's cell *)
Lemma bad_write_witness_F06 :
  o_bad (snd (step (state_after 2 true no_fixes
                      [Clone 1 2; MkRecv 10 1; MkRecv 11 2; Poll 10 100; Poll 11 101; TrySend 0; Poll 11 101; DropF 11])
                   (TrySend 0))) = true.
Proof. vm_compute. reflexivity. Qed.

Lemma no_dangling_except c a f os : no_dangling (state_after c a f os).
Proof. apply Inv_no_dangling, Inv_reachable. Qed.

Lemma no_dangling_fixed f : fx06 f = true -> no_dangling_full f.
Proof.
  intros E c a os. cbv zeta. destruct (no_dangling_except c a f os) as [_ B].
  apply B. destruct (P_taint_ok c a f os) as (_&_&T&_). auto.
Qed.

(* F-12 (and F-06): wake accounting *)
Definition wake_full (f : fixes) : Prop :=
  forall c a os, let s := state_after c a f os in
  ((0 < cnt pw_r (fs s))%nat -> q s <> [] -> (0 < cnt pi_r (fs s))%nat) /\
  ((0 < cnt pw_s (fs s))%nat -> (length (q s) < N.to_nat (cap s))%nat -> (0 < cnt pi_s (fs s))%nat).

Lemma wake_refuted_F12 : ~ wake_full no_fixes.
Proof.
  intros H.
  specialize (H 1 true [TrySend 0; Clone 0 2; MkSend 10 0; MkSend 11 2; Poll 10 100; Poll 11 101; TryRecv 1; DropF 10]).
  vm_compute in H. destruct H as [_ H]. specialize (H (le_n 1) (le_n 1)). inversion H.
Qed.

Lemma wake_refuted_F06 : ~ wake_full no_fixes.
Proof.
  intros H.
  specialize (H 2 true [Clone 1 2; MkRecv 10 1; MkRecv 11 2; MkRecv 12 2; Poll 10 100; Poll 11 101; Poll 12 102;
                        TrySend 0; Poll 11 101; Poll 10 100; TrySend 0]).
  vm_compute in H. destruct H as [H _]. assert (Hq : [1] <> @nil N) by discriminate.
  specialize (H (le_S _ _ (le_n 1)) Hq). inversion H.
Qed.

Lemma wake_except c a f os : wake_ok (state_after c a f os).
Proof. apply Inv_wake_ok, Inv_reachable. Qed.

Lemma wake_fixed f : fx06 f = true -> fx12 f = true -> wake_full f.
Proof.
  intros E1 E2 c a os. cbv zeta. destruct (wake_except c a f os) as (A & B & _).
  destruct (P_taint_ok c a f os) as (_&_&T6&_&_&T12&_). split; [apply A | apply B]; auto.
Qed.

Lemma all_fixed_clean c a os :
  let s := state_after c a all_fixes os in
  t03 (tn s) = false /\ t03f (tn s) = false /\ t06 (tn s) = false /\ t07 (tn s) = false /\
  t08 (tn s) = false /\ t12 (tn s) = false /\ t33 (tn s) = false.
Proof. cbv zeta. apply all_fixed_no_taint; [apply Inv_reachable | apply fx_after]. Qed.

Ltac nilne :=
  first [ solve [intros E0; contradiction]
        | solve [exfalso; match goal with H : ?a <> ?a |- _ => apply H; reflexivity end] ].
Lemma length_seqN a n : length (seqN a n) = n.
Proof. revert a. induction n as [|n IH]; intros a; cbn [seqN length]; [reflexivity | rewrite IH; reflexivity]. Qed.

Definition batch_send_spec (b : bool) (s : st) (h n : N) (s' : st) (o : out) : Prop :=
  forall x, getH h s = Some x -> h_live x = true -> h_tx x = true ->
  exists sent un,
    seqN (next s) (N.to_nat n) = sent ++ un /\ q s' = q s ++ sent /\ acc s' = acc s ++ sent
    /\ recvd s' = recvd s /\ back s' = back s ++ un /\ next s' = next s + n
    /\ (sent <> [] -> h_closed x = false /\ rc s <> 0)
    /\ match o_res o with
       | RBOk k => b = false /\ un = [] /\ k = n
       | RBErr k cl u => b = false /\ u = un /\ un <> [] /\ k = N.of_nat (length sent)
                         /\ (if cl then sent = [] /\ (h_closed x = true \/ rc s = 0)
                             else length (q s') = N.to_nat (cap s))
       | RMOk k u => b = true /\ u = un /\ k = N.of_nat (length sent)
                     /\ (un <> [] -> length (q s') = N.to_nat (cap s))
       | RMClosed u => b = true /\ u = un /\ sent = [] /\ un <> [] /\ (h_closed x = true \/ rc s = 0)
       | _ => False
       end.

Lemma try_send_batch_spec s b h n :
  Inv s -> batch_send_spec b s h n (fst (step s (TrySendBatch b h n))) (snd (step s (TrySendBatch b h n))).
Proof.
  intros H0. pose proof (Inv_reset s H0) as H1.
  unfold step. fold (reset s). set (s1 := reset s) in *.
  unfold batch_send_spec. intros x Hg Hl Htx. change (getH h s1 = Some x) in Hg.
  rewrite Hg, Hl, Htx. cbn [negb].
  change (next s1) with (next s). change (rc s1) with (rc s).
  pose proof (InvH_fresh_n (N.to_nat n) s1 H1) as Hf. rewrite N2Nat.id in Hf. change (next s1) with (next s) in Hf.
  set (vs := seqN (next s) (N.to_nat n)) in *. set (s2 := with_next (next s + n) s1) in *.
  assert (Hlen : length vs = N.to_nat n) by apply length_seqN.
  destruct (N.eqb_spec n 0) as [En|En].
  - subst n. cbn in vs. exists [], []. destruct b; cbn [ret fst snd o_res]; st_simpl; rewrite ?app_nil_r, ?N.add_0_r;
      repeat split; auto; try nilne; try congruence;
      try (subst s2; cbn [next with_next]; apply N.add_0_r).
  - assert (Hne : vs <> []) by (intros E; rewrite E in Hlen; cbn in Hlen; lia).
    destruct (h_closed x) eqn:Hc.
    { exists [], vs. destruct b; cbn [andb N.eqb ret fst snd o_res]; st_simpl; rewrite ?app_nil_r; repeat split; auto; try nilne. }
    change (rc s2) with (rc s).
    destruct (N.eqb_spec (rc s) 0) as [Er|Er].
    { exists [], vs. destruct b; cbn [andb N.eqb ret fst snd o_res]; st_simpl; rewrite ?app_nil_r; repeat split; auto; try nilne. }
    destruct (send_loop_inv vs s2 Hf) as [A (sent & E1 & E2 & E3 & E4 & Fr & E6 & E7)].
    destruct (send_loop vs s2) as [s3 un]. cbn [fst snd] in *.
    destruct Fr as (Fcap & Ffx & Fsc & Frc & Fhs & Fnext & Fback & Fdropped & Ffreed & Ftn & Fdk).
    change (q s2) with (q s) in E2. change (acc s2) with (acc s) in E3. change (recvd s2) with (recvd s) in E4.
    change (next s2) with (next s + n) in Fnext. change (back s2) with (back s) in Fback. change (cap s2) with (cap s) in Fcap.
    assert (Hk : n - N.of_nat (length un) = N.of_nat (length sent)).
    { rewrite E1, app_length in Hlen. clear - Hlen. lia. }
    exists sent, un. destruct un as [|u un'].
    + rewrite app_nil_r in E1. destruct b; cbn [ret fst snd o_res]; rewrite ?app_nil_r;
        repeat split; auto; try nilne; try (cbn [length] in Hk; rewrite N.sub_0_r in Hk; congruence).
    + assert (Hfull : length (q s3) = N.to_nat (cap s)).
      { assert (Hx : u :: un' <> []) by discriminate. specialize (E7 Hx). unfold nq, ncap in E7. rewrite Fcap in E7. exact E7. }
      destruct b; cbn [andb ret fst snd o_res]; st_simpl; rewrite ?Fback, ?Fnext, ?Hk;
        repeat split; auto; try discriminate.
Qed.

Definition batch_recv_spec (b : bool) (s : st) (h m : N) (s' : st) (o : out) : Prop :=
  forall x, getH h s = Some x -> h_live x = true -> h_tx x = false ->
  let P (l : list N) :=
    q s = l ++ q s' /\ recvd s' = recvd s ++ l /\ acc s' = acc s
    /\ ((m = 0 /\ l = []) \/
        (m <> 0 /\ h_closed x = false /\ l <> [] /\ length l = Nat.min (N.to_nat m) (length (q s)))) in
  match o_res o with
  | RVals l => b = false /\ P l
  | RNVals l => b = true /\ P l
  | REmpty => m <> 0 /\ h_closed x = false /\ q s = [] /\ sc s <> 0 /\ unchanged_data s s'
  | RDisc => m <> 0 /\ unchanged_data s s' /\ (h_closed x = true \/ (q s = [] /\ sc s = 0))
  | _ => False
  end.

Lemma try_recv_batch_spec s b h m :
  batch_recv_spec b s h m (fst (step s (TryRecvBatch b h m))) (snd (step s (TryRecvBatch b h m))).
Proof.
  unfold step. set (s1 := with_bad false (with_dk [] (with_wk [] s))).
  unfold batch_recv_spec. intros x Hg Hl Htx. change (getH h s1 = Some x) in Hg.
  rewrite Hg, Hl, Htx. cbn [negb]. cbv zeta.
  change (q s1) with (q s). change (sc s1) with (sc s).
  destruct (N.eqb_spec m 0) as [Em|Em].
  - destruct b; cbn [ret fst snd o_res]; (split; [reflexivity|]);
      (split; [reflexivity|]; split; [symmetry; apply app_nil_r|]; split; [reflexivity|]; left; auto).
  - destruct (h_closed x) eqn:Hc.
    + cbn [ret fst snd o_res]. split; [exact Em|]. split; [unfold unchanged_data; repeat split|]. auto.
    + destruct (Nat.min (N.to_nat m) (length (q s))) as [|k'] eqn:Ek.
      * assert (Hq : q s = []).
        { destruct (q s) as [|v t]; [reflexivity|]. cbn [length] in Ek. lia. }
        destruct (N.eqb_spec (sc s) 0) as [Es|Es]; cbn [ret fst snd o_res].
        -- split; [exact Em|]. split; [unfold unchanged_data; repeat split|]. auto.
        -- repeat split; auto.
      * destruct (quiet_wake_senders (N.to_nat m) (drain (S k') s1)) as (_ & A & B & C & D).
        assert (Hl2 : firstn (S k') (q s) <> []).
        { destruct (q s) as [|v t]; [cbn [length] in Ek; lia | cbn; discriminate]. }
        assert (Hlen : length (firstn (S k') (q s)) = S k').
        { rewrite firstn_length. lia. }
        destruct b; cbn [ret fst snd o_res]; (split; [reflexivity|]);
          rewrite B, C, D; unfold drain; st_simpl;
          (split; [symmetry; apply firstn_skipn|]; split; [reflexivity|]; split; [reflexivity|]; right; auto).
Qed.
