(* Three facts about waiting and scanning threads.  InvK: a registered thread
   whose flag is still WAITING has its record linked.  InvTk: a signalled thread at its park has
   its token, or its waker still owes the unpark.  InvP: a scanning lock holder's index is inside
   the list it scans and the records it has passed are no longer WAITING. *)
From Coq Require Import List NArith Arith Bool Lia Sorted.
From Fibre Require Import Common.Conc Chan.MpmcK3 Proofs.MpmcK3Base Proofs.MpmcK3Queue Proofs.MpmcK3Life Proofs.MpmcK3Wake1.
Import ListNotations.

Set Implicit Arguments.

(* the pcs between a registration and the load that sees the flag finished *)
Definition r_wait (p : pc) : bool :=
  match p with RRegUnlock _ GoWait | RWLoad | RWNext | TWLoad | TWNext => true | _ => false end.
Definition s_wait (p : pc) : bool :=
  match p with SRegUnlock GoWait | SWLoad | SWNext => true | _ => false end.

Record InvK (s : st) : Prop := {
  K_r : forall u, r_wait (pcs s u) = true -> flag s u = FWaiting -> In (u, gen s u) (wr s);
  K_s : forall u, s_wait (pcs s u) = true -> flag s u = FWaiting -> In (u, gen s u) (ws s) }.

(* The clauses of InvK for the steps that set a flag or edit a waiter queue (wake and cancel CAS,
   registration, unlink), as goals `forall uu, wait pc of uu -> flag' uu = WAITING -> In (uu, gen' uu) queue'`.
   k_goal: k_flag splits on whether uu is the thread whose flag was set (then the flag is not WAITING:
   wake, cancel; or it is the registering mover), then on uu = mover (its new pc is a wait pc only
   after a registration).  k_fin then has one alternative per way the record is still linked:
   the old clause as it is (queues untouched) / for the mover before the step; the old queue is a
   prefix (the other thread's registration) or the fresh record is the appended one (the mover's);
   another record was taken out by a wake (remove_nth_keep: uu's flag is WAITING, the woken one's is
   not) or by its owner's unlink (uu is not the owner). *)
Ltac k_flag F uu t :=
  lazymatch type of F with
  | upd (flag _) t _ uu = _ => idtac
  | upd (flag _) ?n ?v uu = _ =>
      let Nn := fresh "Nn" in
      destruct (Nat.eq_dec uu n) as [->|Nn];
      [ rewrite upd_eq in F; try discriminate F | rewrite (upd_neq (flag _) _ Nn) in F ]
  | _ => idtac
  end.

Ltac k_fin Kr Ks Krt Kst :=
  first [ apply Kr; assumption | apply Ks; assumption
        | apply Krt; [reflexivity | assumption] | apply Kst; [reflexivity | assumption]
        | apply in_app_iff; left; first [ apply Kr | apply Ks ]; assumption
        | apply in_app_iff; right; left; reflexivity
        | eapply remove_nth_keep; [ eassumption | first [ apply Kr | apply Ks ]; assumption | congruence ]
        | apply unlink_In; split; [ first [ apply Kr | apply Ks ]; assumption | congruence ] ].

Ltac k_goal Kr Ks Krt Kst t :=
  let uu := fresh "uu" in let X := fresh "X" in let F := fresh "F" in
  intros uu X F; k_flag F uu t;
  split_thr uu t; cbn [r_wait s_wait] in X; try discriminate X; try discriminate F;
  rewrite ?upd_eq; k_fin Kr Ks Krt Kst.

(* a step that leaves queues, generations and flags alone: the mover does not enter a wait pc from outside *)
Lemma InvK_same s s' t p' :
  InvK s -> pcs s' = upd (pcs s) t p' -> flag s' = flag s -> gen s' = gen s -> wr s' = wr s -> ws s' = ws s ->
  (negb (r_wait p') || r_wait (pcs s t)) && (negb (s_wait p') || s_wait (pcs s t)) = true -> InvK s'.
Proof.
  intros [Kr Ks] Hp Ef Eg Er Es Hk. apply andb_prop in Hk. destruct Hk as [K1 K2].
  constructor; intros u; rewrite Hp, Ef, Eg, ?Er, ?Es; unfold upd; destruct (Nat.eqb_spec u t) as [->|]; auto; intros X.
  - rewrite X in K1. apply Kr. exact K1.
  - rewrite X in K2. apply Ks. exact K2.
Qed.

Lemma InvK_step cap cf s t s' : InvE s -> InvK s -> Step cap cf s t s' -> InvK s'.
Proof.
  intros HE HK HS. pose proof HK as [Kr Ks]. pose proof (Kr t) as Krt. pose proof (Ks t) as Kst.
  destruct HS.
  all: try solve [ eapply InvK_same; [eassumption|st_simpl; reflexivity|reflexivity..|];
                   try open_move; rewrite Epc; case_pc; reflexivity ].
  (* wake and cancel CASes, registrations, unlinks *)
  all: try open_move; try destruct a; cbn [andb]; case_pc.
  all: rewrite Epc in Krt, Kst; cbn [r_wait s_wait] in Krt, Kst; constructor; st_simpl; k_goal Kr Ks Krt Kst t.
Qed.

(* threads this pc still has to unpark *)
Definition pend (p : pc) : list nat :=
  match p with
  | SUnpark _ u | RUnpark _ _ u => [u]
  | DScan _ _ w | DUnlock w | DUnpark w => w
  | _ => []
  end.
Definition park_pc (p : pc) : bool := match p with RWNext | SWNext | TWNext => true | _ => false end.

(* a signalled thread sitting at its park has its token, or its waker still owes the unpark *)
Definition InvTk (s : st) : Prop :=
  forall u, park_pc (pcs s u) = true -> f_fin (flag s u) = true ->
            tok s u = true \/ exists h, In u (pend (pcs s h)).

(* InvTk for the steps that change a token, a flag or the unparks the mover owes, as goals
   `forall uu, uu at its park -> flag' uu finished -> tok' uu \/ exists h, In uu (pend (pcs' h))`.
   tk_goal: the mover itself is never at a park after such a step.  Another thread uu either has
   just been signalled by the mover's wake CAS: then the mover's new pc owes it the unpark (the
   single target, or the one appended to a closer's list); or its flag is as before (tk_old): it
   had its token (tk_tok: tokens of others are only ever set) or was owed an unpark by h, and
   either h is not the mover, or the mover has just delivered it (unpark: token set), or the
   mover still lists it (a closer's list only grows until it is worked off from the front). *)
Ltac tk_tok T :=
  left; first [ exact T
              | unfold upd; match goal with |- (if Nat.eqb ?a ?b then _ else _) = true =>
                  destruct (Nat.eqb_spec a b); [ first [reflexivity | congruence] | exact T ] end ].

Ltac tk_old Tk t Epc uu X F :=
  let T := fresh "T" in let h := fresh "h" in let Hh := fresh "Hh" in let Nh := fresh "Nh" in
  destruct (Tk uu X F) as [T|[h Hh]];
  [ tk_tok T
  | destruct (Nat.eq_dec h t) as [->|Nh];
    [ rewrite Epc in Hh; cbn [pend] in Hh;
      first [ solve [destruct Hh]
            | destruct Hh as [<-|Hh];
              [ left; rewrite upd_eq; reflexivity
              | first [ solve [destruct Hh]
                      | right; exists t; rewrite upd_eq; cbn [pend]; exact Hh ] ]
            | right; exists t; rewrite upd_eq; cbn [pend];
              first [ exact Hh | apply in_app_iff; left; exact Hh ] ]
    | right; exists h; rewrite upd_neq by exact Nh; exact Hh ] ].

Ltac tk_goal Tk t Epc :=
  let uu := fresh "uu" in let X := fresh "X" in let F := fresh "F" in let Nn := fresh "Nn" in
  intros uu X F; split_thr uu t;
  [ cbn [park_pc] in X; first [ discriminate X | congruence ]
  | lazymatch type of F with
    | f_fin (upd (flag _) ?n _ uu) = true =>
        destruct (Nat.eq_dec uu n) as [->|Nn];
        [ right; exists t; rewrite upd_eq; cbn [pend];
          first [ left; reflexivity | apply in_app_iff; right; left; reflexivity ]
        | rewrite (upd_neq (flag _) _ Nn) in F; tk_old Tk t Epc uu X F ]
    | _ => tk_old Tk t Epc uu X F
    end ].

(* a step that leaves flags and tokens alone: the unparks the mover owes stay owed, and it does not
   arrive at a park with its flag already finished *)
Lemma InvTk_same s s' t p' :
  InvTk s -> pcs s' = upd (pcs s) t p' -> flag s' = flag s -> tok s' = tok s -> pend p' = pend (pcs s t) ->
  negb (park_pc p') || negb (f_fin (flag s t)) || park_pc (pcs s t) = true -> InvTk s'.
Proof.
  intros Tk Hp Ef Et Hd Hk. unfold InvTk. intros u. rewrite Hp, Ef, Et. intros X F.
  assert (Y : park_pc (pcs s u) = true).
  { revert X. unfold upd. destruct (Nat.eqb_spec u t) as [E|]; [|auto]. subst u. intros X. rewrite X, F in Hk. exact Hk. }
  destruct (Tk u Y F) as [T|[h Hh]]; [left; exact T|right]. exists h. unfold upd.
  destruct (Nat.eqb_spec h t) as [->|]; [rewrite Hd|]; exact Hh.
Qed.

Lemma InvTk_step cap cf s t s' : InvTk s -> Step cap cf s t s' -> InvTk s'.
Proof.
  intros Tk HS. destruct HS.
  all: try solve [ eapply InvTk_same; [eassumption|st_simpl; reflexivity|reflexivity..| |];
                   try open_move; rewrite Epc; case_pc; reflexivity ].
  (* parks and unparks, wake and cancel CASes, registrations *)
  all: try open_move; try destruct a; cbn [andb]; case_pc.
  all: unfold InvTk; st_simpl; tk_goal Tk t Epc.
Qed.

Definition passed (f : nat -> fl) (l : list (nat * nat)) (i : nat) : Prop :=
  forall j u g, j < i -> nth_error l j = Some (u, g) -> f u <> FWaiting.

Lemma passed_0 f l : passed f l 0.
Proof. intros j u g Hj. lia. Qed.
Lemma passed_next f l i u g : passed f l i -> nth_error l i = Some (u, g) -> f u <> FWaiting -> passed f l (S i).
Proof.
  intros P N F j u' g' Hj Hn. destruct (Nat.eq_dec j i) as [->|Ne].
  - rewrite N in Hn. inversion Hn; subst. exact F.
  - eapply P; [|exact Hn]. lia.
Qed.
Lemma passed_upd f l i n v : v <> FWaiting -> passed f l i -> passed (upd f n v) l i.
Proof.
  intros Hv P j u g Hj Hn. unfold upd. destruct (Nat.eqb u n); [exact Hv|]. eapply P; eassumption.
Qed.
Lemma not_waiting f : f_waiting f = false -> f <> FWaiting.
Proof. destruct f; cbn; congruence. Qed.

(* what InvP says about a scanning thread's pc; b: the thread is a producer *)
Definition scan_at (f : nat -> fl) (l : list (nat * nat)) (i : nat) : Prop := i < length l /\ passed f l i.

Definition p_ok (f : nat -> fl) (lr ls : list (nat * nat)) (b : bool) (p : pc) : Prop :=
  match p with
  | SScan _ i => scan_at f lr i
  | RScan _ _ i => scan_at f ls i
  | DScan _ i _ => scan_at f (if b then lr else ls) i
  | _ => True
  end.

Definition InvP (s : st) : Prop := forall h, p_ok (flag s) (wr s) (ws s) (is_prod (prog s h)) (pcs s h).

Lemma p_ok_free f lr ls b p : in_sec p = false -> p_ok f lr ls b p.
Proof. destruct p; try discriminate; intros _; exact I. Qed.

Lemma p_ok_upd f lr ls b p n v : v <> FWaiting -> p_ok f lr ls b p -> p_ok (upd f n v) lr ls b p.
Proof. intros Hv. destruct p; try exact (fun x => x); intros [A B]; (split; [exact A|apply passed_upd; assumption]). Qed.

Lemma isnil_len A (l : list A) : isnil l = false -> 0 < length l.
Proof. destruct l; cbn; [discriminate|lia]. Qed.

(* the CAS on entry i failed although the record is valid: it was not WAITING *)
Lemma cas_failed s t i u g :
  InvE s -> nth_error (wr s) i = Some (u, g) \/ nth_error (ws s) i = Some (u, g) \/ nth_error (closing s t) i = Some (u, g) ->
  valid_entry s u g && f_waiting (flag s u) = false -> flag s u <> FWaiting.
Proof. intros HE Hn Hc. rewrite (nth_valid t i HE Hn) in Hc. apply not_waiting. exact Hc. Qed.

Lemma InvP_step cap cf s t s' : InvL s -> InvE s -> InvP s -> Step cap cf s t s' -> InvP s'.
Proof.
  intros HL HE HP HS. pose proof (HP t) as Pt. pose proof (proj1 HL t) as Lt.
  destruct HS; try open_move; rewrite Epc in Pt, Lt; cbn [p_ok in_sec] in Pt, Lt;
    try match type of Pt with scan_at _ _ _ => destruct Pt as [Pi Pt] end.
  all: unfold InvP; eapply (sec_pcs (fun x h => p_ok (flag x) (wr x) (ws x) (is_prod (prog x h))) _ HL
                                   (fun x => p_ok_free _ _ _ _) HP); [st_simpl; reflexivity|..]; st_simpl.
  (* who else could be scanning *)
  all: try match goal with |- _ \/ _ =>
         first [ left; intros h p N X; rewrite ?fin_role; first [exact X | apply p_ok_upd; [discriminate|exact X]]
               | right; left; exact (Lt eq_refl) | right; right; exact Elk ] end.
  (* the mover's new pc: the scan starts on a non-empty list, or moves on inside it past a record that is not WAITING *)
  all: unfold closing in *; repeat match goal with |- context [if ?b then _ else _] => destruct b eqn:? end;
       try exact I; cbn [p_ok andb] in *; rewrite ?Ep; split.
  all: try first [ apply passed_0
                 | eapply passed_next; [exact Pt|exact En|eapply (cas_failed t i HE); [|exact Ec]; auto]
                 | eapply passed_next; [apply passed_upd; [discriminate|exact Pt]|exact En|rewrite upd_eq; discriminate] ].
  all: arith_facts; first [ assumption | apply isnil_len; assumption | destruct (wr s); [contradiction|cbn; lia] | lia ].
Qed.
