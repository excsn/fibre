(* One invariant of Log/Pipeline.v, kept by every step of every thread
   (emitter, writer, shutdown), so true after every schedule; the C19 pipeline theorems read
   their clauses off it. *)
From Coq Require Import List Arith Bool Lia.
Import ListNotations.
From Fibre Require Import Log.Pipeline.

Lemma oks_app_ok h p : oks (h ++ [(p, true)]) = oks h ++ [p].
Proof. unfold oks. rewrite filter_app, map_app. reflexivity. Qed.

Lemma oks_app_err h p : oks (h ++ [(p, false)]) = oks h.
Proof. unfold oks. rewrite filter_app, map_app. cbn. apply app_nil_r. Qed.

Lemma app_mid {A} (w : list A) x q : (w ++ [x]) ++ q = w ++ x :: q.
Proof. rewrite <- app_assoc. reflexivity. Qed.

Lemma from_same e p : from e (e, p) = true.
Proof. unfold from. cbn. apply Nat.eqb_refl. Qed.

Lemma from_other e e0 p : e <> e0 -> from e (e0, p) = false.
Proof. unfold from. cbn. intros H. apply Nat.eqb_neq. congruence. Qed.

Lemma upd_same f e v : upd f e v e = v.
Proof. unfold upd. rewrite Nat.eqb_refl. reflexivity. Qed.

Lemma upd_other f e v j : j <> e -> upd f e v j = f j.
Proof. unfold upd. intros H. apply Nat.eqb_neq in H. rewrite H. reflexivity. Qed.

Inductive Subseq {A} : list A -> list A -> Prop :=
| sub_nil : forall l, Subseq [] l
| sub_keep : forall x a b, Subseq a b -> Subseq (x :: a) (x :: b)
| sub_skip : forall x a b, Subseq a b -> Subseq a (x :: b).

Lemma Subseq_refl {A} (l : list A) : Subseq l l.
Proof. induction l; constructor; assumption. Qed.

Lemma Subseq_app_r {A} (a b r : list A) : Subseq a b -> Subseq a (b ++ r).
Proof. induction 1; cbn [app]; constructor; assumption. Qed.

Lemma Subseq_trans {A} (a b c : list A) : Subseq a b -> Subseq b c -> Subseq a c.
Proof.
  intros H1 H2. revert a H1. induction H2; intros a0 H1.
  - inversion H1; subst. constructor.
  - inversion H1; subst; constructor; auto.
  - constructor. auto.
Qed.

Lemma Subseq_prefix {A} (a r : list A) : Subseq a (a ++ r).
Proof. apply Subseq_app_r. apply Subseq_refl. Qed.

Lemma Subseq_oks h : Subseq (oks h) (map fst h).
Proof.
  unfold oks. induction h as [|[p b] t IH]; cbn [filter map fst snd]; [constructor|].
  destruct b; cbn [map fst]; constructor; exact IH.
Qed.

Lemma map_pair_filter_from e (l : list ev) : map (pair e) (map snd (filter (from e) l)) = filter (from e) l.
Proof.
  induction l as [|[e0 p] t IH]; cbn [filter]; [reflexivity|].
  destruct (from e (e0, p)) eqn:E; [|exact IH].
  unfold from in E. cbn [fst] in E. apply Nat.eqb_eq in E. subst e0.
  cbn [map snd]. rewrite IH. reflexivity.
Qed.

Lemma NoDup_by_projection (l : list ev) : (forall e, NoDup (filter (from e) l)) -> NoDup l.
Proof.
  induction l as [|[e0 p] t IH]; intros H; [constructor|].
  constructor.
  - intros Hin. specialize (H e0). cbn [filter] in H. rewrite from_same in H.
    inversion H as [|? ? Hni _]; subst. apply Hni. apply filter_In. split; [exact Hin | apply from_same].
  - apply IH. intros e. specialize (H e). cbn [filter] in H.
    destruct (from e (e0, p)); [inversion H; assumption | exact H].
Qed.

Lemma Subseq_In {A} (a b : list A) x : Subseq a b -> In x a -> In x b.
Proof.
  induction 1; intros Hin; [destruct Hin | |right; auto].
  destruct Hin as [<-|Hin]; [left; reflexivity | right; auto].
Qed.

Lemma Subseq_NoDup {A} (a b : list A) : Subseq a b -> NoDup b -> NoDup a.
Proof.
  induction 1 as [|x a b H IH|x a b H IH]; intros Hb; [constructor| |]; inversion Hb as [|? ? Hni Hb']; subst; [|auto].
  constructor; [|auto]. intros Hin. apply Hni. apply (Subseq_In a b x H Hin).
Qed.

Lemma Subseq_map {A B} (f : A -> B) (a b : list A) : Subseq a b -> Subseq (map f a) (map f b).
Proof. induction 1; cbn [map]; constructor; assumption. Qed.

Lemma NoDup_map_pair (e : nat) (l : list nat) : NoDup l -> NoDup (map (pair e) l).
Proof.
  induction 1; cbn [map]; constructor; [|assumption].
  intros Hin. apply in_map_iff in Hin. destruct Hin as [y [E Hy]]. inversion E; subst. contradiction.
Qed.

Record Inv (cap : nat) (scripts : nat -> list nat) (s : st) : Prop := mkInv {
  (* each emitter works through its script in order: ties what was sent to the program *)
  i_script : forall e, map fst (hist (ems s e)) ++ todo (ems s e) = scripts e;
  (* the pipeline, seen per thread, is that thread's Ok sends in order: ORDER and EXACTLY ONCE *)
  i_proj : forall e, filter (from e) (written s ++ queue s) = accepted s e;
  (* an early event is still somewhere in the pipeline; with [i_flushed] this is NO LOSS *)
  i_early : incl (early s) (written s ++ queue s);
  i_cap : length (queue s) <= cap;
  (* shutdown stores the flag before anything else, so every sign that it is under way (handle
     closed, writer gone or past its loop, shutdown thread past its first step) implies the
     flag; this is what lets a failed send and a final drain happen only after the flag *)
  i_closed_flag : closed s = true -> flag s = true;
  i_rx : rx_alive s = false -> wpc s = WDone;
  i_final_flag : wpc s = WFinal \/ wpc s = WFlush \/ wpc s = WDone -> flag s = true;
  (* the final drain saw the queue empty, and nothing early is pushed once the flag is set *)
  i_flushed : wpc s = WFlush \/ wpc s = WDone -> incl (early s) (written s);
  (* BLOCK POLICY: before shutdown a send waits, it never fails *)
  i_noerr : flag s = false -> forall e p, ~ In (p, false) (hist (ems s e));
  (* join returns only after the writer has: carries NO LOSS over to "shutdown() has returned" *)
  i_join : spc s = SDone -> wpc s = WDone;
  (* belongs with the three flag clauses above *)
  i_sflag : spc s <> SIdle -> flag s = true }.

Lemma inv_init cap sc : Inv cap sc (init sc).
Proof.
  constructor; cbn; intros; try reflexivity; try discriminate; try lia; try tauto.
  - intros x [].
  - destruct H as [H|[H|H]]; discriminate.
  - destruct H; discriminate.
Qed.

Ltac fields H :=
  destruct H as [Hscript Hproj Hearly Hcap Hcf Hrx Hff Hfl Hne Hjoin Hsf].

(* emitter e0 moves without touching the channel: its place in the script and its accepted sends
   stay, and it records a failed send only once shutdown has begun *)
Lemma inv_set_em cap sc s e0 m :
  Inv cap sc s ->
  map fst (hist m) ++ todo m = map fst (hist (ems s e0)) ++ todo (ems s e0) ->
  oks (hist m) = oks (hist (ems s e0)) ->
  (flag s = false -> forall p, In (p, false) (hist m) -> In (p, false) (hist (ems s e0))) ->
  Inv cap sc (set_ems s (upd (ems s) e0 m)).
Proof.
  intros H Hsc Hok Herr. fields H.
  constructor; unfold accepted; cbn [set_ems queue written flag closed rx_alive wpc spc ems early]; try assumption.
  - intros e. destruct (Nat.eq_dec e e0) as [->|Hn]; [rewrite upd_same, Hsc | rewrite upd_other by exact Hn];
      apply Hscript.
  - intros e. rewrite Hproj. unfold accepted.
    destruct (Nat.eq_dec e e0) as [->|Hn]; [rewrite upd_same, Hok | rewrite upd_other by exact Hn]; reflexivity.
  - intros Hf e q. destruct (Nat.eq_dec e e0) as [->|Hn]; [rewrite upd_same | rewrite upd_other by exact Hn; apply Hne, Hf].
    intros Hin. apply (Hne Hf e0 q), Herr; assumption.
Qed.

Lemma inv_emit cap sc s e0 spin : Inv cap sc s -> Inv cap sc (step_emit cap s e0 spin).
Proof.
  intros H. unfold step_emit.
  destruct (todo (ems s e0)) as [|p rest] eqn:Etodo; [exact H|].
  destruct (epc (ems s e0)) eqn:Epc.
  - destruct (closed s || negb (rx_alive s)) eqn:Ecl.
    + (* send returns Err: the handle is closed or the writer is gone, so shutdown has begun *)
      apply inv_set_em; cbn [hist todo]; [exact H| |apply oks_app_err|].
      * rewrite Etodo, map_app, <- app_assoc. reflexivity.
      * intros Hf. exfalso. apply orb_true_iff in Ecl. destruct Ecl as [Ecl|Ecl].
        -- apply (i_closed_flag _ _ _ H) in Ecl. congruence.
        -- apply negb_true_iff, (i_rx _ _ _ H) in Ecl.
           assert (flag s = true) by (apply (i_final_flag _ _ _ H); right; right; exact Ecl). congruence.
    + (* passed the check *)
      apply inv_set_em; cbn [hist todo]; rewrite ?Etodo; auto.
  - destruct (Nat.ltb_spec (length (queue s)) cap) as [Hlt|Hge].
    + (* push, Ok *)
      fields H. constructor; unfold accepted; cbn [queue written flag closed rx_alive wpc spc ems early];
        try assumption.
      * intros e. destruct (Nat.eq_dec e e0) as [->|Hn]; [rewrite upd_same | rewrite upd_other by exact Hn; apply Hscript].
        cbn [hist todo]. rewrite map_app, <- app_assoc. cbn [map fst app]. rewrite <- (Hscript e0), Etodo. reflexivity.
      * intros e. rewrite app_assoc, filter_app, Hproj. unfold accepted.
        destruct (Nat.eq_dec e e0) as [->|Hn].
        -- rewrite upd_same. cbn [hist filter]. rewrite from_same, oks_app_ok, map_app. reflexivity.
        -- rewrite upd_other by exact Hn. cbn [filter]. rewrite from_other by exact Hn. apply app_nil_r.
      * rewrite app_assoc. destruct (flag s); [apply incl_appl, Hearly|].
        apply incl_app; [apply incl_appl, Hearly | apply incl_appr, incl_refl].
      * rewrite app_length. cbn [length]. lia.
      * intros Hw. specialize (Hfl Hw). rewrite (Hff (or_intror Hw)). exact Hfl.
      * intros Hf e q. destruct (Nat.eq_dec e e0) as [->|Hn]; [rewrite upd_same | rewrite upd_other by exact Hn; apply Hne; exact Hf].
        cbn [hist]. intros Hin. apply in_app_or in Hin. destruct Hin as [Hin|[Hin|[]]]; [|discriminate].
        apply (Hne Hf e0 q). exact Hin.
    + (* full: spin (no change) or back to the closed check *)
      destruct spin; [exact H|]. apply inv_set_em; cbn [hist todo]; rewrite ?Etodo; auto.
Qed.

Lemma inv_pop cap sc s x q' pc :
  Inv cap sc s -> queue s = x :: q' ->
  (pc = WFinal -> flag s = true) -> pc <> WFlush -> pc <> WDone -> wpc s <> WDone ->
  Inv cap sc (set_w s q' (written s ++ [x]) pc (rx_alive s)).
Proof.
  intros H Eq Hpc Hnf Hnd Hwd. fields H. rewrite Eq in *.
  constructor; unfold accepted; cbn [set_w queue written flag closed rx_alive wpc spc ems early]; try assumption.
  - intros e. rewrite app_mid. apply Hproj.
  - rewrite app_mid. exact Hearly.
  - cbn [length] in Hcap. lia.
  - intros Hr. apply Hrx in Hr. contradiction.
  - intros [E|[E|E]]; [apply Hpc; exact E | contradiction | contradiction].
  - intros [E|E]; contradiction.
  - intros Hs. apply Hjoin in Hs. contradiction.
Qed.

Lemma inv_pc cap sc s pc :
  Inv cap sc s ->
  (pc = WFinal \/ pc = WFlush -> flag s = true) ->
  (pc = WFlush -> queue s = []) -> pc <> WDone -> wpc s <> WDone ->
  Inv cap sc (set_w s (queue s) (written s) pc (rx_alive s)).
Proof.
  intros H Hpc Hq Hnd Hwd. fields H.
  constructor; unfold accepted; cbn [set_w queue written flag closed rx_alive wpc spc ems early]; try assumption.
  - intros Hr. apply Hrx in Hr. contradiction.
  - intros [E|[E|E]]; [apply Hpc; left; exact E | apply Hpc; right; exact E | contradiction].
  - intros [E|E]; [|contradiction]. specialize (Hq E). rewrite Hq, app_nil_r in Hearly. exact Hearly.
  - intros Hs. apply Hjoin in Hs. contradiction.
Qed.

(* Every writer step but the last is [inv_pc] or [inv_pop].  Of their side conditions [exact H]
   is the invariant, [assumption] the shape of the queue, and [congruence] those that compare the
   new pc, or [wpc s] (by Ew), with a constructor; the ones that ask for the flag are what is
   left and are done by hand. *)
Lemma inv_writer cap sc s t : Inv cap sc s -> Inv cap sc (step_writer s t).
Proof.
  intros H. unfold step_writer. destruct (wpc s) as [| |n| | |] eqn:Ew.
  - (* WTop *)
    apply inv_pc; try exact H; try congruence.
    + destruct (flag s) eqn:Ef; intros [E|E]; congruence.
    + destruct (flag s); discriminate.
    + destruct (flag s); discriminate.
  - (* WRecv *)
    destruct (queue s) as [|x q'] eqn:Eq.
    + destruct (closed s) eqn:Ec.
      * rewrite <- Eq. apply inv_pc; try exact H; try congruence.
        intros _. apply (i_closed_flag _ _ _ H). exact Ec.
      * destruct t; [|exact H]. rewrite <- Eq. apply inv_pc; try exact H; try congruence.
        intros [E|E]; discriminate.
    + apply inv_pop with (cap := cap) (sc := sc); try exact H; try assumption; try congruence.
  - (* WBatch *)
    destruct n as [|n'].
    + apply inv_pc; try exact H; try congruence. intros [E|E]; discriminate.
    + destruct (queue s) as [|x q'] eqn:Eq.
      * rewrite <- Eq. apply inv_pc; try exact H; try congruence. intros [E|E]; discriminate.
      * apply inv_pop with (cap := cap) (sc := sc); try exact H; try assumption; try congruence.
  - (* WFinal *)
    assert (flag s = true) as Hf by (apply (i_final_flag _ _ _ H); left; exact Ew).
    destruct (queue s) as [|x q'] eqn:Eq.
    + rewrite <- Eq. apply inv_pc; try exact H; try congruence.
    + apply inv_pop with (cap := cap) (sc := sc); try exact H; try assumption; try congruence.
  - (* WFlush -> WDone, rx dropped *)
    fields H.
    constructor; unfold accepted; cbn [set_w queue written flag closed rx_alive wpc spc ems early]; try assumption.
    + intros _. reflexivity.
    + intros _. apply Hff. right. left. exact Ew.
    + intros _. apply Hfl. left. exact Ew.
    + intros _. reflexivity.
  - exact H.
Qed.

Lemma inv_shut cap sc s : Inv cap sc s -> Inv cap sc (step_shut s).
Proof.
  intros H. unfold step_shut. destruct (spc s) eqn:Es.
  - fields H. constructor; unfold accepted; cbn [queue written flag closed rx_alive wpc spc ems early]; try assumption.
    all: try (intros _; reflexivity); try discriminate.
  - assert (flag s = true) as Hf by (apply (i_sflag _ _ _ H); congruence).
    fields H. constructor; unfold accepted; cbn [queue written flag closed rx_alive wpc spc ems early]; try assumption.
    all: try (intros _; exact Hf); try discriminate.
  - destruct (wpc s) eqn:Ew; try exact H. rewrite <- Ew.
    fields H. constructor; unfold accepted; cbn [queue written flag closed rx_alive wpc spc ems early]; try assumption.
    + intros _. exact Ew.
    + intros _. apply Hsf. congruence.
  - exact H.
Qed.

Lemma inv_step cap sc s l : Inv cap sc s -> Inv cap sc (step cap s l).
Proof.
  intros H. destruct l; cbn [step]; [apply inv_emit | apply inv_emit | apply inv_writer | apply inv_shut]; exact H.
Qed.

Lemma inv_run_from cap sc sch s : Inv cap sc s -> Inv cap sc (fold_left (step cap) sch s).
Proof.
  revert s. induction sch as [|l t IH]; intros s H; cbn [fold_left]; [exact H|].
  apply IH. apply inv_step. exact H.
Qed.

Theorem pipe_inv cap sc sch : Inv cap sc (run cap sc sch).
Proof. unfold run. apply inv_run_from. apply inv_init. Qed.

Lemma oks_script cap sc s e : Inv cap sc s -> Subseq (oks (hist (ems s e))) (sc e).
Proof. intros H. rewrite <- (i_script _ _ _ H e). apply Subseq_app_r, Subseq_oks. Qed.

(* ORDER: what the writer has written for thread e, followed by what is still queued for e, is
   exactly the list of e's accepted sends, in emission order *)
Theorem pipe_order cap sc sch e :
  let s := run cap sc sch in
  filter (from e) (written s) ++ filter (from e) (queue s) = accepted s e
  /\ Subseq (map snd (filter (from e) (written s))) (sc e).
Proof.
  intros s. pose proof (pipe_inv cap sc sch) as H. fold s in H.
  pose proof (i_proj _ _ _ H e) as Hproj. rewrite filter_app in Hproj. split; [exact Hproj|].
  apply Subseq_trans with (oks (hist (ems s e))); [|apply (oks_script _ _ _ _ H)].
  pose proof (Subseq_map snd _ _ (Subseq_prefix (filter (from e) (written s)) (filter (from e) (queue s)))) as H1.
  rewrite Hproj in H1. unfold accepted in H1. rewrite map_map, map_id in H1. exact H1.
Qed.

(* EXACTLY ONCE: with distinct payloads per thread nothing is written or queued twice *)
Theorem pipe_exactly_once cap sc sch :
  (forall e, NoDup (sc e)) -> NoDup (written (run cap sc sch) ++ queue (run cap sc sch)).
Proof.
  intros Hnd. pose proof (pipe_inv cap sc sch) as H. fields H.
  apply NoDup_by_projection. intros e. rewrite Hproj. unfold accepted.
  apply NoDup_map_pair. apply Subseq_NoDup with (sc e); [|apply Hnd].
  apply (oks_script cap sc), pipe_inv.
Qed.

(* CAPACITY: the channel never holds more than its capacity (sends wait) *)
Theorem pipe_capacity cap sc sch : length (queue (run cap sc sch)) <= cap.
Proof. apply (i_cap _ _ _ (pipe_inv cap sc sch)). Qed.

(* BLOCK POLICY: until shutdown begins no send fails and no accepted event leaves the pipeline *)
Theorem pipe_block_no_drop cap sc sch e :
  let s := run cap sc sch in
  flag s = false ->
  accepted s e = map (pair e) (map fst (hist (ems s e)))
  /\ (forall x, In x (accepted s e) -> In x (written s ++ queue s)).
Proof.
  intros s Hf. pose proof (pipe_inv cap sc sch) as H. fold s in H. fields H. split.
  - unfold accepted, oks. f_equal. f_equal.
    specialize (Hne Hf e). induction (hist (ems s e)) as [|[p b] t IH]; cbn [filter snd]; [reflexivity|].
    destruct b.
    + f_equal. apply IH. intros q Hq. apply (Hne q). right. exact Hq.
    + exfalso. apply (Hne p). left. reflexivity.
  - intros x Hx. rewrite <- Hproj in Hx. apply filter_In in Hx. apply Hx.
Qed.

(* NO LOSS AT SHUTDOWN (except F-26): once the writer has exited - in particular once
   shutdown()/Drop has returned - every event accepted before shutdown began has been written *)
Theorem pipe_no_loss_except_F26 cap sc sch :
  let s := run cap sc sch in
  (wpc s = WDone \/ spc s = SDone) -> incl (early s) (written s).
Proof.
  intros s Hd. pose proof (pipe_inv cap sc sch) as H. fold s in H. fields H.
  apply Hfl. right. destruct Hd as [Hd|Hd]; [exact Hd | apply Hjoin; exact Hd].
Qed.

(* events pushed before the flag was stored: [early] is exactly that (definitional sanity) *)
Theorem pipe_early_accepted cap sc sch x :
  let s := run cap sc sch in In x (early s) -> In x (accepted s (fst x)).
Proof.
  intros s Hx. pose proof (pipe_inv cap sc sch) as H. fold s in H. fields H.
  rewrite <- Hproj. apply filter_In. split; [apply Hearly; exact Hx|].
  unfold from. apply Nat.eqb_refl.
Qed.

(* F-26 (candidate, model level): the unrestricted statement is false - an emitter that passed the
   closed check can push after the writer's final drain saw Empty; send returns Ok, the writer exits *)
Definition F26_scripts (e : nat) : list nat := match e with 0 => [7] | _ => [] end.
Definition F26_schedule : list label :=
  [LShut; LWriter false; LWriter false; LEmit 0; LEmit 0; LWriter false].

Lemma F26_witness :
  let s := run 1 F26_scripts F26_schedule in
  wpc s = WDone /\ accepted s 0 = [(0, 7)] /\ written s = [] /\ queue s = [(0, 7)] /\ closed s = false.
Proof. vm_compute. repeat split. Qed.

(* the wide window on the real code: the sender is spinning on a full channel (no closed re-check)
   while shutdown closes the handle and the consumer drains to Empty/Disconnected; the spin's next
   try_send_now then succeeds ON A CLOSED SENDER *)
Definition F26_scripts_spin (e : nat) : list nat := match e with 0 => [7] | 1 => [9] | _ => [] end.
Definition F26_schedule_spin : list label :=
  [LEmit 1; LEmit 1;                       (* (1,9) fills the capacity-1 channel *)
   LEmit 0; LEmitSpin 0;                   (* thread 0 passed the check, channel full: spinning *)
   LShut; LShut;                           (* flag, close *)
   LWriter false; LWriter false;           (* WTop -> WFinal; pops (1,9) *)
   LWriter false;                          (* Empty -> WFlush *)
   LEmitSpin 0;                            (* the spin's try_send_now succeeds: Ok *)
   LWriter false].                         (* WDone *)

Lemma F26_witness_spin :
  let s := run 1 F26_scripts_spin F26_schedule_spin in
  wpc s = WDone /\ closed s = true /\ accepted s 0 = [(0, 7)] /\ written s = [(1, 9)] /\ queue s = [(0, 7)].
Proof. vm_compute. repeat split. Qed.

Theorem pipe_refuted_F26 :
  ~ (forall cap sc sch e x,
       wpc (run cap sc sch) = WDone -> In x (accepted (run cap sc sch) e) -> In x (written (run cap sc sch))).
Proof.
  intros H. destruct F26_witness as [Hw [Ha [Hwr _]]].
  specialize (H 1 F26_scripts F26_schedule 0 (0, 7) Hw).
  rewrite Ha, Hwr in H. apply H. left. reflexivity.
Qed.
