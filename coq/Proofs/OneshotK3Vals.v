(* Conservation of the payload (K3 oneshot model): at most one value is ever
   written; it is in exactly one place (slot / taken by the receiver / destroyed by channel code);
   send results agree with what was written.  For every cfg, N, programs and schedules. *)
From Coq Require Import List Arith Bool Lia.
From Fibre Require Import Common.Lists Common.Conc Chan.OneshotK3 Proofs.OneshotK3Base Proofs.OneshotK3Life Proofs.OneshotK3Slot.
Import ListNotations.

Section Vals.
  Variable C : cfg.
  Variable n : nat.
  Variable sprog : nat -> sop.

  Notation inr := (inr n).
  Notation LInv := (LInv n).
  Notation SInv := (SInv).

  Definition sendz (p : spc_t) : bool :=
    match p with
    | SRd | SLoad | SCas | SRd2 | SBack | SLock | SSwap | SUnlock | WTake WSend | WUnpark WSend => true
    | _ => false
    end.

  (* What each clause is there for (the ghost lists wrote / oks / back / got / drops against the protocol).
     g_len g_cons   the results: at most one value is written, and it is in exactly one place.
     g_wst          ties `wrote` to the state machine: something is written only in SENT, TAKEN, or in
                    WRITING with the writer at its swap; so a writer that has not reached the swap
                    finds `wrote` empty (wrote_nil_writer) and the write at SLock is the first one.
     g_wz g_sz      who is in `wrote`: a thread 1..n running send() and past the write.  g_sz (inside
                    send() only SSend programs) is needed at the write itself, and it is what tells
                    the close();send thread, whose send is rejected, apart from a writer.
     g_ok g_oks g_oksnd  from the write to the Ok result the writer is the one written value and has no
                    Ok yet: Ok is logged once, for the writer only.
     g_back g_bz    a value handed back was never written and its thread is past the write, so it
                    cannot be written later either.
     g_hand         what the receiver took out of the slot was returned, or is in its hand between the
                    lock step and the return of try_recv. *)
  Record GInv (s : st) : Prop := mkGInv {
    g_len : length (wrote s) <= 1;
    g_cons : got s ++ dropped s ++ slot_l s = wrote s;
    g_wst : forall w, In w (wrote s) -> cs s = Sent \/ cs s = Taken \/ (cs s = Writing /\ spc s w = SSwap);
    g_wz : forall t, In t (wrote s) -> prewrite (spc s t) = false /\ sprog t = SSend /\ inr t;
    g_sz : forall t, sendz (spc s t) = true -> sprog t = SSend;
    g_ok : forall t, okzone (spc s t) = true -> wrote s = [t] /\ ~ In t (oks s);
    g_oks : forall t, In t (oks s) -> In t (wrote s);
    g_oksnd : NoDup (oks s);
    g_back : forall t, In t (back s) -> ~ In t (wrote s);
    g_bz : forall t, In t (back s) -> prewrite (spc s t) = false;
    g_hand : returned s ++ inhand s = got s
  }.

  Lemma GInv_init rp : GInv (init n rp).
  Proof.
    constructor; cbn; intros; try discriminate; try congruence; auto; try contradiction.
    constructor.
  Qed.

  (* until the winner's write nothing has been written *)
  Lemma wrote_nil_writer s t :
    LInv s -> GInv s -> writer (spc s t) = true -> spc s t <> SSwap -> wrote s = [].
  Proof.
    intros L G W E. destruct (wrote s) as [|w l] eqn:Ew; [reflexivity|exfalso].
    assert (Hw : In w (wrote s)) by (rewrite Ew; left; reflexivity).
    pose proof (l_w1 _ _ L t W) as X.
    destruct (g_wst _ G w Hw) as [A|[A|[A B]]]; try congruence.
    assert (W2 : writer (spc s w) = true) by (rewrite B; reflexivity).
    pose proof (l_wu _ _ L w t W2 W). subst. congruence.
  Qed.

  Lemma GInv_sstep s t s' e : inr t -> LInv s -> SInv s -> GInv s -> sstep sprog s t = Some (s', e) -> GInv s'.
  Proof.
    intros Rt L V G H. apply (sstep_inv sprog) in H.
    pose proof (g_cons _ G) as Gc. unfold dropped, slot_l in Gc.
    remember (spc s t) as p eqn:Epc in H.
    pose proof (l_w1 _ _ L t) as Wt. pose proof (g_sz _ G t) as St. pose proof (g_ok _ G t) as Ot.
    pose proof (g_wz _ G t) as Zt. pose proof (g_bz _ G t) as Bt.
    rewrite <- Epc in Wt, St, Ot, Zt, Bt.
    assert (Wn : p = SLock \/ p = SBack -> wrote s = []).
    { intros E. apply (wrote_nil_writer s t L G); rewrite <- Epc; destruct E as [-> | ->]; first [reflexivity | discriminate]. }
    constructor.
    - scases H; try exact (g_len _ G). rewrite Wn by auto. apply le_n.
    - unfold dropped, slot_l. scases H; try exact Gc;
        try (match goal with E : slot _ = Some _ |- _ => rewrite E in Gc end; rewrite map_app, app_nil_r; exact Gc).
      rewrite Wn in Gc |- * by auto.
      apply app_eq_nil in Gc. destruct Gc as [-> Gc]. apply app_eq_nil in Gc. destruct Gc as [-> _]. reflexivity.
    - intros w. scases H; try exact (g_wst _ G w); intros X.
      all: try (rewrite Wn in X by auto).
      all: try (destruct X as [<-|[]]; right; right; split; [exact (Wt eq_refl)|rewrite upd_eq; reflexivity]).
      all: try (destruct X; fail).
      all: destruct (g_wst _ G w X) as [Y|[Y|[Y Z]]];
        first [ left; first [exact Y | reflexivity] | right; left; first [exact Y | reflexivity]
              | exfalso; congruence
              | right; right; split; [exact Y|]; rewrite upd_neq; [exact Z|];
                intros ->; rewrite <- Epc in Z; discriminate Z ].
    - intros u. scases H; try exact (g_wz _ G u); intros X.
      all: try (rewrite Wn in X by auto;
                destruct X as [<-|[]]; rewrite upd_eq; split; [reflexivity|split; [exact (St eq_refl)|exact Rt]]).
      all: destruct (g_wz _ G u X) as [A [B Cc]]; (split; [|split; assumption]); thr u t N; [|exact A];
        rewrite <- Epc in A; first [discriminate A | reflexivity].
    - intros u. scases H; try exact (g_sz _ G u); (thr u t N; [|exact (g_sz _ G u)]); intros X;
        first [discriminate X | assumption | exact (St eq_refl)].
    - intros u. scases H; try exact (g_ok _ G u); thr u t N; intros X;
        first [ discriminate X | exact (Ot eq_refl) | exact (g_ok _ G u X)
              | rewrite Wn by auto; split; [reflexivity|];
                intros Y; apply (g_oks _ G) in Y; rewrite Wn in Y by auto; destruct Y
              | exfalso; destruct (g_ok _ G u X) as [Y _];
                first [ rewrite Wn in Y by auto; discriminate Y
                      | destruct (Ot eq_refl) as [Y2 _]; rewrite Y in Y2; injection Y2 as ->; exact (N eq_refl) ] ].
    - intros u. scases H; try exact (g_oks _ G u); intros X.
      + apply in_or_app. left. exact (g_oks _ G u X).
      + apply in_app_iff in X. destruct X as [X|[<-|[]]]; [exact (g_oks _ G u X)|].
        rewrite (proj1 (Ot eq_refl)). left. reflexivity.
    - scases H; try exact (g_oksnd _ G). apply NoDup_snoc; [exact (g_oksnd _ G)|exact (proj2 (Ot eq_refl))].
    - intros u. scases H; try exact (g_back _ G u); intros X.
      all: try (apply in_app_iff in X; destruct X as [X|[<-|[]]]; [exact (g_back _ G u X)|];
                intros Y; destruct (Zt Y) as [A [B _]]; first [discriminate A | congruence]).
      intros Y. apply in_app_iff in Y. destruct Y as [Y|[<-|[]]]; [exact (g_back _ G u X Y)|].
      discriminate (Bt X).
    - intros u. scases H; try exact (g_bz _ G u); intros X.
      all: try (apply in_app_iff in X; destruct X as [X|[<-|[]]]; [|rewrite upd_eq; reflexivity]).
      all: (thr u t N; [|exact (g_bz _ G u X)]); pose proof (Bt X) as A; first [discriminate A | reflexivity].
    - scases H; exact (g_hand _ G).
  Qed.

  Lemma GInv_rstep s s' e : LInv s -> SInv s -> GInv s -> rstep C s = Some (s', e) -> GInv s'.
  Proof.
    intros L V G H. apply (rstep_inv C s s' e (l_tcas _ _ L) (l_unr _ _ L)) in H.
    pose proof (g_cons _ G) as Gc. pose proof (g_hand _ G) as Gh. unfold dropped, slot_l in Gc. unfold returned, inhand in Gh.
    remember (rpc s) as p eqn:Epc in H. pose proof (rstep_dead s p V Epc) as Dd. rewrite <- Epc in Gh.
    constructor.
    - rcasesV H Dd; exact (g_len _ G).
    - unfold dropped, slot_l. rcasesV H Dd; try exact Gc;
        match goal with E : slot _ = Some _ |- _ => rewrite E in Gc end;
        try (rewrite map_app, app_nil_r; exact Gc).
      pose proof (g_len _ G) as Ln. rewrite <- Gc in Ln |- *.
      destruct (got s), (map fst (drops s)); first [reflexivity | cbn in Ln; rewrite ?app_length in Ln; cbn in Ln; lia].
    - rcasesV H Dd; try exact (g_wst _ G); intros w X;
        first [ right; left; reflexivity | exfalso; destruct (g_wst _ G w X) as [Y|[Y|[Y _]]]; congruence ].
    - rcasesV H Dd; exact (g_wz _ G).
    - rcasesV H Dd; exact (g_sz _ G).
    - rcasesV H Dd; exact (g_ok _ G).
    - rcasesV H Dd; exact (g_oks _ G).
    - rcasesV H Dd; exact (g_oksnd _ G).
    - rcasesV H Dd; exact (g_back _ G).
    - rcasesV H Dd; exact (g_bz _ G).
    - unfold returned, inhand. rcasesV H Dd; rewrite <- ?Epc; try exact Gh;
        rewrite ?flat_map_app; cbn [flat_map rres_val app]; rewrite ?app_nil_r; rewrite ?app_nil_r in Gh;
        first [ rewrite Gh; reflexivity
              | match goal with Hl : forallb is_local _ = true |- _ => rewrite (local_noval _ Hl) end;
                rewrite app_nil_r; exact Gh ].
  Qed.

  Definition Inv1 (s : st) : Prop := LInv s /\ SInv s /\ GInv s.

  Theorem Inv1_reachable rp s : reachable (sys C n sprog rp) s -> Inv1 s.
  Proof.
    intros R. destruct (LS_reachable C n sprog rp s R) as [L V]. split; [exact L|split; [exact V|]]. clear L V. revert s R.
    apply (lift_over C n sprog rp (fun s => LInv s /\ SInv s)).
    - apply LS_reachable.
    - apply GInv_init.
    - intros s s' e [L V]. apply GInv_rstep; assumption.
    - intros s t s' e Rt [L V]. apply GInv_sstep; assumption.
  Qed.

  Lemma all_done_shdone s : LInv s -> all_done n s -> shdone s.
  Proof.
    intros L [R S]. unfold shdone. split; [|split].
    - rewrite (l_arc _ _ L). rewrite R. cbn [rrel].
      destruct (cntf _ n) eqn:E; [reflexivity|]. destruct (cntf_ex _ n ltac:(rewrite E; lia)) as [t [Ht X]].
      cbv beta in X. rewrite (S t Ht) in X. discriminate X.
    - rewrite R. discriminate.
    - intros t X. destruct (done_pcs n s L S t) as [E|E]; rewrite E in X; discriminate X.
  Qed.

  (* What these say in terms of the channel is written at their statements on runs, Props/C0{1,3,9}_k3oneshot.v.
     C03_k3oneshot_one_writer and C03_k3oneshot_one_value there are the clauses l_wu and g_len. *)
  Section Thms.
    Variable rp : list rop.
    Variable s : st.
    Hypothesis R : reachable (sys C n sprog rp) s.
    Let L : LInv s := proj1 (Inv1_reachable rp s R).
    Let V : SInv s := proj1 (proj2 (Inv1_reachable rp s R)).
    Let G : GInv s := proj2 (proj2 (Inv1_reachable rp s R)).

    Theorem k3_writing_iff_writer : cs s = Writing <-> exists t, inr t /\ writer (spc s t) = true.
    Proof.
      split.
      - apply (l_w3 _ _ L).
      - intros [t [_ W]]. apply (l_w1 _ _ L t W).
    Qed.

    Theorem k3_one_ok : length (oks s) <= 1 /\ incl (oks s) (wrote s).
    Proof.
      assert (I : incl (oks s) (wrote s)) by (intros x Hx; apply (g_oks _ G x Hx)).
      split; [|exact I].
      pose proof (NoDup_incl_length (g_oksnd _ G) I). pose proof (g_len _ G). lia.
    Qed.

    Theorem k3_failed_send_no_effect t : In t (back s) -> ~ In t (wrote s) /\ ~ In t (oks s).
    Proof.
      intros H. split.
      - apply (g_back _ G t H).
      - intros X. apply (g_back _ G t H). apply (g_oks _ G t X).
    Qed.

    Theorem k3_slot_state :
      (cs s = Empty \/ cs s = Closed -> slot s = None) /\
      (cs s = Sent -> slot s <> None \/ shdone s) /\
      (cs s = Writing -> slot s = None \/ exists t, spc s t = SSwap /\ slot s = Some t) /\
      (cs s = Taken -> slot s <> None -> rtaker (rpc s) = true \/ exists t, spc s t = DLock).
    Proof.
      split; [|split; [|split]].
      - apply (v_ec _ V).
      - apply (v_sent _ V).
      - intros W. destruct (v_wr _ V W) as [X|[t X]]; [left; exact X|right].
        exists t. split; [exact X|apply (v_wr1 _ V t X)].
      - apply (v_tk3 _ V).
    Qed.

    Theorem k3_conservation :
      (returned s ++ inhand s) ++ dropped s ++ slot_l s = wrote s.
    Proof.
      rewrite (g_hand _ G). apply (g_cons _ G).
    Qed.

    Theorem k3_no_dup_no_phantom : NoDup (returned s) /\ incl (returned s) (wrote s) /\ length (returned s) <= 1.
    Proof.
      pose proof k3_conservation as E. pose proof (g_len _ G) as Ln.
      assert (Ll : length (returned s) <= 1).
      { rewrite <- E in Ln. rewrite !app_length in Ln. lia. }
      split; [|split; [|exact Ll]].
      - destruct (returned s) as [|a [|b l]]; [constructor|constructor; [intros []|constructor]|cbn in Ll; lia].
      - intros x Hx. rewrite <- E. apply in_or_app. left. apply in_or_app. left. exact Hx.
    Qed.

    Theorem k3_final_accounting :
      all_done n s ->
      slot s = None /\ returned s ++ dropped s = wrote s /\ length (returned s) + length (drops s) = length (wrote s).
    Proof.
      intros D.
      pose proof (v_shd _ V (all_done_shdone s L D)) as Sl.
      pose proof k3_conservation as E. unfold slot_l, inhand in E. rewrite Sl in E.
      destruct D as [Rd _]. rewrite Rd in E. rewrite !app_nil_r in E.
      split; [exact Sl|split; [exact E|]].
      rewrite <- E. rewrite app_length. unfold dropped. rewrite map_length. reflexivity.
    Qed.

    Theorem k3_ok_value_consumed_once v :
      all_done n s -> In v (oks s) ->
      (returned s = [v] /\ drops s = []) \/ (returned s = [] /\ exists d, drops s = [(v, d)]).
    Proof.
      intros D Hv. destruct (k3_final_accounting D) as [_ [E _]].
      destruct k3_one_ok as [_ I]. pose proof (I v Hv) as Hw. pose proof (g_len _ G) as L1.
      destruct (wrote s) as [|w [|w2 l]]; [destruct Hw| |cbn in L1; lia]. destruct Hw as [->|[]].
      unfold dropped in E. apply app_eq_unit in E. destruct E as [[E1 E2]|[E1 E2]].
      - right. split; [exact E1|]. destruct (drops s) as [|[x d] [|y l]]; try discriminate E2.
        injection E2 as ->. exists d. reflexivity.
      - left. split; [exact E1|]. destruct (drops s); [reflexivity|discriminate E2].
    Qed.
  End Thms.
End Vals.


