(* Proofs/MpmcBBase.v — list / association-list / waiter-queue lemmas used by the bounded-MPMC proofs. *)
From Fibre Require Import Common.Base Chan.MpmcB.

(** * occurrence counting (conservation is stated by counts) *)
Fixpoint occ (v : N) (l : list N) : nat :=
  match l with [] => 0%nat | x :: t => ((if N.eqb v x then 1 else 0) + occ v t)%nat end.

Lemma occ_app v a b : occ v (a ++ b) = (occ v a + occ v b)%nat.
Proof. induction a as [|x t IH]; cbn [app occ]; [reflexivity | rewrite IH; lia]. Qed.

Lemma occ_one v x : occ v [x] = if N.eqb v x then 1%nat else 0%nat.
Proof. cbn [occ]. destruct (N.eqb v x); reflexivity. Qed.

Lemma occ_In v l : (0 < occ v l)%nat <-> In v l.
Proof.
  induction l as [|x t IH]; cbn [occ In]; [split; [lia | tauto]|].
  destruct (N.eqb_spec v x) as [->|Hn]; split; intros H.
  - left. reflexivity.
  - lia.
  - right. apply IH. lia.
  - destruct H as [H|H]; [congruence|]. apply IH in H. lia.
Qed.

Lemma occ_NoDup l : (forall v, (occ v l <= 1)%nat) -> NoDup l.
Proof.
  induction l as [|x t IH]; intros H; constructor.
  - intros Hi. apply occ_In in Hi. specialize (H x). cbn [occ] in H. rewrite N.eqb_refl in H. lia.
  - apply IH. intros v. specialize (H v). cbn [occ] in H. lia.
Qed.

Lemma occ_count v l : occ v l = count_occ N.eq_dec l v.
Proof.
  induction l as [|x t IH]; cbn [occ count_occ]; [reflexivity|].
  destruct (N.eq_dec x v) as [->|Hn].
  - rewrite N.eqb_refl, IH. reflexivity.
  - destruct (N.eqb_spec v x); [congruence|]. rewrite IH. reflexivity.
Qed.

Lemma occ_perm a b : (forall v, occ v a = occ v b) -> Permutation a b.
Proof.
  intros H. apply (Permutation_count_occ N.eq_dec). intros v. rewrite <- !occ_count. apply H.
Qed.


(** * association lists *)
Section Assoc.
  Context {A : Type}.
  Implicit Types (l : list (N * A)) (k : N).

  Definition akeys l : list N := map fst l.

  Lemma aget_aset_same k v l : aget k (aset k v l) = Some v.
  Proof.
    induction l as [|[k' x] t IH]; cbn [aset aget].
    - rewrite N.eqb_refl. reflexivity.
    - destruct (N.eqb_spec k k') as [->|Hn]; cbn [aget].
      + rewrite N.eqb_refl. reflexivity.
      + destruct (N.eqb_spec k k'); [congruence | exact IH].
  Qed.

  Lemma aget_aset_other k k2 v l : k2 <> k -> aget k2 (aset k v l) = aget k2 l.
  Proof.
    intros Hne. induction l as [|[k' x] t IH]; cbn [aset aget].
    - destruct (N.eqb_spec k2 k); [congruence | reflexivity].
    - destruct (N.eqb_spec k k') as [->|Hn]; cbn [aget].
      + destruct (N.eqb_spec k2 k'); [congruence | reflexivity].
      + destruct (N.eqb_spec k2 k'); [reflexivity | exact IH].
  Qed.

  Lemma aget_aset k k2 v l : aget k2 (aset k v l) = if N.eqb k2 k then Some v else aget k2 l.
  Proof.
    destruct (N.eqb_spec k2 k) as [->|Hn]; [apply aget_aset_same | apply aget_aset_other; exact Hn].
  Qed.

  Lemma aget_In k v l : aget k l = Some v -> In (k, v) l.
  Proof.
    induction l as [|[k' x] t IH]; cbn [aget]; intros H; [discriminate|].
    destruct (N.eqb_spec k k') as [->|Hn]; [inversion H; subst; left; reflexivity | right; auto].
  Qed.

  Lemma aget_None k l : aget k l = None <-> ~ In k (akeys l).
  Proof.
    unfold akeys. induction l as [|[k' x] t IH]; cbn [aget map fst In]; [tauto|].
    destruct (N.eqb_spec k k') as [->|Hn].
    - split; [discriminate | intros H; exfalso; apply H; left; reflexivity].
    - rewrite IH. split; [intros H [E|I]; [congruence | auto] | tauto].
  Qed.

  Lemma aget_Some_keys k v l : aget k l = Some v -> In k (akeys l).
  Proof. intros H. apply aget_In in H. unfold akeys. apply in_map_iff. exists (k, v). auto. Qed.

  Lemma In_aget k v l : NoDup (akeys l) -> In (k, v) l -> aget k l = Some v.
  Proof.
    unfold akeys. induction l as [|[k' x] t IH]; cbn [aget map fst]; intros Hnd Hin; [contradiction|].
    inversion Hnd as [|? ? Hni Hnd']; subst. destruct Hin as [E|Hin].
    - inversion E; subst. rewrite N.eqb_refl. reflexivity.
    - destruct (N.eqb_spec k k') as [->|Hn]; [|auto].
      exfalso. apply Hni. apply in_map_iff. exists (k', v). auto.
  Qed.

  Lemma akeys_aset_in k v l : In k (akeys l) -> akeys (aset k v l) = akeys l.
  Proof.
    unfold akeys. induction l as [|[k' x] t IH]; cbn [aset map fst In]; intros H; [contradiction|].
    destruct (N.eqb_spec k k') as [->|Hn]; cbn [map fst]; [reflexivity|].
    f_equal. apply IH. destruct H; [congruence | assumption].
  Qed.

  Lemma akeys_aset_new k v l : ~ In k (akeys l) -> akeys (aset k v l) = akeys l ++ [k].
  Proof.
    unfold akeys. induction l as [|[k' x] t IH]; cbn [aset map fst In app]; intros H; [reflexivity|].
    destruct (N.eqb_spec k k') as [->|Hn]; [exfalso; apply H; left; reflexivity|].
    cbn [map fst]. f_equal. apply IH. tauto.
  Qed.

  Lemma NoDup_aset k v l : NoDup (akeys l) -> NoDup (akeys (aset k v l)).
  Proof.
    intros H. destruct (in_dec N.eq_dec k (akeys l)) as [Hi|Hn].
    - rewrite akeys_aset_in by exact Hi. exact H.
    - rewrite akeys_aset_new by exact Hn. apply NoDup_snoc; assumption.
  Qed.

  (** counting entries whose value satisfies a predicate *)
  Fixpoint cnt (P : A -> bool) l : nat :=
    match l with [] => 0%nat | (_, x) :: t => ((if P x then 1 else 0) + cnt P t)%nat end.

  Definition b2n (b : bool) : nat := if b then 1%nat else 0%nat.

  Lemma cnt_aset P k x x' l :
    NoDup (akeys l) -> aget k l = Some x ->
    (cnt P (aset k x' l) + b2n (P x) = cnt P l + b2n (P x'))%nat.
  Proof.
    unfold akeys, b2n. induction l as [|[k' y] t IH]; cbn [aget aset cnt map fst]; intros Hnd Hg; [discriminate|].
    inversion Hnd as [|? ? Hni Hnd']; subst.
    destruct (N.eqb_spec k k') as [->|Hn].
    - inversion Hg; subst. cbn [cnt]. destruct (P x), (P x'); lia.
    - cbn [cnt]. specialize (IH Hnd' Hg). destruct (P y); lia.
  Qed.

  Lemma cnt_aset_new P k x' l :
    aget k l = None -> cnt P (aset k x' l) = (cnt P l + b2n (P x'))%nat.
  Proof.
    unfold b2n. induction l as [|[k' y] t IH]; cbn [aget aset cnt]; intros Hg; [lia|].
    destruct (N.eqb_spec k k') as [->|Hn]; [discriminate|].
    cbn [cnt]. rewrite (IH Hg). lia.
  Qed.

  (* one entry written, whether or not the key was present *)
  Definition bo (P : A -> bool) (o : option A) : nat := match o with Some x => b2n (P x) | None => 0%nat end.

  Lemma cnt_aset_any P k x' l :
    NoDup (akeys l) -> (cnt P (aset k x' l) + bo P (aget k l) = cnt P l + b2n (P x'))%nat.
  Proof.
    intros H. destruct (aget k l) eqn:E; cbn [bo]; [apply cnt_aset; assumption | rewrite cnt_aset_new by exact E; lia].
  Qed.

  Lemma cnt_zero P l : cnt P l = 0%nat <-> (forall k x, In (k, x) l -> P x = false).
  Proof.
    induction l as [|[k' y] t IH]; cbn [cnt In]; [split; [intros _ ? ? [] | reflexivity]|].
    split.
    - intros H k x [E|Hi].
      + inversion E; subst. destruct (P x); [lia | reflexivity].
      + apply (proj1 IH) with k; [destruct (P y); lia | exact Hi].
    - intros H. rewrite (H k' y) by (left; reflexivity). apply IH. intros k x Hi. apply (H k x). right. exact Hi.
  Qed.

  Lemma cnt_pos P k x l : In (k, x) l -> P x = true -> (0 < cnt P l)%nat.
  Proof.
    intros Hi Hp. destruct (cnt P l) eqn:E; [|lia].
    rewrite (proj1 (cnt_zero P l) E k x Hi) in Hp. discriminate.
  Qed.

  Lemma cnt_ext P Q l : (forall x, P x = Q x) -> cnt P l = cnt Q l.
  Proof. intros H. induction l as [|[k y] t IH]; cbn [cnt]; [reflexivity | rewrite H, IH; reflexivity]. Qed.

  Lemma existsb_aset P k x x' l :
    NoDup (akeys l) -> aget k l = Some x -> P x' = P x ->
    existsb (fun e => P (snd e)) (aset k x' l) = existsb (fun e => P (snd e)) l.
  Proof.
    unfold akeys. induction l as [|[k' y] t IH]; cbn [aget aset existsb map fst snd]; intros Hnd Hg Hp; [discriminate|].
    inversion Hnd as [|? ? Hni Hnd']; subst.
    destruct (N.eqb_spec k k') as [->|Hn].
    - inversion Hg; subst. cbn [existsb snd]. rewrite Hp. reflexivity.
    - cbn [existsb snd]. rewrite (IH Hnd' Hg Hp). reflexivity.
  Qed.
End Assoc.


(** * waiter queues: lists of (future id, waker id) — also association lists *)
Lemma In_akeys {A} (k : N) (v : A) l : In (k, v) l -> In k (akeys l).
Proof. intros H. unfold akeys. apply in_map_iff. exists (k, v). auto. Qed.

Lemma akeys_In {A} (k : N) (l : list (N * A)) : In k (akeys l) -> exists v, In (k, v) l.
Proof. unfold akeys. intros H. apply in_map_iff in H. destruct H as [[k' v] [E Hi]]. cbn in E. subst. eauto. Qed.

Lemma akeys_app {A} (a b : list (N * A)) : akeys (a ++ b) = akeys a ++ akeys b.
Proof. apply map_app. Qed.

Lemma queued_In f l : queued f l = true <-> In f (akeys l).
Proof.
  unfold queued, akeys. rewrite existsb_exists. split.
  - intros [[f' w] [Hi He]]. cbn [fst] in He. apply N.eqb_eq in He. subst. apply in_map_iff. exists (f', w). auto.
  - intros H. apply in_map_iff in H. destruct H as [[f' w] [E Hi]]. cbn [fst] in E. subst.
    exists (f, w). split; [exact Hi | apply N.eqb_refl].
Qed.

Lemma queued_false f l : queued f l = false <-> ~ In f (akeys l).
Proof.
  rewrite <- queued_In. destruct (queued f l); split; intros H.
  - discriminate.
  - exfalso. apply H. reflexivity.
  - intros H2. discriminate.
  - reflexivity.
Qed.

Lemma unlink_In f e l : In e (unlink f l) <-> In e l /\ fst e <> f.
Proof.
  unfold unlink. rewrite filter_In. split; intros [A B]; split; try exact A.
  - intros E. subst. rewrite N.eqb_refl in B. discriminate.
  - destruct (N.eqb_spec f (fst e)); [congruence | reflexivity].
Qed.

Lemma unlink_keys f f' l : In f' (akeys (unlink f l)) <-> In f' (akeys l) /\ f' <> f.
Proof.
  split.
  - intros H. apply akeys_In in H. destruct H as [w H]. apply unlink_In in H. destruct H as [A B].
    split; [eapply In_akeys; exact A | exact B].
  - intros [H Hne]. apply akeys_In in H. destruct H as [w H]. apply In_akeys with w. apply unlink_In. auto.
Qed.

Lemma unlink_NoDup f l : NoDup (akeys l) -> NoDup (akeys (unlink f l)).
Proof.
  unfold akeys, unlink. induction l as [|[f' w] t IH]; cbn [filter map fst]; intros H; [constructor|].
  inversion H as [|? ? Hni Hnd]; subst.
  destruct (N.eqb f f'); cbn [negb map fst]; [apply IH; exact Hnd|].
  constructor; [|apply IH; exact Hnd].
  intros Hi. apply Hni. apply in_map_iff in Hi. destruct Hi as [e [E Hi]]. apply filter_In in Hi.
  apply in_map_iff. exists e. tauto.
Qed.

Lemma unlink_absent f l : ~ In f (akeys l) -> unlink f l = l.
Proof.
  unfold akeys, unlink. induction l as [|[f' w] t IH]; cbn [filter map fst In]; intros H; [reflexivity|].
  destruct (N.eqb_spec f f') as [->|Hn]; [exfalso; apply H; left; reflexivity|].
  cbn [negb]. f_equal. apply IH. tauto.
Qed.

Lemma remove_first_unlink f l : NoDup (akeys l) -> remove_first f l = unlink f l.
Proof.
  unfold akeys, unlink. induction l as [|[f' w] t IH]; cbn [remove_first filter map fst]; intros H; [reflexivity|].
  inversion H as [|? ? Hni Hnd]; subst.
  destruct (N.eqb_spec f f') as [->|Hn]; cbn [negb].
  - symmetry. apply unlink_absent. exact Hni.
  - f_equal. apply IH. exact Hnd.
Qed.

Lemma set_waker_keys f w l : akeys (set_waker f w l) = akeys l.
Proof.
  unfold akeys. induction l as [|[f' w'] t IH]; cbn [set_waker map fst]; [reflexivity|].
  destruct (N.eqb f f'); cbn [map fst]; [reflexivity | f_equal; exact IH].
Qed.

Lemma first_waiting_Some g l f w :
  first_waiting g l = Some (f, w) ->
  In (f, w) l /\ exists x, g f = Some x /\ is_waiting (f_state x) = true.
Proof.
  induction l as [|[f' w'] t IH]; cbn [first_waiting]; intros H; [discriminate|].
  destruct (g f') as [x|] eqn:E.
  - destruct (is_waiting (f_state x)) eqn:Ew.
    + inversion H; subst. split; [left; reflexivity | eauto].
    + destruct (IH H) as [A B]. split; [right; exact A | exact B].
  - destruct (IH H) as [A B]. split; [right; exact A | exact B].
Qed.

Lemma first_waiting_None g l :
  first_waiting g l = None ->
  forall f w x, In (f, w) l -> g f = Some x -> is_waiting (f_state x) = false.
Proof.
  induction l as [|[f' w'] t IH]; cbn [first_waiting]; intros H f w x Hi Hg; [contradiction|].
  destruct Hi as [E|Hi].
  - inversion E; subst. rewrite Hg in H. destruct (is_waiting (f_state x)); [discriminate | reflexivity].
  - destruct (g f') as [y|]; [destruct (is_waiting (f_state y)); [discriminate|]|]; eapply IH; eauto.
Qed.

Lemma set_waker_other f w f1 w1 l : f1 <> f -> (In (f1, w1) (set_waker f w l) <-> In (f1, w1) l).
Proof.
  intros Hne. induction l as [|[f' w'] t IH]; cbn [set_waker]; [tauto|].
  destruct (N.eqb_spec f f') as [->|Hn]; cbn [In]; [|rewrite IH; tauto].
  split; intros [E|H]; auto; inversion E; subst; contradiction.
Qed.
