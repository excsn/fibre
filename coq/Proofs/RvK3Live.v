(* Proofs/RvK3Live.v — C05 for the K3' rendezvous model, safety form: in no reachable state is a
   thread parked on a terminal state without a token or a wake in flight; a state in which no
   thread can move (spurious park returns aside) is a final state: every thread has finished and
   dropped its handle.  So no sender and receiver are ever parked against each other, and the
   last handle of a side always releases the waiters of the other side. *)
From Coq Require Import List NArith Arith Bool Lia.
From Fibre Require Import Common.Conc Chan.RvK3 Proofs.RvK3Base Proofs.RvK3Queue Proofs.RvK3Cell
  Proofs.RvK3Val Proofs.RvK3Wake Proofs.RvK3Proofs.
Import ListNotations.

(* a thread that cannot take a CGo step is finished, or parked without a token *)
Lemma stuck_is_done_or_parked cfg s u :
  Inv cfg s -> role cfg u <> None -> step true cfg s u CGo = None ->
  pcs s u = Done \/ ((pcs s u = SPark \/ pcs s u = RPark) /\ token s u = false).
Proof.
  intros HI Hr H. pose proof (L_role _ _ (I_l _ _ HI) u) as Ru. pose proof (L_x _ _ (I_l _ _ HI) u) as Xu.
  pose proof (Q_front _ _ (I_q _ _ HI) u) as Fu. pose proof (W_ne _ (I_w _ _ HI) u) as Nu.
  unfold roleok in Ru. unfold qfront, is_sender in Fu. unfold step in H.
  destruct (role cfg u) as [[|]|] eqn:Er; [| |congruence].
  - unfold sstep, dstep, drop_start, try_lock, ret in H.
    destruct (pcs s u) eqn:Ep; cbn [spc xpc] in Ru, Xu; try discriminate Ru; try discriminate Xu; auto;
      repeat (break_match H); try discriminate H; try congruence.
    right. auto.
  - unfold rstep, dstep, drop_start, try_lock, ret in H.
    destruct (pcs s u) eqn:Ep; cbn [rpc xpc] in Ru, Xu; try discriminate Ru; try discriminate Xu; auto;
      repeat (break_match H); try discriminate H; try congruence.
    right. auto.
Qed.

(* a thread that owes a wake can always move *)
Lemma owing_is_enabled cfg s t u :
  Inv cfg s -> owes (pcs s t) u -> step true cfg s t CGo <> None.
Proof.
  intros HI Ho. pose proof (L_role _ _ (I_l _ _ HI) t) as Rt. pose proof (Q_front _ _ (I_q _ _ HI) t) as Ft.
  pose proof (W_ne _ (I_w _ _ HI) t) as Nt.
  unfold roleok in Rt. unfold qfront, is_sender in Ft. unfold step.
  destruct (role cfg t) as [[|]|] eqn:Er.
  - unfold sstep, dstep, ret. destruct (pcs s t) eqn:Ep; cbn [spc owes] in *; try discriminate Rt; try contradiction;
      repeat match goal with |- context [match ?x with _ => _ end] => destruct x eqn:? end;
      try contradiction; try congruence; discriminate.
  - unfold rstep, dstep, ret. destruct (pcs s t) eqn:Ep; cbn [rpc owes] in *; try discriminate Rt; try contradiction;
      repeat match goal with |- context [match ?x with _ => _ end] => destruct x eqn:? end;
      try contradiction; try congruence; discriminate.
  - rewrite Rt in Ho. contradiction.
Qed.

Section Live.
  Variable cfg : list tcfg.
  Variable s : st.
  Hypothesis HR : reachable (sys true cfg) s.

  Let HI : Inv cfg s := Inv_reachable cfg s HR.

  (* no lost wakeup, in every reachable state: a thread standing at `park` whose state is
     already terminal has its token, or the thread that published the state still holds the
     wake handle and is about to unpark it *)
  Theorem wake_owed u :
    (pcs s u = SPark \/ pcs s u = RPark) -> wstate s u <> W ->
    token s u = true \/ exists t, owes (pcs s t) u /\ step true cfg s t CGo <> None.
  Proof.
    intros Hp Hw. assert (Hpp : parkpc (pcs s u) = true) by (destruct Hp as [-> | ->]; reflexivity).
    destruct (W_owed _ (I_w _ _ HI) _ Hpp Hw) as [Ht|[t Ho]]; [left; exact Ht|].
    right. exists t. split; [exact Ho|]. exact (owing_is_enabled _ _ _ _ HI Ho).
  Qed.

  Hypothesis HQ : quiescent_ns true cfg s.

  (* in a quiescent state a parked thread is still WAITING and its record is linked *)
  Theorem quiescent_parked_waiting u :
    parked s u -> wstate s u = W /\ (In u (sq s) \/ In u (rq s)).
  Proof.
    intros [Hp Ht].
    assert (Hw : wstate s u = W).
    { destruct (wstate s u) eqn:Ew; [reflexivity| | |];
        (destruct (wake_owed u Hp) as [X|[t [_ X]]]; [congruence|congruence|exfalso; apply X; exact (proj1 (HQ t))]). }
    split; [exact Hw|]. pose proof (Q_ok _ _ (I_q _ _ HI) u) as Qu. unfold qok in Qu.
    destruct Hp as [Hp|Hp]; rewrite Hp in Qu; cbn [qrel] in Qu; [left|right]; tauto.
  Qed.

  Lemma quiescent_thread u : u < length cfg -> pcs s u = Done \/ parked s u.
  Proof.
    intros Hu. assert (Hr : role cfg u <> None).
    { unfold role. destruct (nth_error cfg u) as [[?|?]|] eqn:E; try discriminate. apply nth_error_None in E. lia. }
    destruct (stuck_is_done_or_parked _ _ _ HI Hr (proj1 (HQ u))) as [H|[H1 H2]]; [left; exact H|right; split; assumption].
  Qed.

  (* a thread waits in the queue that the last handle of the other side disconnects *)
  Lemma in_oq_side b u : In u (oq b s) -> role cfg u = Some (negb b).
  Proof.
    intros Hin. destruct b; cbn [oq negb] in *.
    - pose proof (in_rq_receiver _ _ _ (I_l _ _ HI) (I_q _ _ HI) Hin) as Hr. unfold is_receiver in Hr.
      destruct (role cfg u) as [[|]|]; congruence.
    - pose proof (in_sq_sender _ _ _ (I_l _ _ HI) (I_q _ _ HI) Hin) as Hr. unfold is_sender in Hr.
      destruct (role cfg u) as [[|]|]; congruence.
  Qed.

  (* nobody is left waiting for side b: some thread of side b has not dropped its handle (else
     the last one would be in the disconnect loop, and enabled); it cannot be finished, so it is
     parked too -- in the other queue *)
  Lemma quiescent_oq_empty b : oq b s = [].
  Proof.
    destruct (oq b s) as [|u q] eqn:Eq; [reflexivity|]. exfalso.
    destruct (I_k _ _ HI) as [K1 _ K2].
    assert (Hc : cntof b s <> 0).
    { intros Hz. destruct (K2 b Hz) as [E|(t & ws & Hp & Hr)]; [congruence|].
      pose proof (Q_front _ _ (I_q _ _ HI) t) as Ft. unfold qfront, is_sender in Ft. rewrite Hp, Hr in Ft.
      pose proof (proj1 (HQ t)) as Hq. unfold step in Hq. rewrite Hr in Hq.
      destruct b; cbn [oq] in *; unfold sstep, rstep, dstep, ret in Hq; rewrite Hp in Hq;
        [destruct (rq s) | destruct (sq s)]; congruence. }
    rewrite K1 in Hc. apply cnt_pos in Hc. destruct Hc as (r & Hr & Ha). unfold alive in Ha.
    apply andb_true_iff in Ha. destruct Ha as [Ha1 Ha2]. apply on_side_role in Ha1.
    destruct (quiescent_thread r Hr) as [Hd|Hpr]; [rewrite Hd in Ha2; discriminate|].
    destruct (quiescent_parked_waiting r Hpr) as [_ Hi].
    assert (Hi' : In r (oq (negb b) s)).
    { destruct b; cbn [oq negb]; destruct Hi as [Hi|Hi]; try exact Hi;
        [apply (in_oq_side true) in Hi | apply (in_oq_side false) in Hi]; cbn in Hi; congruence. }
    destruct (Q_x _ _ (I_q _ _ HI)) as [X|X]; destruct b; cbn [oq negb] in *; rewrite X in *;
      first [discriminate Eq | destruct Hi'].
  Qed.

  (* deadlock freedom: the only quiescent states are the final ones *)
  Theorem deadlock_free : all_done cfg s.
  Proof.
    intros u Hu. destruct (quiescent_thread u Hu) as [H|Hpk]; [exact H|]. exfalso.
    destruct (quiescent_parked_waiting u Hpk) as [_ [Hin|Hin]];
      [change (In u (oq false s)) in Hin | change (In u (oq true s)) in Hin];
      rewrite quiescent_oq_empty in Hin; destruct Hin.
  Qed.
End Live.
