(* Proofs/TopicInvRx.v — invariant preservation: close / drop / clone of receiver handles. *)
From Fibre Require Import Common.Base Chan.TopicOps Chan.TopicSpec Proofs.TopicLemmas Proofs.TopicInv
     Proofs.TopicInvSub.

Definition srx_mark_closed (z : srx) : srx :=
  {| s_id := s_id z; s_live := s_live z; s_closed := true; s_subs := s_subs z; s_q := s_q z;
     s_cap := s_cap z; s_full := s_full z; s_exp := s_exp z; s_got := s_got z; s_reach := s_reach z |}.

Lemma live_rx_upd_same r f s x :
  live_rx r s = Some x -> (forall z, r_id (f z) = r_id z) -> r_live (f x) = true ->
  live_rx r (st_set_rxs s (upd_rx r f (rxs s))) = Some (f x).
Proof.
  intros H Hid Hl. apply live_rx_spec in H. destruct H as [Hx _].
  unfold live_rx. cbn [rxs st_set_rxs]. rewrite find_rx_upd by exact Hid. rewrite Hx, N.eqb_refl, Hl. reflexivity.
Qed.

(* step A of close/drop: the handle's own flag is set; the reference marks the handle closed *)
Lemma mark_closed_inv c s sp r x :
  Inv c s sp -> live_rx r s = Some x ->
  Inv c (st_set_rxs s (upd_rx r (fun y => rx_set_closed y true) (rxs s)))
        (sp_set_rx sp (upd_srx r srx_mark_closed (sp_rx sp))).
Proof.
  intros I Hl. apply live_rx_spec in Hl. destruct Hl as [Hx Hlive].
  destruct (pair_rx _ _ _ _ _ I Hx) as [y [Hy [Hinx [Hiny HR]]]].
  apply (inv_upd_rx _ _ _ _ x y); auto.
  assert (Hg : good c (srx_mark_closed y) = true -> good c y = true).
  { unfold good. cbn. intros H. rewrite orb_false_r in H. rewrite H. reflexivity. }
  destruct HR. constructor; cbn; auto.
  - intros A B C. apply rr_reg2; auto.
  - intros; discriminate.
Qed.

(* step B: close_internal on the handle just marked *)
Lemma mark_close_internal_inv c s sp r x :
  Inv c s sp -> live_rx r s = Some x ->
  Inv c (rx_close_internal c r (st_set_rxs s (upd_rx r (fun y => rx_set_closed y true) (rxs s))))
        (sp_set_rx sp (upd_srx r (fun z => srx_set_subs (srx_mark_closed z) []) (sp_rx sp))).
Proof.
  intros I Hl. pose proof (mark_closed_inv _ _ _ _ _ I Hl) as IA.
  assert (Hl1 : live_rx r (st_set_rxs s (upd_rx r (fun y => rx_set_closed y true) (rxs s)))
                = Some (rx_set_closed x true)).
  { apply (live_rx_upd_same r (fun y => rx_set_closed y true) s x); auto. apply live_rx_spec in Hl. tauto. }
  pose proof (close_internal_inv _ _ _ _ _ IA Hl1) as IB.
  cbn [sp_rx sp_set_rx] in IB. rewrite upd_srx_comp in IB by reflexivity. apply IB.
  intros _ y Hy. rewrite find_srx_upd in Hy by reflexivity.
  destruct (find_srx r (sp_rx sp)); [|discriminate]. rewrite N.eqb_refl in Hy. injection Hy as <-. reflexivity.
Qed.

Lemma ok_CloseR c r : step_ok_for c (CloseR r).
Proof.
  intros s sp s1 rs w sp1 vs I Hs Hsp. cbn [step sp_step] in *.
  destruct (live_rx r s) as [x|] eqn:Hl; [|same Hs Hsp I].
  destruct (r_closed x) eqn:Ec; [same Hs Hsp I|].
  injection Hs as <- <- <-. injection Hsp as <- <-. split; [|apply vs_ok_nil].
  exact (mark_close_internal_inv _ _ _ _ _ I Hl).
Qed.

Lemma not_busy_neq s r f r0 : rx_busy r s = false -> In (f, r0) (futs s) -> r0 <> r.
Proof.
  intros Hb Hin ->. unfold rx_busy in Hb.
  assert (existsb (fun p => N.eqb (snd p) r) (futs s) = true).
  { apply existsb_exists. exists (f, r). split; [exact Hin | cbn; apply N.eqb_refl]. }
  congruence.
Qed.

(* the handle goes away: its records become dead on both sides *)
Lemma inv_kill c s sp r x y f g :
  Inv c s sp -> find_rx r (rxs s) = Some x -> find_srx r (sp_rx sp) = Some y ->
  rx_busy r s = false ->
  (forall z, r_id (f z) = r_id z) -> r_live (f x) = false -> NoDup (r_subs (f x)) ->
  s_id (g y) = s_id y -> s_live (g y) = false ->
  Inv c (st_set_rxs s (upd_rx r f (rxs s))) (sp_set_rx sp (upd_srx r g (sp_rx sp))).
Proof.
  intros I Hx Hy Hbusy Hid Hdead Hnd Hgid Hgdead.
  apply inv_set_rxs; [exact I | | | |]; rewrite ?map_r_id_upd by exact Hid; [| apply (i_rnd _ _ _ I) | | auto].
  - apply (upd_id_pair r_id s_id _ (rr_id _ _ _ _ _) _ r f g _ _ (i_rx _ _ _ I)); [|auto].
    intros x0 y0 Hx0 Hy0 HR E.
    assert (E2 : s_id y0 = r) by (rewrite <- (rr_id _ _ _ _ _ _ _ HR); exact E).
    destruct (unique_pair _ _ _ _ _ _ _ _ I Hx Hy Hx0 Hy0 E E2) as [-> ->].
    constructor; try (rewrite Hdead; intros; discriminate).
    + rewrite Hid, Hgid. apply (rr_id _ _ _ _ _ _ _ HR).
    + rewrite Hdead, Hgdead. reflexivity.
    + exact Hnd.
  - (* no future belongs to r *)
    intros f0 r0 Hin. pose proof (i_flive _ _ _ I f0 r0 Hin) as Ha.
    pose proof (not_busy_neq _ _ _ _ Hbusy Hin) as Hne.
    unfold rx_alive in *. rewrite find_rx_upd by exact Hid.
    destruct (find_rx r0 (rxs s)) as [z|]; [|discriminate].
    destruct (N.eqb_spec r0 r); [contradiction | exact Ha].
Qed.

Lemma ok_DropR c r : step_ok_for c (DropR r).
Proof.
  intros s sp s1 rs w sp1 vs I Hs Hsp. cbn [step sp_step] in *.
  destruct (live_rx r s) as [x|] eqn:Hl; [|same Hs Hsp I].
  destruct (rx_busy r s) eqn:Hb; [same Hs Hsp I|].
  injection Hs as <- <- <-. injection Hsp as <- <-. split; [|apply vs_ok_nil].
  set (sA := st_set_rxs s (upd_rx r (fun y => rx_set_closed y true) (rxs s))) in *.
  assert (Hl1 : live_rx r sA = Some (rx_set_closed x true)).
  { apply (live_rx_upd_same r (fun y => rx_set_closed y true) s x); auto. apply live_rx_spec in Hl. tauto. }
  set (run := if r_async x && negb (fix07 c) then true else negb (r_closed x)).
  (* after the optional close_internal: invariant w.r.t. a reference state that differs from sp at r only *)
  assert (IC : exists s2 gC, s2 = (if run then rx_close_internal c r sA else sA) /\
                 (forall z, s_id (gC z) = s_id z) /\
                 Inv c s2 (sp_set_rx sp (upd_srx r gC (sp_rx sp))) /\
                 futs s2 = futs s /\ exists x2, live_rx r s2 = Some x2).
  { destruct run.
    - exists (rx_close_internal c r sA), (fun z => srx_set_subs (srx_mark_closed z) []).
      destruct (close_internal_frame c r sA) as [_ [_ [_ [Ef _]]]].
      split; [reflexivity|]. split; [reflexivity|]. split; [exact (mark_close_internal_inv _ _ _ _ _ I Hl)|].
      split; [exact Ef | exact (live_rx_frame _ _ r _ (close_internal_frame c r sA) Hl1)].
    - exists sA, srx_mark_closed. split; [reflexivity|]. split; [reflexivity|].
      split; [exact (mark_closed_inv _ _ _ _ _ I Hl) | eauto]. }
  destruct IC as [s2 [gC [Es2 [HgC [I2 [Hf2 [x2 Hl2]]]]]]]. rewrite <- Es2.
  apply live_rx_spec in Hl2. destruct Hl2 as [Hx2 Hlive2].
  destruct (pair_rx _ _ _ _ _ I2 Hx2) as [y2 [Hy2 [_ [_ HR2]]]].
  apply live_rx_spec in Hl. destruct Hl as [Hx Hlive].
  destruct (pair_rx _ _ _ _ _ I Hx) as [y [Hy _]].
  assert (Hb2 : rx_busy r s2 = false) by (unfold rx_busy; rewrite Hf2; exact Hb).
  pose proof (inv_kill c s2 _ r x2 y2
                (fun z => rx_set_mb (rx_set_live z false) (fst (mb_disconnect (r_mb z))))
                (fun _ => srx_close y false (s_closed y)) I2 Hx2 Hy2 Hb2) as K.
  cbn [sp_rx sp_set_rx] in K. rewrite upd_srx_comp in K by exact HgC.
  rewrite (upd_srx_ext_in r (fun _ => srx_close y false (s_closed y)) (fun x0 => srx_close x0 false (s_closed x0))) in K.
  - apply K; try reflexivity.
    + apply (rr_nd _ _ _ _ _ _ _ HR2).
    + cbn. cbn [sp_rx sp_set_rx] in Hy2. rewrite find_srx_upd in Hy2 by exact HgC. rewrite Hy, N.eqb_refl in Hy2.
      injection Hy2 as <-. rewrite HgC. reflexivity.
  - intros z Hz Ez. rewrite (find_id_unique s_id r _ y z (spec_rx_nodup _ _ _ I) Hy Hz Ez). reflexivity.
Qed.

(** clone of a receiver *)
Lemma any_open_filter sp : any_open sp = negb (Nat.eqb (length (filter x_open (sp_tx sp))) 0).
Proof. apply existsb_filter_length. Qed.

Lemma inv_add_rx c s sp xn yn :
  Inv c s sp -> find_rx (r_id xn) (rxs s) = None ->
  rel_rx c (lists s) (disp_alive s) (any_open sp) (sg c sp) xn yn ->
  Inv c (st_set_rxs s (rxs s ++ [xn])) (sp_set_rx sp (sp_rx sp ++ [yn])).
Proof.
  intros I Hfresh HR. apply inv_set_rxs; [exact I | | | |]; rewrite ?map_app.
  - apply Forall2_snoc; [apply (i_rx _ _ _ I) | exact HR].
  - apply NoDup_snoc; [apply (i_rnd _ _ _ I) | apply (find_id_None r_id); exact Hfresh].
  - intros f0 r0 Hin. pose proof (i_flive _ _ _ I f0 r0 Hin) as Ha.
    unfold rx_alive in *. rewrite find_rx_app. destruct (find_rx r0 (rxs s)); [exact Ha | discriminate].
  - intros m Hm. apply in_or_app. left. exact Hm.
Qed.

Lemma sp_sub_fold_new r' cap ss : ~ In r' (map s_id ss) -> forall ts pre sp,
  sp_rx sp = ss ++ [srx_new r' pre cap] -> NoDup (pre ++ ts) ->
  fold_left (fun a t => sp_sub r' t a) ts sp = sp_set_rx sp (ss ++ [srx_new r' (pre ++ ts) cap]).
Proof.
  intros Hni. induction ts as [|t ts IH]; intros pre sp Hsp Hnd; cbn [fold_left].
  - rewrite app_nil_r, <- Hsp. destruct sp; reflexivity.
  - rewrite (IH (pre ++ [t])).
    + unfold sp_sub. cbn [sp_rx sp_set_rx]. rewrite <- app_assoc. reflexivity.
    + unfold sp_sub. cbn [sp_rx sp_set_rx]. unfold upd_srx. rewrite Hsp, map_app. fold (upd_srx r' (fun x => if mem t (s_subs x) then x else srx_set_subs x (s_subs x ++ [t])) ss).
      rewrite (upd_id_notin s_id) by exact Hni.
      f_equal. unfold upd_srx. cbn [map srx_new s_id s_subs]. rewrite N.eqb_refl.
      assert (E : mem t pre = false).
      { apply mem_false_In. intros Hi. apply NoDup_remove_2 in Hnd. apply Hnd. apply in_or_app. left. exact Hi. }
      rewrite E. reflexivity.
    + rewrite <- app_assoc. exact Hnd.
Qed.

Lemma ok_CloneR c r r' : step_ok_for c (CloneR r r').
Proof.
  intros s sp s1 rs w sp1 vs I Hs Hsp. cbn [step sp_step] in *.
  destruct (live_rx r s) as [x|] eqn:Hl; [|same Hs Hsp I].
  destruct (find_rx r' (rxs s)) as [x'|] eqn:Hf'; [same Hs Hsp I|].
  apply live_rx_spec in Hl. destruct Hl as [Hx Hlive].
  destruct (pair_rx _ _ _ _ _ I Hx) as [y [Hy [Hinx [Hiny HR]]]].
  pose proof (find_id_pair_None r_id s_id _ (rr_id _ _ _ _ _) _ _ r' (i_rx _ _ _ I) Hf') as Hnone.
  rewrite Hy in Hsp. change (find_id s_id r' (sp_rx sp)) with (find_srx r' (sp_rx sp)) in Hnone. rewrite Hnone in Hsp.
  apply (find_id_None s_id) in Hnone.
  destruct (disp_alive s) eqn:Eda; injection Hs as <- <- <-; injection Hsp as <- <-; (split; [|apply vs_ok_nil]).
  - destruct (rr_subs _ _ _ _ _ _ _ HR Hlive eq_refl) as [Hsubs Hcap].
    set (bd := fix05 c && fix04 c && Z.eqb (scount s) 0).
    set (xn := new_rx r' (r_async x) false (m_cap (r_mb x)) bd).
    pose proof (inv_rcount c s sp (rcount s + 1)%Z I) as I1.
    assert (I2 : Inv c (st_set_rxs (st_set_rcount s (rcount s + 1)%Z) (rxs s ++ [xn]))
                       (sp_set_rx sp (sp_rx sp ++ [srx_new r' [] (s_cap y)]))).
    { apply (inv_add_rx c (st_set_rcount s (rcount s + 1)%Z) sp xn); [exact I1 | exact Hf' |].
      change (disp_alive (st_set_rcount s (rcount s + 1)%Z)) with (disp_alive s). rewrite Eda.
      constructor; cbn; auto; try (intros; discriminate); try (intros; contradiction).
      - constructor.
      - intros _ _ _ t l H1 H2. apply (find_id_None r_id) in Hf'. apply Hf'. eapply (i_lknown _ _ _ I); eauto.
      - (* born disconnected only when the sender count is 0 *)
        intros _ Hbd _. unfold bd in Hbd. apply andb_true_iff in Hbd. destruct Hbd as [Hbd Hz].
        apply andb_true_iff in Hbd. destruct Hbd as [_ F4]. apply Z.eqb_eq in Hz.
        rewrite (i_cnt _ _ _ I F4) in Hz. rewrite any_open_filter.
        destruct (length (filter x_open (sp_tx sp))); [reflexivity | lia].
      - intros _ F4 F5 Hao. unfold bd. rewrite F4, F5. cbn. apply Z.eqb_eq.
        rewrite (i_cnt _ _ _ I F4). rewrite any_open_filter in Hao.
        destruct (length (filter x_open (sp_tx sp))); [reflexivity | discriminate]. }
    assert (Hln : live_rx r' (st_set_rxs (st_set_rcount s (rcount s + 1)%Z) (rxs s ++ [xn])) = Some xn).
    { unfold live_rx. cbn [rxs st_set_rxs st_set_rcount]. rewrite find_rx_app, Hf'. cbn. rewrite N.eqb_refl. reflexivity. }
    pose proof (sub_fold c r' (r_subs x) _ _ xn I2 Hln) as I3.
    rewrite (sp_sub_fold_new r' (s_cap y) (sp_rx sp) Hnone (r_subs x) []) in I3.
    + rewrite <- Hsubs. exact I3.
    + reflexivity.
    + apply (rr_nd _ _ _ _ _ _ _ HR).
  - apply (inv_add_rx c s sp (new_rx r' (r_async x) true 0 (fix05 c))); [exact I | exact Hf' |].
    rewrite Eda. constructor; cbn; auto; try (intros; discriminate); try (intros; contradiction).
    + constructor.
    + intros _ _ _. apply (da_false_ao _ _ _ I Eda).
Qed.
