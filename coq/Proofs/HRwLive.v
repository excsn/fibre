(* Proofs/HRwLive.v — HybridRwLock: full invariant and the wake-owed / deadlock-freedom / list theorems. *)
From Coq Require Import List NArith Arith Bool Lia.
From Fibre Require Import Common.Conc Sync.HMutex Sync.HRwLock Proofs.HMutexBase Proofs.HRwBase Proofs.HRwGuard
     Proofs.HRwProofs Proofs.HRwQueue Proofs.HRwNode Proofs.HRwWake Proofs.HRwOwed.
Import ListNotations.

Definition RInvFull s :=
  RInv s /\ RInvP s /\ RInvN s /\ RInvC s /\ RInvDp s /\ RInvE s /\ RInvF1 s /\ RInvF2 s /\ RInvW s.

Lemma RInvFull_init progs : RInvFull (rwinit progs).
Proof.
  unfold RInvFull. split; [apply RInv_init|]. split; [|split; [|split; [|split; [|split; [|split; [|split]]]]]].
  - intros u. cbn. discriminate.
  - intros u. cbn. discriminate.
  - unfold RInvC. cbn. split; [constructor|]. split; [intros u; unfold rlinkok; cbn; tauto|intros u b []].
  - intros X. discriminate X.
  - unfold RInvE. cbn. split; [intros h b []|intros h b k []].
  - intros h k X. discriminate X.
  - intros h X. discriminate X.
  - intros _ _ X. exfalso. apply X. reflexivity.
Qed.

Lemma RInvFull_step s t c s' e : RInvFull s -> rwstep s t c = Some (s', e) -> RInvFull s'.
Proof.
  intros (R & P & N & C & Dp & E & F1 & F2 & W) H. pose proof R as (A & B & D).
  split; [eapply RInv_step; eassumption|]. split; [|split; [|split; [|split; [|split; [|split; [|split]]]]]].
  - eapply RInvP_step; eassumption.
  - eapply RInvN_step; eassumption.
  - eapply RInvC_step; eassumption.
  - eapply RInvDp_step; eassumption.
  - eapply RInvE_step; eassumption.
  - eapply RInvF1_step; eassumption.
  - eapply RInvF2_step; eassumption.
  - eapply RInvW_step; eassumption.
Qed.

Theorem RInvFull_reachable progs s : reachable (rwsys progs) s -> RInvFull s.
Proof.
  apply (invariant_lift (rwsys progs) RInvFull).
  - apply RInvFull_init.
  - intros s0 t c s' e. apply RInvFull_step.
Qed.

Lemma rdo_taload_some s t a : rdo_taload s t a <> None.
Proof.
  unfold rdo_taload, ta_fail, rret. destruct (rkind_a a);
    match goal with |- context [if ?b then _ else _] => destruct b end; try discriminate; destruct a; discriminate.
Qed.

Lemma rdo_llswap_some s t l : rdo_llswap s t l <> None.
Proof. unfold rdo_llswap, rret. destruct l as [[|]| | |]; cbn; destruct (rllock _); discriminate. Qed.

Lemma rdo_wait_some s t c : rdo_wait s t c <> None.
Proof. unfold rdo_wait, rret. destruct c; discriminate. Qed.

Lemma ridle_fut_steps s t c : rpcs s t = RIdle -> rfut s t <> None -> rwstep s t c <> None.
Proof.
  intros Epc Hf. unfold rwstep. rewrite Epc.
  generalize (rprog s t). intros p. revert s Epc Hf. induction p as [|o r IH]; intros s Epc Hf; cbn [rdispatch].
  - destruct (rfut s t); [apply rdo_llswap_some|congruence].
  - destruct o; destruct (rfut s t) as [[k' b]|] eqn:F; try congruence;
      try apply rdo_llswap_some; try apply rdo_taload_some; try apply rdo_wait_some.
    destruct (rw_eqb k k'); [apply rdo_taload_some|apply rdo_llswap_some].
Qed.

Definition rstuck (s : rwstate) (t : nat) : Prop :=
  rpcs s t = RIdle \/ (exists k, rpcs s t = RPark k /\ rtoken s t = false) \/ (rpcs s t = RBPark /\ rtoken s t = false).

Lemma rdisabled_stuck s t c : rwstep s t c = None -> rstuck s t.
Proof.
  unfold rwstep, rstuck. destruct (rpcs s t) eqn:Epc; intros H; auto;
    try (exfalso; revert H; first [apply rdo_taload_some | apply rdo_llswap_some | apply rdo_wait_some]);
    unfold rret, rblock_next, rdo_fix1, ta_fail, after_acq_a in H.
  all: try discriminate H.
  all: repeat (rbreak_match H; try discriminate H); eauto.
  all: try (exfalso; revert H; first [apply rdo_taload_some | apply rdo_llswap_some | apply rdo_wait_some]).
Qed.

Lemma rstuck_facts s t : rstuck s t ->
  holdsk RD (rpcs s t) = false /\ holdsk WR (rpcs s t) = false /\ rwakepre (rpcs s t) = false
  /\ rdroppre (rpcs s t) = false /\ rarmed_pre (rpcs s t) = false /\ rinlist (rpcs s t) = false
  /\ (forall h, ~ pendT (rpcs s t) h) /\ (forall h, ~ pendB (rpcs s t) h) /\ (forall h r, rpcs s t <> RWWake h r).
Proof.
  intros [H|[[k [H _]]|[H _]]]; rewrite H; cbn; repeat split; try (intros h X; exact X); discriminate.
Qed.

(* No reachable state in which nobody can step has an unfinished thread: no reader or writer (sync or
   block_on) is left parked, no future is left pending. *)
Theorem rw_deadlock_free progs s :
  reachable (rwsys progs) s -> quiescent (rwsys progs) s ->
  forall t, rpcs s t = RIdle /\ rfut s t = None.
Proof.
  intros R Q.
  destruct (RInvFull_reachable _ _ R) as ((A & B & D) & P & N & (C1 & C2 & C3) & Dp & E & F1 & F2 & W).
  assert (St : forall u, rstuck s u) by (intros u; apply (rdisabled_stuck s u RGo); apply (Q u RGo)).
  assert (Free : wl s = false /\ rd s = 0%N).
  { destruct A as (A1 & A2 & A3 & A4 & A5 & A6). split.
    - destruct (wl s) eqn:EL; [|reflexivity]. exfalso. destruct (A5 eq_refl) as [[h Hh] _].
      assert (X : holdsk WR (rpcs s h) = true) by (apply A1; rewrite Hh; left; reflexivity).
      destruct (rstuck_facts s h (St h)) as (_ & Y & _). congruence.
    - rewrite A4. destruct (rholders s) as [|h r] eqn:ER; [reflexivity|]. exfalso.
      assert (X : holdsk RD (rpcs s h) = true) by (apply A2; left; reflexivity).
      destruct (rstuck_facts s h (St h)) as (Y & _). congruence. }
  destruct Free as [HL HR].
  assert (NoWoken : forall h, (exists k, rpcs s h = RPark k) \/ rpcs s h = RBPark -> rnwk s h = true -> False).
  { intros h [[k Hp]|Hp] Hn.
    - destruct (St h) as [X|[[k' [_ Tk]]|[X _]]]; try congruence.
      destruct (F1 h k Hp Hn) as [T|[w X]]; [congruence|].
      destruct (rstuck_facts s w (St w)) as (_ & _ & _ & _ & _ & _ & Y & _). exact (Y h X).
    - destruct (St h) as [X|[[k' [X _]]|[_ Tk]]]; try congruence.
      destruct (F2 h Hp Hn) as [[w X]|[_ [T|[w [r X]]]]]; [|congruence|].
      + destruct (rstuck_facts s w (St w)) as (_ & _ & _ & _ & _ & _ & _ & Y & _). exact (Y h X).
      + destruct (rstuck_facts s w (St w)) as (_ & _ & _ & _ & _ & _ & _ & _ & Y). exact (Y h r X). }
  assert (NoPark : forall t, (exists k, rpcs s t = RPark k) \/ rpcs s t = RBPark -> False).
  { intros t Ht.
    assert (Hnw : rnwk s t = false) by (destruct (rnwk s t) eqn:EN; [exfalso; exact (NoWoken t Ht EN)|reflexivity]).
    assert (Hin : exists b, In (t, b) (rqueue s)).
    { specialize (C2 t). unfold rlinkok in C2. destruct Ht as [[k Ht]|Ht]; rewrite Ht in C2; cbn [rlk] in C2.
      - rewrite Hnw in C2. rewrite orb_true_r in C2. exact C2.
      - pose proof (P t) as Pt. rewrite Ht in Pt. destruct Pt as [k Pt]. rewrite Pt in C2. cbn [flk] in C2.
        rewrite Hnw in C2. rewrite orb_true_r in C2. exact C2. }
    assert (HQ : rqueue s <> []) by (destruct Hin as [b Hb]; intros X; rewrite X in Hb; destruct Hb).
    destruct (W HL HR HQ) as [[w Pw]|Hok].
    - destruct (rstuck_facts s w (St w)) as (_ & _ & X1 & X2 & _). unfold rprew in Pw. rewrite X1, X2 in Pw.
      destruct Pw as [X|[X _]]; discriminate X.
    - assert (Awake : forall h b, In (h, b) (rqueue s) -> rheadok s h -> False).
      { intros h b Hh [Hk|Hk]; [|destruct (rstuck_facts s h (St h)) as (_ & _ & _ & _ & X & _); congruence].
        destruct (St h) as [Si|[[k [Sp _]]|[Sp _]]].
        - destruct (C3 h b Hh) as [kk [K1 _]]. rewrite Si in K1. cbn [rckind] in K1.
          destruct (rfut s h) eqn:Fh; [|discriminate K1].
          apply (ridle_fut_steps s h RGo Si); [congruence|apply (Q h RGo)].
        - apply (NoWoken h); [left; eauto|exact Hk].
        - apply (NoWoken h); [right; exact Sp|exact Hk]. }
      unfold rtarget_ok in Hok. destruct (first_writer (rqueue s)) as [w|] eqn:FW.
      + apply (Awake w true); [apply first_writer_In; exact FW|exact Hok].
      + destruct Hok as [u [b [Hu Hk]]]. apply (Awake u b Hu). right. exact Hk. }
  intros t. destruct (St t) as [Si|[[k [Sp _]]|[Sp _]]]; [|exfalso; eauto|exfalso; eauto].
  split; [exact Si|]. destruct (rfut s t) eqn:Ft; [|reflexivity]. exfalso.
  apply (ridle_fut_steps s t RGo Si); [congruence|apply (Q t RGo)].
Qed.

Theorem rw_wake_owed progs s :
  reachable (rwsys progs) s -> quiescent (rwsys progs) s ->
  wl s = false /\ rd s = 0%N /\ rqueue s = [] /\ wholders s = [] /\ rholders s = [] /\ rllock s = None
  /\ forall t k, rpcs s t <> RPark k /\ rpcs s t <> RBPark.
Proof.
  intros R Q. pose proof (rw_deadlock_free _ _ R Q) as DF.
  destruct (RInvFull_reachable _ _ R) as (((A1 & A2 & A3 & A4 & A5 & A6) & (B1 & B2) & _) & _ & _ & (C1 & C2 & C3) & _).
  assert (HWh : wholders s = []).
  { destruct (wholders s) as [|h r] eqn:EH; [reflexivity|]. exfalso.
    assert (X : holdsk WR (rpcs s h) = true) by (apply A1; left; reflexivity).
    destruct (DF h) as [Y _]. rewrite Y in X. discriminate X. }
  assert (HRh : rholders s = []).
  { destruct (rholders s) as [|h r] eqn:EH; [reflexivity|]. exfalso.
    assert (X : holdsk RD (rpcs s h) = true) by (apply A2; left; reflexivity).
    destruct (DF h) as [Y _]. rewrite Y in X. discriminate X. }
  assert (HL : wl s = false).
  { destruct (wl s) eqn:EL; [|reflexivity]. destruct (A5 eq_refl) as [[h Hh] _]. congruence. }
  repeat split; try assumption.
  - rewrite A4, HRh. reflexivity.
  - destruct (rqueue s) as [|[h b] r] eqn:EQ; [reflexivity|]. exfalso.
    destruct (C3 h b (or_introl eq_refl)) as [kk [K1 _]]. destruct (DF h) as [Y Z]. rewrite Y, Z in K1. discriminate K1.
  - destruct (rllock s) as [h|] eqn:EL; [|reflexivity]. exfalso.
    specialize (B2 h eq_refl). destruct (DF h) as [Y _]. rewrite Y in B2. discriminate B2.
  - destruct (DF t) as [Y _]. rewrite Y. discriminate.
  - destruct (DF t) as [Y _]. rewrite Y. discriminate.
Qed.

Lemma rckind_alive p f k : rckind p f = Some k -> rinsync p = true \/ f <> None.
Proof.
  intros H. destruct f as [x|]; [right; discriminate|left].
  destruct p; cbn [rckind rinsync] in *; try discriminate H; case_pc; try discriminate H; reflexivity.
Qed.

Theorem rw_list_wf progs s :
  reachable (rwsys progs) s ->
  NoDup (map fst (rqueue s))
  /\ forall u b, In (u, b) (rqueue s) ->
       (rinsync (rpcs s u) = true \/ rfut s u <> None)
       /\ exists k, rckind (rpcs s u) (rfut s u) = Some k /\ b = is_wr k.
Proof.
  intros R. destruct (RInvFull_reachable _ _ R) as (_ & _ & _ & (C1 & C2 & C3) & _).
  split; [exact C1|]. intros u b Hu. destruct (C3 u b Hu) as [k [K1 K2]].
  split; [eapply rckind_alive; exact K1|exists k; split; assumption].
Qed.

(* While the lock is completely free and the list is non-empty a wake_waiters is on its way — this
   includes the drop of a future whose node was WOKEN, between its unlink and its wake_waiters —
   or the wake target is already awake. *)
Theorem rw_wake_in_flight progs s :
  reachable (rwsys progs) s -> wl s = false -> rd s = 0%N -> rqueue s <> [] ->
  (exists w, rprew s w) \/ rtarget_ok s.
Proof. intros R. destruct (RInvFull_reachable _ _ R) as (_ & _ & _ & _ & _ & _ & _ & _ & W). exact W. Qed.

(* A parked waiter whose node has been marked WOKEN has its park token, or its handle is in the
   wake list of a wake_waiters that has not fired it yet. *)
Theorem rw_woken_has_token progs s :
  reachable (rwsys progs) s ->
  (forall h k, rpcs s h = RPark k -> rnwk s h = true -> rtoken s h = true \/ exists w, pendT (rpcs s w) h)
  /\ (forall h, rpcs s h = RBPark -> rnwk s h = true ->
        (exists w, pendB (rpcs s w) h)
        \/ (rbwoken s h = true /\ (rtoken s h = true \/ exists w r, rpcs s w = RWWake h r))).
Proof. intros R. destruct (RInvFull_reachable _ _ R) as (_ & _ & _ & _ & _ & _ & F1 & F2 & _). split; assumption. Qed.

(* the dropper of a WOKEN future counts as a waker in flight from its unlink on *)
Theorem rw_cancel_is_waker s t :
  rdroppre (rpcs s t) = true -> rnwk s t = true -> rprew s t.
Proof. intros X Y. right. split; assumption. Qed.
