(* Proofs/SpscK3Examples.v — non-vacuity witnesses for the K3 SPSC theorems: concrete schedules,
   evaluated with vm_compute, that really park and are woken, wrap the indices around the physical
   buffer, fail a try_send, and run the teardown. *)
From Fibre Require Import Common.Base Common.Conc Chan.SpscK3 Proofs.SpscK3Proofs.
Fixpoint rep (n : nat) (t : tid) : list (tid * choice) :=
  match n with O => [] | S m => (t, CGo) :: rep m t end.

(* cap 1 (phys 2): the consumer runs first, registers and parks; the producer publishes, reads the
   gate, takes the registration and unparks; the consumer wakes, receives; indices wrap around
   the two physical cells over three sends; everything terminates and the ring is drained *)
Definition ex_sys := sys 1 2 [Send; Send; Send] [Recv; Recv; Recv].
Definition ex_s1 := fst (run ex_sys (init [Send; Send; Send] [Recv; Recv; Recv]) (rep 40 TC)).
Definition ex_s2 := fst (run ex_sys ex_s1 (rep 40 TP)).
Definition ex_s3 := fst (run ex_sys ex_s2 (rep 200 TC ++ rep 200 TP ++ rep 200 TC ++ rep 200 TP ++ rep 200 TC)).

Lemma ex_parks : consumer_parked ex_s1 /\ cw_slot ex_s1 = true /\ recv_w ex_s1 = 1.
Proof. vm_compute. repeat split; reflexivity. Qed.
Lemma ex_wakes_and_blocks : tok_c ex_s2 = true /\ c_notif ex_s2 = true /\ producer_parked ex_s2 /\ tail ex_s2 = 1.
Proof. vm_compute. repeat split; reflexivity. Qed.
Lemma ex_completes :
  ppc ex_s3 = PDone /\ cpc ex_s3 = CDone /\ cresults ex_s3 = [RVal 1; RVal 2; RVal 3] /\
  presults ex_s3 = [POk 1; POk 2; POk 3] /\ tail ex_s3 = 3 /\ quiescent_ns 1 2 ex_s3.
Proof.
  repeat match goal with |- _ /\ _ => split end; try (vm_compute; reflexivity).
  intros []; split; vm_compute; reflexivity.
Qed.

(* non-power-of-two capacity (cap 3, phys 4), failed try_send hands back, teardown drops the residue *)
Definition ex_t := fst (run (sys 3 4 [TrySend; TrySend; TrySend; TrySend; Send] [TryRecv])
                            (init [TrySend; TrySend; TrySend; TrySend; Send] [TryRecv])
                            (rep 60 TP ++ rep 60 TC ++ rep 60 TP ++ rep 60 TC)).
Lemma ex_teardown :
  presults ex_t = [POk 1; POk 2; POk 3; PFull 4; PGone 5] /\ cresults ex_t = [RVal 1] /\
  dropped ex_t = [2; 3] /\ ppc ex_t = PDone /\ cpc ex_t = CDone.
Proof. vm_compute. repeat split; reflexivity. Qed.
