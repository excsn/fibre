(* Proofs/PolicySlruProofs.v — contract for SlruP (and the SlruState lemmas
   reused by TinyLfu). *)
From Fibre Require Import Common.Base Cache.PolicySpec Cache.PolicyLru Cache.PolicySlru
     Proofs.PolicyCommon Proofs.PolicyLruProofs.

Lemma ll_pop_back_some l x l' : ll_pop_back l = Some (x, l') -> l = l' ++ [x].
Proof.
  unfold ll_pop_back. destruct (rev l) as [|y r] eqn:E; [discriminate|].
  intros H. inversion H; subst. rewrite <- (rev_involutive l), E. reflexivity.
Qed.

Lemma ll_pop_back_none l : ll_pop_back l = None -> l = [].
Proof.
  unfold ll_pop_back. destruct (rev l) as [|y r] eqn:E; [|discriminate].
  intros _. rewrite <- (rev_involutive l), E. reflexivity.
Qed.

Lemma ll_hasP k l : reflect (In k (keys l)) (ll_has k l).
Proof.
  unfold ll_has. destruct (lookup k l) eqn:E; constructor.
  - eapply lookup_Some_keys; eauto.
  - apply lookup_None. exact E.
Qed.

Lemma ll_has_lookup k l : ll_has k l = true -> exists c, lookup k l = Some c.
Proof. intros H. apply In_keys_lookup. destruct (ll_hasP k l); [assumption | discriminate]. Qed.

(** maintain_capacities only moves entries between the segments *)
Lemma slru_maintain_perm fuel pcap : forall prob prot pb pt,
  NoDup (keys (prob ++ prot)) ->
  slru_maintain fuel pcap prob prot = (pb, pt) ->
  Permutation (pb ++ pt) (prob ++ prot).
Proof.
  induction fuel as [|f IH]; intros prob prot pb pt Hnd H; cbn [slru_maintain] in H.
  - inversion H; subst. apply Permutation_refl.
  - destruct (N.ltb pcap (total prot)); [|inversion H; subst; apply Permutation_refl].
    destruct (ll_pop_back prot) as [[[k c] prot']|] eqn:E; [|inversion H; subst; apply Permutation_refl].
    apply ll_pop_back_some in E. subst prot.
    assert (Hk : ~ In k (keys prob)).
    { eapply seg_not_left; [exact Hnd|]. apply In_keys_app. right. left. reflexivity. }
    unfold ll_push_front in H. rewrite (rm_id k prob Hk) in H.
    assert (HP : Permutation (((k, c) :: prob) ++ prot') (prob ++ prot' ++ [(k, c)])).
    { cbn [app]. rewrite app_assoc. apply Permutation_cons_append. }
    eapply Permutation_trans; [|exact HP].
    apply (IH _ _ _ _) in H; [exact H|].
    eapply perm_NoDup_keys; [exact HP | exact Hnd].
Qed.

(** the fuel supplied ([length prot]) suffices: on return the loop condition is false *)
Lemma slru_maintain_done fuel pcap : forall prob prot pb pt,
  (length prot <= fuel)%nat ->
  slru_maintain fuel pcap prob prot = (pb, pt) ->
  total pt <= pcap \/ pt = [].
Proof.
  induction fuel as [|f IH]; intros prob prot pb pt Hlen H; cbn [slru_maintain] in H.
  - inversion H; subst. right. destruct pt; [reflexivity | cbn [length] in Hlen; lia].
  - destruct (N.ltb_spec pcap (total prot)) as [Hlt|Hge]; [|inversion H; subst; left; exact Hge].
    destruct (ll_pop_back prot) as [[[k c] prot']|] eqn:E.
    + apply ll_pop_back_some in E. subst prot. rewrite app_length in Hlen. cbn [length] in Hlen.
      eapply IH; [|exact H]. lia.
    + inversion H; subst. right. apply ll_pop_back_none. exact E.
Qed.

Lemma slru_maintain_all_perm pcap s :
  NoDup (keys (slru_tr s)) -> Permutation (slru_tr (slru_maintain_all pcap s)) (slru_tr s).
Proof.
  unfold slru_maintain_all, slru_tr. intros H.
  destruct (slru_maintain (length (sl_prot s)) pcap (sl_prob s) (sl_prot s)) as [pb pt] eqn:E.
  cbn [sl_prob sl_prot]. eapply slru_maintain_perm; eauto.
Qed.

Lemma slru_maintain_all_done pcap s :
  total (sl_prot (slru_maintain_all pcap s)) <= pcap \/ sl_prot (slru_maintain_all pcap s) = [].
Proof.
  unfold slru_maintain_all.
  destruct (slru_maintain (length (sl_prot s)) pcap (sl_prob s) (sl_prot s)) as [pb pt] eqn:E.
  cbn [sl_prot]. eapply slru_maintain_done; [|exact E]. apply le_n.
Qed.

(** the calls, on the tracked list probationary ++ protected *)
Lemma slru_tr_In k s :
  In k (keys (slru_tr s)) <-> In k (keys (sl_prob s)) \/ In k (keys (sl_prot s)).
Proof. apply In_keys_app. Qed.

Lemma slru_hasP k m :
  reflect (In k (keys (slru_tr m))) (ll_has k (sl_prob m) || ll_has k (sl_prot m)).
Proof.
  destruct (ll_hasP k (sl_prob m)), (ll_hasP k (sl_prot m)); constructor; rewrite slru_tr_In; tauto.
Qed.

Lemma slru_access_ok pcap k c s : NoDup (keys (slru_tr s)) ->
  access_update (slru_tr s) (slru_tr (slru_access pcap k c s)) k c.
Proof.
  intros H. unfold slru_access.
  destruct (ll_hasP k (sl_prot s)) as [Ept|Ept]; [|destruct (ll_hasP k (sl_prob s)) as [Epb|Epb]].
  - apply access_update_in; [apply slru_tr_In; right; exact Ept|].
    apply perm_touch_right. eapply seg_not_left; eauto.
  - apply access_update_in; [apply slru_tr_In; left; exact Epb|].
    set (s1 := mkSlru (ll_remove k (sl_prob s)) (ll_push_front k c (sl_prot s))).
    assert (HP1 : Permutation (slru_tr s1) ((k, c) :: rm k (slru_tr s))) by apply perm_push_right.
    eapply Permutation_trans; [apply slru_maintain_all_perm | exact HP1].
    eapply perm_NoDup_keys; [exact HP1 | apply NoDup_cons_rm; exact H].
  - apply access_update_out; [rewrite slru_tr_In; tauto | apply Permutation_refl].
Qed.

Lemma slru_admit_ok k c s : NoDup (keys (slru_tr s)) ->
  admit_full (slru_tr s) (slru_tr (slru_admit k c s)) k c.
Proof.
  intros H. unfold admit_full, slru_admit.
  destruct (ll_hasP k (sl_prot s)) as [Ept|Ept].
  - apply perm_touch_right. eapply seg_not_left; eauto.
  - unfold slru_tr, ll_push_front. cbn [sl_prob sl_prot].
    rewrite rm_app, (rm_id k (sl_prot s) Ept). apply Permutation_refl.
Qed.

Lemma slru_remove_ok k s : NoDup (keys (slru_tr s)) ->
  Permutation (slru_tr (slru_remove k s)) (rm k (slru_tr s)).
Proof.
  intros H. unfold slru_remove, slru_tr, ll_remove. rewrite rm_app.
  destruct (ll_hasP k (sl_prob s)) as [Epb|Epb]; cbn [sl_prob sl_prot].
  - rewrite (rm_id k (sl_prot s)) by (eapply seg_not_right; eauto). apply Permutation_refl.
  - rewrite (rm_id k (sl_prob s) Epb). apply Permutation_refl.
Qed.

(** Slru evicts the probationary segment first, least recent first, then the
    protected segment; and no more than needed. *)
Theorem slru_evict_order pcap n s :
  let s1 := slru_maintain_all pcap s in
  let '(s', vs, f) := slru_evict pcap n s in
  exists V1 V2, vs = keys V1 ++ keys V2 /\ f = total V1 + total V2
    /\ sl_prob s1 = sl_prob s' ++ rev V1 /\ sl_prot s1 = sl_prot s' ++ rev V2
    /\ (V2 <> [] -> sl_prob s' = [])
    /\ (n <= f \/ (sl_prob s' = [] /\ sl_prot s' = [])).
Proof.
  cbv zeta. unfold slru_evict.
  set (s1 := slru_maintain_all pcap s).
  destruct (pop_while n 0 (rev (sl_prob s1))) as [[vs1 f1] rest1] eqn:E1.
  destruct (pop_while n f1 (rev (sl_prot s1))) as [[vs2 f2] rest2] eqn:E2.
  destruct (pop_while_rev _ _ _ _ _ _ E1) as [V1 [Hl1 [Hv1 [Hf1 [Hs1 _]]]]].
  destruct (pop_while_rev _ _ _ _ _ _ E2) as [V2 [Hl2 [Hv2 [Hf2 [Hs2 Hmin2]]]]].
  exists V1, V2. cbn [sl_prob sl_prot]. repeat split.
  - subst. reflexivity.
  - lia.
  - exact Hl1.
  - exact Hl2.
  - intros Hne. destruct Hs1 as [Hs1|Hs1]; [|exact Hs1].
    (* the protected loop ran although the probationary one had freed enough *)
    exfalso. destruct V2 as [|x t _] using rev_ind; [congruence|].
    specialize (Hmin2 t x eq_refl). lia.
  - destruct Hs2 as [Hs2|Hs2]; [left; exact Hs2|].
    destruct Hs1 as [Hs1|Hs1]; [left; lia|].
    right. split; assumption.
Qed.

(* the victims V and the survivors split the tracked entries; all is taken if short *)
Lemma slru_evict_split pcap n s s' vs f : NoDup (keys (slru_tr s)) ->
  slru_evict pcap n s = (s', vs, f) ->
  exists V, vs = keys V /\ f = total V /\ Permutation (slru_tr s) (V ++ slru_tr s')
    /\ (n <= f \/ slru_tr s' = []).
Proof.
  intros H E. pose proof (slru_evict_order pcap n s) as Ho. cbv zeta in Ho. rewrite E in Ho.
  destruct Ho as [V1 [V2 [Hv [Hf [Hpb [Hpt [_ Hs]]]]]]].
  exists (V1 ++ V2). rewrite keys_app, total_app. repeat split; try assumption.
  - eapply Permutation_trans; [apply Permutation_sym, slru_maintain_all_perm; exact H|].
    unfold slru_tr. rewrite Hpb, Hpt. apply perm_split_app; apply perm_back_split.
  - destruct Hs as [Hs|[Hs1 Hs2]]; [left; exact Hs | right].
    unfold slru_tr. rewrite Hs1, Hs2. reflexivity.
Qed.

Lemma slru_evict_ok pcap n s s' vs f : NoDup (keys (slru_tr s)) ->
  slru_evict pcap n s = (s', vs, f) -> evict_ok (slru_tr s) (slru_tr s') n vs f.
Proof.
  intros H E. destruct (slru_evict_split _ _ _ _ _ _ H E) as [V [Hv [Hf [HP Hs]]]].
  subst vs. apply evict_ok_split; assumption.
Qed.

Lemma slru_step_ok cap s cl : NoDup (keys (slru_tr s)) ->
  let '(s', o) := slru_step cap s cl in
  step_okG access_update admit_full evict_ok (slru_tr s) cl o (slru_tr s').
Proof.
  intros H. destruct cl as [k c|k c|k|n|]; cbn [slru_step step_okG].
  - apply slru_access_ok. exact H.
  - apply slru_admit_ok. exact H.
  - apply slru_remove_ok. exact H.
  - destruct (slru_evict (slru_prot_capacity cap) n s) as [[s' vs] f] eqn:E.
    eapply slru_evict_ok; eauto.
  - reflexivity.
Qed.

Theorem slru_contract cap : contractG access_update admit_full evict_ok (SlruP cap).
Proof.
  apply contractG_lift_nodup.
  - exact access_update_NoDup.
  - exact admit_full_NoDup.
  - constructor.
  - exact (slru_step_ok cap).
Qed.
