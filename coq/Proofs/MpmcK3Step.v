(* The step function of the bounded-MPMC atomic-step model (Chan/MpmcK3.v; its
   theorems hold for all schedules, Conc.invariant_lift) read backwards: `Step` lists the kinds of
   transition a thread can make, each with its condition and the successor state written out over
   the setters; `step_inv` is the only place where `step` itself is taken apart.  Choices and
   events play no part in the invariants and are dropped.  Transitions that differ only in the
   program counters involved share a constructor; their tables (`wait_move`, `unpark_move`,
   `unlock_go`, ...) are relations on pcs alone. *)
From Coq Require Import List NArith Arith Bool Lia.
From Fibre Require Import Common.Conc Chan.MpmcK3.
Import ListNotations.

Lemma upd_eq {A} (f : nat -> A) t v : upd f t v t = v.
Proof. unfold upd. rewrite Nat.eqb_refl. reflexivity. Qed.

Lemma upd_neq {A} (f : nat -> A) {t} v {u} : u <> t -> upd f t v u = f u.
Proof. intros H. unfold upd. destruct (Nat.eqb_spec u t); [contradiction|reflexivity]. Qed.

Lemma if_arg {A B} (f : A -> B) (b : bool) x y : (if b then f x else f y) = f (if b then x else y).
Proof. destruct b; reflexivity. Qed.

Lemma waiting_is f : f_waiting f = true -> f = FWaiting.
Proof. destruct f; cbn; congruence. Qed.

Definition prog_done (p : tprog) : bool :=
  match p with TProd [] | TCons [] => true | _ => false end.

(* the record (u, g) names the current done_flag of a live frame *)
Definition valid_entry (s : st) (u g : nat) : bool := Nat.eqb g (gen s u) && in_frame (pcs s u).

(* the queue a closing thread scans: the other side's waiters *)
Definition closing (s : st) (t : nat) : list (nat * nat) := if is_prod (prog s t) then wr s else ws s.

(* a wake CAS that fails leaves the state alone, or marks the access to a dead record *)
Definition cas_miss (s : st) (u g : nat) : st := set_bad s (negb (valid_entry s u g) || bad s).

Lemma cas_entry_eq s u g nf :
  cas_entry s u g nf =
  (if valid_entry s u g && f_waiting (flag s u) then set_flag s u nf else cas_miss s u g,
   ECasFlag u g o_wake o_wake (fenc FWaiting) (fenc nf) (fenc (flag s u)) (valid_entry s u g && f_waiting (flag s u)),
   valid_entry s u g && f_waiting (flag s u)).
Proof.
  unfold cas_entry, cas_miss. fold (valid_entry s u g).
  destruct (valid_entry s u g); cbn [andb negb]; [|reflexivity].
  destruct (f_waiting (flag s u)); [reflexivity|]. destruct s; reflexivity.
Qed.

(* the wait loops: flag loads, spin / yield / spurious park returns, a cancel CAS that comes too late *)
Inductive wait_move (f : fl) : pc -> pc -> Prop :=
| WM_sload : wait_move f SWLoad (if f_fin f then SFinal else SWNext)
| WM_snext : wait_move f SWNext SWLoad
| WM_sfinal : wait_move f SFinal (SUnlLock (negb (f_ok f)))
| WM_rload : wait_move f RWLoad (if f_fin f then RFinal else RWNext)
| WM_rnext : wait_move f RWNext RWLoad
| WM_rfinal : wait_move f RFinal (if f_ok f then RLock CRecv else RUnlLock false)
| WM_tload : wait_move f TWLoad (if f_fin f then TFinal else TWNext)
| WM_tnext : wait_move f TWNext TWLoad
| WM_tlate : f_waiting f = false -> wait_move f TWNext TFinal
| WM_tfinal : wait_move f TFinal (if f_ok f then RLock CRtS else RUnlLock true)
| WM_dnext : wait_move f TDeafNext TDeafLoad
| WM_dlate : f_waiting f = false -> wait_move f TDeafNext (RLock CRtDL)
| WM_dload : wait_move f TDeafLoad (if f_fin f then RLock CRtD else TDeafNext).

Inductive park_move : pc -> pc -> Prop :=
| KM_s : park_move SWNext SWLoad
| KM_r : park_move RWNext RWLoad
| KM_t : park_move TWNext TWLoad
| KM_d : park_move TDeafNext TDeafLoad.

Inductive unpark_move : pc -> nat -> pc -> Prop :=
| UM_s k u : unpark_move (SUnpark k u) u (SUnlock k SOk)
| UM_r k v u : unpark_move (RUnpark k v u) u (RUnlock k (ROk v))
| UM_d u r : unpark_move (DUnpark (u :: r)) u (match r with [] => Done | _ => DUnpark r end).

Inductive cancel_from : pc -> Prop := CF_t : cancel_from TWNext | CF_d : cancel_from TDeafNext.

(* the owner takes its record out of the receivers' queue *)
Inductive runl_move : pc -> pc -> Prop :=
| RM_cancel : runl_move TCancelLock TCancelUnlock
| RM_unl tm : runl_move (RUnlLock tm) (RUnlUnlock tm).

Section Step.
  Variables (cap : nat) (cf : cfg).

  (* releases of `internal` after which the call goes on *)
  Inductive unlock_go : pc -> pc -> Prop :=
  | UG_sfull : unlock_go (SUnlock KSend SFull) SRegLock
  | UG_sretry : unlock_go (SRegUnlock GoRetry) (SLock KSend)
  | UG_swait : unlock_go (SRegUnlock GoWait) SWLoad
  | UG_sagain : unlock_go (SUnlUnlock false) (SLock KSend)
  | UG_recv : unlock_go (RUnlock CRecv REmpty) (RRegLock false)
  | UG_rt : unlock_go (RUnlock CRt REmpty) (RRegLock true)
  | UG_rts : unlock_go (RUnlock CRtS REmpty) (if rearm_after_steal cf then RRegLock true else TDeafNext)
  | UG_rtm : unlock_go (RUnlock CRtM REmpty) (RRegLock true)
  | UG_rtd : unlock_go (RUnlock CRtD REmpty) TDeafNext
  | UG_rretry tm : unlock_go (RRegUnlock tm GoRetry) (RLock (if tm then CRtM else CRecv))
  | UG_rwait tm : unlock_go (RRegUnlock tm GoWait) (if tm then TWLoad else RWLoad)
  | UG_tagain : unlock_go (RUnlUnlock true) (RLock CRtS)
  | UG_redrain : redrain_on_close cf = true -> unlock_go (RUnlUnlock false) (RLock CRecv)
  | UG_close w : unlock_go (DUnlock w) (match w with [] => Done | _ => DUnpark w end).

  (* releases with which the call returns `r`; `v` is the caller's current id *)
  Inductive unlock_ret (v : id) : pc -> res -> Prop :=
  | UR_ok k : unlock_ret v (SUnlock k SOk) (POk v)
  | UR_full : unlock_ret v (SUnlock KTry SFull) (PFull v)
  | UR_closed : unlock_ret v (SUnlock KTry SClosed) (PClosed v)
  | UR_gone : unlock_ret v (SUnlock KSend SClosed) (PGone v)
  | UR_reg : unlock_ret v (SRegUnlock GoClosed) (PGone v)
  | UR_woken : unlock_ret v (SUnlUnlock true) (PGone v)
  | UR_val k x : unlock_ret v (RUnlock k (ROk x)) (RVal x)
  | UR_emp : unlock_ret v (RUnlock CTry REmpty) REmp
  | UR_late : unlock_ret v (RUnlock CRtM REmpty) RTimeout
  | UR_cancel : unlock_ret v TCancelUnlock RTimeout.

  (* releases with which the call returns Disconnected *)
  Inductive unlock_disc : pc -> Prop :=
  | UD_try k : unlock_disc (RUnlock k RDisc)
  | UD_reg tm : unlock_disc (RRegUnlock tm GoClosed)
  | UD_woken : redrain_on_close cf = false -> unlock_disc (RUnlUnlock false).

  Inductive Step (s : st) (t : nat) : st -> Prop :=
  (* outside the lock *)
  | St_done (Epc : pcs s t = Idle) (Ed : prog_done (prog s t) = true) (Eh : hcl s t = true) :
      Step s t (set_pc s t Done)
  | St_close (Epc : pcs s t = Idle) (Ed : prog_done (prog s t) = true) (Eh : hcl s t = false) :
      Step s t (set_pc (set_hcl s t true) t DLock)
  | St_prod o l (Epc : pcs s t = Idle) (Ep : prog s t = TProd (o :: l)) (Eh : hcl s t = false) :
      Step s t (set_pc (set_pseq s t (S (pseq s t))) t (SLock (match o with Send => KSend | TrySend => KTry end)))
  | St_prod_closed o l (Epc : pcs s t = Idle) (Ep : prog s t = TProd (o :: l)) (Eh : hcl s t = true) :
      Step s t (fin (set_pseq s t (S (pseq s t))) t
                    (match o with Send => PGone (t, S (pseq s t)) | TrySend => PClosed (t, S (pseq s t)) end))
  | St_cons o l (Epc : pcs s t = Idle) (Ep : prog s t = TCons (o :: l)) (Eh : hcl s t = false) :
      Step s t (set_pc s t (RLock (match o with TryRecv => CTry | RecvT => CRt | _ => CRecv end)))
  | St_cons_closed o l (Epc : pcs s t = Idle) (Ep : prog s t = TCons (o :: l)) (Eh : hcl s t = true) :
      Step s t (fin s t RDis)
  | St_wait p p' (Epc : pcs s t = p) (M : wait_move (flag s t) p p') : Step s t (set_pc s t p')
  | St_park p p' (Epc : pcs s t = p) (M : park_move p p') (Et : tok s t = true) :
      Step s t (set_pc (set_tok s t false) t p')
  | St_cancel p (Epc : pcs s t = p) (M : cancel_from p) (Ew : flag s t = FWaiting) :
      Step s t (set_pc (set_flag s t FCancelled) t TCancelLock)
  | St_unpark p u p' (Epc : pcs s t = p) (M : unpark_move p u p') : Step s t (set_pc (set_tok s u true) t p')
  (* releases *)
  | St_unlock_go p p' (Epc : pcs s t = p) (M : unlock_go p p') : Step s t (set_pc (set_lk s None) t p')
  | St_unlock_ret p r (Epc : pcs s t = p) (M : unlock_ret (cur_id s t) p r) : Step s t (fin (set_lk s None) t r)
  | St_unlock_disc p (Epc : pcs s t = p) (M : unlock_disc p) : Step s t (fin_disc (set_lk s None) t)
  | St_panic (Epc : pcs s t = RUnlock CRtDL REmpty) : Step s t (set_pc (set_bad (set_lk s None) true) t Panicked)
  (* try_send_core *)
  | St_slock_closed k (Epc : pcs s t = SLock k) (Elk : lk s = None) (Er : rcnt s = 0) :
      Step s t (set_pc (owe_s_done (set_lk s (Some t)) t) t (SUnlock k SClosed))
  | St_slock_scan k (Epc : pcs s t = SLock k) (Elk : lk s = None) (Er : rcnt s <> 0)
                  (Ewr : wr s <> []) (Eq : qlen s <> cap) :
      Step s t (set_pc (set_lk s (Some t)) t (SScan k 0))
  | St_slock_push k (Epc : pcs s t = SLock k) (Elk : lk s = None) (Er : rcnt s <> 0)
                  (Ewr : wr s = []) (Eq : qlen s < cap) :
      Step s t (set_pc (push (owe_s_done (set_lk s (Some t)) t) (cur_id s t)) t (SUnlock k SOk))
  | St_slock_full k (Epc : pcs s t = SLock k) (Elk : lk s = None) (Er : rcnt s <> 0) (Eq : cap <= qlen s) :
      Step s t (set_pc (owe_s_done (set_lk s (Some t)) t) t (SUnlock k SFull))
  | St_sscan_ok k i u g (Epc : pcs s t = SScan k i) (En : nth_error (wr s) i = Some (u, g))
                (Ev : valid_entry s u g = true) (Ew : flag s u = FWaiting) :
      Step s t (set_pc (push (owe_s_done (set_owedR (set_wr (set_flag s u FSuccess) (remove_nth i (wr s)))
                                                   (u :: owedR s)) t) (cur_id s t)) t (SUnpark k u))
  | St_sscan_next k i u g (Epc : pcs s t = SScan k i) (En : nth_error (wr s) i = Some (u, g))
                  (Ec : valid_entry s u g && f_waiting (flag s u) = false) (Ei : S i < length (wr s)) :
      Step s t (set_pc (cas_miss s u g) t (SScan k (S i)))
  | St_sscan_push k i u g (Epc : pcs s t = SScan k i) (En : nth_error (wr s) i = Some (u, g))
                  (Ec : valid_entry s u g && f_waiting (flag s u) = false) (Ei : length (wr s) <= S i)
                  (Eq : qlen s < cap) :
      Step s t (set_pc (push (owe_s_done (cas_miss s u g) t) (cur_id s t)) t (SUnlock k SOk))
  | St_sscan_full k i u g (Epc : pcs s t = SScan k i) (En : nth_error (wr s) i = Some (u, g))
                  (Ec : valid_entry s u g && f_waiting (flag s u) = false) (Ei : length (wr s) <= S i)
                  (Eq : cap <= qlen s) :
      Step s t (set_pc (owe_s_done (cas_miss s u g) t) t (SUnlock k SFull))
  (* send_sync *)
  | St_sreg_retry (Epc : pcs s t = SRegLock) (Elk : lk s = None) :
      Step s t (set_pc (set_lk s (Some t)) t (SRegUnlock GoRetry))
  | St_sreg_closed (Epc : pcs s t = SRegLock) (Elk : lk s = None) (Er : rcnt s = 0) :
      Step s t (set_pc (set_lk s (Some t)) t (SRegUnlock GoClosed))
  | St_sreg_wait (Epc : pcs s t = SRegLock) (Elk : lk s = None) (Er : rcnt s <> 0) (Eq : cap <= qlen s) :
      Step s t (set_pc (set_ws (set_flag (set_gen (set_lk s (Some t)) t (S (gen s t))) t FWaiting)
                               (ws s ++ [(t, S (gen s t))])) t (SRegUnlock GoWait))
  | St_sunl cl (Epc : pcs s t = SUnlLock cl) (Elk : lk s = None) :
      Step s t (set_pc (set_ws (set_lk s (Some t)) (unlink t (gen s t) (ws s))) t (SUnlUnlock cl))
  (* try_recv_core *)
  | St_rlock_pop k v r (Epc : pcs s t = RLock k) (Elk : lk s = None) (Eq : q s = v :: r) :
      Step s t (set_pc (set_popped (set_qlen (set_q (set_owedR (set_lk s (Some t)) (remove1 t (owedR s))) r)
                                             (qlen s - 1)) (popped s ++ [(t, v)]))
                       t (if isnil (ws s) then RUnlock k (ROk v) else RScan k v 0))
  | St_rlock_empty k (Epc : pcs s t = RLock k) (Elk : lk s = None) (Eq : q s = []) :
      Step s t (set_pc (set_owedR (set_lk s (Some t)) (remove1 t (owedR s)))
                       t (RUnlock k (if Nat.eqb (scnt s) 0 then RDisc else REmpty)))
  | St_rscan_ok k v i u g (Epc : pcs s t = RScan k v i) (En : nth_error (ws s) i = Some (u, g))
                (Ev : valid_entry s u g = true) (Ew : flag s u = FWaiting) :
      Step s t (set_pc (set_owedS (set_ws (set_flag s u FSuccess) (remove_nth i (ws s))) (u :: owedS s))
                       t (RUnpark k v u))
  | St_rscan_miss k v i u g (Epc : pcs s t = RScan k v i) (En : nth_error (ws s) i = Some (u, g))
                  (Ec : valid_entry s u g && f_waiting (flag s u) = false) :
      Step s t (set_pc (cas_miss s u g) t
                       (if Nat.ltb (S i) (length (ws s)) then RScan k v (S i) else RUnlock k (ROk v)))
  (* recv_sync / recv_timeout_sync *)
  | St_rreg_retry tm (Epc : pcs s t = RRegLock tm) (Elk : lk s = None) (Eq : q s <> []) :
      Step s t (set_pc (set_lk s (Some t)) t (RRegUnlock tm GoRetry))
  | St_rreg_closed tm (Epc : pcs s t = RRegLock tm) (Elk : lk s = None) (Eq : q s = []) (Es : scnt s = 0) :
      Step s t (set_pc (set_lk s (Some t)) t (RRegUnlock tm GoClosed))
  | St_rreg_wait tm (Epc : pcs s t = RRegLock tm) (Elk : lk s = None) (Eq : q s = []) (Es : scnt s <> 0) :
      Step s t (set_pc (set_wr (set_flag (set_gen (set_lk s (Some t)) t (S (gen s t))) t FWaiting)
                               (wr s ++ [(t, S (gen s t))])) t (RRegUnlock tm GoWait))
  | St_runl p p' (Epc : pcs s t = p) (M : runl_move p p') (Elk : lk s = None) :
      Step s t (set_pc (set_wr (set_lk s (Some t)) (unlink t (gen s t) (wr s))) t p')
  (* close_internal *)
  | St_dlock_prod (Epc : pcs s t = DLock) (Elk : lk s = None) (Ep : is_prod (prog s t) = true) :
      Step s t (set_pc (set_scnt (set_lk s (Some t)) (scnt s - 1))
                       t (if Nat.eqb (scnt s - 1) 0 && negb (isnil (wr s)) then DScan true 0 [] else DUnlock []))
  | St_dlock_cons (Epc : pcs s t = DLock) (Elk : lk s = None) (Ep : is_prod (prog s t) = false) :
      Step s t (set_pc (set_rcnt (set_lk s (Some t)) (rcnt s - 1))
                       t (if isnil (ws s) then DUnlock [] else DScan (Nat.eqb (rcnt s - 1) 0) 0 []))
  | St_dscan_ok a i w u g (Epc : pcs s t = DScan a i w) (En : nth_error (closing s t) i = Some (u, g))
                (Ev : valid_entry s u g = true) (Ew : flag s u = FWaiting) :
      Step s t (set_pc (set_owedS (set_owedR (set_flag s u (if a then FClosed else FSuccess))
                                             (if is_prod (prog s t) then u :: owedR s else owedR s))
                                  (if is_prod (prog s t) || a then owedS s else u :: owedS s))
                       t (if a && Nat.ltb (S i) (length (closing s t)) then DScan a (S i) (w ++ [u])
                          else DUnlock (w ++ [u])))
  | St_dscan_miss a i w u g (Epc : pcs s t = DScan a i w) (En : nth_error (closing s t) i = Some (u, g))
                  (Ec : valid_entry s u g && f_waiting (flag s u) = false) :
      Step s t (set_pc (cas_miss s u g) t
                       (if a && Nat.ltb (S i) (length (closing s t)) then DScan a (S i) w else DUnlock w)).

  Lemma step_inv s t c s' e : step cap cf s t c = Some (s', e) -> Step s t s'.
  Proof.
    unfold step, ret. destruct (pcs s t) eqn:Epc.
    (* a lock pc is enabled only while the lock is free *)
    all: try (destruct (lk s) eqn:Elk; [discriminate|]).
    (* the steps whose successor is read off a pc table; Done and Panicked do not move *)
    all: try solve [ intros [= <- _];
                     first [eapply St_wait|eapply St_unpark|eapply St_unlock_go|eapply St_unlock_ret|eapply St_runl];
                     first [eassumption|constructor] ].
    (* the park sites: one more round, a park that finds its token, the deadline *)
    all: try solve [ destruct c; try (destruct (f_waiting (flag s t)) eqn:Ew);
                     try (destruct (tok s t) eqn:Et; [|discriminate]); intros [= <- _];
                     first [eapply St_wait|eapply St_park|eapply St_cancel];
                     first [eassumption|constructor; assumption|apply waiting_is; assumption] ].
    - (* Idle *)
      destruct (prog s t) as [[|o l]|[|o l]] eqn:Ep, (hcl s t) eqn:Eh; intros [= <- _].
      3: unfold cur_id; cbn [pseq set_pseq]; rewrite upd_eq.
      all: first [ apply St_done | apply St_close | eapply St_prod_closed | eapply St_prod
                 | eapply St_cons_closed | eapply St_cons ]; first [eassumption|rewrite Ep; reflexivity].
    - (* SLock *)
      intros [= <- _]. unfold ts_enter, is_full. cbn [rcnt wr qlen set_lk]. change (cur_id (set_lk s (Some t)) t) with (cur_id s t).
      destruct (Nat.eqb_spec (rcnt s) 0); [apply St_slock_closed; assumption|].
      destruct (wr s) eqn:Ew, (Nat.eqb_spec (qlen s) cap), (Nat.ltb_spec (qlen s) cap); cbn [isnil negb andb].
      all: first [ apply St_slock_scan; solve [assumption | congruence]
                 | apply St_slock_push; solve [assumption | lia]
                 | apply St_slock_full; solve [assumption | lia] ].
    - (* SScan *)
      destruct (nth_error (wr s) i) as [[u g]|] eqn:En; [|discriminate].
      rewrite cas_entry_eq. destruct (valid_entry s u g && f_waiting (flag s u)) eqn:Ec.
      + intros [= <- _]. apply andb_prop in Ec. destruct Ec as [Ev Ew]. apply waiting_is in Ew.
        eapply St_sscan_ok; eassumption.
      + destruct (Nat.ltb_spec (S i) (length (wr s))); [|destruct (Nat.ltb_spec (qlen s) cap)]; intros [= <- _];
          [eapply St_sscan_next|eapply St_sscan_push|eapply St_sscan_full]; eassumption.
    - (* SUnlock *)
      intros [= <- _]. destruct k, r; first [eapply St_unlock_ret|eapply St_unlock_go]; first [eassumption|constructor].
    - (* SRegLock *)
      intros [= <- _]. unfold is_full.
      destruct (negb (qlen s =? cap) && (negb (isnil (wr s)) || (0 <? cap) && (qlen s <? cap))) eqn:Ec;
        [apply St_sreg_retry; assumption|].
      destruct (Nat.eqb_spec (rcnt s) 0); [apply St_sreg_closed; assumption|].
      apply St_sreg_wait; try assumption.
      destruct (Nat.eqb_spec (qlen s) cap), (Nat.ltb_spec 0 cap), (Nat.ltb_spec (qlen s) cap); lia.
    - (* SRegUnlock *)
      intros [= <- _]. destruct o; first [eapply St_unlock_ret|eapply St_unlock_go]; first [eassumption|constructor].
    - (* SUnlLock *) intros [= <- _]. apply St_sunl; assumption.
    - (* SUnlUnlock *)
      intros [= <- _]. destruct closed; first [eapply St_unlock_ret|eapply St_unlock_go]; first [eassumption|constructor].
    - (* RLock *)
      intros [= <- _]. unfold tr_enter. cbn [q qlen ws popped scnt set_lk set_owedR set_q set_qlen set_popped].
      destruct (q s) as [|v r] eqn:Eq; [apply St_rlock_empty; assumption|].
      rewrite (if_arg (set_pc _ t)). eapply St_rlock_pop; eassumption.
    - (* RScan *)
      destruct (nth_error (ws s) i) as [[u g]|] eqn:En; [|discriminate].
      rewrite cas_entry_eq. destruct (valid_entry s u g && f_waiting (flag s u)) eqn:Ec.
      + intros [= <- _]. apply andb_prop in Ec. destruct Ec as [Ev Ew]. apply waiting_is in Ew.
        eapply St_rscan_ok; eassumption.
      + rewrite (if_arg Some), (if_arg (fun p => (set_pc (cas_miss s u g) t p, _))). intros [= <- _].
        eapply St_rscan_miss; eassumption.
    - (* RUnlock *)
      destruct r as [v| |]; intros [= <- _];
        [eapply St_unlock_ret; [eassumption|constructor]| |eapply St_unlock_disc; [eassumption|constructor]].
      destruct k; try (eapply St_unlock_go; [eassumption|constructor]).
      + eapply St_unlock_ret; [eassumption|constructor].
      + rewrite (if_arg (set_pc _ t)). eapply St_unlock_go; [eassumption|constructor].
      + destruct c; first [eapply St_unlock_go|eapply St_unlock_ret]; first [eassumption|constructor].
      + apply St_panic. assumption.
    - (* RRegLock *)
      intros [= <- _]. destruct (q s) eqn:Eq; cbn [isnil negb].
      + destruct (Nat.eqb_spec (scnt s) 0); [apply St_rreg_closed|apply St_rreg_wait]; assumption.
      + apply St_rreg_retry; [assumption..|congruence].
    - (* RRegUnlock *)
      intros [= <- _]. destruct o; first [eapply St_unlock_go|eapply St_unlock_disc]; first [eassumption|constructor].
    - (* RUnlUnlock *)
      intros [= <- _]. destruct tm; [eapply St_unlock_go; [eassumption|constructor]|].
      destruct (redrain_on_close cf) eqn:Er; [eapply St_unlock_go|eapply St_unlock_disc]; first [eassumption|constructor; assumption].
    - (* DLock *)
      intros [= <- _]. cbn [scnt rcnt set_scnt set_rcnt].
      destruct (is_prod (prog s t)) eqn:Ep; rewrite (if_arg (set_pc _ t)); [apply St_dlock_prod|apply St_dlock_cons]; assumption.
    - (* DScan *)
      fold (closing s t).
      destruct (nth_error (closing s t) i) as [[u g]|] eqn:En; [|discriminate].
      rewrite cas_entry_eq. destruct (valid_entry s u g && f_waiting (flag s u)) eqn:Ec; intros H.
      + apply andb_prop in Ec. destruct Ec as [Ev Ew]. apply waiting_is in Ew.
        pose proof (St_dscan_ok _ _ all i w u g Epc En Ev Ew) as X.
        destruct (all && (S i <? length (closing s t))), (is_prod (prog s t)), all; injection H as <- _; exact X.
      + pose proof (St_dscan_miss _ _ all i w u g Epc En Ec) as X.
        destruct (all && (S i <? length (closing s t))); injection H as <- _; exact X.
    - (* DUnpark *) destruct w as [|u r]; [discriminate|]. intros [= <- _]. eapply St_unpark; [eassumption|constructor].
  Qed.
End Step.

Ltac st_simpl :=
  cbn [lk q qlen wr ws scnt rcnt flag gen tok hcl pcs prog pseq accepted popped results owedR owedS bad discbad
       set_lk set_q set_qlen set_wr set_ws set_scnt set_rcnt set_flag set_gen set_tok set_hcl set_pc set_prog
       set_pseq set_accepted set_popped set_results set_owedR set_owedS set_bad set_discbad
       fin fin_disc push owe_s_done cas_miss cur_id].

Ltac open_move :=
  match goal with
  | M : wait_move _ _ _ |- _ => destruct M
  | M : park_move _ _ |- _ => destruct M
  | M : cancel_from _ |- _ => destruct M
  | M : unpark_move _ _ _ |- _ => destruct M
  | M : runl_move _ _ |- _ => destruct M
  | M : unlock_go _ _ _ |- _ => destruct M
  | M : unlock_ret _ _ _ |- _ => destruct M
  | M : unlock_disc _ _ |- _ => destruct M
  end.

(* the opening of a frame argument: L is a lemma `Inv s -> pcs s' = upd (pcs s) t p' -> <fields unchanged> ->
   <condition on the pc move> -> Inv s'`; what reflexivity does not settle is left *)
Ltac by_frame L := eapply L; [eassumption|st_simpl; reflexivity|try reflexivity..].

Ltac case_pc := repeat match goal with |- context [match ?b with _ => _ end] => destruct b end.
