(* Proofs/RvK3Val.v — value accounting of the K3' rendezvous model (C01 / C03): every handoff
   moves one fresh payload from exactly one sender to exactly one receiver; the sender reports Ok
   iff its payload was handed off; the receiver returns every payload handed to it, in order,
   and never reports Timeout with a payload in its `dest`; only senders' payloads are handed. *)
From Coq Require Import List NArith Arith Bool Lia.
From Fibre Require Import Common.Lists Common.Conc Chan.RvK3 Proofs.RvK3Base Proofs.RvK3Queue Proofs.RvK3Cell.
Import ListNotations.

(* strictly inside a send call (the current payload id (t, seq t) is in flight) *)
Definition midop (p : pc) : bool :=
  match p with
  | SLock _ | SFul _ | SUnl _ _ | SUnpark _ | SWait | SPark | SFinal => true
  | _ => false
  end.
Definition b2nat (b : bool) : nat := if b then 1 else 0.

Lemma was_handed_app s x r v : 
  In v (map fst (handed s ++ [(x, r)])) <-> was_handed s v \/ v = x.
Proof. unfold was_handed. rewrite map_app, in_app_iff. cbn. intuition. Qed.

Lemma qls_midop p : qrel p = QLS \/ qrel p = QXS -> midop p = true.
Proof. pc_cases p; cbn; intuition congruence. Qed.
Lemma qls_not_rpc p : qrel p = QLS -> rpc p = false.
Proof. pc_cases p; cbn; congruence. Qed.
Lemma qlr_not_spc p : qrel p = QLR -> spc p = false.
Proof. pc_cases p; cbn; congruence. Qed.
Lemma qlr_not_midop p : qrel p = QLR -> midop p = false.
Proof. pc_cases p; cbn; congruence. Qed.

Lemma in_rq_receiver cfg s u : LockInv cfg s -> QInv cfg s -> In u (rq s) -> is_receiver cfg u = true.
Proof.
  intros [_ _ L3] Q H. destruct (in_rq_class _ _ (Q_ok _ _ Q u) H) as [K _].
  specialize (L3 u). unfold roleok, is_receiver in *. destruct (role cfg u) as [[|]|]; [|reflexivity|].
  - rewrite (qlr_not_spc _ K) in L3. discriminate.
  - rewrite L3 in K. discriminate.
Qed.

Lemma in_sq_sender cfg s u : LockInv cfg s -> QInv cfg s -> In u (sq s) -> is_sender cfg u = true.
Proof.
  intros [_ _ L3] Q H. destruct (in_sq_class _ _ (Q_ok _ _ Q u) H) as [K _].
  specialize (L3 u). unfold roleok, is_sender in *. destruct (role cfg u) as [[|]|]; [reflexivity| |].
  - rewrite (qls_not_rpc _ K) in L3. discriminate.
  - rewrite L3 in K. discriminate.
Qed.

Lemma committed_qls s n :
  qrel (pcs s n) = QLS -> committed s n = match wstate s n with D => true | _ => false end.
Proof.
  unfold committed.
  pc_cases (pcs s n); cbn; congruence.
Qed.
Lemma committed_qlr s n : qrel (pcs s n) = QLR -> committed s n = false.
Proof.
  unfold committed.
  pc_cases (pcs s n); cbn; congruence.
Qed.
Lemma committed_ext s s' u : pcs s' u = pcs s u -> wstate s' u = wstate s u -> committed s' u = committed s u.
Proof. unfold committed. intros -> ->. reflexivity. Qed.

Lemma cur_inj s s' u t : cur s u = cur s' t -> u = t.
Proof. unfold cur. congruence. Qed.

(* V1: handoffs are fresh *)
Record V1 (cfg : list tcfg) (s : st) : Prop := {
  S_len : forall u, is_sender cfg u = true -> seq s u = length (results s u) + b2nat (midop (pcs s u));
  S_bound : forall u k, was_handed s (u, k) -> k <= seq s u;
  S_cur : forall u, midop (pcs s u) = true -> (was_handed s (cur s u) <-> committed s u = true);
  H_nd : NoDup (map fst (handed s));
  H_role : forall v r, In (v, r) (handed s) -> is_receiver cfg r = true;
  H_snd : forall p k, was_handed s (p, k) -> is_sender cfg p = true /\ 1 <= k
}.

Lemma V1_init cfg : V1 cfg (init cfg).
Proof.
  split; cbn; intros; try reflexivity; try contradiction; try discriminate. constructor.
Qed.

(* a step without a handoff: only t's own clauses need an argument *)
Lemma V1_keep cfg s s' t :
  V1 cfg s -> handed s' = handed s ->
  (forall u, u <> t -> pcs s' u = pcs s u /\ seq s' u = seq s u /\ results s' u = results s u /\
                       (midop (pcs s u) = true -> committed s' u = committed s u)) ->
  (is_sender cfg t = true -> seq s' t = length (results s' t) + b2nat (midop (pcs s' t))) ->
  seq s t <= seq s' t ->
  (midop (pcs s' t) = true -> (was_handed s (cur s' t) <-> committed s' t = true)) ->
  V1 cfg s'.
Proof.
  intros [A1 A2 A3 A4 A5 A6] Hh Hf L1 L2 L3. split; unfold was_handed in *; rewrite ?Hh; try assumption.
  - intros u Hu. destruct (Nat.eq_dec u t) as [->|Hn]; [exact (L1 Hu)|].
    destruct (Hf u Hn) as (-> & -> & -> & _). exact (A1 u Hu).
  - intros u k Hk. specialize (A2 u k Hk). destruct (Nat.eq_dec u t) as [->|Hn]; [lia|].
    destruct (Hf u Hn) as (_ & -> & _). exact A2.
  - intros u. destruct (Nat.eq_dec u t) as [->|Hn]; [exact L3|].
    destruct (Hf u Hn) as (Hp & Hs & _ & Hc). unfold cur. rewrite Hp, Hs. intros Hm. rewrite (Hc Hm). exact (A3 u Hm).
Qed.

(* the current payload of sender q, so far uncommitted, is handed to receiver r *)
Lemma V1_hand cfg s s' q r :
  V1 cfg s -> handed s' = handed s ++ [(cur s q, r)] -> is_receiver cfg r = true -> is_sender cfg q = true ->
  midop (pcs s q) = true -> committed s q = false -> committed s' q = true ->
  (forall u, seq s' u = seq s u /\ results s' u = results s u /\ midop (pcs s' u) = midop (pcs s u)) ->
  (forall u, u <> q -> midop (pcs s u) = true -> committed s' u = committed s u) ->
  V1 cfg s'.
Proof.
  intros [A1 A2 A3 A4 A5 A6] Hh Hr Hq Hm Hc Hc' He Ho.
  assert (Hfresh : ~ was_handed s (cur s q)) by (intros Hw; apply (A3 q Hm) in Hw; congruence).
  split; unfold was_handed; rewrite ?Hh.
  - intros u Hu. destruct (He u) as (-> & -> & ->). exact (A1 u Hu).
  - intros u k Hk. apply was_handed_app in Hk. destruct (He u) as (-> & _).
    destruct Hk as [Hk|Hk]; [exact (A2 u k Hk)|]. inversion Hk. apply le_n.
  - intros u. destruct (He u) as (Hs & _ & ->). intros Hu. unfold cur. rewrite Hs. fold (cur s u).
    rewrite was_handed_app. destruct (Nat.eq_dec u q) as [->|Hn]; [rewrite Hc'; tauto|].
    rewrite (Ho u Hn Hu), <- (A3 u Hu). split; [|tauto]. intros [Hw|Hw]; [exact Hw|]. apply cur_inj in Hw. contradiction.
  - rewrite map_app. apply NoDup_snoc; assumption.
  - intros v r0 Hin. apply in_app_iff in Hin. destruct Hin as [Hin|[Hin|[]]]; [exact (A5 _ _ Hin)|]. congruence.
  - intros p k Hk. apply was_handed_app in Hk. destruct Hk as [Hk|Hk]; [exact (A6 p k Hk)|]. inversion Hk; subst.
    split; [exact Hq|]. rewrite (A1 q Hq), Hm. cbn. lia.
Qed.

Lemma V1_step cfg s t c s' e :
  LockInv cfg s -> QInv cfg s -> CInv s -> V1 cfg s -> step true cfg s t c = Some (s', e) -> V1 cfg s'.
Proof.
  intros LI QI CI VI H.
  pose proof (Q_ok _ _ QI t) as Qt. pose proof (S_cur _ _ VI t) as St. pose proof (S_len _ _ VI t) as Lt.
  unfold qok in Qt. unfold committed in St.
  step_rules H (L_x _ _ LI t); rewrite Epc in Qt, St, Lt; cbn [qrel midop b2nat] in Qt, St, Lt.
  all: try solve [ apply V1_keep with (s := s) (t := t); [exact VI | reflexivity | | | |];
    [ intros u Hu; unfold committed; fsimpl; rewrite ?upd_neq by exact Hu; auto
    | intros Hu; fsimpl; rewrite ?upd_eq;
      first [ unfold is_sender in Hu; rewrite Er in Hu; discriminate Hu
            | specialize (Lt Hu); cbn [midop b2nat]; first [exact Lt | rewrite ?app_length; cbn [length]; lia] ]
    | fsimpl; rewrite ?upd_eq; lia
    | unfold committed, cur, was_handed in *; fsimpl; rewrite ?upd_eq; cbn [midop];
      try match goal with E : wstate _ _ = _ |- _ => rewrite E in * end; try tauto; try (intros _; tauto);
      try discriminate;
      try (intros _; split; [intros Hh; apply (S_bound _ _ VI) in Hh; lia | discriminate]) ] ].
  (* the remaining steps pop the head of a queue; `committed` does not look at a receiver's state,
     and a parked sender that is disconnected stays uncommitted *)
  all: match goal with
       | E : rq _ = _ :: _ |- _ => destruct (head_rq _ _ t _ _ QI CI E (proj2 Qt)) as (Hnt & Kn & Wn & Cn & _)
       | E : sq _ = _ :: _ |- _ => destruct (head_sq _ _ t _ _ QI CI E (proj1 Qt)) as (Hnt & Kn & Wn & Cn & _)
       end.
  (* the disconnect loops hand nothing off (for the two handoffs V1_keep's `handed s' = handed s` fails) *)
  all: try solve [ apply V1_keep with (s := s) (t := t);
    [ exact VI | reflexivity | | intros Hu; fsimpl; rewrite upd_eq; first [exact (Lt Hu) | unfold is_sender in Hu; rewrite Er in Hu; discriminate Hu]
    | fsimpl; apply le_n | fsimpl; rewrite upd_eq; intros Hm; discriminate Hm ];
    intros u Hu; fsimpl; rewrite upd_neq by exact Hu; repeat split; intros Hm;
    match goal with |- committed ?s1 _ = _ => match s1 with context [set_wstate _ ?n _] =>
      destruct (Nat.eq_dec u n) as [->|Hun];
      [ first [ rewrite (qlr_not_midop _ Kn) in Hm; discriminate Hm
              | rewrite (committed_qls s1 n), (committed_qls s n) by (fsimpl; rewrite ?upd_neq by congruence; exact Kn);
                fsimpl; rewrite upd_eq, Wn; reflexivity ]
      | apply committed_ext; fsimpl; rewrite ?upd_neq by assumption; reflexivity ] end end ].
  - (* fulfill_receiver *)
    apply V1_hand with (s := s) (q := t) (r := r); try reflexivity; try exact VI.
    + apply (in_rq_receiver _ _ _ LI QI). rewrite H. left. reflexivity.
    + unfold is_sender. rewrite Er. reflexivity.
    + rewrite Epc. reflexivity.
    + unfold committed. rewrite Epc. reflexivity.
    + unfold committed. fsimpl. rewrite upd_eq. reflexivity.
    + intros u. fsimpl. split_thr u t; [rewrite Epc|]; auto.
    + intros u Hu Hm. destruct (Nat.eq_dec u r) as [->|Hun]; [rewrite (qlr_not_midop _ Kn) in Hm; discriminate Hm|].
      apply committed_ext; fsimpl; rewrite !upd_neq by assumption; reflexivity.
  - (* fulfill_sender *)
    rewrite Cn. cbn [opt_or]. apply V1_hand with (s := s) (q := p) (r := t); try reflexivity; try exact VI.
    + unfold is_receiver. rewrite Er. reflexivity.
    + apply (in_sq_sender _ _ _ LI QI). rewrite H. left. reflexivity.
    + apply qls_midop. left. exact Kn.
    + rewrite (committed_qls _ _ Kn), Wn. reflexivity.
    + match goal with |- committed ?s1 _ = _ =>
        rewrite (committed_qls s1 p) by (fsimpl; rewrite upd_neq by congruence; exact Kn) end.
      fsimpl. rewrite upd_eq. reflexivity.
    + intros u. fsimpl. split_thr u t; [rewrite Epc|]; auto.
    + intros u Hu Hm. destruct (Nat.eq_dec u t) as [->|Hut]; [rewrite Epc in Hm; discriminate Hm|].
      apply committed_ext; fsimpl; rewrite !upd_neq by assumption; reflexivity.
Qed.

(* V2: a send reports Ok iff handed *)
Definition res_sval (r : res) : option val :=
  match r with POk v | PFull v | PClosed v | PGone v => Some v | _ => None end.
Definition is_pok (r : res) : bool := match r with POk _ => true | _ => false end.

(* the i-th result of sender u is about payload (u, i+1), and is Ok iff that payload was handed off *)
Definition V2 (cfg : list tcfg) (s : st) : Prop :=
  forall u, is_sender cfg u = true -> forall i r, nth_error (results s u) i = Some r ->
  res_sval r = Some (u, S i) /\ (is_pok r = true <-> was_handed s (u, S i)).

Lemma V2_init cfg : V2 cfg (init cfg).
Proof. intros u _ i r H. cbn in H. destruct i; discriminate H. Qed.

Lemma nth_error_app_single A (l : list A) r i x :
  nth_error (l ++ [r]) i = Some x -> nth_error l i = Some x \/ (i = length l /\ x = r).
Proof.
  intros H. destruct (Nat.lt_ge_cases i (length l)) as [Hi|Hi].
  - left. rewrite nth_error_app1 in H by exact Hi. exact H.
  - right. rewrite nth_error_app2 in H by exact Hi.
    destruct (i - length l) as [|m] eqn:Em; cbn in H.
    + inversion H. split; [lia|reflexivity].
    + destruct m; discriminate H.
Qed.

Lemma sfail_res v r : sfail v r -> res_sval r = Some v /\ is_pok r = false.
Proof. intros [-> | [-> | ->]]; split; reflexivity. Qed.

(* thread t logs r, which is about its next payload, and nothing is handed off *)
Lemma V2_log cfg s s' t r :
  V2 cfg s -> handed s' = handed s -> results s' = upd (results s) t (results s t ++ [r]) ->
  (is_sender cfg t = true ->
   let v := (t, S (length (results s t))) in res_sval r = Some v /\ (is_pok r = true <-> was_handed s v)) ->
  V2 cfg s'.
Proof.
  intros B Hh Hr Hk u Hu i r0. unfold was_handed. rewrite Hh, Hr. split_thr u t; [|apply B; exact Hu].
  intros Hn. apply nth_error_app_single in Hn. destruct Hn as [Hn|[-> ->]]; [exact (B t Hu i r0 Hn) | exact (Hk Hu)].
Qed.

(* a handoff of sender q's current payload: q is inside the call, so it is none of q's results *)
Lemma V2_hand cfg s s' q r :
  V2 cfg s -> V1 cfg s -> handed s' = handed s ++ [(cur s q, r)] -> results s' = results s ->
  is_sender cfg q = true -> midop (pcs s q) = true -> V2 cfg s'.
Proof.
  intros B VI Hh Hr Hq Hm u Hu i r0 Hn. rewrite Hr in Hn.
  assert (Hi : i < length (results s u)) by (apply nth_error_Some; congruence). destruct (B u Hu i r0 Hn) as [B1 B2]. split; [exact B1|].
  rewrite B2. unfold was_handed at 2. rewrite Hh, was_handed_app. split; [tauto|]. intros [Hw|Hw]; [exact Hw|].
  inversion Hw; subst. pose proof (S_len _ _ VI q Hq) as Lq. rewrite Hm in Lq. cbn in Lq. lia.
Qed.

Lemma V2_step cfg s t c s' e :
  LockInv cfg s -> QInv cfg s -> CInv s -> V1 cfg s -> V2 cfg s -> step true cfg s t c = Some (s', e) -> V2 cfg s'.
Proof.
  intros LI QI CI VI B H. pose proof (Q_ok _ _ QI t) as Qt. unfold qok in Qt.
  pose proof (S_cur _ _ VI t) as St. pose proof (S_len _ _ VI t) as Lt. unfold committed in St.
  step_rules H (L_x _ _ LI t); rewrite Epc in St, Lt, Qt; cbn [midop b2nat qrel] in St, Lt, Qt.
  all: try exact B.
  (* a receiver logs a result *)
  all: try solve [ intros u Hu; pose proof (B u Hu) as Bu; unfold was_handed in *; fsimpl; split_thr u t; [|exact Bu];
                   unfold is_sender in Hu; rewrite Er in Hu; discriminate Hu ].
  (* a sender logs the result of its current payload (t, seq t) *)
  all: try solve [ eapply V2_log; [exact B | reflexivity | reflexivity |]; intros Hu; specialize (Lt Hu); cbv zeta;
    replace (S (length (results s t))) with (seq s t) by lia; fold (cur s t);
    try match goal with F : sfail _ _ |- _ => destruct (sfail_res _ _ F) as [-> ->] end; subst;
    try destruct (wstate s t); cbn [res_sval is_pok]; split; try reflexivity; intuition congruence ].
  - (* a send on a closed handle: a fresh payload id, never handed *)
    eapply V2_log; [exact B | reflexivity | reflexivity |]. intros Hu. specialize (Lt Hu). cbv zeta.
    replace (length (results s t)) with (seq s t) by lia. destruct (sfail_res _ _ H) as [-> ->].
    split; [reflexivity|]. split; [discriminate|]. intros Hh. apply (S_bound _ _ VI) in Hh. lia.
  - (* fulfill_receiver *)
    apply V2_hand with (s := s) (q := t) (r := r); try reflexivity; try assumption.
    + unfold is_sender. rewrite Er. reflexivity.
    + rewrite Epc. reflexivity.
  - (* fulfill_sender *)
    destruct (head_sq _ _ t _ _ QI CI H (proj1 Qt)) as (_ & Kn & _ & Cn & _). rewrite Cn. cbn [opt_or].
    apply V2_hand with (s := s) (q := p) (r := t); try reflexivity; try assumption.
    + apply (in_sq_sender _ _ _ LI QI). rewrite H. left. reflexivity.
    + apply qls_midop. left. exact Kn.
Qed.

Lemma r_hand_qlr p : qrel p = QLR -> r_hand p = [].
Proof. pc_cases p; cbn; congruence. Qed.
Lemma handed_to_app s s' x r u :
  handed s' = handed s ++ [(x, r)] -> handed_to s' u = handed_to s u ++ (if Nat.eqb r u then [x] else []).
Proof.
  unfold handed_to. intros ->. rewrite filter_app, map_app. cbn [filter snd]. destruct (Nat.eqb r u); reflexivity.
Qed.

(* V3: receivers return what they are handed *)
Record V3 (cfg : list tcfg) (s : st) : Prop := {
  R_c : forall u, pcs s u = CUnl true -> wstate s u = C;
  R_eq : forall u, is_receiver cfg u = true ->
         handed_to s u = flat_map res_taken (results s u) ++ r_hand (pcs s u) ++ opt_list (cell s u);
  R_nl : forall u r, In r (results s u) -> res_lost r = []
}.

Lemma V3_init cfg : V3 cfg (init cfg).
Proof. split; cbn; intros; try discriminate; try reflexivity; contradiction. Qed.

Lemma V3_step cfg s t c s' e :
  LockInv cfg s -> QInv cfg s -> CInv s -> V3 cfg s -> step true cfg s t c = Some (s', e) -> V3 cfg s'.
Proof.
  intros LI QI CI [R1 R2 R3] H.
  pose proof (Q_ok _ _ QI t) as Qt. pose proof (C_ok _ CI t) as Ct. pose proof (R1 t) as Rt.
  unfold qok in Qt. unfold cellok in Ct.
  step_rules H (L_x _ _ LI t); rewrite Epc in Qt, Ct, Rt; cbn [qrel] in Qt, Ct, Rt.
  all: try subst r; try subst fl.
  (* every step that pops no queue, clause by clause, each for u = t (the others' clauses are unchanged):
     R_c   the new pc is not `CUnl true`, or the step is the won cancel CAS;
     R_eq  a sender's step: t is no receiver; a receiver's step: by cases on t's state where the rule
           looks at it, the state fixes the cell (Ct; after a won cancel Rt), and what leaves t's
           hand or cell is exactly the result it logs;
     R_nl  the logged result is RTimeout only with the cell empty (same cases) *)
  all: try solve [ split; fsimpl;
    [ intros u; pose proof (R1 u) as Ru; split_thr u t; [ try discriminate; try (intros _; reflexivity) | exact Ru ]
    | intros u Hu; pose proof (R2 u Hu) as Ru; unfold handed_to in *; fsimpl; split_thr u t; [|exact Ru];
      first [ unfold is_receiver in Hu; rewrite Er in Hu; discriminate Hu
            | rewrite Epc in Ru; cbn [r_hand] in Ru;
              try match goal with |- context [match wstate ?a ?b with _ => _ end] => destruct (wstate a b) eqn:Ew end;
              try match goal with E : wstate _ _ = _ |- _ => rewrite E in * end;
              try (exfalso; apply Ct; auto; fail);
              try match goal with E : cell _ _ = _ |- _ => rewrite E in * end;
              try rewrite Ct in *; try (rewrite Rt in * by reflexivity; rewrite Ct in * );
              rewrite ?flat_map_app; cbn [flat_map res_taken res_val res_lost r_hand opt_list app] in *;
              rewrite Ru, <- ?app_assoc; cbn [app]; rewrite ?app_nil_r; reflexivity ]
    | intros u r0; split_thr u t; [intros Hin|exact (R3 u r0)];
      try (apply in_app_iff in Hin; destruct Hin as [Hin|[Hin|[]]]; [exact (R3 t r0 Hin)|]; subst r0);
      try exact (R3 t r0 Hin);
      try match goal with |- context [match wstate ?a ?b with _ => _ end] => destruct (wstate a b) eqn:Ew end;
      try match goal with E : wstate _ _ = _ |- _ => rewrite E in * end;
      try match goal with F : sfail _ _ |- _ => destruct F as [-> | [-> | ->]] end;
      try rewrite Ct in *; try (rewrite Rt in * by reflexivity; rewrite Ct in * ); reflexivity ] ].
  (* a receive that finds neither DONE with a payload nor its own timeout: the cell is empty *)
  7: { assert (Hc : cell s t = None).
       { destruct (wstate s t); try exact Ct. exfalso. apply Ct. apply H. reflexivity. }
       split; fsimpl.
       - intros u. pose proof (R1 u) as Ru. split_thr u t; [discriminate|exact Ru].
       - intros u Hu. pose proof (R2 u Hu) as Ru. unfold handed_to in *. fsimpl. split_thr u t; [|exact Ru].
         rewrite Epc, Hc in Ru. rewrite flat_map_app, Ru. cbn. rewrite !app_nil_r. reflexivity.
       - intros u r0. split_thr u t; [|exact (R3 u r0)]. intros Hin. apply in_app_iff in Hin.
         destruct Hin as [Hin|[<-|[]]]; [exact (R3 t r0 Hin)|reflexivity]. }
  (* the remaining steps pop the head of a queue *)
  all: match goal with
       | E : rq _ = _ :: _ |- _ => destruct (head_rq _ _ t _ _ QI CI E (proj2 Qt)) as (Hnt & Kn & Wn & Cn & _)
       | E : sq _ = _ :: _ |- _ => destruct (head_sq _ _ t _ _ QI CI E (proj1 Qt)) as (Hnt & Kn & Wn & Cn & _)
       end.
  3, 4: split; fsimpl; [ | intros u Hu; pose proof (R2 u Hu) as Ru; unfold handed_to in *; fsimpl; split_thr u t;
                       [unfold is_receiver in Hu; rewrite Er in Hu; discriminate Hu|exact Ru] | exact R3 ];
    intros u; pose proof (R1 u) as Ru; split_thr u t; [discriminate|]; intros Hp; split_thr u r; [|exact (Ru Hp)];
    rewrite Hp in Kn; discriminate.
  3, 4: split; fsimpl; [ | intros u Hu; pose proof (R2 u Hu) as Ru; unfold handed_to in *; fsimpl; split_thr u t;
                       [rewrite Epc in Ru; exact Ru|exact Ru] | exact R3 ];
    intros u; pose proof (R1 u) as Ru; split_thr u t; [discriminate|]; intros Hp; split_thr u p; [|exact (Ru Hp)];
    rewrite Hp in Kn; discriminate.
  - (* fulfill_receiver *)
    split; fsimpl.
    + intros u. pose proof (R1 u) as Ru. split_thr u t; [discriminate|]. intros Hp. split_thr u r; [|exact (Ru Hp)].
      rewrite Hp in Kn. discriminate.
    + intros u Hu. pose proof (R2 u Hu) as Ru.
      rewrite handed_to_app with (s := s) (x := cur s t) (r := r) by reflexivity. fsimpl.
      split_thr u t; [unfold is_receiver in Hu; rewrite Er in Hu; discriminate Hu|].
      destruct (Nat.eqb_spec r u) as [<-|Hnu].
      * rewrite !upd_eq. rewrite Ru, (r_hand_qlr _ Kn), Cn. cbn [opt_list app]. rewrite app_nil_r. reflexivity.
      * rewrite !upd_neq by congruence. rewrite app_nil_r. exact Ru.
    + exact R3.
  - (* fulfill_sender *)
    rewrite Cn. cbn [opt_or]. split; fsimpl.
    + intros u. pose proof (R1 u) as Ru. split_thr u t; [discriminate|]. intros Hp. split_thr u p; [|exact (Ru Hp)].
      rewrite Hp in Kn. discriminate.
    + intros u Hu. pose proof (R2 u Hu) as Ru.
      rewrite handed_to_app with (s := s) (x := cur s p) (r := t) by reflexivity. fsimpl.
      split_thr u t.
      * rewrite Nat.eqb_refl, upd_neq by congruence. rewrite Ru, Epc, Ct. cbn [r_hand opt_list app].
        rewrite !app_nil_r. reflexivity.
      * destruct (Nat.eqb_spec t u) as [->|_]; [contradiction|]. rewrite app_nil_r.
        split_thr u p; [|exact Ru]. exfalso.
        assert (Hs : is_sender cfg p = true) by (apply (in_sq_sender _ _ _ LI QI); rewrite H; left; reflexivity).
        rewrite (sender_not_receiver _ _ Hs) in Hu. discriminate Hu.
    + exact R3.
Qed.
