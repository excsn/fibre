(* Proofs/RvK3Proofs.v — the combined invariant of the K3' rendezvous model (cancel CAS under the
   lock), lifted to every reachable state with Conc.invariant_lift, and the property lemmas
   pinned in Props/C0x_k3rv.v.  Everything is for ALL thread configurations (any number of
   senders and receivers, any programs) and ALL schedules. *)
From Coq Require Import List NArith Arith Bool Lia.
From Fibre Require Import Common.Lists Common.Conc Chan.RvK3 Proofs.RvK3Base Proofs.RvK3Queue Proofs.RvK3Cell
  Proofs.RvK3Val Proofs.RvK3Wake.
Import ListNotations.

Record Inv (cfg : list tcfg) (s : st) : Prop := {
  I_l : LockInv cfg s;
  I_q : QInv cfg s;
  I_c : CInv s;
  I_v1 : V1 cfg s;
  I_v2 : V2 cfg s;
  I_v3 : V3 cfg s;
  I_w : WInv s;
  I_k : KInv cfg s
}.

Lemma Inv_init cfg : Inv cfg (init cfg).
Proof.
  split.
  - apply LockInv_init. - apply QInv_init. - apply CInv_init. - apply V1_init. - apply V2_init.
  - apply V3_init. - apply WInv_init. - apply KInv_init.
Qed.

Lemma Inv_step cfg s t c s' e : Inv cfg s -> step true cfg s t c = Some (s', e) -> Inv cfg s'.
Proof.
  intros [L Q C A1 A2 A3 Wk K] H. split.
  - exact (LockInv_step _ _ _ _ _ _ L H).
  - exact (QInv_step _ _ _ _ _ _ L Q H).
  - exact (CInv_step _ _ _ _ _ _ L Q C H).
  - exact (V1_step _ _ _ _ _ _ L Q C A1 H).
  - exact (V2_step _ _ _ _ _ _ L Q C A1 A2 H).
  - exact (V3_step _ _ _ _ _ _ L Q C A3 H).
  - exact (WInv_step _ _ _ _ _ _ Wk H (L_x _ _ L t)).
  - exact (KInv_step _ _ _ _ _ _ L Q K H).
Qed.

Theorem Inv_reachable cfg s : reachable (sys true cfg) s -> Inv cfg s.
Proof.
  apply (invariant_lift (sys true cfg) (Inv cfg)).
  - apply Inv_init.
  - intros s0 t c s1 e HI Hs. exact (Inv_step _ _ _ _ _ _ HI Hs).
Qed.

Lemma fst_unique A B (l : list (A * B)) v a b :
  NoDup (map fst l) -> In (v, a) l -> In (v, b) l -> a = b.
Proof.
  induction l as [|[x y] l IH]; intros N Ha Hb; [destruct Ha|].
  cbn [map fst] in N. apply NoDup_cons_iff in N. destruct N as [N1 N2].
  destruct Ha as [Ha|Ha], Hb as [Hb|Hb].
  - congruence.
  - inversion Ha; subst. exfalso. apply N1. apply in_map_iff. exists (v, b). split; [reflexivity|exact Hb].
  - inversion Hb; subst. exfalso. apply N1. apply in_map_iff. exists (v, a). split; [reflexivity|exact Ha].
  - exact (IH N2 Ha Hb).
Qed.


Lemma In_handed_to s v r : In v (handed_to s r) <-> In (v, r) (handed s).
Proof.
  unfold handed_to. rewrite in_map_iff. split.
  - intros [[v' r'] [Hf Hin]]. apply filter_In in Hin. destruct Hin as [Hin He]. cbn in *.
    apply Nat.eqb_eq in He. subst. exact Hin.
  - intros H. exists (v, r). split; [reflexivity|]. apply filter_In. split; [exact H|]. cbn. apply Nat.eqb_refl.
Qed.

Lemma In_res_ok r v : In v (res_ok r) -> r = POk v.
Proof. destruct r; cbn; intros H; try contradiction. destruct H as [->|[]]. reflexivity. Qed.
Lemma In_res_failed r v : In v (res_failed r) -> res_sval r = Some v /\ is_pok r = false.
Proof. destruct r; cbn; intros H; try contradiction; destruct H as [->|[]]; split; reflexivity. Qed.

Section Thm.
  Variable cfg : list tcfg.
  Variable s : st.
  Hypothesis HR : reachable (sys true cfg) s.

  Let HI : Inv cfg s := Inv_reachable cfg s HR.

  (* C01 / C03 *)
  (* a send reported Ok only if its payload was handed to a receiver *)
  Lemma ok_is_handed p v :
    is_sender cfg p = true -> In v (sent_ok s p) -> exists r, In (v, r) (handed s) /\ is_receiver cfg r = true.
  Proof.
    intros Hp Hv. unfold sent_ok in Hv. apply in_flat_map in Hv. destruct Hv as [res [Hres Hv]].
    apply In_res_ok in Hv. subst res. apply In_nth_error in Hres. destruct Hres as [i Hi].
    destruct (I_v2 _ _ HI p Hp i _ Hi) as [B1 B2]. cbn in B1, B2. inversion B1; subst.
    assert (Hh : was_handed s (p, S i)) by (apply B2; reflexivity).
    unfold was_handed in Hh. apply in_map_iff in Hh. destruct Hh as [[v' r] [Hf Hin]]. cbn in Hf. subst v'.
    exists r. split; [exact Hin|]. exact (H_role _ _ (I_v1 _ _ HI) _ _ Hin).
  Qed.

  (* a failed try_send / send never handed its payload to anybody *)
  Lemma failed_not_handed p v : is_sender cfg p = true -> In v (failed s p) -> ~ was_handed s v.
  Proof.
    intros Hp Hv. unfold failed in Hv. apply in_flat_map in Hv. destruct Hv as [res [Hres Hv]].
    apply In_res_failed in Hv. destruct Hv as [Hs Hk]. apply In_nth_error in Hres. destruct Hres as [i Hi].
    destruct (I_v2 _ _ HI p Hp i _ Hi) as [B1 B2]. rewrite Hs in B1. inversion B1; subst.
    intros Hh. apply B2 in Hh. congruence.
  Qed.

  (* every payload is handed off at most once, to one receiver *)
  Lemma handed_once : NoDup (map fst (handed s)).
  Proof. exact (H_nd _ _ (I_v1 _ _ HI)). Qed.

  (* a handoff commits the send: the sender has reported Ok, or is about to (it never reports
     Closed / Full for a payload a receiver got) *)
  Lemma handed_commits v r :
    In (v, r) (handed s) ->
    In v (sent_ok s (fst v)) \/ (cur s (fst v) = v /\ committed s (fst v) = true).
  Proof.
    intros Hin. destruct v as [p k]. cbn [fst].
    assert (Hh : was_handed s (p, k)) by (apply in_map_iff; exists ((p, k), r); split; [reflexivity|exact Hin]).
    destruct (H_snd _ _ (I_v1 _ _ HI) p k Hh) as [Hp Hk]. pose proof (S_bound _ _ (I_v1 _ _ HI) p k Hh) as Hb.
    pose proof (S_len _ _ (I_v1 _ _ HI) p Hp) as Hl.
    destruct (Nat.le_gt_cases k (length (results s p))) as [Hle|Hgt].
    - left. destruct (nth_error (results s p) (k - 1)) as [res|] eqn:En.
      + destruct (I_v2 _ _ HI p Hp _ _ En) as [B1 B2]. replace (S (k - 1)) with k in * by lia.
        apply B2 in Hh. destruct res; cbn in Hh; try discriminate. cbn in B1. inversion B1; subst.
        unfold sent_ok. apply in_flat_map. exists (POk (p, k)). split; [|left; reflexivity].
        exact (nth_error_In _ _ En).
      + apply nth_error_None in En. lia.
    - right. destruct (midop (pcs s p)) eqn:Em; cbn [b2nat] in Hl; [|lia].
      assert (k = seq s p) by lia. subst k. split; [reflexivity|].
      apply (S_cur _ _ (I_v1 _ _ HI) p Em). exact Hh.
  Qed.

  Lemma taken_is_val (l : list res) : (forall r, In r l -> res_lost r = []) -> flat_map res_taken l = flat_map res_val l.
  Proof.
    induction l as [|x l IH]; intros H; [reflexivity|]. cbn [flat_map]. unfold res_taken at 1.
    rewrite (H x) by (left; reflexivity). rewrite app_nil_r, IH; [reflexivity|]. intros r Hr. apply H. right. exact Hr.
  Qed.

  (* no receive ever reported Timeout with a payload in its destination cell *)
  Lemma no_lost r : lost s r = [].
  Proof.
    unfold lost. pose proof (R_nl _ _ (I_v3 _ _ HI) r) as H. induction (results s r) as [|x l IH]; [reflexivity|].
    cbn [flat_map]. rewrite (H x) by (left; reflexivity). apply IH. intros y Hy. apply H. right. exact Hy.
  Qed.

  Lemma no_timeout_after_handoff r v : ~ In (RTimeout (Some v)) (results s r).
  Proof. intros H. apply (R_nl _ _ (I_v3 _ _ HI)) in H. discriminate H. Qed.

  (* what receiver r was handed = what its receives returned (in order) ++ what is still in its hand / cell *)
  Lemma receiver_accounting r :
    is_receiver cfg r = true -> handed_to s r = got s r ++ r_inflight cfg s r.
  Proof.
    intros Hr. rewrite (R_eq _ _ (I_v3 _ _ HI) r Hr). unfold got, r_inflight. rewrite Hr.
    rewrite taken_is_val; [reflexivity|]. exact (R_nl _ _ (I_v3 _ _ HI) r).
  Qed.

  Lemma received_was_handed r v :
    is_receiver cfg r = true -> In v (got s r ++ r_inflight cfg s r) -> In (v, r) (handed s).
  Proof. intros Hr H. rewrite <- (receiver_accounting r Hr) in H. apply In_handed_to. exact H. Qed.

  Lemma received_nodup r : is_receiver cfg r = true -> NoDup (got s r ++ r_inflight cfg s r).
  Proof.
    intros Hr. rewrite <- (receiver_accounting r Hr). unfold handed_to. apply NoDup_map_filter. exact handed_once.
  Qed.

  (* rv_exactly_once, in-flight form: the payload of every Ok send is with exactly one receiver,
     exactly once: returned by one of its receives or in its hand / destination cell *)
  Theorem exactly_once p v :
    is_sender cfg p = true -> In v (sent_ok s p) ->
    exists r, is_receiver cfg r = true /\ In v (got s r ++ r_inflight cfg s r) /\
              NoDup (got s r ++ r_inflight cfg s r) /\
              forall r', is_receiver cfg r' = true -> In v (got s r' ++ r_inflight cfg s r') -> r' = r.
  Proof.
    intros Hp Hv. destruct (ok_is_handed p v Hp Hv) as [r [Hin Hr]]. exists r. split; [exact Hr|]. split.
    - rewrite <- (receiver_accounting r Hr). apply In_handed_to. exact Hin.
    - split; [exact (received_nodup r Hr)|]. intros r' Hr' Hv'.
      exact (fst_unique _ _ _ _ _ _ handed_once (received_was_handed r' v Hr' Hv') Hin).
  Qed.

  Lemma done_inflight r : all_done cfg s -> r_inflight cfg s r = [].
  Proof.
    intros Hd. unfold r_inflight. destruct (is_receiver cfg r) eqn:Hr; [|reflexivity].
    assert (Hlt : r < length cfg).
    { unfold is_receiver in Hr. destruct (role cfg r) as [b|] eqn:Er; [exact (role_lt _ _ _ Er)|discriminate]. }
    pose proof (C_ok _ (I_c _ _ HI) r) as Cr. unfold cellok in Cr. rewrite (Hd r Hlt) in *. cbn in Cr. rewrite Cr. reflexivity.
  Qed.

  (* final form: after every thread has finished and dropped its handle, every Ok-sent payload
     was returned by exactly one receive of exactly one receiver *)
  Theorem exactly_once_final p v :
    all_done cfg s -> is_sender cfg p = true -> In v (sent_ok s p) ->
    exists r, is_receiver cfg r = true /\ In v (got s r) /\ NoDup (got s r) /\
              forall r', is_receiver cfg r' = true -> In v (got s r') -> r' = r.
  Proof.
    intros Hd Hp Hv. destruct (exactly_once p v Hp Hv) as [r [Hr [Hin [Hn Hu]]]].
    rewrite (done_inflight r Hd), app_nil_r in Hin, Hn. exists r. repeat split; try assumption.
    intros r' Hr' Hv'. apply Hu; [exact Hr'|]. apply in_app_iff. left. exact Hv'.
  Qed.

  (* C09 *)
  Lemma never_bad : bad s = false.
  Proof. exact (C_bad _ (I_c _ _ HI)). Qed.

  Lemma cells_ok u : cellok s u.
  Proof. exact (C_ok _ (I_c _ _ HI) u). Qed.

  (* records are linked exactly while the owner's frame is registered and WAITING; both queues
     are duplicate-free and never both non-empty *)
  Lemma queues_ok : NoDup (sq s) /\ NoDup (rq s) /\ (sq s = [] \/ rq s = []) /\ forall u, qok s u.
  Proof. destruct (I_q _ _ HI) as [A B C D _]. auto. Qed.

  Lemma linked_is_live u : In u (sq s) \/ In u (rq s) -> live (pcs s u) = true /\ wstate s u = W.
  Proof.
    pose proof (Q_ok _ _ (I_q _ _ HI) u) as Q. intros [H|H].
    - destruct (in_sq_class _ _ Q H) as [K Hw]. split; [apply linked_live; congruence|exact Hw].
    - destruct (in_rq_class _ _ Q H) as [K Hw]. split; [apply linked_live; congruence|exact Hw].
  Qed.

  (* a payload still in its sender's slot has not been handed to anybody (no duplication) *)
  Lemma sender_slot_not_handed p v : is_sender cfg p = true -> cell s p = Some v -> v = cur s p /\ ~ was_handed s v.
  Proof.
    intros Hp Hc. pose proof (cells_ok p) as Cp. unfold cellok in Cp.
    pose proof (L_role _ _ (I_l _ _ HI) p) as Rp. unfold roleok in Rp. unfold is_sender in Hp.
    destruct (role cfg p) as [[|]|]; try discriminate.
    destruct (qrel (pcs s p)) eqn:K.
    1, 2: assert (Hm : midop (pcs s p) = true) by (apply qls_midop; rewrite K; auto);
      pose proof (S_cur _ _ (I_v1 _ _ HI) p Hm) as Sc;
      assert (Hc2 : committed s p = match wstate s p with D => true | _ => false end)
        by (unfold committed;
            pc_cases (pcs s p);
            cbn in K; try discriminate; reflexivity);
      rewrite Hc2 in Sc;
      destruct (wstate s p); try congruence; try contradiction; (split; [congruence|]);
      replace v with (cur s p) by congruence; intros Hh; apply Sc in Hh; discriminate.
    - rewrite (qlr_not_spc _ K) in Rp. discriminate.
    - exfalso. pc_cases (pcs s p);
        cbn in K, Rp; discriminate.
    - congruence.
  Qed.
End Thm.
