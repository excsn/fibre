(* Proofs/HRwGuard.v — HybridRwLock: guard accounting (RInvA), list-spinlock ownership (RInvB),
   WRITER_PENDING / HAS_QUEUED over-approximation (RInvD). *)
From Coq Require Import List NArith Arith Bool Lia.
From Fibre Require Import Common.Conc Sync.HMutex Sync.HRwLock Proofs.HMutexBase Proofs.HRwBase.
Import ListNotations.

Definition RInvA s :=
  (forall u, In u (wholders s) <-> holdsk WR (rpcs s u) = true)
  /\ (forall u, In u (rholders s) <-> holdsk RD (rpcs s u) = true)
  /\ NoDup (rholders s)
  /\ rd s = N.of_nat (length (rholders s))
  /\ (wl s = true -> (exists h, wholders s = [h]) /\ rholders s = [])
  /\ (wl s = false -> wholders s = []).

Lemma rem1_In u t l : NoDup l -> (In u (rem1 t l) <-> In u l /\ u <> t).
Proof.
  induction l as [|x r IH]; intros N; cbn [rem1].
  - cbn. tauto.
  - inversion N; subst. destruct (Nat.eqb_spec x t) as [->|Hne].
    + split; [intros X; split; [right; exact X|intros ->; contradiction]|intros [[X|X] Y]; [congruence|exact X]].
    + cbn [In]. rewrite (IH H2). split.
      * intros [X|[X Y]]; [split; [left; exact X|congruence]|split; [right; exact X|exact Y]].
      * intros [[X|X] Y]; [left; exact X|right; split; assumption].
Qed.

Lemma rem1_NoDup t l : NoDup l -> NoDup (rem1 t l).
Proof.
  induction l as [|x r IH]; intros N; cbn [rem1]; [constructor|].
  inversion N; subst. destruct (Nat.eqb x t); [assumption|].
  constructor; [|apply IH; assumption]. intros X. apply rem1_In in X; [|assumption]. tauto.
Qed.

Lemma rem1_length t l : In t l -> S (length (rem1 t l)) = length l.
Proof.
  induction l as [|x r IH]; intros H; cbn [rem1]; [destruct H|].
  destruct (Nat.eqb_spec x t) as [->|Hne]; [reflexivity|].
  cbn [length]. f_equal. apply IH. destruct H; [congruence|assumption].
Qed.

Lemma rflush_frame s t ws :
  wl (rflush s t ws) = wl s /\ rd (rflush s t ws) = rd s /\ wholders (rflush s t ws) = wholders s
  /\ rholders (rflush s t ws) = rholders s /\ (forall k, holdsk k (rpcs (rflush s t ws) t) = false).
Proof.
  repeat split; try apply rflush_same. intros k. destruct (rflush_pc_cases s t ws) as [X|[h [r X]]]; rewrite X; reflexivity.
Qed.

(* a step that neither takes nor drops a guard *)
Lemma RInvA_move s s' t :
  RInvA s -> wl s' = wl s -> rd s' = rd s -> wholders s' = wholders s -> rholders s' = rholders s ->
  (forall u, u <> t -> rpcs s' u = rpcs s u) -> (forall k, holdsk k (rpcs s' t) = holdsk k (rpcs s t)) -> RInvA s'.
Proof.
  intros (A1 & A2 & A3 & A4 & A5 & A6) HW HR HWh HRh HP Ht. unfold RInvA. rewrite HW, HR, HWh, HRh.
  repeat apply conj; try assumption; intros u;
    (destruct (Nat.eq_dec u t) as [->|Hu]; [rewrite Ht|rewrite HP by assumption]); auto.
Qed.

Lemma RInvA_step s t c s' e : RInvA s -> rwstep s t c = Some (s', e) -> RInvA s'.
Proof.
  intros A H. pose proof A as (A1 & A2 & A3 & A4 & A5 & A6).
  pose proof (A1 t) as A1t. pose proof (A2 t) as A2t.
  rstep_cases H; rewrite Epc in A1t, A2t; cbn [holdsk rkind_q rkind_a rw_eqb] in A1t, A2t.
  all: try solve [ eapply RInvA_move; [exact A|reflexivity..|intros u Hu; apply upd_neq; exact Hu|];
                   intros k0; rsimpl_goal; rewrite upd_eq, Epc; cbn [holdsk]; case_pc; reflexivity ].
  all: unfold RInvA; rsimpl_goal.
  all: try solve [ exfalso; repeat match goal with E : rkind_a _ = _ |- _ => cbn [rkind_a] in E | E : rkind_q _ = _ |- _ => cbn [rkind_q] in E end; congruence ].
  all: repeat match goal with E : rkind_a _ = _ |- _ => cbn [rkind_a] in E; try subst | E : rkind_q _ = _ |- _ => cbn [rkind_q] in E; try subst end.
  (* flush leaves *)
  all: try solve [
    match goal with |- context [rflush ?s0 ?tt ?ws] =>
      destruct (rflush_frame s0 tt ws) as (F1 & F2 & F3 & F4 & F5); rsimpl_goal;
      rewrite ?F1, ?F2, ?F3, ?F4; rsimpl_goal;
      repeat apply conj; try assumption;
      intros u; (destruct (Nat.eq_dec u t) as [->|Hu];
                 [ rewrite F5; tauto
                 | rewrite rflush_pcs by assumption; rsimpl_goal; first [apply A1 | apply A2] ])
    end ].
  all: try match goal with q : rqctx |- _ => destruct q; cbn [rkind_q] in *; subst end.
  (* every remaining acquisition saw the word without WRITE_LOCKED *)
  all: try (destruct (wl s) eqn:EW;
            [ exfalso; match goal with E : context [negb true] |- _ => cbn in E; discriminate E end | ];
            pose proof (A6 eq_refl) as HW; rewrite HW in *).
  (* reader acquisitions *)
  all: try solve [
    repeat apply conj;
    [ intros u; split_thr u t; [ cbn [holdsk rkind_q rw_eqb]; split; [intros []|discriminate] | apply A1 ]
    | intros u; split_thr u t;
      [ cbn [holdsk rkind_q rw_eqb]; split; [reflexivity|intros _; left; reflexivity]
      | split; [ intros [X|X]; [congruence|apply A2; exact X] | intros X; right; apply A2; exact X ] ]
    | constructor; [ intros X; apply A2t in X; discriminate X | exact A3 ]
    | cbn [length]; rewrite A4; lia
    | discriminate
    | intros _; reflexivity ] ].
  (* writer acquisitions: no readers either *)
  all: try solve [
    assert (HR : rholders s = [])
      by (match goal with E : _ && (rd _ =? 0)%N && _ && _ = true |- _ =>
            apply andb_prop in E; destruct E as [E _]; apply andb_prop in E; destruct E as [E _];
            apply andb_prop in E; destruct E as [_ E]; apply N.eqb_eq in E; rewrite A4 in E end;
          destruct (rholders s); [reflexivity|cbn [length] in *; lia]);
    rewrite HR in *;
    repeat apply conj;
    [ intros u; split_thr u t;
      [ cbn [holdsk rkind_q rw_eqb]; split; [reflexivity|intros _; left; reflexivity]
      | split; [ intros [X|[]]; congruence | intros X; apply A1 in X; destruct X ] ]
    | intros u; split_thr u t; [ cbn [holdsk rkind_q rw_eqb]; split; [intros []|discriminate] | apply A2 ]
    | constructor
    | assumption
    | intros _; split; [exists t; reflexivity|reflexivity]
    | discriminate ] ].
  (* read unlock *)
  1-2: (assert (Hin : In t (rholders s)) by (apply A2t; reflexivity);
        pose proof (rem1_length t (rholders s) Hin) as HLn;
        repeat apply conj;
        [ intros u; split_thr u t; [ cbn [holdsk]; tauto | apply A1 ]
        | intros u; rewrite rem1_In by assumption; split_thr u t;
          [ cbn [holdsk]; split; [intros [_ X]; congruence|discriminate]
          | rewrite (A2 u); tauto ]
        | apply rem1_NoDup; assumption
        | rewrite A4; lia
        | intros X; destruct (A5 X) as [_ Y]; rewrite Y in Hin; destruct Hin
        | assumption ]).
  (* write unlock *)
  all: (assert (Hin : In t (wholders s)) by (apply A1t; reflexivity);
        destruct (wl s) eqn:EW; [ | rewrite (A6 eq_refl) in Hin; destruct Hin ];
        destruct (A5 eq_refl) as [[h Hh] HR]; rewrite Hh in *; destruct Hin as [->|[]];
        cbn [rem filter]; rewrite Nat.eqb_refl; cbn [negb];
        repeat apply conj;
        [ intros u; split_thr u t;
          [ cbn [holdsk]; split; [intros []|discriminate]
          | split; [ intros [] | intros X; apply A1 in X; destruct X as [->|[]]; congruence ] ]
        | intros u; split_thr u t; [ cbn [holdsk]; tauto | apply A2 ]
        | assumption | assumption | discriminate | reflexivity ]).
Qed.

(* ---- the wait-list spinlock is held exactly by the thread inside a list section *)
Definition RInvB s := (forall u, rinlist (rpcs s u) = true -> rllock s = Some u)
  /\ (forall u, rllock s = Some u -> rinlist (rpcs s u) = true).

Lemma rflush_frameB s t ws :
  rllock (rflush s t ws) = rllock s /\ rinlist (rpcs (rflush s t ws) t) = false.
Proof.
  split; [apply rflush_same|]. destruct (rflush_pc_cases s t ws) as [X|[h [r X]]]; rewrite X; reflexivity.
Qed.

(* the list lock is untouched and the thread neither enters nor leaves a list section *)
Lemma RInvB_move s s' t :
  RInvB s -> rllock s' = rllock s -> (forall u, u <> t -> rpcs s' u = rpcs s u) ->
  rinlist (rpcs s' t) = rinlist (rpcs s t) -> RInvB s'.
Proof.
  intros [B1 B2] HL HP Ht. unfold RInvB. rewrite HL.
  split; intros u; (destruct (Nat.eq_dec u t) as [->|Hu]; [rewrite Ht|rewrite HP by assumption]); auto.
Qed.

Lemma RInvB_step s t c s' e : RInvB s -> rwstep s t c = Some (s', e) -> RInvB s'.
Proof.
  intros B H. pose proof B as [B1 B2].
  pose proof (B1 t) as B1t. pose proof (B2 t) as B2t.
  rstep_cases H; rewrite Epc in B1t, B2t; cbn [rinlist] in B1t, B2t.
  all: try solve [ eapply RInvB_move; [exact B|reflexivity|intros u Hu; apply upd_neq; exact Hu|];
                   rsimpl_goal; rewrite upd_eq, Epc; reflexivity ].
  all: unfold RInvB; rsimpl_goal.
  (* flush leaves: RWUnl releases the lock, RWWake does not hold it *)
  all: try solve [
    match goal with |- context [rflush ?s0 ?tt ?ws] =>
      destruct (rflush_frameB s0 tt ws) as (F1 & F2); rsimpl_goal; rewrite ?F1; rsimpl_goal;
      try (pose proof (B1t eq_refl) as HL);
      split; intros u; (destruct (Nat.eq_dec u tt) as [->|Hu];
        [ rewrite F2; intros X; try discriminate X; try (apply B2t in X; discriminate X)
        | rewrite rflush_pcs by assumption; rsimpl_goal; intros X; try discriminate X;
          try (first [apply B1 in X | apply B2 in X]); congruence ])
    end ].
  all: (try (pose proof (B1t eq_refl) as HL); split; intros u; split_thr u t; cbn [rinlist]; intros X;
        try reflexivity; try discriminate X; try (apply B1 in X); congruence).
Qed.

(* ---- WRITER_PENDING / HAS_QUEUED over-approximate the list contents, except for a node whose
   owner is between its link and its fetch_or *)
Definition RInvD s :=
  (wp s = false -> forall u, In (u, true) (rqueue s) -> exists q, rpcs s u = RQFor q /\ rkind_q q = WR)
  /\ (hq s = false -> forall u b, In (u, b) (rqueue s) -> exists q, rpcs s u = RQFor q).

Lemma rflush_frameD s t ws :
  wp (rflush s t ws) = wp s /\ hq (rflush s t ws) = hq s /\ rqueue (rflush s t ws) = rqueue s.
Proof. repeat split; apply rflush_same. Qed.

Lemma rflush_pc_t s t ws : forall q, rpcs (rflush s t ws) t <> RQFor q.
Proof. intros q. destruct (rflush_pc_cases s t ws) as [X|[h [r X]]]; rewrite X; discriminate. Qed.

Lemma RInvD_frame s s' t :
  (forall u b, In (u, b) (rqueue s') ->
     In (u, b) (rqueue s) \/ (u = t /\ exists q, rpcs s' t = RQFor q /\ (b = true -> rkind_q q = WR))) ->
  (forall u, u <> t -> rpcs s' u = rpcs s u) ->
  (forall q, rpcs s t <> RQFor q) ->
  (wp s' = false -> wp s = false \/ nwriters (rqueue s') = 0) ->
  (hq s' = false -> hq s = false \/ rqueue s' = []) ->
  RInvD s -> RInvD s'.
Proof.
  intros HQ HP HT HW HH [D1 D2]. split.
  - intros Hw u Hu. destruct (HW Hw) as [X|X]; [|exfalso; exact (nwriters_In u _ Hu X)].
    destruct (HQ u true Hu) as [Hold|[-> [q [Q1 Q2]]]].
    + destruct (D1 X u Hold) as [q [Q1 Q2]]. exists q. split; [|exact Q2].
      rewrite HP; [exact Q1|]. intros ->. exact (HT q Q1).
    + exists q. split; [exact Q1|apply Q2; reflexivity].
  - intros Hh u b Hu. destruct (HH Hh) as [X|X]; [|rewrite X in Hu; destruct Hu].
    destruct (HQ u b Hu) as [Hold|[-> [q [Q1 _]]]].
    + destruct (D2 X u b Hold) as [q Q1]. exists q.
      rewrite HP; [exact Q1|]. intros ->. exact (HT q Q1).
    + exists q. exact Q1.
Qed.

Lemma RInvD_step s t c s' e : RInvD s -> rwstep s t c = Some (s', e) -> RInvD s'.
Proof.
  intros [D1 D2] H.
  rstep_cases H.
  (* flush leaves *)
  all: try solve [
    match goal with |- context [rflush ?s0 ?tt ?ws] =>
      destruct (rflush_frameD s0 tt ws) as (F1 & F2 & F3);
      apply (RInvD_frame s _ tt); rsimpl_goal; rewrite ?F1, ?F2, ?F3; rsimpl_goal;
      [ intros uu bb Hu; left; exact Hu
      | intros uu Hu; rewrite rflush_pcs by assumption; rsimpl_goal; reflexivity
      | intros qq; rewrite Epc; discriminate
      | intros X; left; exact X
      | intros X; left; exact X
      | split; assumption ]
    end ].
  all: try solve [ apply (RInvD_frame s _ t); rsimpl_goal;
    [ intros uu bb Hu;
      first [ left; exact Hu
            | apply qrem_In in Hu; left; tauto
            | apply In_app1 in Hu; destruct Hu as [Hu|Hu];
              [ left; exact Hu
              | right; injection Hu as -> ->; split; [reflexivity|]; rewrite upd_eq; eexists; split; [reflexivity|];
                cbn [rkind_q is_wr]; first [ intros X; discriminate X | destruct k; cbn; intros X; first [discriminate X|reflexivity] | auto ] ]
            | left; match goal with E : rqueue _ = _ |- _ => rewrite E; exact Hu end
            | left; match goal with E : rqueue _ = _ :: _ |- _ => rewrite E; right; exact Hu end
            | destruct Hu ]
    | intros uu Hu; apply upd_neq; assumption
    | intros qq; rewrite Epc; discriminate
    | intros X; first [ left; exact X | left; assumption | right; assumption | discriminate X
                      | right; match goal with E : rqueue _ = _ |- _ => rewrite E in *; cbn in *; congruence end ]
    | intros X; first [ left; exact X | left; assumption | right; assumption | discriminate X | right; reflexivity ]
    | split; assumption ] ].
  (* the fetch_or of a queue section: the stepping thread is the one thread allowed to be at RQFor *)
  all:
    unfold RInvD; rsimpl_goal; split;
    [ intros Hw; first [ discriminate Hw |
      intros uu Hu; destruct (D1 Hw uu Hu) as [qq [Q1 Q2]]; split_thr uu t;
      [ rewrite Epc in Q1; first [ discriminate Q1 | injection Q1 as <-; cbn [rkind_q] in *; congruence ]
      | exists qq; split; assumption ] ]
    | intros Hh; first [ discriminate Hh |
      intros uu bb Hu; destruct (D2 Hh uu bb Hu) as [qq Q1]; split_thr uu t;
      [ rewrite Epc in Q1; discriminate Q1
      | exists qq; assumption ] ] ].
Qed.
