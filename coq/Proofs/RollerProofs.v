(* Proofs/RollerProofs.v — the rolling-file model Log/Roller.v.  A roll is described once (sorted
   insert, retention split, compression keeps names and contents), a write as three stages; on
   these rest the invariant of reachable states, the size rule, the stream theorem under a
   monotone clock and the permutation theorem under any clock (stated in Props/C20_roller.v). *)
From Fibre Require Import Common.Base Log.Roller.
From Coq Require Import Sorted ZifyBool ZifyNat ZifyN.

Lemma bytes_app a b : bytes (a ++ b) = bytes a + bytes b.
Proof. induction a as [|r t IH]; cbn [app bytes]; lia. Qed.

Definition posrec (r : rcd) : Prop := 0 < snd r.

Lemma bytes_zero_nil l : Forall posrec l -> bytes l = 0 -> l = [].
Proof.
  destruct l as [|r t]; [reflexivity|]. intros HF Hb. inversion HF as [|? ? Hr _]; subst.
  unfold posrec in Hr. cbn [bytes] in Hb. lia.
Qed.

Definition klt (a b : N * N) : Prop := fst a < fst b \/ (fst a = fst b /\ snd a < snd b).

Lemma key_ltb_iff a b : key_ltb a b = true <-> klt a b.
Proof.
  unfold key_ltb, klt. rewrite orb_true_iff, andb_true_iff, !N.ltb_lt, N.eqb_eq. reflexivity.
Qed.

Lemma key_ltb_spec a b : BoolSpec (klt a b) (~ klt a b) (key_ltb a b).
Proof.
  destruct (key_ltb a b) eqn:E; constructor; rewrite <- key_ltb_iff; congruence.
Qed.

Lemma klt_trans a b c : klt a b -> klt b c -> klt a c.
Proof. unfold klt. lia. Qed.

Lemma klt_irrefl a : ~ klt a a.
Proof. unfold klt. lia. Qed.

Lemma klt_total a b : a <> b -> ~ klt a b -> klt b a.
Proof.
  destruct a as [a1 a2], b as [b1 b2]. unfold klt. cbn [fst snd]. intros Hne Hn.
  assert (a1 <> b1 \/ a2 <> b2) as Hd.
  { destruct (N.eq_dec a1 b1), (N.eq_dec a2 b2); subst; auto. }
  lia.
Qed.

(* newest first: strictly descending (period, seq) *)
Definition descK (ks : list (N * N)) : Prop := StronglySorted (fun a b => klt b a) ks.

Lemma descK_app_inv a b :
  descK (a ++ b) -> descK a /\ descK b /\ (forall x y, In x a -> In y b -> klt y x).
Proof.
  unfold descK. induction a as [|h t IH]; cbn [app]; intros H.
  - split; [constructor|]. split; [exact H|]. intros x y [].
  - apply StronglySorted_inv in H. destruct H as [Hs Hf]. destruct (IH Hs) as (Ha & Hb & Hab).
    apply Forall_app in Hf. destruct Hf as [Hft Hfb]. rewrite Forall_forall in Hfb.
    split; [constructor; assumption|]. split; [exact Hb|].
    intros x y [<-|Hx] Hy; [apply Hfb, Hy|apply Hab; assumption].
Qed.

Lemma descK_firstn n ks : descK ks -> descK (firstn n ks).
Proof. intros H. rewrite <- (firstn_skipn n ks) in H. apply descK_app_inv in H. tauto. Qed.

Lemma descK_NoDup ks : descK ks -> NoDup ks.
Proof.
  unfold descK. induction 1 as [|h t Hs IH Hf]; constructor; [|exact IH].
  intros Hin. rewrite Forall_forall in Hf. apply (klt_irrefl h). apply Hf. exact Hin.
Qed.

Lemma insert_desc_perm f l : Permutation (insert_desc f l) (f :: l).
Proof.
  induction l as [|g t IH]; cbn [insert_desc]; [apply Permutation_refl|].
  destruct (key_ltb (key g) (key f)); [apply Permutation_refl|].
  eapply Permutation_trans; [apply perm_skip; exact IH | apply perm_swap].
Qed.

Lemma In_insert_desc f l x : In x (insert_desc f l) <-> x = f \/ In x l.
Proof.
  split; intros H.
  - apply (Permutation_in _ (insert_desc_perm f l)) in H. destruct H; auto.
  - apply (Permutation_in _ (Permutation_sym (insert_desc_perm f l))). destruct H; [left|right]; auto.
Qed.

Lemma length_insert_desc f l : length (insert_desc f l) = S (length l).
Proof. apply (Permutation_length (insert_desc_perm f l)). Qed.

Lemma insert_desc_head f l :
  (forall g, In g l -> klt (key g) (key f)) -> insert_desc f l = f :: l.
Proof.
  destruct l as [|g t]; cbn [insert_desc]; [reflexivity|]. intros H.
  destruct (key_ltb_spec (key g) (key f)) as [_|Hn]; [reflexivity|].
  exfalso. apply Hn. apply H. left. reflexivity.
Qed.

Lemma insert_desc_sorted f l :
  descK (map key l) -> ~ In (key f) (map key l) -> descK (map key (insert_desc f l)).
Proof.
  unfold descK. induction l as [|g t IH]; cbn [insert_desc map]; intros Hs Hfresh.
  - constructor; constructor.
  - inversion Hs as [|? ? Hst Hf]; subst. rewrite Forall_forall in Hf.
    destruct (key_ltb_spec (key g) (key f)) as [Hlt|Hn]; cbn [map].
    + constructor; [exact Hs|]. constructor; [exact Hlt|]. apply Forall_forall. intros x Hx.
      eapply klt_trans; [apply Hf; exact Hx | exact Hlt].
    + constructor.
      * apply IH; [exact Hst|]. intros Hi. apply Hfresh. right. exact Hi.
      * apply Forall_forall. intros x Hx. apply in_map_iff in Hx. destruct Hx as (y & <- & Hy).
        apply In_insert_desc in Hy. destruct Hy as [->|Hy].
        -- apply klt_total; [|exact Hn]. intros He. apply Hfresh. left. exact He.
        -- apply Hf. apply in_map. exact Hy.
Qed.

(** * name and content of a rolled file: what compression leaves alone *)
Definition kd (f : rfile) : (N * N) * list rcd := (key f, rdata f).

Lemma compress_kd k l : map kd (compress_from k l) = map kd l.
Proof.
  revert k. induction l as [|f t IH]; intros k; cbn [compress_from map]; [reflexivity|].
  destruct k; cbn [map]; rewrite IH; reflexivity.
Qed.

Lemma kd_keys a b : map kd a = map kd b -> map key a = map key b.
Proof. intros H. apply (f_equal (map fst)) in H. rewrite !map_map in H. exact H. Qed.

Lemma kd_datas a b : map kd a = map kd b -> map rdata a = map rdata b.
Proof. intros H. apply (f_equal (map snd)) in H. rewrite !map_map in H. exact H. Qed.

Lemma kd_In a b f : map kd a = map kd b -> In f a ->
  exists g, In g b /\ key g = key f /\ rdata g = rdata f.
Proof.
  intros H Hf. apply (in_map kd) in Hf. rewrite H in Hf. apply in_map_iff in Hf.
  destruct Hf as (g & E & Hg). exists g.
  split; [exact Hg|]. split; [exact (f_equal fst E) | exact (f_equal snd E)].
Qed.

Lemma compress_length k l : length (compress_from k l) = length l.
Proof. rewrite <- (map_length kd), compress_kd, map_length. reflexivity. Qed.

Lemma concat_map_perm {A B} (g : A -> list B) a b :
  Permutation a b -> Permutation (concat (map g a)) (concat (map g b)).
Proof. intros H. rewrite <- !flat_map_concat_map. apply Permutation_flat_map, H. Qed.

(** * sequence choice: never an existing name *)
Lemma last_seq_ge p l f : In f l -> rp f = p -> rs f <= last_seq p l.
Proof.
  induction l as [|g t IH]; cbn [last_seq In]; [intros []|]. intros [->|Hi] Hp.
  - destruct (N.eqb_spec (rp f) p); lia.
  - specialize (IH Hi Hp). destruct (N.eqb_spec (rp g) p); lia.
Qed.

(* holds in EVERY state, reachable or not: the name a roll renames onto is not in the directory,
   neither plain nor compressed *)
Lemma roll_file_fresh st f : In f (rolled st) -> key f <> key (roll_file st).
Proof.
  intros Hi [= Hp Hs]. pose proof (last_seq_ge (cur_period st) (rolled st) f Hi Hp). lia.
Qed.

Lemma fs_remove_id nf l : (forall g, In g l -> key g <> key nf) -> fs_remove nf l = l.
Proof.
  unfold fs_remove. induction l as [|g t IH]; cbn [filter]; intros H; [reflexivity|].
  assert (Hg : same_name g nf = false).
  { unfold same_name. destruct (N.eqb_spec (rp g) (rp nf)) as [Ep|]; [|reflexivity].
    destruct (N.eqb_spec (rs g) (rs nf)) as [Es|]; [|reflexivity].
    exfalso. apply (H g); [left; reflexivity|]. unfold key. congruence. }
  rewrite Hg. cbn [negb]. f_equal. apply IH. intros x Hx. apply H. right. exact Hx.
Qed.

Lemma roll_no_clobber st : fs_remove (roll_file st) (rolled st) = rolled st.
Proof. apply fs_remove_id. intros g Hg. apply roll_file_fresh. exact Hg. Qed.

Lemma roll_file_fresh_keys st : ~ In (key (roll_file st)) (map key (rolled st)).
Proof.
  intros Hi. apply in_map_iff in Hi. destruct Hi as (f & He & Hf).
  exact (roll_file_fresh st f Hf He).
Qed.

(** * what a roll does to the files: the new file is sorted in, retention splits the list, and
   compression changes neither names nor contents of what is kept *)
Definition roll_all (st : state) : list rfile := insert_desc (roll_file st) (rolled st).

Definition retained (pol : policy) (all : list rfile) : list rfile :=
  match p_max_retained pol with Some m => firstn (N.to_nat m) all | None => all end.

Definition dropped (pol : policy) (all : list rfile) : list rfile :=
  match p_max_retained pol with Some m => skipn (N.to_nat m) all | None => [] end.

Lemma retained_dropped pol all : retained pol all ++ dropped pol all = all.
Proof.
  unfold retained, dropped. destruct (p_max_retained pol); [apply firstn_skipn | apply app_nil_r].
Qed.

Lemma In_roll_all st g : In g (roll_all st) <-> g = roll_file st \/ In g (rolled st).
Proof. apply In_insert_desc. Qed.

Lemma In_retained pol st g : In g (retained pol (roll_all st)) -> g = roll_file st \/ In g (rolled st).
Proof.
  intros H. apply In_roll_all. rewrite <- (retained_dropped pol). apply in_or_app. left. exact H.
Qed.

Lemma roll_rolled pol st now :
  map kd (rolled (roll pol st now)) = map kd (retained pol (roll_all st)).
Proof.
  unfold roll. rewrite roll_no_clobber. cbn [rolled].
  destruct (p_compression pol); [apply compress_kd | reflexivity].
Qed.

Lemma roll_gone pol st now :
  gone (roll pol st now) = map key (dropped pol (roll_all st)) ++ gone st.
Proof. unfold roll. rewrite roll_no_clobber. reflexivity. Qed.

(* every file present after a roll is the newly rolled file or a file that was there before
   (same period, sequence and content; possibly compressed meanwhile) *)
Lemma roll_files_from pol st now f :
  In f (rolled (roll pol st now)) ->
  exists g, (g = roll_file st \/ In g (rolled st)) /\ key g = key f /\ rdata g = rdata f.
Proof.
  intros Hf. destruct (kd_In _ _ f (roll_rolled pol st now) Hf) as (g & Hg & E).
  exists g. split; [exact (In_retained pol st g Hg) | exact E].
Qed.

(* a file leaves the directory only through retention, and then it is recorded in `gone` *)
Lemma roll_accounts pol st now g :
  g = roll_file st \/ In g (rolled st) ->
  (exists f, In f (rolled (roll pol st now)) /\ key f = key g /\ rdata f = rdata g)
  \/ In (key g) (gone (roll pol st now)).
Proof.
  intros Hg. apply In_roll_all in Hg. rewrite <- (retained_dropped pol) in Hg.
  apply in_app_or in Hg. destruct Hg as [Hg|Hg].
  - left. exact (kd_In _ _ g (eq_sym (roll_rolled pol st now)) Hg).
  - right. rewrite roll_gone. apply in_or_app. left. apply in_map. exact Hg.
Qed.

Lemma roll_gone_unlimited pol st now :
  p_max_retained pol = None -> gone (roll pol st now) = gone st.
Proof. intros E. unfold roll. cbn [gone]. rewrite E. reflexivity. Qed.

Lemma append_frame st r :
  rolled (append st r) = rolled st /\ cur_period (append st r) = cur_period st
  /\ gone (append st r) = gone st.
Proof.
  unfold append. cbn [rolled cur_period gone]. unfold bufwrite. destruct (_ <? _); [auto|].
  destruct (_ <? _); destruct (_ <=? _); auto.
Qed.

Lemma bufwrite_perm st r :
  Permutation (adisk (bufwrite st r) ++ abuf (bufwrite st r)) (adisk st ++ abuf st ++ [r]).
Proof.
  assert (E : forall a b : list rcd, Permutation ((a ++ [r]) ++ b) (a ++ b ++ [r])).
  { intros a b. rewrite <- app_assoc. apply Permutation_app_head. apply Permutation_app_comm. }
  unfold bufwrite. destruct (_ <? _); [apply Permutation_refl|].
  destruct (_ <? _); destruct (_ <=? _); cbn [adisk abuf flush].
  - rewrite app_nil_r, <- app_assoc. apply Permutation_refl.
  - rewrite <- app_assoc. apply Permutation_refl.
  - apply E.
  - apply Permutation_refl.
Qed.

(* the record goes after everything written before it (disk first, then buffer), and the buffer
   keeps holding non-empty records only *)
Lemma bufwrite_spec st r :
  Forall posrec (abuf st) ->
  adisk (bufwrite st r) ++ abuf (bufwrite st r) = adisk st ++ abuf st ++ [r]
  /\ (posrec r -> Forall posrec (abuf (bufwrite st r))).
Proof.
  intros Hpos.
  assert (Hs : posrec r -> Forall posrec (abuf st ++ [r])).
  { intros Hr. apply Forall_app. split; [exact Hpos | constructor; [exact Hr | constructor]]. }
  unfold bufwrite.
  destruct (N.ltb_spec (snd r) (bufcap - bytes (abuf st))) as [_|H1]; [split; [reflexivity|exact Hs]|].
  destruct (N.ltb_spec (bufcap - bytes (abuf st)) (snd r)) as [_|H2];
    destruct (N.leb_spec bufcap (snd r)) as [H3|H3]; cbn [adisk abuf flush].
  - split; [rewrite app_nil_r, <- app_assoc; reflexivity | constructor].
  - split; [rewrite <- app_assoc; reflexivity | repeat constructor; assumption].
  - (* the record fills the whole buffer exactly: the buffer was empty *)
    assert (Hz : abuf st = []).
    { apply bytes_zero_nil; [exact Hpos|]. unfold bufcap in *. lia. }
    rewrite Hz, app_nil_r. split; [reflexivity | constructor].
  - split; [reflexivity | exact Hs].
Qed.

(** * reachability at primitive granularity: every state the code can be in between two of its
   primitive actions (a superset of the states between API calls) *)
Inductive reach (pol : policy) : state -> Prop :=
| r_start fs p : reach pol (start pol fs p)
| r_roll st now : reach pol st -> reach pol (roll pol st now)
| r_flush st : reach pol st -> reach pol (flush st)
| r_append st r : reach pol st -> posrec r -> reach pol (append st r)
| r_restart st p : reach pol st -> reach pol (restart pol st p).

(* one `write` call in stages: optional time roll, the append (unless the record is empty),
   optional size roll *)
Definition roll_if (b : bool) (pol : policy) (st : state) (now : N) : state :=
  if b then roll pol st now else st.

Lemma write_stages pol st p r : exists b2,
  write pol st p r =
  let st1 := roll_if (cur_period st <? eff pol p) pol st p in
  if snd r =? 0 then st1 else roll_if b2 pol (append st1 r) p.
Proof.
  unfold write. cbv zeta. fold (roll_if (cur_period st <? eff pol p) pol st p).
  destruct (p_max_size pol) as [m|]; [eexists (m <=? _)|exists false]; reflexivity.
Qed.

Lemma roll_if_reach b pol st p : reach pol st -> reach pol (roll_if b pol st p).
Proof. intros H. destruct b; [apply r_roll|]; exact H. Qed.

Lemma write_reach pol st p r : reach pol st -> reach pol (write pol st p r).
Proof.
  intros H. destruct (write_stages pol st p r) as (b2 & ->). cbv zeta.
  destruct (N.eqb_spec (snd r) 0) as [|Hr]; apply roll_if_reach; [exact H|].
  apply r_append; [apply roll_if_reach, H | unfold posrec; lia].
Qed.

Lemma step_reach pol st o : reach pol st -> reach pol (step pol st o).
Proof.
  intros H. destruct o; cbn [step]; [apply write_reach | apply r_restart | apply r_flush]; exact H.
Qed.

Lemma run_from_reach pol ops : forall st, reach pol st -> reach pol (run_from pol st ops).
Proof.
  unfold run_from. induction ops as [|o t IH]; cbn [fold_left]; intros st H; [exact H|].
  apply IH. apply step_reach. exact H.
Qed.

Lemma run_reach pol fs p0 ops : reach pol (run pol fs p0 ops).
Proof. apply run_from_reach. apply r_start. Qed.

Record Inv (pol : policy) (st : state) : Prop := mkInv {
  inv_sorted : descK (map key (rolled st));
  inv_count : forall m, p_max_retained pol = Some m -> (length (rolled st) <= N.to_nat m)%nat;
  inv_gone : forall k f, In k (gone st) -> In f (rolled st) -> klt k (key f);
  (* a deletion happened only with the directory full, and it stays full: so the next roll drops
     a file again, and that file, older than the new one, is what puts the new one above
     everything in [gone] even when the clock went backwards *)
  inv_full : gone st = [] \/
             exists m, p_max_retained pol = Some m /\ length (rolled st) = N.to_nat m;
  inv_pos : Forall posrec (abuf st) }.

Lemma roll_inv pol st now : Inv pol st -> Inv pol (roll pol st now).
Proof.
  intros [Hs Hc Hg Hf Hp]. set (all := roll_all st).
  assert (Hall : descK (map key all)).
  { apply insert_desc_sorted; [exact Hs | apply roll_file_fresh_keys]. }
  assert (Hlen : length all = S (length (rolled st))) by apply length_insert_desc.
  pose proof (kd_keys _ _ (roll_rolled pol st now)) as Ek. fold all in Ek.
  assert (El : length (rolled (roll pol st now)) = length (retained pol all)).
  { rewrite <- (map_length key), Ek. apply map_length. }
  rewrite <- (retained_dropped pol all), map_app in Hall.
  apply descK_app_inv in Hall. destruct Hall as (Hk & _ & Hcross).
  constructor; rewrite ?roll_gone, ?El; fold all.
  - rewrite Ek. exact Hk.
  - intros m Em. unfold retained. rewrite Em. apply firstn_le_length.
  - intros k f Hk' Hfi. apply (in_map key) in Hfi. rewrite Ek in Hfi.
    apply in_app_or in Hk'. destruct Hk' as [Hk'|Hk']; [apply Hcross; assumption|].
    apply in_map_iff in Hfi. destruct Hfi as (g & <- & Hgi).
    destruct (In_retained pol st g Hgi) as [->|Hga]; [|apply Hg; assumption].
    (* k was deleted earlier: the directory was full, so the new file displaced an older one *)
    destruct Hf as [E0|(m & Em & Hfull)]; [rewrite E0 in Hk'; contradiction|].
    unfold retained, dropped in *. rewrite Em in *.
    destruct (skipn (N.to_nat m) all) as [|x xs] eqn:Esk.
    { pose proof (skipn_length (N.to_nat m) all) as HL. rewrite Esk in HL. cbn [length] in HL. lia. }
    assert (Hlt : klt (key x) (key (roll_file st))).
    { apply Hcross; [apply in_map; exact Hgi | left; reflexivity]. }
    assert (Hxa : In x all) by (rewrite <- (firstn_skipn (N.to_nat m) all), Esk; apply in_or_app; right; left; reflexivity).
    apply In_roll_all in Hxa. destruct Hxa as [->|Hxa]; [exfalso; exact (klt_irrefl _ Hlt)|].
    eapply klt_trans; [apply Hg; eassumption | exact Hlt].
  - unfold retained, dropped. destruct (p_max_retained pol) as [m|] eqn:Em.
    + destruct (Nat.le_gt_cases (length all) (N.to_nat m)) as [Hle|Hgt].
      * left. rewrite skipn_all2 by exact Hle. destruct Hf as [E0|(m' & Em' & Hfull)]; [exact E0|].
        assert (m' = m) by congruence. subst m'. lia.
      * right. exists m. split; [reflexivity|]. apply firstn_length_le. lia.
    + left. destruct Hf as [E0|(m' & Em' & _)]; [exact E0|discriminate].
  - constructor.
Qed.

Lemma append_inv pol st r : posrec r -> Inv pol st -> Inv pol (append st r).
Proof.
  intros Hr [Hs Hc Hg Hf Hp]. destruct (append_frame st r) as (Er & _ & Eg).
  constructor; rewrite ?Er, ?Eg; try assumption. apply (bufwrite_spec st r Hp), Hr.
Qed.

Theorem reach_inv pol st : reach pol st -> Inv pol st.
Proof.
  induction 1 as [fs p | st now _ IH | st _ IH | st r _ IH Hr | st p _ IH].
  - constructor; cbn [start rolled gone abuf map length];
      [constructor | intros; lia | intros k f [] | left; reflexivity | constructor].
  - apply roll_inv; exact IH.
  - destruct IH. constructor; cbn [flush rolled gone abuf]; try assumption. constructor.
  - apply append_inv; assumption.
  - destruct IH. constructor; cbn [restart flush rolled gone abuf]; try assumption. constructor.
Qed.

(* d minus its last record is below the limit (or empty) *)
Definition bbl (m : N) (d : list rcd) : Prop := forall i r, d = i ++ [r] -> bytes i = 0 \/ bytes i < m.

Record SizeInv (pol : policy) (st : state) : Prop := mkSizeInv {
  sz_eq : cur_size st = bytes (adisk st ++ abuf st);
  sz_lim : forall m, p_max_size pol = Some m -> cur_size st = 0 \/ cur_size st < m;
  sz_files : forall m f, p_max_size pol = Some m -> In f (rolled st) -> bbl m (rdata f) }.

Lemma append_order st r : Forall posrec (abuf st) ->
  adisk (append st r) ++ abuf (append st r) = (adisk st ++ abuf st) ++ [r].
Proof. intros Hp. rewrite <- app_assoc. apply bufwrite_spec, Hp. Qed.

Lemma roll_size pol st now :
  (forall m, p_max_size pol = Some m -> bbl m (adisk st ++ abuf st)) ->
  (forall m f, p_max_size pol = Some m -> In f (rolled st) -> bbl m (rdata f)) ->
  SizeInv pol (roll pol st now).
Proof.
  intros Ha Hf. constructor.
  - reflexivity.
  - intros m _. left. reflexivity.
  - intros m f Em Hi. apply roll_files_from in Hi. destruct Hi as (g & [->|Hg] & _ & Ed); rewrite <- Ed.
    + apply Ha. exact Em.
    + eapply Hf; eassumption.
Qed.

(* a roll is fine whenever the active file minus its last record is below the limit; the time
   roll finds it so by [sz_lim], the size roll because the record just appended is the last *)
Lemma write_size pol st p r : reach pol st -> SizeInv pol st -> SizeInv pol (write pol st p r).
Proof.
  intros Hr Hs. unfold write.
  set (st1 := if cur_period st <? eff pol p then roll pol st p else st).
  assert (Hr1 : reach pol st1) by (apply (roll_if_reach _ pol st p), Hr).
  assert (Hs1 : SizeInv pol st1).
  { unfold st1. destruct (_ <? _); [|exact Hs]. apply roll_size; [|apply (sz_files _ _ Hs)].
    intros m Em i r' Ed. pose proof (sz_lim _ _ Hs m Em) as Hl.
    rewrite (sz_eq _ _ Hs), Ed, bytes_app in Hl. cbn [bytes] in Hl. lia. }
  destruct (N.eqb_spec (snd r) 0) as [|Hnz]; [exact Hs1|].
  set (st2 := append st1 r).
  pose proof (append_order st1 r (inv_pos _ _ (reach_inv _ _ Hr1))) as Ho. fold st2 in Ho.
  assert (He2 : cur_size st2 = bytes (adisk st2 ++ abuf st2)).
  { rewrite Ho, bytes_app, <- (sz_eq _ _ Hs1). unfold st2, append. cbn [cur_size bytes]. lia. }
  assert (Hf2 : forall m f, p_max_size pol = Some m -> In f (rolled st2) -> bbl m (rdata f)).
  { unfold st2. rewrite (proj1 (append_frame st1 r)). apply (sz_files _ _ Hs1). }
  destruct (p_max_size pol) as [m|] eqn:Em; rewrite <- Em in Hf2.
  - destruct (N.leb_spec m (cur_size st2)) as [Hge|Hlt].
    + apply roll_size; [|exact Hf2]. intros m' Em' i r' Ed. rewrite Ho in Ed.
      apply app_inj_tail in Ed. destruct Ed as [<- _].
      rewrite <- (sz_eq _ _ Hs1). apply (sz_lim _ _ Hs1), Em'.
    + constructor; [exact He2 | | exact Hf2]. intros m' Em'. right. congruence.
  - constructor; [exact He2 | | exact Hf2]. intros m' Em'. congruence.
Qed.

Lemma step_size pol st o : reach pol st -> SizeInv pol st -> SizeInv pol (step pol st o).
Proof.
  intros Hr Hs. destruct o as [p r|p|]; cbn [step]; [apply write_size; assumption| |];
    destruct Hs as [He Hl Hf]; constructor; cbn [restart flush cur_size adisk abuf rolled];
    rewrite ?app_nil_r; try assumption; [reflexivity|].
  intros m Em. rewrite <- He. apply Hl, Em.
Qed.

Theorem run_size pol fs p0 ops : SizeInv pol (run pol fs p0 ops).
Proof.
  unfold run. assert (H : forall st, reach pol st -> SizeInv pol st -> SizeInv pol (run_from pol st ops)).
  { unfold run_from. induction ops as [|o t IH]; cbn [fold_left]; intros st Hr Hs; [exact Hs|].
    apply IH; [apply step_reach; exact Hr | apply step_size; assumption]. }
  apply H; [apply r_start|]. constructor; cbn [start cur_size adisk abuf rolled app bytes].
  - reflexivity.
  - intros m _. left. reflexivity.
  - intros m f _ [].
Qed.

(* one `write` call: optional time roll, then the whole record goes into the then-current file,
   then optionally that file (the record being its last) is rolled *)
Theorem write_atomic pol st p r :
  reach pol st -> posrec r ->
  exists st1, (st1 = st \/ st1 = roll pol st p) /\
    let st2 := append st1 r in
    adisk st2 ++ abuf st2 = adisk st1 ++ abuf st1 ++ [r] /\
    rdata (roll_file st2) = adisk st1 ++ abuf st1 ++ [r] /\
    (write pol st p r = st2 \/ write pol st p r = roll pol st2 p).
Proof.
  intros Hr Hp. destruct (write_stages pol st p r) as (b2 & ->).
  set (st1 := roll_if _ pol st p). exists st1.
  split; [unfold st1; destruct (_ <? _); auto|].
  pose proof (append_order st1 r (inv_pos _ _ (reach_inv _ _ (roll_if_reach _ pol st p Hr)))) as Ho.
  rewrite <- app_assoc in Ho. cbv zeta. split; [exact Ho|]. split; [exact Ho|].
  unfold posrec in Hp. destruct (N.eqb_spec (snd r) 0) as [E|_]; [lia|]. destruct b2; auto.
Qed.

(* [a] is [b] after some lost prefix, and nothing is lost when retention is unlimited *)
Definition loses (pol : policy) (a b : list rcd) : Prop :=
  exists lost, a = lost ++ b /\ (p_max_retained pol = None -> lost = []).

Lemma loses_refl pol a : loses pol a a.
Proof. exists []. split; reflexivity. Qed.

Lemma loses_trans pol a b c : loses pol a b -> loses pol b c -> loses pol a c.
Proof.
  intros (l1 & -> & N1) (l2 & -> & N2). exists (l1 ++ l2). split; [apply app_assoc|].
  intros En. rewrite (N1 En), (N2 En). reflexivity.
Qed.

Lemma loses_app pol a b x : loses pol a b -> loses pol (a ++ x) (b ++ x).
Proof. intros (l & -> & Hn). exists l. split; [symmetry; apply app_assoc|exact Hn]. Qed.

Definition keys_le (st : state) : Prop := forall f, In f (rolled st) -> rp f <= cur_period st.

Lemma roll_all_head st : keys_le st -> roll_all st = roll_file st :: rolled st.
Proof.
  intros Hk. apply insert_desc_head. intros g Hg. unfold klt, key, roll_file. cbn [fst snd rp rs].
  specialize (Hk g Hg). destruct (N.eq_dec (rp g) (cur_period st)) as [E|Hne]; [|left; lia].
  right. split; [exact E|]. pose proof (last_seq_ge _ _ _ Hg E). lia.
Qed.

Lemma roll_logical pol st now : keys_le st -> loses pol (logical st) (logical (roll pol st now)).
Proof.
  intros Hk. exists (concat (rev (map rdata (dropped pol (roll_all st))))). split.
  - unfold logical at 2. rewrite (kd_datas _ _ (roll_rolled pol st now)).
    unfold roll. cbn [adisk abuf]. rewrite !app_nil_r.
    rewrite <- concat_app, <- rev_app_distr, <- map_app, retained_dropped, (roll_all_head st Hk).
    cbn [map rev roll_file rdata]. rewrite concat_app. cbn [concat]. rewrite app_nil_r. reflexivity.
  - intros En. unfold dropped. rewrite En. reflexivity.
Qed.

Lemma roll_keys_le pol st now :
  keys_le st -> cur_period st <= eff pol now -> keys_le (roll pol st now).
Proof.
  intros Hk Hc f Hf. apply roll_files_from in Hf. destruct Hf as (g & Hg & [= Ek _] & _).
  rewrite <- Ek. unfold roll. cbn [cur_period]. destruct Hg as [->|Hg]; [exact Hc|].
  specialize (Hk g Hg). lia.
Qed.

Lemma append_logical st r :
  Forall posrec (abuf st) -> logical (append st r) = logical st ++ [r].
Proof.
  intros Hp. unfold logical. rewrite (proj1 (append_frame st r)), (append_order st r Hp).
  apply app_assoc.
Qed.

(* the clock [c] read last is not behind the current period, and no rolled file is ahead of it *)
Record Mono (pol : policy) (st : state) (c : N) : Prop := mkMono {
  mo_cur : cur_period st <= eff pol c;
  mo_keys : keys_le st }.

Lemma roll_if_stream b pol st c p :
  Mono pol st c -> eff pol c <= eff pol p ->
  loses pol (logical st) (logical (roll_if b pol st p)) /\ Mono pol (roll_if b pol st p) p.
Proof.
  intros [Hc Hk] Hcp. destruct b; cbn [roll_if].
  - split; [apply roll_logical, Hk|].
    constructor; [unfold roll; cbn [cur_period]; lia | apply roll_keys_le; [exact Hk | lia]].
  - split; [apply loses_refl|]. constructor; [lia | exact Hk].
Qed.

Lemma write_stream pol st c p r :
  reach pol st -> Mono pol st c -> eff pol c <= eff pol p ->
  loses pol (logical st ++ (if snd r =? 0 then [] else [r])) (logical (write pol st p r))
  /\ Mono pol (write pol st p r) p.
Proof.
  intros Hr Hm Hcp. destruct (write_stages pol st p r) as (b2 & ->). cbv zeta.
  set (st1 := roll_if _ pol st p).
  destruct (roll_if_stream (cur_period st <? eff pol p) pol st c p Hm Hcp) as [L1 M1]. fold st1 in L1, M1.
  destruct (N.eqb_spec (snd r) 0) as [Ez|Hnz]; [rewrite app_nil_r; split; assumption|].
  assert (M2 : Mono pol (append st1 r) p).
  { destruct M1 as [Hc1 Hk1], (append_frame st1 r) as (Er & Ep & _).
    constructor; [rewrite Ep; exact Hc1 | intros f; rewrite Er, Ep; apply Hk1]. }
  destruct (roll_if_stream b2 pol (append st1 r) p p M2 (N.le_refl _)) as [L3 M3].
  split; [|exact M3]. eapply loses_trans; [apply loses_app, L1|].
  rewrite <- append_logical; [exact L3|].
  apply (inv_pos _ _ (reach_inv _ _ (roll_if_reach _ pol st p Hr))).
Qed.

Lemma step_stream pol st c o :
  reach pol st -> Mono pol st c ->
  (forall p, op_time o = Some p -> eff pol c <= eff pol p) ->
  loses pol (logical st ++ written [o]) (logical (step pol st o))
  /\ Mono pol (step pol st o) (match op_time o with Some p => p | None => c end).
Proof.
  intros Hr Hm Ht. destruct o as [p r|p|]; cbn [step written flat_map op_time]; rewrite app_nil_r.
  - apply (write_stream pol st c p r Hr Hm). apply Ht. reflexivity.
  - destruct Hm as [Hc Hk]. split.
    + unfold logical, restart, flush. cbn [rolled adisk abuf app]. rewrite app_nil_r. apply loses_refl.
    + constructor; [cbn [restart cur_period]; lia|].
      assert (Hcp : eff pol c <= eff pol p) by (apply Ht; reflexivity).
      intros f Hf. cbn [restart flush rolled cur_period] in *. specialize (Hk f Hf). lia.
  - split; [|destruct Hm; constructor; assumption].
    unfold logical, flush. cbn [rolled adisk abuf app]. rewrite app_nil_r. apply loses_refl.
Qed.

Lemma written_cons o t : written (o :: t) = written [o] ++ written t.
Proof. unfold written. cbn [flat_map]. rewrite app_nil_r. reflexivity. Qed.

Lemma run_from_stream pol ops : forall st c,
  reach pol st -> Mono pol st c -> monotone_from pol c ops ->
  loses pol (logical st ++ written ops) (logical (run_from pol st ops)).
Proof.
  induction ops as [|o t IH]; intros st c Hr Hm Hmono.
  - cbn [written flat_map]. rewrite app_nil_r. apply loses_refl.
  - cbn [monotone_from] in Hmono.
    destruct (step_stream pol st c o Hr Hm) as (L1 & Hm1).
    { intros p E. rewrite E in Hmono. tauto. }
    rewrite written_cons, app_assoc. eapply loses_trans; [apply loses_app, L1|].
    apply (IH _ _ (step_reach pol st o Hr) Hm1). destruct (op_time o); tauto.
Qed.

Theorem run_stream pol fs p0 ops :
  monotone pol p0 ops ->
  exists lost, written ops = lost ++ logical (run pol fs p0 ops)
               /\ (p_max_retained pol = None -> lost = []).
Proof.
  intros Hm. apply (run_from_stream pol ops (start pol fs p0) p0); [apply r_start| |exact Hm].
  constructor; [cbn [start cur_period]; lia | intros f []].
Qed.

(** * unlimited retention, ANY clock: nothing lost, nothing duplicated *)
Lemma roll_perm pol st now :
  p_max_retained pol = None -> Permutation (all_records st) (all_records (roll pol st now)).
Proof.
  intros En. unfold all_records at 2. rewrite (kd_datas _ _ (roll_rolled pol st now)).
  unfold retained. rewrite En. unfold roll. cbn [adisk abuf]. rewrite !app_nil_r.
  eapply Permutation_trans;
    [|apply Permutation_sym; apply (concat_map_perm rdata); apply insert_desc_perm].
  unfold all_records. cbn [map concat roll_file rdata]. apply Permutation_app_comm.
Qed.

Lemma append_perm st r : Permutation (all_records st ++ [r]) (all_records (append st r)).
Proof.
  unfold all_records. rewrite (proj1 (append_frame st r)), <- app_assoc.
  apply Permutation_app_head. rewrite <- app_assoc. apply Permutation_sym. apply bufwrite_perm.
Qed.

Lemma roll_if_perm b pol st p :
  p_max_retained pol = None -> Permutation (all_records st) (all_records (roll_if b pol st p)).
Proof. intros En. destruct b; [apply roll_perm, En | apply Permutation_refl]. Qed.

Lemma step_perm pol st o :
  p_max_retained pol = None ->
  Permutation (all_records st ++ written [o]) (all_records (step pol st o)).
Proof.
  intros En. destruct o as [p r|p|]; cbn [step written flat_map]; rewrite app_nil_r.
  - destruct (write_stages pol st p r) as (b2 & ->). cbv zeta.
    eapply Permutation_trans; [apply Permutation_app_tail, roll_if_perm, En|].
    destruct (snd r =? 0); [rewrite app_nil_r; apply Permutation_refl|].
    eapply Permutation_trans; [apply append_perm | apply roll_if_perm, En].
  - unfold all_records, restart, flush. cbn [rolled adisk abuf]. rewrite !app_nil_r. apply Permutation_refl.
  - unfold all_records, flush. cbn [rolled adisk abuf]. rewrite !app_nil_r. apply Permutation_refl.
Qed.

Theorem run_perm pol fs p0 ops :
  p_max_retained pol = None -> Permutation (written ops) (all_records (run pol fs p0 ops)).
Proof.
  intros En. unfold run.
  assert (H : forall st, Permutation (all_records st ++ written ops) (all_records (run_from pol st ops))).
  { unfold run_from. induction ops as [|o t IH]; intros st.
    - cbn [written flat_map fold_left]. rewrite app_nil_r. apply Permutation_refl.
    - rewrite written_cons, app_assoc. cbn [fold_left].
      eapply Permutation_trans; [apply Permutation_app_tail; apply step_perm; exact En | apply IH]. }
  apply (H (start pol fs p0)).
Qed.

(** * the clock hypothesis is needed (finding F-roller-clock) *)
(* The statement without the monotone-clock hypothesis. *)
Definition stream_full : Prop :=
  forall pol fs p0 ops,
    exists lost, written ops = lost ++ logical (run pol fs p0 ops)
                 /\ (p_max_retained pol = None -> lost = []).

(* started in period 5, the clock then reads period 3: the first size roll is named after period 5,
   the second after period 3, so with max_retained = 1 cleanup keeps (5,1) = the OLDER record and
   deletes the newest one. *)
Definition clock_witness_pol := mkPolicy false (Some 6) (Some 1) None.
Definition clock_witness_ops := [Write 3 (1, 7); Write 3 (2, 7); Flush].

Lemma clock_witness_state :
  run clock_witness_pol [] 5 clock_witness_ops = mkState [mkFile 5 1 false [(1, 7)]] [] [] 0 3 [(3, 1)] [].
Proof. vm_compute. reflexivity. Qed.

Theorem stream_refuted_backward_clock : ~ stream_full.
Proof.
  intros H. destruct (H clock_witness_pol [] 5 clock_witness_ops) as (lost & E & _).
  rewrite clock_witness_state in E. vm_compute in E.
  destruct lost as [|a [|b lost]]; cbn [app] in E.
  - congruence.
  - congruence.
  - apply (f_equal (@length _)) in E. cbn [length] in E. rewrite app_length in E. cbn [length] in E. lia.
Qed.

(* the same two writes with unlimited retention: nothing is lost, but reading the files in
   (period, sequence) order yields the records in the wrong order *)
Lemma clock_witness_reorder :
  logical (run (mkPolicy false (Some 6) None None) [] 5 clock_witness_ops) = [(2, 7); (1, 7)].
Proof. vm_compute. reflexivity. Qed.

(** * foreign files (sibling appenders, unrelated files): no function reads that field, so the
   roller's own part of the state does not depend on it and every step hands it on *)
Lemma with_foreign_id st : with_foreign st (foreign st) = st.
Proof. destruct st; reflexivity. Qed.

Lemma roll_with_foreign pol st fs now : roll pol (with_foreign st fs) now = with_foreign (roll pol st now) fs.
Proof. reflexivity. Qed.

Lemma append_with_foreign st fs r : append (with_foreign st fs) r = with_foreign (append st r) fs.
Proof.
  unfold append, bufwrite. cbn [with_foreign abuf].
  destruct (snd r <? bufcap - bytes (abuf st)); [reflexivity|].
  destruct (bufcap - bytes (abuf st) <? snd r), (bufcap <=? snd r); reflexivity.
Qed.

Lemma step_with_foreign pol st fs o : step pol (with_foreign st fs) o = with_foreign (step pol st o) fs.
Proof.
  destruct o as [p r|p|]; cbn [step]; [|reflexivity|reflexivity].
  unfold write. cbv zeta. change (cur_period (with_foreign st fs)) with (cur_period st).
  set (st1 := if cur_period st <? eff pol p then roll pol st p else st).
  assert (E1 : (if cur_period st <? eff pol p then roll pol (with_foreign st fs) p else with_foreign st fs)
               = with_foreign st1 fs) by (unfold st1; destruct (_ <? _); reflexivity).
  rewrite E1. destruct (snd r =? 0); [reflexivity|].
  rewrite append_with_foreign. set (X := append st1 r).
  change (cur_size (with_foreign X fs)) with (cur_size X).
  destruct (p_max_size pol); [destruct (_ <=? _)|]; reflexivity.
Qed.

Lemma step_foreign pol st o : foreign (step pol st o) = foreign st.
Proof. rewrite <- (with_foreign_id st) at 1. rewrite step_with_foreign. reflexivity. Qed.

Lemma run_from_with_foreign pol ops : forall st fs,
  run_from pol (with_foreign st fs) ops = with_foreign (run_from pol st ops) fs.
Proof.
  unfold run_from. induction ops as [|o t IH]; intros st fs; cbn [fold_left]; [reflexivity|].
  rewrite step_with_foreign. apply IH.
Qed.

Theorem run_foreign pol fs p0 ops :
  foreign (run pol fs p0 ops) = fs /\
  (forall fs', run pol fs' p0 ops = with_foreign (run pol fs p0 ops) fs').
Proof.
  assert (H : forall fs', run pol fs' p0 ops = with_foreign (run pol fs p0 ops) fs').
  { intros fs'. unfold run. rewrite <- run_from_with_foreign. reflexivity. }
  split; [rewrite (H fs); reflexivity|exact H].
Qed.
