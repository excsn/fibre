(* Proofs/HMutexProofs.v — the C10 theorems for HybridMutex, for every number of threads,
   every program and every schedule (Conc.reachable). *)
From Coq Require Import List NArith Arith Bool Lia.
From Fibre Require Import Common.Conc Sync.HMutex Proofs.HMutexBase Proofs.HMutexGuard
     Proofs.HMutexQueue Proofs.HMutexWake.
Import ListNotations.

Definition Inv s :=
  InvA s /\ InvB s /\ InvP s /\ InvC s /\ InvD s /\ InvE s /\ InvF1 s /\ InvF2 s /\ InvW s.

Lemma Inv_init progs : Inv (minit progs).
Proof.
  unfold Inv. split; [|split; [|split; [|split; [|split; [|split; [|split; [|split]]]]]]].
  - unfold InvA. cbn. repeat split; try tauto; try discriminate.
  - unfold InvB. split; intro u; cbn; intro X; discriminate X.
  - intros u. cbn. discriminate.
  - split; [constructor|]. intros u. unfold linkok. cbn. tauto.
  - intros _ u [].
  - unfold InvE. cbn. repeat split; try tauto; try discriminate.
  - intros h X. discriminate X.
  - intros h X. discriminate X.
  - intros _ h r X. discriminate X.
Qed.

Lemma Inv_step s t c s' e : Inv s -> mstep s t c = Some (s', e) -> Inv s'.
Proof.
  intros (A & B & P & C & D & E & F1 & F2 & W) H.
  split; [|split; [|split; [|split; [|split; [|split; [|split; [|split]]]]]]].
  - eapply InvA_step; eassumption.
  - eapply InvB_step; eassumption.
  - eapply InvP_step; eassumption.
  - eapply InvC_step; eassumption.
  - eapply InvD_step; eassumption.
  - eapply InvE_step; eassumption.
  - eapply InvF1_step; eassumption.
  - eapply InvF2_step; eassumption.
  - eapply InvW_step; eassumption.
Qed.

Theorem Inv_reachable progs s : reachable (sys progs) s -> Inv s.
Proof.
  apply (invariant_lift (sys progs) Inv).
  - apply Inv_init.
  - intros s0 t c s' e. apply Inv_step.
Qed.

Theorem mutex_excl progs s :
  reachable (sys progs) s ->
  (locked s = true <-> exists h, holders s = [h])
  /\ (locked s = false <-> holders s = [])
  /\ (forall u, In u (holders s) <-> holds (pcs s u) = true)
  /\ (forall t u, holds (pcs s t) = true -> holds (pcs s u) = true -> t = u).
Proof.
  intros R. destruct (Inv_reachable _ _ R) as (A & _). pose proof A as [A1 [A2 A3]].
  split; [|split; [|split]].
  - split; [exact A2|]. intros [h Hh]. destruct (locked s); [reflexivity|].
    rewrite (A3 eq_refl) in Hh. discriminate Hh.
  - split; [exact A3|]. intros Hh. destruct (locked s); [|reflexivity].
    destruct (A2 eq_refl) as [h X]. congruence.
  - exact A1.
  - intros t u Ht Hu. pose proof (holds_locked s t A Ht) as L. destruct (A2 L) as [h Hh].
    apply A1 in Ht. apply A1 in Hu. rewrite Hh in Ht, Hu.
    destruct Ht as [<-|[]]. destruct Hu as [<-|[]]. reflexivity.
Qed.

Corollary critical_section_excl progs s t u :
  reachable (sys progs) s -> pcs s t = CS -> pcs s u = CS -> t = u.
Proof.
  intros R Ht Hu. destruct (mutex_excl _ _ R) as (_ & _ & _ & X).
  apply X; [rewrite Ht|rewrite Hu]; reflexivity.
Qed.

Definition try_pc (p : pc) : bool :=
  match p with TALoad ATry | TACas ATry _ => true | _ => false end.

Definition state_access (e : mev) : Prop :=
  match e with EvLoad VState _ _ | EvCas VState _ _ _ _ _ _ => True | _ => False end.

(* From any state whatsoever, a thread inside try_lock is enabled under every choice, its step is
   a load or CAS of the state word (never park / yield / spin / list lock), and after at most two
   of its own steps the call has returned: with the guard (CS) or with None (Idle). *)
Theorem try_lock_nonblocking s t c :
  try_pc (pcs s t) = true ->
  exists s' e, mstep s t c = Some (s', e) /\ state_access e /\
    match pcs s t with
    | TALoad ATry => (exists sq, pcs s' t = TACas ATry sq) \/ pcs s' t = Idle
    | _ => pcs s' t = CS \/ pcs s' t = Idle
    end.
Proof.
  intros H. unfold mstep. destruct (pcs s t) eqn:Epc; try discriminate H; destruct a; try discriminate H.
  all: unfold do_taload, ret;
    match goal with |- context [if ?b then _ else _] => destruct b end;
    (eexists; eexists; split; [reflexivity|]; split; [exact I|]; cbn; rewrite upd_eq; eauto).
Qed.

Lemma do_taload_some s t a : do_taload s t a <> None.
Proof. unfold do_taload, ret. destruct (locked s); [destruct a|]; discriminate. Qed.

Lemma do_llswap_some s t l : do_llswap s t l <> None.
Proof. unfold do_llswap, ret. destruct l as [[|]| | |]; cbn; destruct (llock _); discriminate. Qed.

Lemma do_wait_some s t c : do_wait s t c <> None.
Proof. unfold do_wait, ret. destruct c; discriminate. Qed.

Lemma idle_fut_steps s t c : pcs s t = Idle -> fut s t <> None -> mstep s t c <> None.
Proof.
  intros Epc Hf. unfold mstep. rewrite Epc.
  generalize (prog s t). intros p. revert s Epc Hf. induction p as [|o r IH]; intros s Epc Hf; cbn [dispatch].
  - destruct (fut s t); [apply do_llswap_some|congruence].
  - destruct o; destruct (fut s t) eqn:F; try congruence;
      try apply do_llswap_some; try apply do_taload_some; try apply do_wait_some.
Qed.

Definition stuck (s : mstate) (t : nat) : Prop :=
  pcs s t = Idle \/ (pcs s t = Park /\ token s t = false) \/ (pcs s t = BPark /\ token s t = false).

Lemma disabled_stuck s t c : mstep s t c = None -> stuck s t.
Proof.
  unfold mstep, stuck. destruct (pcs s t) eqn:Epc; intros H; auto;
    try (exfalso; revert H; first [apply do_taload_some | apply do_llswap_some | apply do_wait_some]);
    unfold ret, block_next, fix_flags in H.
  all: try discriminate H.
  all: repeat (break_match H; try discriminate H); auto.
  all: try (exfalso; revert H; first [apply do_taload_some | apply do_llswap_some]).
Qed.

Lemma stuck_not_holds s t : stuck s t -> holds (pcs s t) = false.
Proof. intros [H|[[H _]|[H _]]]; rewrite H; reflexivity. Qed.

Lemma stuck_not_pre s t : stuck s t -> wakepre (pcs s t) = false /\ droppre (pcs s t) = false /\ armed_pre (pcs s t) = false.
Proof. intros [H|[[H _]|[H _]]]; rewrite H; repeat split. Qed.

(* No reachable state in which nobody can step has an unfinished thread: in particular nobody is
   parked (sync waiter in lock_slow, or block_on task) — the safety core of "acquirers eventually
   acquire after the lock is released" and of "a dropped future does not lose the wake-up". *)
Theorem mutex_deadlock_free progs s :
  reachable (sys progs) s -> quiescent (sys progs) s ->
  forall t, pcs s t = Idle /\ fut s t = None.
Proof.
  intros R Q.
  destruct (Inv_reachable _ _ R) as (A & B & P & C & D & E & F1 & F2 & W).
  assert (St : forall u, stuck s u) by (intros u; apply (disabled_stuck s u ChGo); apply (Q u ChGo)).
  assert (NoPark : forall t, pcs s t = Park \/ pcs s t = BPark -> False).
  { intros t Ht.
    assert (Hin : In t (queue s)).
    { destruct C as [_ C2]. specialize (C2 t). unfold linkok in C2. destruct Ht as [Ht|Ht]; rewrite Ht in C2; exact C2. }
    assert (HL : locked s = false).
    { destruct (locked s) eqn:EL; [|reflexivity]. exfalso.
      destruct A as [A1 [A2 _]]. destruct (A2 EL) as [h Hh].
      assert (X : holds (pcs s h) = true) by (apply A1; rewrite Hh; left; reflexivity).
      rewrite (stuck_not_holds s h (St h)) in X. discriminate X. }
    destruct (queue s) as [|h r] eqn:EQ; [destruct Hin|].
    destruct (W HL h r EQ) as [[w Pw]|Hok].
    - destruct (stuck_not_pre s w (St w)) as (X1 & X2 & _). unfold prew in Pw. rewrite X1, X2 in Pw.
      destruct Pw as [X|[X _]]; discriminate X.
    - destruct Hok as [Hk|Hk]; [|destruct (stuck_not_pre s h (St h)) as (_ & _ & X3); congruence].
      assert (Hh : In h (queue s)) by (rewrite EQ; left; reflexivity).
      destruct (St h) as [Si|[[Sp Tk]|[Sp Tk]]].
      + (* head's owner idle with a pending future: it can poll or drop it *)
        destruct C as [_ C2]. specialize (C2 h). unfold linkok in C2. rewrite Si in C2. cbn [lk] in C2.
        destruct (fut s h) eqn:Fh; cbn [fl] in C2; [|contradiction].
        apply (idle_fut_steps s h ChGo Si); [congruence|apply (Q h ChGo)].
      + destruct (F1 h Sp Hk) as [T|[w [X|X]]]; [congruence| |];
          destruct (St w) as [Y|[[Y _]|[Y _]]]; rewrite Y in X; discriminate X.
      + destruct (F2 h Sp Hk) as [[w X]|[_ [T|[w X]]]]; [|congruence|];
          destruct (St w) as [Y|[[Y _]|[Y _]]]; rewrite Y in X; discriminate X. }
  intros t. destruct (St t) as [Si|[[Sp _]|[Sp _]]]; [|exfalso; eauto|exfalso; eauto].
  split; [exact Si|]. destruct (fut s t) eqn:Ft; [|reflexivity]. exfalso.
  apply (idle_fut_steps s t ChGo Si); [congruence|apply (Q t ChGo)].
Qed.

(* The named form: in a reachable quiescent state the lock is free, the wait list is empty, nobody
   holds a guard or the list lock, and nobody is parked. *)
Theorem mutex_wake_owed progs s :
  reachable (sys progs) s -> quiescent (sys progs) s ->
  locked s = false /\ queue s = [] /\ holders s = [] /\ llock s = None
  /\ forall t, pcs s t <> Park /\ pcs s t <> BPark.
Proof.
  intros R Q. pose proof (mutex_deadlock_free _ _ R Q) as DF.
  destruct (Inv_reachable _ _ R) as (A & B & P & C & _).
  assert (HL : locked s = false).
  { destruct (locked s) eqn:EL; [|reflexivity]. exfalso.
    destruct A as [A1 [A2 _]]. destruct (A2 EL) as [h Hh].
    assert (X : holds (pcs s h) = true) by (apply A1; rewrite Hh; left; reflexivity).
    destruct (DF h) as [Y _]. rewrite Y in X. discriminate X. }
  split; [exact HL|]. split; [|split; [|split]].
  - destruct (queue s) as [|h r] eqn:EQ; [reflexivity|]. exfalso.
    destruct C as [_ C2]. specialize (C2 h). unfold linkok in C2. destruct (DF h) as [Y Z].
    rewrite Y, Z in C2. cbn in C2. apply C2. rewrite EQ. left. reflexivity.
  - destruct A as [_ [_ A3]]. apply A3. exact HL.
  - destruct B as [_ B2]. destruct (llock s) as [h|] eqn:EL; [|reflexivity]. exfalso.
    specialize (B2 h eq_refl). destruct (DF h) as [Y _]. rewrite Y in B2. discriminate B2.
  - intros t. destruct (DF t) as [Y _]. rewrite Y. split; discriminate.
Qed.

Theorem mutex_list_wf progs s :
  reachable (sys progs) s ->
  NoDup (queue s) /\ forall u, In u (queue s) -> insync (pcs s u) = true \/ fut s u <> None.
Proof.
  intros R. destruct (Inv_reachable _ _ R) as (_ & _ & P & [C1 C2] & _).
  split; [exact C1|]. intros u Hu. specialize (C2 u). specialize (P u). unfold linkok in C2.
  destruct (fut s u) as [b|] eqn:F; [right; discriminate|]. left.
  destruct (pcs s u); cbn [lk fl insync futok] in *; case_pc; cbn [lk fl futok] in *;
    try reflexivity; try contradiction; try discriminate; try congruence; tauto.
Qed.

(* a cancelled future whose node had been WOKEN forwards the wake: its drop continues into wake_next *)
Theorem cancel_forwards_wake s t c :
  pcs s t = DLoad -> nwk s t = true ->
  exists s' e, mstep s t c = Some (s', e) /\ pcs s' t = LLSwap LWake /\ fut s' t = None.
Proof.
  intros Epc Hn. unfold mstep. rewrite Epc, Hn. unfold ret.
  eexists; eexists; split; [reflexivity|]. cbn. rewrite !upd_eq. split; reflexivity.
Qed.
