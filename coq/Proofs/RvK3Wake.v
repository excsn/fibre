(* Proofs/RvK3Wake.v — wake protocol and handle counts of the K3' rendezvous model (C05):
   whoever publishes a terminal state owes the waiter an unpark (it holds the wake handle), so a
   thread parked on a terminal state always has a token or a wake in flight; the handle counts
   count the threads that have not yet dropped their handle, and the last handle of a side
   disconnects every parked waiter of the other side. *)
From Coq Require Import List NArith Arith Bool Lia.
From Fibre Require Import Common.Conc Chan.RvK3 Proofs.RvK3Base Proofs.RvK3Queue.
Import ListNotations.

(* ------------------------------------------------------------------ handle counts *)
(* the handle's count decrement has happened *)
Definition past_dec (p : pc) : bool :=
  match p with DDisc _ | DUnl _ | DUnpark _ | Done => true | _ => false end.
Definition dropping (p : pc) : bool :=
  match p with DLock | DDisc _ | DUnl _ | DUnpark _ | Done => true | _ => false end.

(* the two sides are treated alike: b = true reads "senders", b = false "receivers" *)
Definition on_side (cfg : list tcfg) (b : bool) (u : nat) : bool :=
  match role cfg u with Some b' => Bool.eqb b b' | None => false end.
Definition alive (cfg : list tcfg) (s : st) (b : bool) (u : nat) : bool :=
  on_side cfg b u && negb (past_dec (pcs s u)).
Definition cntof (b : bool) (s : st) : nat := if b then scount s else rcount s.
(* the waiters that the last handle of side b disconnects *)
Definition oq (b : bool) (s : st) : list nat := if b then rq s else sq s.

Lemma on_side_role cfg b u : on_side cfg b u = true <-> role cfg u = Some b.
Proof.
  unfold on_side. destruct (role cfg u) as [b'|]; [|split; discriminate].
  destruct b, b'; cbn; split; congruence.
Qed.

Record KInv (cfg : list tcfg) (s : st) : Prop := {
  K_cnt : forall b, cntof b s = cnt (alive cfg s b) (length cfg);
  K_cl : forall u, closed s u = true -> dropping (pcs s u) = true;
  K_q : forall b, cntof b s = 0 -> oq b s = [] \/ exists t ws, pcs s t = DDisc ws /\ role cfg t = Some b
}.

Lemma KInv_init cfg : KInv cfg (init cfg).
Proof.
  split.
  - intros []; cbn; apply cnt_ext; intros u _; unfold alive, on_side, is_sender, is_receiver; cbn;
      destruct (role cfg u) as [[|]|]; reflexivity.
  - intros u H. discriminate H.
  - intros [] _; left; reflexivity.
Qed.

(* a step that changes neither count *)
Lemma KInv_keep cfg s s' t :
  KInv cfg s -> (forall b, cntof b s' = cntof b s) ->
  (forall u, u <> t -> pcs s' u = pcs s u /\ closed s' u = closed s u) ->
  past_dec (pcs s' t) = past_dec (pcs s t) ->
  (closed s' t = true -> dropping (pcs s' t) = true) ->
  (forall b, cntof b s = 0 -> oq b s = [] -> oq b s' = []) ->
  (forall ws, pcs s t = DDisc ws ->
     (exists ws', pcs s' t = DDisc ws') \/ forall b, role cfg t = Some b -> oq b s' = []) ->
  KInv cfg s'.
Proof.
  intros [K1 Kc K2] Hn Hf Hd Hc Es Hw.
  assert (Ha : forall u, past_dec (pcs s' u) = past_dec (pcs s u)).
  { intros u. destruct (Nat.eq_dec u t) as [->|Hu]; [exact Hd|]. rewrite (proj1 (Hf u Hu)). reflexivity. }
  split.
  - intros b. rewrite Hn, K1. apply cnt_ext. intros u _. unfold alive. rewrite Ha. reflexivity.
  - intros u. destruct (Nat.eq_dec u t) as [->|Hu]; [exact Hc|].
    destruct (Hf u Hu) as [-> ->]. apply Kc.
  - intros b. rewrite Hn. intros Hz. destruct (K2 b Hz) as [E|(t0 & ws & Hp & Hr0)]; [left; exact (Es b Hz E)|].
    destruct (Nat.eq_dec t0 t) as [->|Ht0].
    + destruct (Hw ws Hp) as [[ws' Hp']|E]; [right; exists t, ws'; split; assumption | left; exact (E b Hr0)].
    + right. exists t0, ws. rewrite (proj1 (Hf t0 Ht0)). split; assumption.
Qed.

(* thread t of side b has taken the lock to drop its handle: the count of its side loses t; if it
   was the last, t starts the disconnect loop or the queue of the other side is empty *)
Lemma KInv_dec cfg s s' t b n p' :
  KInv cfg s -> role cfg t = Some b -> pcs s t = DLock ->
  cntof b s' = n -> n = pred (cntof b s) -> cntof (negb b) s' = cntof (negb b) s ->
  (forall u, u <> t -> pcs s' u = pcs s u /\ closed s' u = closed s u) ->
  (forall b', oq b' s' = oq b' s) -> pcs s' t = p' -> dropped (oq b s) n p' -> KInv cfg s'.
Proof.
  intros [K1 Kc K2] Er Ep Hb Hn Ho Hf Hq Hp Hd.
  assert (Hpd : past_dec p' = true /\ dropping p' = true) by (destruct Hd; split; reflexivity).
  assert (Hs : forall b', b' <> b -> on_side cfg b' t = false).
  { intros b' Hb'. unfold on_side. rewrite Er. destruct b, b'; cbn; congruence. }
  split.
  - intros b'. destruct (Bool.bool_dec b' b) as [->|Hb'].
    + rewrite Hb, Hn, K1. cut (cnt (alive cfg s b) (length cfg) = S (cnt (alive cfg s' b) (length cfg))); [intros ->; reflexivity|].
      apply cnt_dec with (t := t).
      * exact (role_lt _ _ _ Er).
      * unfold alive. rewrite (proj2 (on_side_role _ _ _) Er), Ep. reflexivity.
      * unfold alive. rewrite Hp, (proj1 Hpd). apply andb_false_r.
      * intros u Hu. unfold alive. rewrite (proj1 (Hf u Hu)). reflexivity.
    + replace b' with (negb b) in * by (destruct b, b'; cbn; congruence). rewrite Ho, K1. apply cnt_ext. intros u _.
      unfold alive. destruct (Nat.eq_dec u t) as [->|Hu]; [rewrite (Hs _ Hb'); reflexivity|].
      rewrite (proj1 (Hf u Hu)). reflexivity.
  - intros u. destruct (Nat.eq_dec u t) as [->|Hu]; [intros _; rewrite Hp; exact (proj2 Hpd)|].
    destruct (Hf u Hu) as [-> ->]. apply Kc.
  - intros b'. rewrite Hq. destruct (Bool.bool_dec b' b) as [->|Hb'].
    + rewrite Hb. intros Hz. destruct Hd as [Hne|n Hn0]; [right; exists t, []; split; assumption | left; exact (Hn0 Hz)].
    + replace b' with (negb b) in * by (destruct b, b'; cbn; congruence). rewrite Ho. intros Hz.
      destruct (K2 _ Hz) as [E|(t0 & ws & Hp0 & Hr0)]; [left; exact E|]. right. exists t0, ws. split; [|exact Hr0].
      rewrite (proj1 (Hf t0 ltac:(intros ->; congruence))). exact Hp0.
Qed.

Lemma KInv_step cfg s t c s' e :
  LockInv cfg s -> QInv cfg s -> KInv cfg s -> step true cfg s t c = Some (s', e) -> KInv cfg s'.
Proof.
  intros LI QI KI H. pose proof (K_cl _ _ KI t) as Ct.
  step_rules H (L_x _ _ LI t); rewrite Epc in Ct; cbn [dropping] in Ct.
  all: try solve [ exfalso; discriminate Ct; assumption ].
  all: try solve [ apply KInv_keep with (s := s) (t := t);
    [ exact KI | intros []; reflexivity
    | intros u Hu; fsimpl; rewrite ?upd_neq by exact Hu; auto
    | fsimpl; rewrite upd_eq, Epc; reflexivity
    | fsimpl; rewrite ?upd_eq; first [intros _; reflexivity | exact Ct]
    | intros [] Hz E; unfold oq, cntof in *; fsimpl; first [exact E | congruence | rewrite E; reflexivity]
    | fsimpl; intros ws0 Hp; rewrite Epc in Hp;
      first [ discriminate Hp | left; eexists; rewrite upd_eq; reflexivity
            | right; intros b0 Hb; rewrite Er in Hb; injection Hb as <-; reflexivity ] ] ].
  (* the count decrement of a handle drop *)
  all: eapply KInv_dec with (s := s) (t := t);
    [ exact KI | exact Er | exact Epc | reflexivity | assumption | reflexivity
    | intros u Hu; fsimpl; rewrite ?upd_neq by exact Hu; auto
    | intros []; reflexivity | apply upd_eq | constructor; assumption ].
Qed.

(* ------------------------------------------------------------------ wake protocol *)
(* thread at pc p holds a wake handle for u that it has not used yet *)
Definition owes (p : pc) (u : nat) : Prop :=
  match p with
  | SUnl _ (SUWoke r) | SUnpark r => r = u
  | RUnl _ (RUWoke q _) | RUnpark q _ => q = u
  | DDisc ws | DUnl ws | DUnpark ws => In u ws
  | _ => False
  end.
Definition owed (s : st) (u : nat) : Prop := token s u = true \/ exists t, owes (pcs s t) u.
Definition parkpc (p : pc) : bool := match p with SPark | RPark => true | _ => false end.

Record WInv (s : st) : Prop := {
  W_owed : forall u, parkpc (pcs s u) = true -> wstate s u <> W -> owed s u;
  W_ne : forall u, pcs s u <> DUnpark []
}.

Lemma WInv_init cfg : WInv (init cfg).
Proof. split; cbn; intros; discriminate. Qed.

(* ---- facts about one step, used to lift the wake invariant *)
Lemma step_token_kept cfg s t c s' e u :
  step true cfg s t c = Some (s', e) -> xpc (pcs s t) = false -> u <> t -> token s u = true -> token s' u = true.
Proof.
  intros H Hx Hu Ht. step_rules H Hx; fsimpl; rewrite ?upd_neq by assumption; try assumption.
  all: unfold upd; destruct (Nat.eqb u _); [reflexivity|assumption].
Qed.

Lemma step_pcs_other cfg s t c s' e u :
  step true cfg s t c = Some (s', e) -> xpc (pcs s t) = false -> u <> t -> pcs s' u = pcs s u.
Proof. intros H Hx Hu. step_rules H Hx; fsimpl; apply upd_neq; exact Hu. Qed.

Lemma step_owes_kept cfg s t c s' e u :
  step true cfg s t c = Some (s', e) -> xpc (pcs s t) = false -> pcs s t <> DUnpark [] ->
  owes (pcs s t) u -> owes (pcs s' t) u \/ token s' u = true.
Proof.
  intros H Hx Nt Ho.
  step_rules H Hx; rewrite Epc in Ho, Nt; cbn [owes] in Ho; try contradiction; fsimpl; rewrite ?upd_eq; cbn [owes].
  all: try (left; exact Ho).
  all: try (subst; right; rewrite upd_eq; reflexivity).
  all: try (left; apply in_app_iff; left; exact Ho).
  all: try (destruct Ho as [->|Ho]; [right; rewrite upd_eq; reflexivity | try contradiction; left; exact Ho]).
Qed.

Lemma step_terminal_owes cfg s t c s' e u :
  step true cfg s t c = Some (s', e) -> xpc (pcs s t) = false ->
  u <> t -> wstate s u = W -> wstate s' u <> W -> owes (pcs s' t) u.
Proof.
  intros H Hx Hu Hw Hw'.
  step_rules H Hx; fsimpl; rewrite ?upd_eq; cbn [owes];
    try (rewrite ?upd_neq in Hw' by assumption; contradiction).
  all: match type of Hw' with context [upd _ ?n _ _] =>
         destruct (Nat.eq_dec u n) as [->|Hn]; [|rewrite upd_neq in Hw' by assumption; contradiction] end.
  all: try reflexivity.
  all: apply in_app_iff; right; left; reflexivity.
Qed.

(* a thread arrives at `park` only from a load that saw WAITING *)
Lemma step_park_waiting cfg s t c s' e :
  step true cfg s t c = Some (s', e) -> xpc (pcs s t) = false ->
  parkpc (pcs s' t) = true -> wstate s' t = W.
Proof.
  intros H Hx Hp. step_rules H Hx; fsimpl; rewrite upd_eq in Hp; cbn [parkpc] in Hp; try discriminate Hp.
  all: assumption.
Qed.

Lemma step_ne cfg s t c s' e :
  step true cfg s t c = Some (s', e) -> xpc (pcs s t) = false ->
  pcs s t <> DUnpark [] -> pcs s' t <> DUnpark [].
Proof. intros H Hx Nt. step_rules H Hx; fsimpl; rewrite upd_eq; discriminate. Qed.

Lemma WInv_step cfg s t c s' e :
  WInv s -> step true cfg s t c = Some (s', e) -> xpc (pcs s t) = false -> WInv s'.
Proof.
  intros WI H Hx. split.
  - intros u Hp Hw. destruct (Nat.eq_dec u t) as [->|Hu].
    + exfalso. apply Hw. exact (step_park_waiting _ _ _ _ _ _ H Hx Hp).
    + rewrite (step_pcs_other _ _ _ _ _ _ _ H Hx Hu) in Hp.
      destruct (wstate s u) eqn:Ew; [right; exists t; apply (step_terminal_owes _ _ _ _ _ _ _ H Hx Hu Ew Hw)| | |].
      all: assert (Ho : owed s u) by (apply (W_owed _ WI); [exact Hp|congruence]);
        destruct Ho as [Ho|[t0 Ho]]; [left; exact (step_token_kept _ _ _ _ _ _ _ H Hx Hu Ho)|];
        destruct (Nat.eq_dec t0 t) as [->|Ht0];
        [ destruct (step_owes_kept _ _ _ _ _ _ _ H Hx (W_ne _ WI t) Ho) as [X|X]; [right; exists t; exact X|left; exact X]
        | right; exists t0; rewrite (step_pcs_other _ _ _ _ _ _ _ H Hx Ht0); exact Ho ].
  - intros u. destruct (Nat.eq_dec u t) as [->|Hu].
    + exact (step_ne _ _ _ _ _ _ H Hx (W_ne _ WI t)).
    + rewrite (step_pcs_other _ _ _ _ _ _ _ H Hx Hu). apply (W_ne _ WI).
Qed.
