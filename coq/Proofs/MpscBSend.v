(* Proofs/MpscBSend.v — C06 for the bounded-MPSC K2 model, part 2: the async send-waiter queue
   invariants S1..S5 (definitions in Chan/MpscBSpec.v) for all op/poll/drop histories. *)
From Fibre Require Import Common.Base Chan.MpscB Chan.MpscBSpec Proofs.MpscBBase Proofs.MpscBInv Proofs.MpscBProofs Proofs.MpscBWake.
From Coq Require Import ZifyBool ZifyNat ZifyN.
Ltac Zify.zify_post_hook ::= Z.div_mod_to_equations.

Definition nf (f : N) (l : list (N * N)) := filter (fun p => negb (fst p =? f)) l.

Lemma nf_in f l x w : In (x, w) (nf f l) <-> In (x, w) l /\ x <> f.
Proof.
  unfold nf. rewrite filter_In. cbn [fst]. split; intros [A B]; split; auto.
  - apply negb_true_iff, N.eqb_neq in B. exact B.
  - apply negb_true_iff, N.eqb_neq. exact B.
Qed.

Lemma nf_keys f l x : In x (map fst (nf f l)) <-> In x (map fst l) /\ x <> f.
Proof.
  rewrite !in_map_iff. split.
  - intros ([a b]&E&I). cbn in E. subst. apply nf_in in I. destruct I. split; [exists (x, b); auto | auto].
  - intros (([a b]&E&I)&NE). cbn in E. subst. exists (x, b). split; [reflexivity|]. apply nf_in. auto.
Qed.

Lemma nf_nodup f l : NoDup (map fst l) -> NoDup (map fst (nf f l)).
Proof.
  unfold nf. induction l as [|[a b] t IH]; cbn [map filter fst]; intros H; [constructor|].
  inversion H as [|? ? Hni Hnd]; subst.
  destruct (a =? f); cbn [negb map fst]; [apply IH; exact Hnd|].
  constructor; [|apply IH; exact Hnd].
  intros Hi. apply (nf_keys f t a) in Hi. destruct Hi. contradiction.
Qed.

Lemma nf_snoc_nodup f w l : NoDup (map fst l) -> NoDup (map fst (nf f l ++ [(f, w)])).
Proof.
  intros H. rewrite map_app. cbn [map fst]. apply NoDup_snoc; [apply nf_nodup; exact H|].
  intros Hi. apply nf_keys in Hi. destruct Hi. congruence.
Qed.

Ltac foldnf :=
  repeat match goal with
  | |- context [filter (fun p => negb (fst p =? ?f)) ?l] =>
      change (filter (fun p => negb (fst p =? f)) l) with (nf f l)
  | H : context [filter (fun p => negb (fst p =? ?f)) ?l] |- _ =>
      change (filter (fun p => negb (fst p =? f)) l) with (nf f l) in H
  end.

Lemma in_sq_false f l : existsb (fun p : N * N => fst p =? f) l = false <-> ~ In f (map fst l).
Proof.
  induction l as [|[a b] t IH]; cbn [existsb map fst In]; [tauto|].
  destruct (N.eqb_spec a f) as [->|NE]; cbn [orb].
  - split; [discriminate | intros H; exfalso; apply H; left; reflexivity].
  - rewrite IH. split; [intros H [E|I]; [congruence | auto] | intros H I; apply H; right; exact I].
Qed.

(** publishing progress: pops and wakes the front async send waiter *)
Lemma publish_SI s : SI s -> SI (publish s).
Proof.
  intros (V1&V2&V3&V4&V5). unfold publish, notify_senders, wake.
  cbn [sq set_unpub]. destruct (sq s) as [|[f0 w0] t] eqn:E.
  - unfold SI, S1, S2, S3, S4, S5, psend, in_sq in *. cb. rewrite ?E in *.
    split; [intros f w I; contradiction|]. split; [constructor|].
    split; [intros f w c P; destruct (V3 f w c P) as [A [B|B]]; [contradiction | split; [exact A | right; exact B]]|].
    split; [auto|]. intros _ H. contradiction.
  - assert (ND : ~ In f0 (map fst t) /\ NoDup (map fst t)).
    { unfold S2 in V2. rewrite E in V2. cbn [map fst] in V2. inversion V2; auto. }
    destruct ND as [NI ND].
    unfold SI, S1, S2, S3, S4, S5, psend, in_sq in *. cb. rewrite ?E in *.
    split; [intros f w I; apply V1; right; exact I|].
    split; [exact ND|].
    split.
    { intros f w c P. destruct (V3 f w c P) as [A [B|B]].
      - destruct B as [B|B].
        + inversion B; subst. rewrite N.eqb_refl. split; [lia | right; lia].
        + split; [destruct (w =? w0); lia | left; exact B].
      - split; [destruct (w =? w0); lia | right; destruct (w =? w0); lia]. }
    split; [intros R; specialize (V4 R); discriminate V4|].
    intros L NE. right. right. destruct (V1 f0 w0 (or_introl eq_refl)) as (c&P).
    exists f0, w0, c. split; [exact P|]. apply in_sq_false. exact NI.
Qed.

Lemma flush_SI s : SI s -> SI (flush s).
Proof. intros H. unfold flush. destruct (0 <? unpub s); [apply publish_SI|]; exact H. Qed.

Lemma deq1_SI s : SI s -> SI (fst (deq1 s)).
Proof.
  intros H. unfold deq1. destruct (q s) as [|v r] eqn:E; cbn [fst]; [exact H|].
  assert (H1 : SI (set_rcv (set_unpub (set_q s r) (unpub s + 1)) (rcv s ++ [v]))).
  { destruct H as (V1&V2&V3&V4&V5). unfold SI, S1, S2, S3, S4, S5, psend, in_sq in *. cb.
    split; [exact V1|]. split; [exact V2|]. split; [exact V3|]. split; [exact V4|].
    intros L NE. right. left. lia. }
  match goal with |- SI (if ?c then _ else _) => destruct c end; [apply publish_SI|]; exact H1.
Qed.

Lemma deqn_SI n : forall s, SI s -> SI (fst (deqn n s)).
Proof.
  induction n as [|n IH]; intros s H; cbn [deqn fst]; [exact H|].
  pose proof (deq1_SI s H) as H1. destruct (deq1 s) as [s1 [v|]]; cbn [fst] in *; [|exact H1].
  specialize (IH s1 H1). destruct (deqn n s1). exact IH.
Qed.

(** the send-queue invariants look inside [deq1] and [flush]; [deqn] brings [SI] along to the new state *)
Ltac fr_si t :=
  lazymatch t with
  | deq1 _ => unfold deq1
  | flush _ => unfold flush, publish, notify_senders, wake
  | deqn ?n ?s =>
      lazymatch goal with
      | HSI : SI s |- _ =>
          let F := fresh "F" in let Q := fresh "Q" in let E := fresh "E" in let I0 := fresh "SI0" in
          pose proof (deqn_frame n s) as F; pose proof (deqn_q n s) as Q; pose proof (deqn_SI n s HSI) as I0;
          destruct (deqn n s) as [? ?] eqn:E; cbn [fst snd] in F, Q, I0; unfold deq_frame in F;
          unfold SI, S1, S2, S3, S4, S5, psend, in_sq in I0; rewrite F in I0; cbh;
          rewrite F; cb
      end
  end.

Ltac symex_si :=
  symex_with fr_si; unfold flush, publish, notify_senders, wake in *;
  repeat (cb; first [dm_wl | dm_any fr_si]); cb.

Lemma wake_list_lt l : forall s f w, In (f, w) l -> wk s w < wk (wake_list l s) w.
Proof.
  induction l as [|[f0 w0] t IH]; intros s f w I; [contradiction|]. cbn [wake_list].
  destruct I as [E|I].
  - inversion E; subst. pose proof (wake_list_wk t (wake w s) w) as M. unfold wake in M at 1. cbn in M.
    rewrite N.eqb_refl in M. lia.
  - specialize (IH (wake w0 s) f w I). unfold wake in IH at 1. cbn in IH. destruct (w =? w0); lia.
Qed.

(** like [wl_mono], plus: every waiter in the list was woken *)
Ltac wl_mono2 :=
  repeat match goal with
  | H : ?WK = wk (wake_list ?l ?s0) |- _ =>
      let M := fresh "MW" in let L := fresh "WL" in
      pose proof (wake_list_wk l s0) as M; unfold wk_le in M; rewrite <- H in M;
      pose proof (wake_list_lt l s0) as L; rewrite <- H in L; cbh; clear H
  end.

Ltac s3leaf V3 :=
  match goal with
  | A1 : aget ?f1 (fs ?s) = Some ?fr1, K1 : is_recv_kind (fk ?fr1) = false,
    P1 : fpend ?fr1 = Some (?w1, ?c1) |- _ =>
      let B1 := fresh "B" in let B2 := fresh "B" in
      destruct (V3 f1 w1 c1 (ex_intro _ fr1 (conj A1 (conj K1 P1)))) as [B1 B2]
  end.

(** * S5: who holds the wake *)

Lemma nf_nonempty f l : nf f l <> [] -> l <> [].
Proof. intros H E. subst. apply H. reflexivity. Qed.

Lemma in_sq_nf g f l : existsb (fun p : N * N => fst p =? g) l = false ->
  existsb (fun p : N * N => fst p =? g) (nf f l) = false.
Proof.
  intros H. apply in_sq_false. apply in_sq_false in H. intros I. apply nf_keys in I. destruct I. contradiction.
Qed.

Lemma in_sq_snoc g f w l : g <> f -> existsb (fun p : N * N => fst p =? g) l = false ->
  existsb (fun p : N * N => fst p =? g) (l ++ [(f, w)]) = false.
Proof.
  intros NE H. rewrite existsb_app, H. cbn. destruct (N.eqb_spec f g); [congruence | reflexivity].
Qed.

(** [psend] over a bare future table *)
Definition pb (l : list (N * frec)) (g w c : N) : Prop :=
  exists fr, aget g l = Some fr /\ is_recv_kind (fk fr) = false /\ fpend fr = Some (w, c).

Lemma pb_aset_other l f r g w c : g <> f -> (pb (aset f r l) g w c <-> pb l g w c).
Proof. intros NE. unfold pb. rewrite (aget_aset_neq f g r l NE). tauto. Qed.

Lemma pb_adel_other l f g w c : g <> f -> (pb (adel f l) g w c <-> pb l g w c).
Proof. intros NE. unfold pb. rewrite (aget_adel_neq f g l NE). tauto. Qed.

(** replacing / adding an entry that is not a pending send future, over one that was not either *)
Lemma pb_aset_inert l f r g w c :
  (is_recv_kind (fk r) = true \/ fpend r = None) ->
  (forall w' c', ~ pb l f w' c') ->
  (pb (aset f r l) g w c <-> pb l g w c).
Proof.
  intros NP OLD. destruct (N.eq_dec g f) as [->|NE]; [|apply pb_aset_other; exact NE].
  split.
  - intros (fr & A & K & P). rewrite aget_aset_eq in A. inversion A; subst.
    destruct NP as [X|X]; congruence.
  - intros H. exfalso. exact (OLD _ _ H).
Qed.

Lemma not_pb_none l f w c : aget f l = None -> ~ pb l f w c.
Proof. intros E (fr & A & _). congruence. Qed.

Lemma not_pb_recv l f fr w c : aget f l = Some fr -> is_recv_kind (fk fr) = true -> ~ pb l f w c.
Proof. intros E K (fr' & A & K' & _). rewrite E in A. inversion A; subst. congruence. Qed.

Lemma not_pb_nopend l f fr w c : aget f l = Some fr -> fpend fr = None -> ~ pb l f w c.
Proof. intros E K (fr' & A & _ & P). rewrite E in A. inversion A; subst. congruence. Qed.

(** "a popped waiter holds the wake": a pending send future that is not queued *)
Definition popped (l : list (N * frec)) (sqv : list (N * N)) : Prop :=
  exists g w c, pb l g w c /\ existsb (fun p : N * N => fst p =? g) sqv = false.

Lemma popped_aset_inert l f r sqv :
  (is_recv_kind (fk r) = true \/ fpend r = None) -> (forall w' c', ~ pb l f w' c') ->
  (popped (aset f r l) sqv <-> popped l sqv).
Proof.
  intros A B. unfold popped. split; intros (g & w & c & P & I); exists g, w, c; split; auto.
  - apply (pb_aset_inert l f r g w c A B). exact P.
  - apply (pb_aset_inert l f r g w c A B). exact P.
Qed.

Lemma popped_pop l g w t : (exists c, pb l g w c) -> ~ In g (map fst t) -> popped l t.
Proof. intros (c & P) NI. exists g, w, c. split; [exact P | apply in_sq_false; exact NI]. Qed.

(** the future f leaves the queue/table; the wake holder is somebody else *)
Lemma popped_other l f sqv (l' : list (N * frec)) :
  (forall g w c, g <> f -> pb l g w c -> pb l' g w c) ->
  (existsb (fun p : N * N => fst p =? f) sqv = true \/ forall w c, ~ pb l f w c) ->
  popped l sqv -> popped l' (nf f sqv).
Proof.
  intros K Q (g & w & c & P & I).
  assert (NE : g <> f).
  { intros ->. destruct Q as [Q|Q]; [congruence | exact (Q _ _ P)]. }
  exists g, w, c. split; [apply K; assumption | apply in_sq_nf; exact I].
Qed.

Lemma pb_keep_aset l f r g w c : g <> f -> pb l g w c -> pb (aset f r l) g w c.
Proof. intros NE. apply pb_aset_other. exact NE. Qed.

Lemma pb_keep_adel l f g w c : g <> f -> pb l g w c -> pb (adel f l) g w c.
Proof. intros NE. apply pb_adel_other. exact NE. Qed.

Lemma popped_adel_inert l f sqv : (forall w c, ~ pb l f w c) -> popped l sqv -> popped (adel f l) sqv.
Proof.
  intros B (g & w & c & P & I). exists g, w, c. split; [|exact I].
  apply pb_adel_other; [|exact P]. intros ->. exact (B _ _ P).
Qed.

Lemma slack_zero (rest : list N) s :
  is_nil (firstn (N.to_nat (N.min (len rest) (hot_slack s))) rest) = true ->
  is_nil (skipn (N.to_nat (N.min (len rest) (hot_slack s))) rest) = false ->
  hot_slack s = 0.
Proof.
  intros A B. apply is_nil_true in A. destruct rest as [|x t]; [cbn in B; rewrite skipn_nil in B; discriminate|].
  destruct (N.to_nat (N.min (len (x :: t)) (hot_slack s))) eqn:E; [|cbn in A; discriminate].
  rewrite len_cons in E. lia.
Qed.

Lemma slack_zero_busy s : 1 <= cap s -> hot_slack s = 0 -> q s <> [] \/ 0 < unpub s.
Proof.
  unfold hot_slack. intros C H. destruct (q s) eqn:E; [right; rewrite len_nil in H; lia | left; discriminate].
Qed.

Ltac foldpop :=
  repeat match goal with
  | |- ?A \/ ?B \/ (exists g w c : N,
         (exists fr : frec, aget g ?L = Some fr /\ is_recv_kind (fk fr) = false /\ fpend fr = Some (w, c)) /\
         existsb (fun p : N * N => fst p =? g) ?SQ = false) =>
      change (A \/ B \/ popped L SQ)
  | H : ?X -> ?Y -> ?A \/ ?B \/ (exists g w c : N,
         (exists fr : frec, aget g ?L = Some fr /\ is_recv_kind (fk fr) = false /\ fpend fr = Some (w, c)) /\
         existsb (fun p : N * N => fst p =? g) ?SQ = false) |- _ =>
      change (X -> Y -> A \/ B \/ popped L SQ) in H
  end.

(** a send_batch future that is Pending still holds items *)
Definition FB (s : st) : Prop := forall f fr sent total,
  aget f (fs s) = Some fr -> fk fr = FSendB [] sent total -> fpend fr = None.

Lemma exec_FB s o : FB s -> FB (fst (exec s o)).
Proof.
  intros V. unfold FB in *. destruct o; symex; try assumption.
  all: intros f1 fr1 sent1 total1 A1 K1; ag; somes; cbn [fk fpend] in *; try discriminate; try reflexivity.
  all: try (eapply V; eassumption).
  all: try match goal with H : FSendB _ _ _ = FSendB [] _ _ |- _ => inversion H; subst end.
  all: try match goal with H : is_nil ?l = false, E : ?l = [] |- _ => rewrite E in H; discriminate H end.
  all: try (repeat match goal with E : fk _ = _ |- _ => rewrite E in * end; eapply V; eassumption).
Qed.

Lemma exec_SI s o : FB s -> G1 s -> GS s -> SI s -> SI (fst (exec s o)).
Proof.
  (* the hypotheses stay folded while [exec] is evaluated ([symex_si] needs [HSI] as it is, for
     [deqn]); then one part per invariant, S3 without the hypotheses it does not use *)
  intros VFB C G HSI. destruct o; symex_si; try exact HSI.
  all: destruct C as [C1 C2]; destruct G as (N1&N2&FO&RO&SC&RL); pose proof HSI as (V1&V2&V3&V4&V5).
  all: foldnf; unfold SI.
  (* S1 *)
  all: split; [first [assumption |
      (unfold S1, psend in *; cb);
      (try (intros f1 w1 I1; contradiction));
      (intros f1 w1 I1);
      (try (apply in_app_or in I1; destruct I1 as [I1|[I1|[]]]));
      (repeat match goal with H : In _ (nf _ _) |- _ => apply nf_in in H; destruct H end);
      (try match goal with H : (_, _) = (_, _) |- _ => inversion H; subst; clear H end);
      (try (destruct SI0 as (U1&U2&U3&U4&U5)));
      (try match goal with
       | H : sq ?s0 = _ :: ?l, I : In ?x ?l |- _ =>
           assert (In x (sq s0)) by (rewrite H; right; exact I)
       end);
      (try match goal with
       | U1 : forall f w : N, In (f, w) (_ :: ?l) -> _, I : In (?f1, ?w1) ?l |- _ =>
           let c := fresh "c" in let fr := fresh "fr" in
           destruct (U1 f1 w1 (or_intror I)) as (c & fr & ? & ? & ?)
       | U1 : forall f w : N, In (f, w) ?l -> _, I : In (?f1, ?w1) ?l |- _ =>
           let c := fresh "c" in let fr := fresh "fr" in
           destruct (U1 f1 w1 I) as (c & fr & ? & ? & ?)
       | I : In (?f1, ?w1) (sq _) |- _ =>
           let c := fresh "c" in let fr := fresh "fr" in
           destruct (V1 f1 w1 I) as (c & fr & ? & ? & ?)
       end);
      (ag; somes);
      (repeat match goal with E : fk _ = _ |- _ => rewrite E in * end; cbn [is_recv_kind] in *; try discriminate);
      (try (eexists; eexists; split; [eassumption || reflexivity|]; cbn [fk fpend is_recv_kind]; split; [assumption || reflexivity | eassumption || reflexivity]))]|].
  (* S2 *)
  all: split; [first [assumption |
      (try (destruct SI0 as (U1&U2&U3&U4&U5)));
      (unfold S2 in *; cb);
      (repeat match goal with H : sq ?s0 = _ |- _ => rewrite H in * end);
      (cbn [map fst] in *; try assumption; try constructor);
      (try (inversion V2; subst; assumption));
      (try (inversion U2; subst; assumption));
      (try (apply nf_nodup; assumption));
      (try (apply nf_snoc_nodup; assumption));
      (try (apply nf_snoc_nodup, nf_nodup; assumption));
      (try (apply nf_nodup, nf_nodup; assumption))]|].
  (* S3 *)
  all: split; [first [assumption |
      clear VFB C1 C2 N1 N2 FO RO SC RL HSI V1 V2 V4 V5;
      (try (destruct SI0 as (_&_&U3&_&_)));
      (wl_mono2);
      (unfold S3, psend in *; cb);
      (intros f1 w1 c1 (fr1 & A1 & K1 & P1); ag; somes; cbn [fh fk fpend is_recv_kind] in *; somes; try discriminate);
      (try (s3leaf U3 || s3leaf V3));
      (try (inst_mw w1));
      (repeat match goal with H : sq _ = _ |- _ => rewrite H in * end; cbn [In] in *);
      (split; [try wk_lia|]);
      (try match goal with B0 : _ \/ _ < _ |- _ => destruct B0 as [B0|B0]; [|right; wk_lia] end);
      (try match goal with B0 : (_, _) = (_, _) \/ _ |- _ =>
         destruct B0 as [B0|B0]; [inversion B0; subst; right; rewrite ?N.eqb_refl; lia|] end);
      (try (left; assumption));
      (try (left; apply nf_in; split; assumption));
      (try (left; apply in_or_app; left; apply nf_in; split; assumption));
      (try (left; apply in_or_app; right; left; reflexivity));
      (try (right; match goal with WL : forall f w : N, In (f, w) ?l -> _, I : In (?a, ?b) ?l |- _ =>
                     specialize (WL a b I); lia end));
      (try (left; apply in_or_app; left; apply nf_in; split; [apply nf_in; split; assumption | assumption]));
      (left; apply nf_in; split; [apply nf_in; split; assumption | assumption])]|].
  (* S4 *)
  all: split; [first [assumption |
      (unfold S4 in *; cb);
      (try (intros R; reflexivity));
      (try (destruct SI0 as (U1&U2&U3&U4&U5)));
      (intros R; try discriminate R);
      (repeat match goal with H : sq _ = _ |- _ => rewrite H in * end);
      (try (specialize (V4 R); try discriminate V4; rewrite ?V4; reflexivity));
      (try (specialize (U4 R); try discriminate U4; rewrite ?U4; reflexivity));
      (unfold tx_dead in *; bools; congruence)]|].
  (* S5 *)
  all: first [assumption |
      (try (destruct SI0 as (U1&U2&U3&U4&U5)));
      (unfold S5, S1, S3, S4, psend, in_sq in *; cb);
      (intros L NE);
      (try discriminate L);
      (try (exfalso; apply NE; reflexivity));
      (try (left; intros X; apply app_eq_nil in X; destruct X; discriminate));
      (try (left; intros X; apply app_eq_nil in X; destruct X as [_ X];
            match goal with H : is_nil _ = false |- _ => rewrite X in H; discriminate H end));
      (try congruence);
      (try (right; left; lia));
      (unfold S2 in *);
      (try match goal with
       | H : sq ?s0 = (?g, ?w) :: ?l |- context [existsb _ ?l = false] =>
           right; right;
           first [ destruct (V1 g w ltac:(rewrite H; left; reflexivity)) as (c & P)
                 | destruct (U1 g w (or_introl eq_refl)) as (c & P) ];
           exists g, w, c; split; [exact P|]; apply in_sq_false;
           first [ rewrite H in V2; cbn [map fst] in V2; inversion V2; assumption
                 | cbn [map fst] in U2; inversion U2; assumption ]
       end);
      (try match goal with
       | H : window_open ?s0 = false |- _ =>
           unfold window_open in H; cbh; apply N.ltb_ge in H;
           destruct (q s0) eqn:EQ; [right; left; rewrite len_nil in H; lia | left; discriminate]
       end);
      (rewrite ?adel_aset in *);
      (try match goal with
       | HN : is_nil (adel ?h (hs ?s0)) = true, NF : has_futs ?h ?s0 = false |- _ =>
           exfalso; destruct (sq s0) as [|[g w] t] eqn:ES; [congruence|];
           destruct (V1 g w ltac:(rewrite ?ES; left; reflexivity)) as (c & fr & A & _);
           destruct (FO _ _ A) as (r & B & _);
           pose proof (has_futs_false _ _ _ _ NF A) as X;
           apply is_nil_true in HN;
           assert (Y : aget (fh fr) (adel h (hs s0)) = Some r) by (rewrite aget_adel_neq; auto);
           rewrite HN in Y; discriminate Y
       end);
      (foldpop);
      (try (rewrite popped_aset_inert;
            [ | cbn [fk fpend is_recv_kind]; auto
              | intros w' c';
                first [ apply not_pb_none; assumption
                      | eapply not_pb_recv; [eassumption | match goal with E : fk _ = _ |- _ => rewrite E; reflexivity end] ] ]));
      (try (exact (V5 L NE)));
      (try (exact (U5 L NE)));
      (try match goal with
       | H : sq ?s0 = (?g, ?w) :: ?t |- _ \/ _ \/ popped _ ?t =>
           right; right; apply (popped_pop _ g w t);
           [ first [ apply V1; rewrite H; left; reflexivity | apply U1; left; reflexivity ]
           | first [ rewrite H in V2; cbn [map fst] in V2; inversion V2; assumption
                   | cbn [map fst] in U2; inversion U2; assumption ] ]
       end);
      (try match goal with
       | NE : nf _ (nf _ (sq ?s0)) <> [] |- _ => pose proof (nf_nonempty _ _ (nf_nonempty _ _ NE)) as NE0
       | NE : nf _ (sq ?s0) <> [] |- _ => pose proof (nf_nonempty _ _ NE) as NE0
       | NE : sq ?s0 <> [] |- _ => pose proof NE as NE0
       end);
      (try (destruct (V5 L NE0) as [X|[X|X]]; [left; exact X | right; left; exact X | right; right]));
      (try (apply popped_adel_inert; [|exact X]; intros w' c';
            eapply not_pb_recv; [eassumption | match goal with E : fk _ = _ |- _ => rewrite E; reflexivity end]));
      (try (eapply popped_other; [ | | exact X];
            [ intros g0 w0 c0 NG PG; first [apply pb_keep_aset | apply pb_keep_adel]; assumption | ]));
      (try match goal with
       | |- existsb ?P ?l = true \/ _ =>
           destruct (existsb P l) eqn:IQ; [left; reflexivity | right];
           first [ intros w' c'; eapply not_pb_nopend; eassumption
                 | exfalso;
                   match goal with
                   | H : negb _ && negb (rdrop ?s0) = false |- _ =>
                       try rewrite IQ in H; cbn [negb andb] in H; apply negb_false_iff in H;
                       apply NE0; apply V4; exact H
                   end ]
       end);
      (try match goal with
       | A : is_nil (firstn _ ?rest) = true, B : is_nil (skipn _ ?rest) = false |- _ =>
           destruct (slack_zero_busy _ C1 (slack_zero _ _ A B)) as [Z|Z]; [left; exact Z | right; left; exact Z]
       end);
      (right);
      (intros w0 c0 (fr0 & A0 & K0 & P0));
      (match goal with
       | A : is_nil (firstn ?k ?rest) = true, B : is_nil (skipn ?k ?rest) = true,
         AF : aget _ (fs _) = Some ?fr, KF : fk ?fr = FSendB ?rest _ _ |- _ =>
           apply is_nil_true in A, B; pose proof (firstn_skipn k rest) as E; rewrite A, B in E;
           cbn [app] in E; subst rest; rewrite AF in A0; apply Some_inj in A0; subst;
           rewrite (VFB _ _ _ _ AF KF) in P0; discriminate P0
       end)].
Qed.

Lemma init_SI a c f3 fc : SI (init a c f3 fc) /\ FB (init a c f3 fc).
Proof.
  unfold SI, S1, S2, S3, S4, S5, FB, psend, in_sq, init. cb.
  split; [|intros f fr sent total A; discriminate A].
  split; [intros f w I; contradiction|]. split; [constructor|].
  split; [intros f w c0 (fr & A & _); discriminate A|].
  split; [reflexivity|]. intros _ H. contradiction.
Qed.

Lemma reach_SI : forall s, reach s -> SI s /\ FB s.
Proof.
  apply (reach_ind' (fun s => SI s /\ FB s)).
  - apply init_SI.
  - intros s0 o R [H B]. rewrite step_fst.
    destruct (reach_inv s0 R) as (C & G & _).
    split; [apply exec_SI; assumption | apply exec_FB; exact B].
Qed.

(** C06, send side.  (1) disconnect: once the receiver is gone every pending send future has been woken *)
Theorem send_disconnect_wake s f w c : reach s -> rdrop s = true -> psend s f w c -> c < wk s w.
Proof.
  intros R RD P. destruct (reach_SI s R) as [(V1&V2&V3&V4&V5) _].
  destruct (V3 f w c P) as [_ [I|X]]; [|exact X]. rewrite (V4 RD) in I. contradiction.
Qed.

(** (2) every pending send future is either still queued for a wake or has been woken *)
Theorem send_parked_or_woken s f w c : reach s -> psend s f w c -> In (f, w) (sq s) \/ c < wk s w.
Proof. intros R P. destruct (reach_SI s R) as [(V1&V2&V3&V4&V5) _]. apply (V3 f w c P). Qed.

(** (3) no dangling registration: every queue entry is a live pending send future (so dropping a
    future leaves nothing pointing at it) *)
Theorem send_no_dangling s f w : reach s -> In (f, w) (sq s) -> exists c, psend s f w c.
Proof. intros R. destruct (reach_SI s R) as [(V1&_) _]. apply V1. Qed.

(** (4) the metered drip never loses the wake on its own: unless a future that had been handed the
    publication's single wake left without sending (ghost flag [lost], F-11), whenever senders are
    parked either something is buffered / unpublished (the consumer's next call publishes), or a
    woken sender has not been polled yet *)
Theorem send_wake_held_except_F11 s : reach s -> lost s = false -> sq s <> [] ->
  q s <> [] \/ 0 < unpub s \/ (exists g w c, psend s g w c /\ in_sq g s = false /\ c < wk s w).
Proof.
  intros R L NE. destruct (reach_SI s R) as [(V1&V2&V3&V4&V5) _].
  destruct (V5 L NE) as [X|[X|(g&w&c&P&I)]]; [left; exact X | right; left; exact X|].
  right. right. exists g, w, c. split; [exact P|]. split; [exact I|].
  destruct (V3 g w c P) as [_ [J|J]]; [|exact J]. exfalso.
  unfold in_sq in I. apply in_sq_false in I. apply I. apply in_map_iff. exists (g, w). auto.
Qed.

(** the literal C06 clause for send futures ("would be ready => woken") and its two refutations *)
Definition send_wake_clause : Prop :=
  forall s, reach s -> forall f w c w', psend s f w c ->
    snd (exec s (Poll f w')) <> RPending -> c < wk s w.

Definition F11_cancel_hist : list op :=
  [Clone 0 2; TrySend 0 1; MkSend 0 0 2; MkSend 1 2 3; Poll 0 0; Poll 1 1; TryRecv 1; DropF 0].

Theorem send_wake_refuted_F11 : ~ send_wake_clause.
Proof.
  intros H.
  assert (R : reach (final (init true 1 false false) F11_cancel_hist))
    by (exists true, 1, false, false, F11_cancel_hist; reflexivity).
  specialize (H _ R 1 1 0 2).
  assert (P : psend (final (init true 1 false false) F11_cancel_hist) 1 1 0).
  { exists (mkF 2 (FSend (Some 3)) (Some (1, 0))). vm_compute. auto. }
  specialize (H P). vm_compute in H.
  assert (Y : RReady ROk <> RPending) by discriminate. specialize (H Y). discriminate H.
Qed.

(** the same clause fails without any cancellation: two parked senders, two credits freed, one wake *)
Definition F11_drip_hist : list op :=
  [Clone 0 2; TrySend 0 1; TrySend 0 2; MkSend 0 0 3; MkSend 1 2 4; Poll 0 0; Poll 1 1; TryRecv 1; TryRecv 1].

Theorem send_wake_refuted_F11_drip : ~ send_wake_clause.
Proof.
  intros H.
  assert (R : reach (final (init true 2 false false) F11_drip_hist))
    by (exists true, 2, false, false, F11_drip_hist; reflexivity).
  specialize (H _ R 1 1 0 2).
  assert (P : psend (final (init true 2 false false) F11_drip_hist) 1 1 0).
  { exists (mkF 2 (FSend (Some 4)) (Some (1, 0))). vm_compute. auto. }
  specialize (H P). vm_compute in H.
  assert (Y : RReady ROk <> RPending) by discriminate. specialize (H Y). discriminate H.
Qed.

(** F-30: with readiness read as "space is available" (len < cap) the clause fails as well *)
Definition send_space_clause : Prop :=
  forall s, reach s -> forall f w c fr r, psend s f w c ->
    aget f (fs s) = Some fr -> aget (fh fr) (hs s) = Some r -> hclosed r = false -> rdrop s = false ->
    len (q s) < cap s -> c < wk s w.

Definition F30_fut_hist : list op := [TrySend 0 1; TrySend 0 2; MkSend 0 0 3; Poll 0 0; TryRecv 1].

Theorem send_space_refuted_F30 : ~ send_space_clause.
Proof.
  intros H.
  assert (R : reach (final (init true 2 false false) F30_fut_hist))
    by (exists true, 2, false, false, F30_fut_hist; reflexivity).
  specialize (H _ R 0 0 0 (mkF 0 (FSend (Some 3)) (Some (0, 0))) (mkH true true false false None)).
  assert (P : psend (final (init true 2 false false) F30_fut_hist) 0 0 0).
  { exists (mkF 0 (FSend (Some 3)) (Some (0, 0))). vm_compute. auto. }
  specialize (H P). vm_compute in H.
  specialize (H eq_refl eq_refl eq_refl eq_refl eq_refl). discriminate H.
Qed.

(** what holds instead of the refuted clauses, for every pending send future, ready or not: it has
    been woken or is still queued ([send_parked_or_woken] with the disjuncts the other way round) *)
Theorem send_ready_parked_or_woken s f w c : reach s -> psend s f w c ->
  c < wk s w \/ In (f, w) (sq s).
Proof. intros R P. destruct (send_parked_or_woken s f w c R P); auto. Qed.
