(* Wait-list invariants of the HybridRwLock model: RInvP (future ownership vs pc),
   RInvN (a node is WAITING inside its owner's queue section), RInvC (no owner twice; is_writer flag =
   owner's kind, hence the owner of a linked node is alive; every thread knows whether its node is
   linked), RInvDp (WRITER_PENDING exact outside an unfinished fix_flags). *)
From Coq Require Import List NArith Arith Bool Lia.
From Fibre Require Import Common.Lists Common.Conc Sync.HMutex Sync.HRwLock Proofs.HMutexBase Proofs.HRwBase Proofs.HRwGuard.
Import ListNotations.

(* per-thread consistency of `rfut` with the program counter *)
Definition rfutok (p : rpc) (f : option (rw * bool)) : Prop :=
  match p with
  | RTALoad (RASpin _ _) | RTACas (RASpin _ _) _ _ _ | RYield _ _ | RSpinNext _ _
  | RLLSwap (RLQ (RQSync _ _)) | RLLLoad (RLQ (RQSync _ _)) | RLLSpin (RLQ (RQSync _ _))
  | RQRearm (RQSync _ _) | RQFor (RQSync _ _) | RQLoad (RQSync _ _) | RQCas (RQSync _ _) _ _ _
  | RFix1 (RFQ (RQSync _ _)) | RFix2 (RFQ (RQSync _ _)) | RQUnl (RQSync _ _) _
  | RPLoad _ | RPark _
  | RLLSwap (RLX (RQSync _ _)) | RLLLoad (RLX (RQSync _ _)) | RLLSpin (RLX (RQSync _ _))
  | RFix1 (RFX (RQSync _ _)) | RFix2 (RFX (RQSync _ _)) | RXUnl (RQSync _ _)
  | RTALoad (RALock _) | RTACas (RALock _) _ _ _ | RTALoad (RAFirst _ _) | RTACas (RAFirst _ _) _ _ _ => f = None
  | RTALoad (RAPoll k b) | RTACas (RAPoll k b) _ _ _ | RPollNext k b => f = None \/ f = Some (k, b)
  | RLLSwap (RLQ (RQFut k b)) | RLLLoad (RLQ (RQFut k b)) | RLLSpin (RLQ (RQFut k b))
  | RQRearm (RQFut k b) | RQFor (RQFut k b) | RQLoad (RQFut k b) | RQCas (RQFut k b) _ _ _
  | RFix1 (RFQ (RQFut k b)) | RFix2 (RFQ (RQFut k b)) | RQUnl (RQFut k b) _
  | RLLSwap (RLX (RQFut k b)) | RLLLoad (RLX (RQFut k b)) | RLLSpin (RLX (RQFut k b))
  | RFix1 (RFX (RQFut k b)) | RFix2 (RFX (RQFut k b)) | RXUnl (RQFut k b) => f = Some (k, b)
  | RBPark => exists k, f = Some (k, true)
  | RLLSwap RLDrop | RLLLoad RLDrop | RLLSpin RLDrop | RFix1 RFD | RFix2 RFD | RDUnl | RDLoad => exists k, f = Some (k, false)
  | RIdle | RTALoad (RATry _) | RTACas (RATry _) _ _ _ | RCS _ | RURel _
  | RLLSwap RLWake | RLLLoad RLWake | RLLSpin RLWake
  | RWSweep _ | RFix1 (RFW _) | RFix2 (RFW _) | RWUnl _ | RWWake _ _ | RWaitW => forall k, f <> Some (k, true)
  end.

Definition RInvP s := forall u, rfutok (rpcs s u) (rfut s u).

Lemma RInvP_step s t c s' e : RInvP s -> rwstep s t c = Some (s', e) -> RInvP s'.
Proof.
  intros P H. pose proof (P t) as Pt.
  rstep_cases H; rewrite Epc in Pt; cbn [rfutok] in Pt; unfold RInvP; rsimpl_goal; intros u.
  all: try solve [ split_thr u t; try apply P; cbn [rfutok]; rewrite ?upd_eq; auto; try congruence ].
  (* flush leaves *)
  all: try solve [
    match goal with |- context [rflush ?s0 ?tt ?ws] =>
      rewrite rflush_fut; rsimpl_goal;
      destruct (Nat.eq_dec u tt) as [->|Hu];
      [ destruct (rflush_pc_cases s0 tt ws) as [X|[hh [rr X]]]; rewrite X; cbn [rfutok]; exact Pt
      | rewrite rflush_pcs by assumption; rsimpl_goal; apply P ]
    end ].
  all: split_thr u t; [ | apply P ]; cbn [rfutok];
       destruct (rfut s t) as [[kk [|]]|] eqn:F; cbn [rfutok] in *;
       try (lazymatch type of Pt with ex _ => destruct Pt as [kx Pt] | _ \/ _ => destruct Pt as [Pt|Pt] end);
       try solve [exfalso; eapply Pt; reflexivity]; try congruence; eauto;
       try (right; congruence); try (left; congruence).
Qed.

(* inside its own queue section after the re-arm a node is WAITING *)
Definition rarmed_sec (p : rpc) : bool :=
  match p with RQFor _ | RQLoad _ | RQCas _ _ _ _ | RQUnl _ false => true | _ => false end.

Definition RInvN s := forall u, rarmed_sec (rpcs s u) = true -> rnwk s u = false.

Lemma rarmed_inlist p : rarmed_sec p = true -> rinlist p = true.
Proof. destruct p; cbn; try discriminate; auto. Qed.

Lemma rflush_armed s t ws : rarmed_sec (rpcs (rflush s t ws) t) = false.
Proof. destruct (rflush_pc_cases s t ws) as [X|[h [r X]]]; rewrite X; reflexivity. Qed.

Lemma RInvN_step s t c s' e : RInvB s -> RInvN s -> rwstep s t c = Some (s', e) -> RInvN s'.
Proof.
  intros [B1 B2] N H. pose proof (N t) as Nt.
  assert (HB : rinlist (rpcs s t) = true -> forall u, u <> t -> rarmed_sec (rpcs s u) = true -> False).
  { intros X u Hu Y. apply rarmed_inlist in Y. apply B1 in Y. apply B1 in X. congruence. }
  rstep_cases H; rewrite Epc in Nt, HB; cbn [rarmed_sec rinlist] in Nt, HB; unfold RInvN; rsimpl_goal; intros u.
  all: try solve [ split_thr u t; [ cbn [rarmed_sec]; auto; try discriminate | apply N ] ].
  all: try solve [
    match goal with |- context [rflush ?s0 ?tt ?ws] =>
      rewrite rflush_nwk; rsimpl_goal;
      destruct (Nat.eq_dec u tt) as [->|Hu];
      [ rewrite rflush_armed; discriminate | rewrite rflush_pcs by assumption; rsimpl_goal; apply N ]
    end ].
  (* marking / sweeping another node: its owner is not inside a list section *)
  all: split_thr u t; [ cbn [rarmed_sec]; discriminate | ];
       intros Hu; match goal with |- upd _ ?h _ _ = _ => destruct (Nat.eq_dec u h) as [->|Hh] end;
       [ exfalso; eapply HB; eauto | rewrite upd_neq by assumption; apply N; exact Hu ].
Qed.

(* the wait list: no owner twice; the is_writer flag of a linked node is its owner's kind (so the
   owner is alive); every thread knows whether its node is linked (readers: linked iff not WOKEN,
   because the sweep of wake_waiters unlinks what it wakes) *)
(* linkage of a future's node as its owner knows it outside the calls: a write future stays linked
   until dropped, a read future until the sweep marks it WOKEN *)
Definition flk (f : option (rw * bool)) (nw : bool) : option bool :=
  match f with None => Some false | Some (k, _) => Some (is_wr k || negb nw) end.

(* per pc: does the thread's node count as linked (Some true), unlinked (Some false), or is that
   open until the list lock is taken (None) *)
Definition rlk (p : rpc) (f : option (rw * bool)) (nw : bool) : option bool :=
  match p with
  | RTALoad (RASpin k l) | RTACas (RASpin k l) _ _ _ | RYield k l | RSpinNext k l
  | RLLSwap (RLQ (RQSync k l)) | RLLLoad (RLQ (RQSync k l)) | RLLSpin (RLQ (RQSync k l))
  | RQRearm (RQSync k l) => Some (l && is_wr k)
  | RLLSwap (RLQ (RQFut _ _)) | RLLLoad (RLQ (RQFut _ _)) | RLLSpin (RLQ (RQFut _ _)) | RQRearm (RQFut _ _) => None
  | RQFor _ | RQLoad _ | RQCas _ _ _ _ | RQUnl _ false => Some true
  | RPLoad k | RPark k => Some (is_wr k || negb nw)
  | RFix1 (RFQ _) | RFix2 (RFQ _) | RQUnl _ true | RFix1 (RFX _) | RFix2 (RFX _) | RXUnl _
  | RFix1 RFD | RFix2 RFD | RDUnl | RDLoad => Some false
  | RLLSwap (RLX (RQSync k _)) | RLLLoad (RLX (RQSync k _)) | RLLSpin (RLX (RQSync k _)) => Some (is_wr k)
  | _ => flk f nw
  end.

(* the kind (reader / writer) of the node a thread may have linked: the kind of the slow path it is in,
   else the kind of its future *)
Definition rckind (p : rpc) (f : option (rw * bool)) : option rw :=
  match p with
  | RTALoad (RASpin k _) | RTACas (RASpin k _) _ _ _ | RYield k _ | RSpinNext k _
  | RLLSwap (RLQ (RQSync k _)) | RLLLoad (RLQ (RQSync k _)) | RLLSpin (RLQ (RQSync k _))
  | RQRearm (RQSync k _) | RQFor (RQSync k _) | RQLoad (RQSync k _) | RQCas (RQSync k _) _ _ _
  | RFix1 (RFQ (RQSync k _)) | RFix2 (RFQ (RQSync k _)) | RQUnl (RQSync k _) _
  | RPLoad k | RPark k
  | RLLSwap (RLX (RQSync k _)) | RLLLoad (RLX (RQSync k _)) | RLLSpin (RLX (RQSync k _))
  | RFix1 (RFX (RQSync k _)) | RFix2 (RFX (RQSync k _)) | RXUnl (RQSync k _) => Some k
  | _ => match f with Some (k, _) => Some k | None => None end
  end.

Definition rlinkok (s : rwstate) (u : nat) : Prop :=
  match rlk (rpcs s u) (rfut s u) (rnwk s u) with
  | Some true => exists b, In (u, b) (rqueue s)
  | Some false => forall b, ~ In (u, b) (rqueue s)
  | None => True
  end.

Definition RInvC s :=
  NoDup (map fst (rqueue s))
  /\ (forall u, rlinkok s u)
  /\ (forall u b, In (u, b) (rqueue s) -> exists k, rckind (rpcs s u) (rfut s u) = Some k /\ b = is_wr k).

Lemma first_writer_In l n : first_writer l = Some n -> In (n, true) l.
Proof.
  induction l as [|[u b] r IH]; cbn; [discriminate|]. destruct b.
  - intros X. injection X as ->. left. reflexivity.
  - intros X. right. apply IH. exact X.
Qed.

Lemma first_writer_None l : first_writer l = None -> forall u, ~ In (u, true) l.
Proof.
  induction l as [|[u b] r IH]; cbn; [intros _ v []|]. destruct b; [discriminate|].
  intros X v [Y|Y]; [discriminate Y|]. exact (IH X v Y).
Qed.

(* the knowledge of a writer does not depend on its node state; a reader outside list sections
   whose node is WOKEN knows it is unlinked *)
Lemma rlk_wr_nw p f a b : rckind p f = Some WR -> rlk p f a = rlk p f b.
Proof.
  destruct p; cbn [rlk rckind flk]; try reflexivity; case_pc; cbn [rlk rckind flk is_wr orb];
    try reflexivity; intros H; injection H as H; try discriminate H; subst; reflexivity.
Qed.

Lemma rlk_rd_woken p f : rinlist p = false -> rckind p f = Some RD -> rlk p f true = Some false \/ rlk p f true = None.
Proof.
  destruct p; cbn [rlk rckind flk rinlist]; try discriminate; intros _; case_pc; cbn [rlk rckind flk is_wr orb negb];
    auto; intros H; injection H as H; try discriminate H; subst; cbn; rewrite ?andb_false_r; auto.
Qed.

Ltac qmem_hyps :=
  repeat match goal with
         | E : qmem _ _ = true |- _ => apply qmem_In in E
         | E : qmem ?t ?l = false |- _ =>
             assert (forall b, ~ In (t, b) l)
               by (intros b X; assert (Y : qmem t l = true) by (apply qmem_In; exists b; exact X); congruence);
             clear E
         end.

(* a step that leaves the list alone *)
Lemma RInvC_know s s' t :
  RInvC s -> rqueue s' = rqueue s -> (forall u, u <> t -> rpcs s' u = rpcs s u) ->
  (forall u, u <> t -> rfut s' u = rfut s u) -> (forall u, u <> t -> rnwk s' u = rnwk s u) ->
  match rlk (rpcs s' t) (rfut s' t) (rnwk s' t) with
  | Some true => exists b, In (t, b) (rqueue s) | Some false => forall b, ~ In (t, b) (rqueue s) | None => True
  end ->
  ((forall b, ~ In (t, b) (rqueue s)) \/ rckind (rpcs s' t) (rfut s' t) = rckind (rpcs s t) (rfut s t)) ->
  RInvC s'.
Proof.
  intros (C1 & C2 & C3) HQ HP HF HN HL HK. unfold RInvC, rlinkok. rewrite HQ. repeat apply conj; [exact C1| |].
  - intros u. destruct (Nat.eq_dec u t) as [->|Hu]; [exact HL|].
    rewrite HP, HF, HN by assumption. apply C2.
  - intros u b Hu. destruct (Nat.eq_dec u t) as [->|Hne].
    + destruct HK as [X| ->]; [destruct (X b Hu)|exact (C3 t b Hu)].
    + rewrite HP, HF by assumption. exact (C3 u b Hu).
Qed.

(* ... and what t knows afterwards follows from what it knew *)
Lemma RInvC_move s s' t :
  RInvC s -> rqueue s' = rqueue s -> (forall u, u <> t -> rpcs s' u = rpcs s u) ->
  (forall u, u <> t -> rfut s' u = rfut s u) -> (forall u, u <> t -> rnwk s' u = rnwk s u) ->
  (rlk (rpcs s' t) (rfut s' t) (rnwk s' t) = None \/
   rlk (rpcs s' t) (rfut s' t) (rnwk s' t) = rlk (rpcs s t) (rfut s t) (rnwk s t)) ->
  ((forall b, ~ In (t, b) (rqueue s)) \/ rckind (rpcs s' t) (rfut s' t) = rckind (rpcs s t) (rfut s t)) ->
  RInvC s'.
Proof.
  intros C HQ HP HF HN HL HK. apply (RInvC_know s s' t); try assumption.
  destruct HL as [->| ->]; [exact I|]. destruct C as (_ & C2 & _). apply C2.
Qed.

(* t unlinks its own node and knows it *)
Lemma RInvC_unlink s s' t :
  RInvC s -> rqueue s' = qrem t (rqueue s) -> (forall u, u <> t -> rpcs s' u = rpcs s u) ->
  (forall u, u <> t -> rfut s' u = rfut s u) -> (forall u, u <> t -> rnwk s' u = rnwk s u) ->
  rlk (rpcs s' t) (rfut s' t) (rnwk s' t) = Some false -> RInvC s'.
Proof.
  intros (C1 & C2 & C3) HQ HP HF HN HL. unfold RInvC, rlinkok. rewrite HQ.
  repeat apply conj; [apply NoDup_map_filter; exact C1| |].
  - intros u. destruct (Nat.eq_dec u t) as [->|Hu].
    + rewrite HL. intros b X. apply qrem_In in X. destruct X as [_ X]. exact (X eq_refl).
    + rewrite HP, HF, HN by assumption. specialize (C2 u). unfold rlinkok in C2.
      destruct (rlk (rpcs s u) (rfut s u) (rnwk s u)) as [[|]|]; [| |exact I].
      * destruct C2 as [b Hb]. exists b. apply qrem_In. split; assumption.
      * intros b X. apply qrem_In in X. exact (C2 b (proj1 X)).
  - intros u b Hu. apply qrem_In in Hu. destruct Hu as [Hu Hne].
    rewrite HP, HF by assumption. exact (C3 u b Hu).
Qed.

(* t, not linked so far, appends its node with the flag of its own kind *)
Lemma RInvC_link s s' t k :
  RInvC s -> (forall b, ~ In (t, b) (rqueue s)) -> rqueue s' = rqueue s ++ [(t, is_wr k)] ->
  (forall u, u <> t -> rpcs s' u = rpcs s u) ->
  (forall u, u <> t -> rfut s' u = rfut s u) -> (forall u, u <> t -> rnwk s' u = rnwk s u) ->
  rlk (rpcs s' t) (rfut s' t) (rnwk s' t) = Some true -> rckind (rpcs s' t) (rfut s' t) = Some k -> RInvC s'.
Proof.
  intros (C1 & C2 & C3) Hni HQ HP HF HN HL HK. unfold RInvC, rlinkok. rewrite HQ.
  repeat apply conj.
  - rewrite map_app. apply NoDup_snoc; [exact C1|]. intros X. apply in_map_iff in X.
    destruct X as [[u b] [E X]]. cbn in E. subst u. exact (Hni b X).
  - intros u. destruct (Nat.eq_dec u t) as [->|Hu].
    + rewrite HL. eexists. apply In_app1. right. reflexivity.
    + rewrite HP, HF, HN by assumption. specialize (C2 u). unfold rlinkok in C2.
      destruct (rlk (rpcs s u) (rfut s u) (rnwk s u)) as [[|]|]; [| |exact I].
      * destruct C2 as [b Hb]. exists b. apply In_app1. left. exact Hb.
      * intros b X. apply In_app1 in X. destruct X as [X|X]; [exact (C2 b X)|congruence].
  - intros u b Hu. apply In_app1 in Hu. destruct Hu as [Hu|Hu].
    + assert (u <> t) by (intros ->; exact (Hni b Hu)). rewrite HP, HF by assumption. exact (C3 u b Hu).
    + injection Hu as -> ->. exists k. split; [exact HK|reflexivity].
Qed.

Ltac C_others := intros u Hu; rsimpl_goal; rewrite ?upd_neq by exact Hu; reflexivity.

(* what t knows at its new pc: by cases on its future and on the context of the pc *)
Ltac C_class Epc Nt :=
  rsimpl_goal; rewrite ?upd_eq, ?Epc; try rewrite (Nt eq_refl); unfold after_acq_a, rstart_actx in *;
  repeat match goal with H : context [rfut _ _] |- _ => revert H end;
  match goal with |- context [rfut ?s ?t] => destruct (rfut s t) as [[? ?]|] end; intros;
  cbn [rlk rckind flk rfutok] in *; case_pc; cbn [rlk rckind flk rfutok] in *; rewrite ?orb_true_r, ?andb_false_r in *;
  cbn [is_wr andb orb negb] in *; case_pc;
  repeat match goal with H : exists _, _ |- _ => destruct H | H : _ \/ _ |- _ => destruct H end;
  try discriminate; try congruence; auto; try (left; congruence); try (right; congruence).

Lemma RInvC_step s t c s' e :
  RInvB s -> RInvP s -> RInvN s -> RInvC s -> rwstep s t c = Some (s', e) -> RInvC s'.
Proof.
  intros [B1 B2] P N C H.
  pose proof (P t) as Pt. pose proof C as (C1 & C2 & C3). pose proof (C2 t) as Ct. pose proof (N t) as Nt. unfold rlinkok in Ct.
  rstep_cases H; rewrite Epc in Pt, Ct, Nt; cbn [rfutok rlk flk rarmed_sec] in Pt, Ct, Nt.
  all: try match goal with E : rqueue _ = [] |- _ => rewrite <- E end.
  all: try match goal with E : rqueue _ = _ :: _ |- context [RWSweep] => idtac | E : rqueue _ = _ :: _ |- _ => rewrite <- E end.
  (* the list, the futures and the node states of the others are untouched *)
  all: try solve [ eapply RInvC_move; [exact C|reflexivity|C_others..| |]; rsimpl_goal; rewrite upd_eq, Epc; right; reflexivity ].
  all: try solve [ eapply RInvC_move; [exact C|reflexivity|C_others..| |]; C_class Epc Nt ].
  all: try solve [ match goal with |- context [rflush ?s0 ?tt ?ws] =>
      eapply RInvC_move; [exact C|exact (rflush_queue _ _ _)|intros u Hu; rewrite rflush_pcs by exact Hu; reflexivity
                         |intros u Hu; rewrite rflush_fut; reflexivity|intros u Hu; rewrite rflush_nwk; reflexivity| |];
      rewrite rflush_fut, ?rflush_nwk, Epc; destruct (rflush_pc_cases s0 tt ws) as [X|[hh [rr X]]]; rewrite X; right; reflexivity end ].
  (* the thread unlinks its own node *)
  all: try solve [ eapply RInvC_unlink; [exact C|reflexivity|C_others..|];
                   rsimpl_goal; rewrite upd_eq; case_pc; reflexivity ].
  (* re-arm: the node is linked now, unless it is a future's node that is linked already *)
  - rewrite andb_false_r in Ct.
    eapply (RInvC_link s _ t RD); [exact C|exact Ct|reflexivity|C_others..| |]; rsimpl_goal; rewrite !upd_eq; reflexivity.
  - eapply (RInvC_link s _ t WR); [exact C|exact Ct|reflexivity|C_others..| |]; rsimpl_goal; rewrite !upd_eq; reflexivity.
  - eapply RInvC_know; [exact C|reflexivity|C_others..| |]; rsimpl_goal; rewrite !upd_eq, ?Epc; cbn [rlk rckind]; auto.
    apply qmem_In. assumption.
  - qmem_hyps.
    eapply (RInvC_link s _ t k); [exact C|assumption|reflexivity|C_others..| |]; rsimpl_goal; rewrite !upd_eq;
      [reflexivity|cbn [rckind]; rewrite Pt; reflexivity].
  - eapply RInvC_move; [exact C|reflexivity|C_others..| |]; rsimpl_goal; rewrite upd_eq, Epc, Pt;
      match goal with E : rnwk _ _ = true |- _ => rewrite ?E end; destruct k; cbn; auto.
  (* wake_waiters marks the first queued writer n (it stays linked) *)
  - unfold RInvC; unfold rlinkok; rsimpl_goal.
    match goal with E : first_writer _ = Some _ |- _ => pose proof (first_writer_In _ _ E) as Hn end.
    destruct (C3 n true Hn) as [kn [Kn1 Kn2]]. destruct kn; [discriminate Kn2|].
    repeat apply conj; [assumption| | ].
    + intros u. destruct (Nat.eq_dec u n) as [->|Hne].
      * rewrite upd_eq. destruct (Nat.eq_dec n t) as [->|Hnt].
        -- rewrite upd_eq. rewrite Epc in Kn1. cbn [rckind] in Kn1. cbn [rlk].
           destruct (rfut s t) as [[[|] ?]|]; try discriminate Kn1. cbn. exists true. exact Hn.
        -- rewrite upd_neq by assumption. rewrite (rlk_wr_nw _ _ true (rnwk s n) Kn1). apply C2.
      * rewrite (upd_neq (rnwk s)) by assumption. split_thr u t; [cbn [rlk]; exact Ct|apply C2].
    + intros u bb Hu. destruct (C3 u bb Hu) as [kk [K1 K2]]. exists kk. split; [|exact K2].
      split_thr u t; [rewrite Epc in K1; exact K1|exact K1].
  (* wake_waiters (no writer queued) unlinks and marks the head h *)
  - unfold RInvC; unfold rlinkok; rsimpl_goal.
    match goal with E : rqueue _ = _ :: _ |- _ => rename E into EQ end.
    rename n into h. rename b into b0. rewrite EQ in C1. cbn [map fst] in C1. inversion C1 as [|? ? Hnh Hnd]; subst.
    assert (Hh : In (h, b0) (rqueue s)) by (rewrite EQ; left; reflexivity).
    assert (Hb0 : b0 = false).
    { destruct b0; [|reflexivity]. exfalso.
      match goal with E : first_writer _ = None |- _ => exact (first_writer_None _ E h Hh) end. }
    subst b0. destruct (C3 h false Hh) as [kh [Kh1 Kh2]]. destruct kh; [|discriminate Kh2].
    assert (Hin : forall u b1, u <> h -> (In (u, b1) v <-> In (u, b1) (rqueue s))).
    { intros u b1 Hu. rewrite EQ. cbn [In]. split; [auto|]. intros [X|X]; [injection X; intros; congruence|exact X]. }
    assert (Hnot : forall b1, ~ In (h, b1) v).
    { intros b1 X. apply Hnh. apply in_map_iff. exists (h, b1). split; [reflexivity|exact X]. }
    repeat apply conj; [assumption| | ].
    + intros u. destruct (Nat.eq_dec u h) as [->|Hne].
      * rewrite upd_eq.
        assert (HIL : rinlist (rpcs s h) = false \/ h = t).
        { destruct (Nat.eq_dec h t); [right; assumption|left].
          destruct (rinlist (rpcs s h)) eqn:EI; [|reflexivity]. exfalso.
          apply B1 in EI. assert (L2 : rllock s = Some t) by (apply B1; rewrite Epc; reflexivity). congruence. }
        destruct HIL as [HIL| ->].
        -- assert (Hht : h <> t) by (intros ->; rewrite Epc in HIL; discriminate HIL).
           rewrite upd_neq by assumption.
           destruct (rlk_rd_woken _ _ HIL Kh1) as [X|X]; rewrite X; [exact Hnot|exact I].
        -- rewrite upd_eq. rewrite Epc in Kh1. cbn [rckind] in Kh1. cbn [rlk].
           destruct (rfut s t) as [[[|] ?]|]; try discriminate Kh1. cbn. exact Hnot.
      * rewrite (upd_neq (rnwk s)) by assumption.
        assert (X : match rlk (rpcs s u) (rfut s u) (rnwk s u) with
                    | Some true => exists b1, In (u, b1) v | Some false => forall b1, ~ In (u, b1) v | None => True end).
        { specialize (C2 u). unfold rlinkok in C2. destruct (rlk (rpcs s u) (rfut s u) (rnwk s u)) as [[|]|]; [| |exact I].
          - destruct C2 as [b1 Hb]. exists b1. apply Hin; assumption.
          - intros b1 Y. apply (C2 b1). apply Hin; assumption. }
        split_thr u t; [cbn [rlk]; rewrite Epc in X; exact X|exact X].
    + intros u bb Hu. assert (Hu' : In (u, bb) (rqueue s)) by (rewrite EQ; right; exact Hu).
      destruct (C3 u bb Hu') as [kk [K1 K2]]. exists kk. split; [|exact K2].
      split_thr u t; [rewrite Epc in K1; exact K1|exact K1].
Qed.



(* WRITER_PENDING is exact outside an unfinished fix_flags: set only while a writer is linked *)
Definition RInvDp s := wp s = true -> nwriters (rqueue s) <> 0 \/ exists w f, rpcs s w = RFix1 f.

Lemma nwriters_app l t w : nwriters l <> 0 -> nwriters (l ++ [(t, w)]) <> 0.
Proof. unfold nwriters. rewrite filter_app, app_length. lia. Qed.

Lemma qrem_notin t l : (forall b, ~ In (t, b) l) -> qrem t l = l.
Proof. intros H. apply (filter_key_notin fst). intros [u b] Hx E. cbn in E. subst u. exact (H b Hx). Qed.

Lemma rflush_not_fix1 s t ws f : rpcs (rflush s t ws) t <> RFix1 f.
Proof. destruct (rflush_pc_cases s t ws) as [X|[h [r X]]]; rewrite X; discriminate. Qed.

Lemma RInvDp_step s t c s' e :
  RInvP s -> RInvC s -> RInvDp s -> rwstep s t c = Some (s', e) -> RInvDp s'.
Proof.
  intros P (C1 & C2 & C3) D H.
  pose proof (P t) as Pt. pose proof (C2 t) as Ct. unfold rlinkok in Ct.
  rstep_cases H; rewrite Epc in Pt, Ct; cbn [rfutok rlk flk] in Pt, Ct; unfold RInvDp; rsimpl_goal.
  (* wp and queue untouched, t not the witness *)
  all: try solve [
    intros Hw; first [ discriminate Hw |
    destruct (D Hw) as [X|[ww [ff X]]]; [left; exact X|];
    destruct (Nat.eq_dec ww t) as [->|Hne]; [rewrite Epc in X; discriminate X|];
    right; exists ww, ff; rewrite upd_neq by assumption; exact X ] ].
  all: qmem_hyps.
  all: try match goal with E : rqueue _ = [] |- context [RFix2] => idtac | E : rqueue _ = [] |- _ => rewrite <- E end.
  all: try match goal with E : rqueue _ = _ :: _ |- context [RWSweep] => idtac | E : rqueue _ = _ :: _ |- _ => rewrite <- E end.
  (* flush leaves *)
  all: try solve [
    match goal with |- context [rflush ?s0 ?tt ?ws] =>
      rewrite rflush_wp, rflush_queue; rsimpl_goal; intros Hw;
      destruct (D Hw) as [X|[ww [ff X]]]; [left; exact X|];
      destruct (Nat.eq_dec ww tt) as [->|Hne]; [rewrite Epc in X; discriminate X|];
      right; exists ww, ff; rewrite rflush_pcs by assumption; rsimpl_goal; exact X
    end ].
  (* the stepping thread unlinked itself and is about to run fix_flags *)
  all: try solve [ intros _; right; eexists t, _; apply upd_eq ].
  (* frame again, after normalising the queue *)
  all: try solve [
    rewrite ?qrem_notin by assumption;
    intros Hw; first [ discriminate Hw |
    destruct (D Hw) as [X|[ww [ff X]]]; [left; first [exact X | apply nwriters_app; exact X]|];
    destruct (Nat.eq_dec ww t) as [->|Hne]; [rewrite Epc in X; discriminate X|];
    right; exists ww, ff; rewrite upd_neq by assumption; exact X ] ].
  (* a writer's fetch_or(WRITER_PENDING): it is linked as a writer *)
  1: { intros _. left. destruct Ct as [b Hb]. destruct (C3 t b Hb) as [kk [K1 K2]].
    rewrite Epc in K1. destruct q as [k l|k bl]; cbn [rkind_q rckind rfutok] in *; subst k.
    + injection K1 as <-. cbn in K2. subst b. exact (nwriters_In _ _ Hb).
    + rewrite Pt in K1. injection K1 as <-. cbn in K2. subst b. exact (nwriters_In _ _ Hb). }
  1: { intros _. left. match goal with E : nwriters _ = S _ |- _ => rewrite E end. discriminate. }
  1: { exfalso. match goal with E : nwriters [] = S _ |- _ => discriminate E end. }
  (* sweep: the unlinked head is not a writer *)
  match goal with FW : first_writer _ = None, EQ : rqueue _ = _ :: _ |- _ =>
    intros Hw; destruct (D Hw) as [X|[ww [ff X]]];
    [ left; rewrite EQ in X; destruct b; [|exact X];
      exfalso; apply (first_writer_None _ FW n); rewrite EQ; left; reflexivity | ]
  end.
  destruct (Nat.eq_dec ww t) as [->|Hne]; [rewrite Epc in X; discriminate X|].
  right. exists ww, ff. rewrite upd_neq by assumption. exact X.
Qed.
