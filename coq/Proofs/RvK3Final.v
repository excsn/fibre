(* Proofs/RvK3Final.v — the K3' rendezvous theorems in schedule form (for every configuration
   `cfg` = any number of sender / receiver threads with arbitrary programs, and every schedule
   `sch`), the statement `rv_exactly_once` with its proof for the repaired code (cas_under_lock =
   true) and its refutation for the pre-fix code (cas_under_lock = false, finding F-01). *)
From Coq Require Import List NArith Arith Bool Lia.
From Fibre Require Import Common.Conc Chan.RvK3 Proofs.RvK3Base Proofs.RvK3Queue Proofs.RvK3Cell
  Proofs.RvK3Val Proofs.RvK3Wake Proofs.RvK3Proofs Proofs.RvK3Live
  Proofs.RvK3Examples.
Import ListNotations.

Lemma final_reachable cul cfg sch : reachable (sys cul cfg) (final cul cfg sch).
Proof. exists sch. reflexivity. Qed.

(* rv_exactly_once: in every state of every schedule, the payload of every send that reported Ok
   is with exactly one receiver (returned by exactly one of its receives, or still in its hand /
   destination cell), and no receive reported Timeout over a delivered payload *)
Definition rv_exactly_once (cul : bool) : Prop :=
  forall cfg sch p v, let s := final cul cfg sch in
  is_sender cfg p = true -> In v (sent_ok s p) ->
  (exists r, is_receiver cfg r = true /\ In v (got s r ++ r_inflight cfg s r) /\
             NoDup (got s r ++ r_inflight cfg s r) /\
             forall r', is_receiver cfg r' = true -> In v (got s r' ++ r_inflight cfg s r') -> r' = r)
  /\ forall r, lost s r = [].

Theorem rv_exactly_once_fixed : rv_exactly_once true.
Proof.
  intros cfg sch p v s Hp Hv. split.
  - exact (exactly_once cfg s (final_reachable true cfg sch) p v Hp Hv).
  - intros r. exact (no_lost cfg s (final_reachable true cfg sch) r).
Qed.

(* F-01: before commit 2e08297 (cancel CAS outside the lock) the statement is false *)
Theorem rv_exactly_once_prefix_refuted : ~ rv_exactly_once false.
Proof.
  intros H. specialize (H f01_cfg f01_sched 0 (0, 1)). cbv zeta in H.
  pose proof f01_witness as Hw. unfold f01_s in Hw. destruct Hw as [H0 [_ [_ [Hl _]]]].
  destruct H as [_ H]; [reflexivity| |].
  - unfold sent_ok. rewrite H0. left. reflexivity.
  - specialize (H 1). rewrite Hl in H. discriminate H.
Qed.

(* the lost payload, spelled out: sender told Ok, every thread finished, nobody received it *)
Theorem rv_prefix_loses_value :
  exists cfg sch p v, let s := final false cfg sch in
  is_sender cfg p = true /\ In v (sent_ok s p) /\ all_done cfg s /\ (forall r, ~ In v (got s r)) /\
  In (RTimeout (Some v)) (results s 1).
Proof.
  exists f01_cfg, f01_sched, 0, (0, 1). cbv zeta.
  pose proof f01_witness as Hw. unfold f01_s in Hw. destruct Hw as [H0 [H1 [H2 [H3 [H4 H5]]]]].
  split; [reflexivity|]. split.
  - unfold sent_ok. rewrite H0. left. reflexivity.
  - split; [exact H5|]. split.
    + intros r. destruct r as [|[|r]].
      * unfold got. rewrite H0. cbn. tauto.
      * rewrite H2. intros [].
      * unfold got.
        match goal with |- ~ In _ (flat_map _ (results ?s0 _)) =>
          assert (Hr : results s0 (S (S r)) = []) by (vm_compute; reflexivity) end.
        rewrite Hr. intros [].
    + rewrite H1. left. reflexivity.
Qed.

Section Sched.
  Variable cfg : list tcfg.
  Variable sch : list (nat * choice).
  Let s := final true cfg sch.
  Let HR : reachable (sys true cfg) s := final_reachable true cfg sch.

  Definition F_ok_is_handed := ok_is_handed cfg s HR.
  Definition F_failed_not_handed := failed_not_handed cfg s HR.
  Definition F_handed_once := handed_once cfg s HR.
  Definition F_handed_commits := handed_commits cfg s HR.
  Definition F_no_timeout_after_handoff := no_timeout_after_handoff cfg s HR.
  Definition F_receiver_accounting := receiver_accounting cfg s HR.
  Definition F_exactly_once_final := exactly_once_final cfg s HR.
  Definition F_never_bad := never_bad cfg s HR.
  Definition F_cells_ok := cells_ok cfg s HR.
  Definition F_queues_ok := queues_ok cfg s HR.
  Definition F_linked_is_live := linked_is_live cfg s HR.
  Definition F_sender_slot_not_handed := sender_slot_not_handed cfg s HR.
  Definition F_received_was_handed := received_was_handed cfg s HR.
  Definition F_wake_owed := wake_owed cfg s HR.
  Definition F_quiescent_parked_waiting := quiescent_parked_waiting cfg s HR.
  Definition F_deadlock_free := deadlock_free cfg s HR.

  (* the single-slot receiver store of mpsc / spsc rendezvous (`Option<RecvRec>`) is the list
     model with at most one element: with at most one receiver thread at most one record is linked *)
  Lemma F_single_receiver_store :
    (forall u u', is_receiver cfg u = true -> is_receiver cfg u' = true -> u = u') -> length (rq s) <= 1.
  Proof.
    intros H1. pose proof (Inv_reachable cfg s HR) as HI. pose proof (Q_ndr _ _ (I_q _ _ HI)) as N.
    destruct (rq s) as [|a [|b l]] eqn:E; cbn; try lia. exfalso.
    assert (Ha : In a (rq s)) by (rewrite E; left; reflexivity).
    assert (Hb : In b (rq s)) by (rewrite E; right; left; reflexivity).
    pose proof (H1 a b (in_rq_receiver _ _ _ (I_l _ _ HI) (I_q _ _ HI) Ha) (in_rq_receiver _ _ _ (I_l _ _ HI) (I_q _ _ HI) Hb)).
    subst b. apply NoDup_cons_iff in N. apply (proj1 N). left. reflexivity.
  Qed.
End Sched.
