(* Proofs/TopicInvTx.v — invariant preservation: sender handles (clone / convert / close / drop). *)
From Fibre Require Import Common.Base Chan.TopicOps Chan.TopicSpec Proofs.TopicLemmas Proofs.TopicInv
     Proofs.TopicInvSub Proofs.TopicInvRx.

Lemma rel_tx_upd c s sp h x y f g :
  Inv c s sp -> find_tx h (txs s) = Some x -> find_stx h (sp_tx sp) = Some y ->
  rel_tx c (f x) (g y) ->
  Forall2 (rel_tx c) (upd_tx h f (txs s)) (upd_stx h g (sp_tx sp)).
Proof.
  intros I Hx Hy HR. apply (upd_id_pair t_id x_id _ (rt_id c) _ h f g _ _ (i_tx _ _ _ I)); [|auto].
  intros x0 y0 Hx0 Hy0 HR0 E.
  assert (E2 : x_id y0 = h) by (rewrite <- (rt_id _ _ _ HR0); exact E).
  rewrite (find_id_unique t_id h _ x x0 (i_tnd _ _ _ I) Hx Hx0 E).
  rewrite (find_id_unique x_id h _ y y0 (spec_tx_nodup _ _ _ I) Hy Hy0 E2). exact HR.
Qed.

Lemma rel_rx_weaken c ls da da' ao sgb sgb' x y :
  rel_rx c ls da ao sgb x y -> (da' = true -> da = true) -> (sgb' = true -> sgb = true) ->
  rel_rx c ls da' ao sgb' x y.
Proof.
  intros HR Hda Hsg. destruct HR. constructor; auto.
  - intros A B C t l. apply rr_reg2; auto.
  - intros A B C. specialize (rr_cdead A B C). destruct da'; [|reflexivity]. rewrite Hda in rr_cdead; auto.
Qed.

Lemma existsb_upd_tx_live h f ts :
  (forall z, t_live (f z) = true -> t_live z = true) ->
  existsb t_live (upd_tx h f ts) = true -> existsb t_live ts = true.
Proof.
  intros Hf H. apply existsb_exists in H. destruct H as [z [Hz Hl]].
  unfold upd_tx in Hz. apply in_map_iff in Hz. destruct Hz as [a [Ea Ha]].
  apply existsb_exists. exists a. split; [exact Ha|].
  destruct (N.eqb (t_id a) h); subst z; auto.
Qed.

Lemma nopen_upd c s sp h g y :
  Inv c s sp -> find_stx h (sp_tx sp) = Some y -> (forall z, x_id (g z) = x_id z) ->
  (length (filter x_open (upd_stx h g (sp_tx sp))) + Nat.b2n (x_open y) =
   length (filter x_open (sp_tx sp)) + Nat.b2n (x_open (g y)))%nat.
Proof. intros I. exact (count_upd_id x_id x_open h g _ y (spec_tx_nodup _ _ _ I)). Qed.

(* update one sender handle, no effect on which handles are open *)
Lemma inv_upd_tx c s sp h x y f g :
  Inv c s sp -> find_tx h (txs s) = Some x -> find_stx h (sp_tx sp) = Some y ->
  (forall z, t_id (f z) = t_id z) -> (forall z, x_id (g z) = x_id z) ->
  (forall z, t_live (f z) = true -> t_live z = true) ->
  rel_tx c (f x) (g y) -> x_open (g y) = x_open y ->
  Inv c (st_set_txs s (upd_tx h f (txs s))) (sp_set_tx sp (upd_stx h g (sp_tx sp))).
Proof.
  intros I Hx Hy Hidf Hidg Hlive HR Hopen.
  assert (Hn : length (filter x_open (upd_stx h g (sp_tx sp))) = length (filter x_open (sp_tx sp))).
  { pose proof (nopen_upd c s sp h g y I Hy Hidg) as P. rewrite Hopen in P. clear - P. lia. }
  assert (Hao : any_open (sp_set_tx sp (upd_stx h g (sp_tx sp))) = any_open sp).
  { rewrite !any_open_filter. cbn [sp_tx sp_set_tx]. rewrite Hn. reflexivity. }
  assert (Hsg : sg c (sp_set_tx sp (upd_stx h g (sp_tx sp))) = sg c sp).
  { unfold sg, single. cbn [sp_tx sp_set_tx]. unfold upd_stx. rewrite map_length. reflexivity. }
  constructor; cbn [txs rxs lists futs scount st_set_txs sp_rx sp_tx sp_futs sp_set_tx]; try apply I.
  - eapply rel_tx_upd; eauto.
  - rewrite Hao, Hsg. eapply Forall2_impl2; [apply (i_rx _ _ _ I)|].
    intros x0 y0 _ _ HR0. eapply rel_rx_weaken; [exact HR0 | | auto].
    unfold disp_alive. cbn [txs st_set_txs]. apply existsb_upd_tx_live. exact Hlive.
  - rewrite (map_id_upd t_id) by exact Hidf. apply (i_tnd _ _ _ I).
  - intros F4. rewrite Hn. apply (i_cnt _ _ _ I F4).
Qed.

Lemma ok_ConvS c h : step_ok_for c (ConvS h).
Proof.
  intros s sp s1 rs w sp1 vs I Hs Hsp. cbn [step sp_step] in *.
  destruct (live_tx h s) as [x|] eqn:Hl; [|same Hs Hsp I].
  injection Hs as <- <- <-. injection Hsp as <- <-. split; [|apply vs_ok_nil].
  apply live_tx_spec in Hl. destruct Hl as [Hx Hlive].
  destruct (pair_tx _ _ _ _ _ I Hx) as [y [Hy [_ [_ HR]]]].
  replace sp with (sp_set_tx sp (upd_stx h (fun z => z) (sp_tx sp))) by (rewrite (upd_id_same x_id); destruct sp; reflexivity).
  apply (inv_upd_tx c s sp h x y); auto. destruct HR. constructor; cbn; auto.
Qed.

Lemma ok_CloneS c h h' : step_ok_for c (CloneS h h').
Proof.
  intros s sp s1 rs w sp1 vs I Hs Hsp. cbn [step sp_step] in *.
  destruct (live_tx h s) as [x|] eqn:Hl; [|same Hs Hsp I].
  destruct (find_tx h' (txs s)) as [x'|] eqn:Hf'; [same Hs Hsp I|].
  destruct (t_async x); [same Hs Hsp I|].
  pose proof (live_tx_da _ _ _ Hl) as Hda.
  apply live_tx_spec in Hl. destruct Hl as [Hx Hlive].
  destruct (pair_tx _ _ _ _ _ I Hx) as [y [Hy [_ [Hiny HR]]]].
  pose proof (find_id_pair_None t_id x_id _ (rt_id c) _ _ h' (i_tx _ _ _ I) Hf') as Hnone.
  change (find_id x_id h' (sp_tx sp)) with (find_stx h' (sp_tx sp)) in Hnone.
  rewrite Hy, Hnone in Hsp. injection Hs as <- <- <-. injection Hsp as <- <-. split; [|apply vs_ok_nil].
  set (cl := fix04 c && t_closed x).
  set (xn := {| t_id := h'; t_live := true; t_async := false; t_closed := cl |}).
  set (yn := {| x_id := h'; x_live := true; x_closed := x_closed y |}).
  (* the sender count moves only with fix04, and only for a clone that is open *)
  match goal with |- Inv c ?s2 _ =>
    replace s2 with (st_set_scount (st_set_txs s (txs s ++ [xn])) (if fix04 c && negb cl then scount s + 1 else scount s)%Z)
      by (destruct (fix04 c && negb cl); reflexivity) end.
  assert (Hao : any_open (sp_set_tx sp (sp_tx sp ++ [yn])) = any_open sp).
  { unfold any_open. cbn [sp_tx sp_set_tx]. rewrite existsb_app. cbn [existsb]. rewrite orb_false_r.
    destruct (x_open yn) eqn:E; [|apply orb_false_r].
    rewrite orb_true_r. symmetry. apply existsb_exists. exists y. split; [exact Hiny|].
    unfold x_open in *. cbn in E. rewrite <- (rt_live _ _ _ HR), Hlive. exact E. }
  assert (Hsg : sg c (sp_set_tx sp (sp_tx sp ++ [yn])) = true -> sg c sp = true).
  { unfold sg, single. cbn [sp_tx sp_set_tx]. rewrite app_length. cbn [length].
    destruct (fix04 c); [auto|]. cbn [orb].
    destruct (sp_tx sp) as [|a l]; [destruct Hiny|]. cbn [length]. intros H. apply Nat.eqb_eq in H. clear - H. lia. }
  constructor; cbn [txs rxs lists futs scount st_set_txs st_set_scount sp_rx sp_tx sp_futs sp_set_tx]; try apply I.
  - apply Forall2_snoc; [apply (i_tx _ _ _ I)|]. constructor; cbn; auto.
    + intros _ Hc. unfold cl in Hc. apply andb_true_iff in Hc. destruct Hc as [_ Hc]. apply (rt_cl1 _ _ _ HR Hlive Hc).
    + intros _ F4. unfold cl. rewrite F4. cbn. apply (rt_cl2 _ _ _ HR Hlive F4).
  - rewrite Hao. eapply Forall2_impl2; [apply (i_rx _ _ _ I)|].
    intros x0 y0 _ _ HR0. eapply rel_rx_weaken; [exact HR0 | intros _; exact Hda | exact Hsg].
  - rewrite map_app. cbn [map]. apply NoDup_snoc; [apply (i_tnd _ _ _ I) | apply (find_id_None t_id); exact Hf'].
  - intros F4. unfold cl. rewrite F4, (rt_cl2 _ _ _ HR Hlive F4), filter_app, app_length, (i_cnt _ _ _ I F4).
    generalize (length (filter x_open (sp_tx sp))). intros n. unfold x_open, yn. cbn. clear. destruct (x_closed y); cbn; lia.
Qed.

(** close / drop of a sender handle whose own flag is not set: close_internal runs *)
Definition disc_fn (c : cfg) (ls : list (N * list N)) (x : rxh) : rxh :=
  if r_live x && (fix05 c || in_lists (r_id x) ls) then rx_set_mb x (fst (mb_disconnect (r_mb x))) else x.

Lemma map_wakes_fst f rs : fst (map_wakes f rs) = map (fun x => fst (f x)) rs.
Proof.
  induction rs as [|a rs IH]; cbn [map_wakes map]; [reflexivity|].
  destruct (f a) as [a' w]. destruct (map_wakes f rs) as [rs' w']. cbn [fst] in *. rewrite IH. reflexivity.
Qed.

Lemma disconnect_all_fst c s : fst (disconnect_all c s) = st_set_rxs s (map (disc_fn c (lists s)) (rxs s)).
Proof.
  unfold disconnect_all.
  pose proof (map_wakes_fst (fun x => if r_live x && (fix05 c || in_lists (r_id x) (lists s))
      then let '(m', w) := mb_disconnect (r_mb x) in (rx_set_mb x m', w) else (x, [])) (rxs s)) as H.
  destruct (map_wakes _ (rxs s)) as [rs' w]. cbn [fst] in *. rewrite H. f_equal. apply map_ext. intros x.
  unfold disc_fn. destruct (r_live x && (fix05 c || in_lists (r_id x) (lists s))); [|reflexivity].
  destruct (mb_disconnect (r_mb x)); reflexivity.
Qed.

Definition tx_ran (c : cfg) (s : state) : bool := negb (fix04 c) || Z.eqb (scount s) 1.

Lemma tx_close_internal_fst c s :
  fst (tx_close_internal c s) =
  st_set_scount (st_set_rxs s (if tx_ran c s then map (disc_fn c (lists s)) (rxs s) else rxs s))
                (if fix04 c then (scount s - 1)%Z else scount s).
Proof.
  unfold tx_close_internal, tx_ran. destruct (fix04 c); cbn [negb orb].
  - destruct (Z.eqb (scount s) 1).
    + rewrite disconnect_all_fst. reflexivity.
    + cbn [fst]. destruct s; reflexivity.
  - rewrite disconnect_all_fst. destruct s; reflexivity.
Qed.

Lemma m_disc_disconnect m : m_disc (fst (mb_disconnect m)) = true.
Proof. unfold mb_disconnect. destruct (m_disc m) eqn:E; cbn; auto. Qed.

Lemma mb_disconnect_keeps m :
  m_buf (fst (mb_disconnect m)) = m_buf m /\ m_cap (fst (mb_disconnect m)) = m_cap m /\
  m_dropped (fst (mb_disconnect m)) = m_dropped m.
Proof. unfold mb_disconnect. destruct (m_disc m); cbn; auto. Qed.

(* disc_fn touches the disconnected bit (and the waiter) of the mailboxes it reaches, nothing else *)
Lemma disc_fn_keeps c ls x :
  r_id (disc_fn c ls x) = r_id x /\ r_live (disc_fn c ls x) = r_live x /\ r_closed (disc_fn c ls x) = r_closed x /\
  r_async (disc_fn c ls x) = r_async x /\ r_subs (disc_fn c ls x) = r_subs x /\
  m_buf (r_mb (disc_fn c ls x)) = m_buf (r_mb x) /\ m_cap (r_mb (disc_fn c ls x)) = m_cap (r_mb x) /\
  m_dropped (r_mb (disc_fn c ls x)) = m_dropped (r_mb x).
Proof.
  unfold disc_fn. destruct (r_live x && (fix05 c || in_lists (r_id x) ls)); [|auto 9]. cbn.
  destruct (mb_disconnect_keeps (r_mb x)) as [A [B C]]. auto 9.
Qed.

Lemma disc_fn_disc c ls x :
  m_disc (r_mb (disc_fn c ls x)) = m_disc (r_mb x) || (r_live x && (fix05 c || in_lists (r_id x) ls)).
Proof.
  unfold disc_fn. destruct (r_live x && (fix05 c || in_lists (r_id x) ls)); [|symmetry; apply orb_false_r].
  cbn. rewrite m_disc_disconnect. symmetry. apply orb_true_r.
Qed.

(* an open sender handle h goes (closed or dropped through f / g): close_internal runs on the model; the
   reference, if [b], marks the receivers reached by this disconnect *)
Lemma sender_gone_inv c s sp h x y f g (b : bool) :
  Inv c s sp -> find_tx h (txs s) = Some x -> t_live x = true -> t_closed x = false ->
  find_stx h (sp_tx sp) = Some y ->
  (forall z, t_id (f z) = t_id z) -> (forall z, x_id (g z) = x_id z) ->
  (forall z, t_live (f z) = true -> t_live z = true) ->
  rel_tx c (f x) (g y) -> x_open (g y) = false ->
  Inv c (st_set_txs (fst (tx_close_internal c s)) (upd_tx h f (txs s)))
        (let sp1 := sp_set_tx sp (upd_stx h g (sp_tx sp)) in if b then after_sender_gone sp1 else sp1).
Proof.
  intros I Hx Hlive Hncl Hy Hidf Hidg Hlf HR Hgo.
  destruct (pair_tx _ _ _ _ _ I Hx) as [y0 [Hy0 [Hinx [Hiny HR0]]]].
  assert (y0 = y) by congruence. subst y0.
  assert (Hda : disp_alive s = true).
  { unfold disp_alive. apply existsb_exists. exists x. auto. }
  pose proof (nopen_upd c s sp h g y I Hy Hidg) as Hn. rewrite Hgo in Hn. cbn [Nat.b2n] in Hn.
  set (sp1 := sp_set_tx sp (upd_stx h g (sp_tx sp))).
  set (n' := length (filter x_open (upd_stx h g (sp_tx sp)))) in *.
  assert (Hao' : any_open sp1 = negb (Nat.eqb n' 0)) by apply any_open_filter.
  (* with the sender count, close_internal disconnects exactly when no open sender is left *)
  assert (Hran4 : fix04 c = true -> x_open y = true /\ tx_ran c s = negb (any_open sp1)).
  { intros F4.
    assert (Ho : x_open y = true).
    { unfold x_open. rewrite <- (rt_live _ _ _ HR0), Hlive, <- (rt_cl2 _ _ _ HR0 Hlive F4), Hncl. reflexivity. }
    split; [exact Ho|]. unfold tx_ran. rewrite F4, Hao', negb_involutive, (i_cnt _ _ _ I F4).
    rewrite Ho in Hn. clear - Hn. cbn in *. destruct n'; cbn; [apply Z.eqb_eq | apply Z.eqb_neq]; lia. }
  assert (Hao_mono : any_open sp = false -> any_open sp1 = false).
  { rewrite any_open_filter, Hao'. intros H. apply negb_false_iff in H. apply Nat.eqb_eq in H.
    apply negb_false_iff. apply Nat.eqb_eq. clear - Hn H. lia. }
  assert (Hsg : sg c sp1 = sg c sp).
  { unfold sg, single, sp1. cbn [sp_tx sp_set_tx]. unfold upd_stx. rewrite map_length. reflexivity. }
  (* without it, the clause is claimed for single-sender histories only *)
  assert (Hsingle : fix04 c = false -> sg c sp = true -> any_open sp1 = false).
  { intros F4. unfold sg, single. rewrite F4. cbn [orb]. intros H. apply Nat.eqb_eq in H. rewrite Hao'.
    destruct (sp_tx sp) as [|a [|a' l]] eqn:E; try discriminate.
    destruct Hiny as [->|[]].
    pose proof (find_id_In x_id _ _ _ Hy) as [_ Hyid].
    unfold n', upd_stx. cbn [map filter]. rewrite Hyid, N.eqb_refl. cbn [filter]. rewrite Hgo. reflexivity. }
  set (ran := tx_ran c s).
  set (mark := b && negb (any_open sp1)).
  set (F := fun x0 => if ran then disc_fn c (lists s) x0 else x0).
  set (G := fun y0 => if mark then srx_reach y0 else y0).
  assert (HF : forall x0, r_id (F x0) = r_id x0 /\ r_live (F x0) = r_live x0 /\ r_closed (F x0) = r_closed x0 /\
                 r_async (F x0) = r_async x0 /\ r_subs (F x0) = r_subs x0 /\
                 m_buf (r_mb (F x0)) = m_buf (r_mb x0) /\ m_cap (r_mb (F x0)) = m_cap (r_mb x0) /\
                 m_dropped (r_mb (F x0)) = m_dropped (r_mb x0)).
  { intros x0. unfold F. destruct ran; [apply disc_fn_keeps | auto 9]. }
  assert (HFd : forall x0, m_disc (r_mb (F x0)) =
                  m_disc (r_mb x0) || (ran && (r_live x0 && (fix05 c || in_lists (r_id x0) (lists s))))).
  { intros x0. unfold F. destruct ran; [apply disc_fn_disc | symmetry; apply orb_false_r]. }
  assert (Emodel : st_set_txs (fst (tx_close_internal c s)) (upd_tx h f (txs s)) =
                   st_set_txs (st_set_scount (st_set_rxs s (map F (rxs s)))
                                 (if fix04 c then (scount s - 1)%Z else scount s)) (upd_tx h f (txs s))).
  { rewrite tx_close_internal_fst. fold ran. unfold F. destruct ran; [reflexivity|].
    rewrite map_id. reflexivity. }
  assert (Espec : (if b then after_sender_gone sp1 else sp1) = sp_set_rx sp1 (map G (sp_rx sp))).
  { unfold G, mark, after_sender_gone. destruct b; cbn [andb].
    - destruct (any_open sp1); cbn [negb]; [rewrite map_id; destruct sp; reflexivity | reflexivity].
    - rewrite map_id. destruct sp; reflexivity. }
  rewrite Emodel. cbv zeta. fold sp1. rewrite Espec. clear Emodel Espec.
  constructor; cbn [txs rxs lists futs scount st_set_txs st_set_scount st_set_rxs sp_rx sp_tx sp_futs sp_set_tx sp_set_rx sp1];
    try apply I.
  - eapply rel_tx_upd; eauto.
  - change (any_open (sp_set_rx sp1 (map G (sp_rx sp)))) with (any_open sp1).
    change (sg c (sp_set_rx sp1 (map G (sp_rx sp)))) with (sg c sp1). rewrite Hsg.
    eapply Forall2_map2; [apply (i_rx _ _ _ I)|].
    intros x0 y0 Hx0 Hyy0 R0. rewrite Hda in R0.
    destruct (HF x0) as [F1 [F2 [F3 [F4 [F5 [F6 [F7 F8]]]]]]].
    assert (HG : s_id (G y0) = s_id y0 /\ s_live (G y0) = s_live y0 /\ s_subs (G y0) = s_subs y0 /\
                 s_cap (G y0) = s_cap y0 /\ s_q (G y0) = s_q y0 /\ s_full (G y0) = s_full y0 /\
                 s_closed (G y0) = s_closed y0).
    { unfold G. destruct mark; repeat split; reflexivity. }
    destruct HG as [G1 [G2 [G3 [G4 [G5 [G6 G7]]]]]].
    assert (Hgood : good c (G y0) = good c y0) by (unfold good; rewrite G7; reflexivity).
    constructor; rewrite ?F1, ?F2, ?F3, ?F4, ?F5, ?F6, ?F7, ?F8, ?G1, ?G2, ?G3, ?G4, ?G5, ?G6, ?G7, ?Hgood.
    + apply (rr_id _ _ _ _ _ _ _ R0).
    + apply (rr_live _ _ _ _ _ _ _ R0).
    + apply (rr_nd _ _ _ _ _ _ _ R0).
    + intros A _. apply (rr_subs _ _ _ _ _ _ _ R0 A eq_refl).
    + apply (rr_buf _ _ _ _ _ _ _ R0).
    + intros A _. apply (rr_reg1 _ _ _ _ _ _ _ R0 A eq_refl).
    + intros A _. apply (rr_reg2 _ _ _ _ _ _ _ R0 A eq_refl).
    + (* disconnected: it was so before, or close_internal has just run *)
      intros A B C. rewrite HFd in B. apply orb_true_iff in B. destruct B as [D|D].
      * apply Hao_mono. apply (rr_dsound _ _ _ _ _ _ _ R0 A D C).
      * apply andb_true_iff in D. destruct D as [D _]. destruct (fix04 c) eqn:E4.
        -- unfold ran in D. rewrite (proj2 (Hran4 eq_refl)) in D. apply negb_true_iff in D. exact D.
        -- apply Hsingle; auto.
    + intros A E4 E5 Hao. rewrite HFd, A, E5. unfold ran. rewrite (proj2 (Hran4 E4)), Hao. apply orb_true_r.
    + intros A Hr. rewrite HFd. apply orb_true_iff. unfold G in Hr. destruct mark eqn:Em.
      * cbn [s_reach srx_reach] in Hr. apply orb_true_iff in Hr. destruct Hr as [Hr|Hr].
        -- left. apply (rr_reach _ _ _ _ _ _ _ R0 A Hr).
        -- (* reached now: it has a subscription, so disconnect_all finds it through the lists *)
           right. apply andb_true_iff in Hr. destruct Hr as [_ Hr].
           unfold mark in Em. apply andb_true_iff in Em. destruct Em as [_ Em]. apply negb_true_iff in Em.
           assert (Hran : ran = true).
           { unfold ran. destruct (fix04 c) eqn:E4; [rewrite (proj2 (Hran4 eq_refl)), Em | unfold tx_ran; rewrite E4]; reflexivity. }
           rewrite Hran, A. cbn [andb]. apply orb_true_iff. right.
           destruct (rr_subs _ _ _ _ _ _ _ R0 A eq_refl) as [Hsub _].
           destruct (s_subs y0) as [|t ts] eqn:Es; [discriminate|].
           assert (Ht : In t (r_subs x0)) by (rewrite Hsub; left; reflexivity).
           destruct (rr_reg1 _ _ _ _ _ _ _ R0 A eq_refl t Ht) as [l [Hl1 Hl2]].
           apply in_lists_spec. exists t, l. split; [apply get_list_In; exact Hl1 | exact Hl2].
      * left. apply (rr_reach _ _ _ _ _ _ _ R0 A Hr).
    + intros A B C. pose proof (rr_cdead _ _ _ _ _ _ _ R0 A B C). discriminate.
  - rewrite map_map. erewrite map_ext; [apply (i_rnd _ _ _ I) | intros a; apply HF].
  - rewrite (map_id_upd t_id) by exact Hidf. apply (i_tnd _ _ _ I).
  - intros f0 r0 Hin. rewrite rx_alive_map; [eapply (i_flive _ _ _ I); eauto | |]; intros a; apply HF.
  - intros t l m H1 H2. rewrite map_map. erewrite map_ext; [eapply (i_lknown _ _ _ I); eauto | intros a; apply HF].
  - intros E4. rewrite E4, (i_cnt _ _ _ I E4). fold n'. rewrite (proj1 (Hran4 E4)) in Hn. clear - Hn. cbn in Hn. lia.
Qed.

Lemma tx_close_internal_txs c s t :
  fst (tx_close_internal c (st_set_txs s t)) = st_set_txs (fst (tx_close_internal c s)) t.
Proof. rewrite !tx_close_internal_fst. reflexivity. Qed.

Lemma snd_tx_close_internal_txs c s t : snd (tx_close_internal c (st_set_txs s t)) = snd (tx_close_internal c s).
Proof.
  unfold tx_close_internal, disconnect_all. cbn [scount rxs lists st_set_txs st_set_scount].
  destruct (fix04 c); [destruct (Z.eqb (scount s) 1)|];
  repeat match goal with |- context [map_wakes ?f ?l] => destruct (map_wakes f l) end; reflexivity.
Qed.

(* close and drop of a sender handle: close_internal (unless the handle's own flag is set) and the update of the
   handle's record commute, so both read: run close_internal on s, then update the record *)
Lemma step_CloseS c s h :
  step c s (CloseS h) =
  match live_tx h s with
  | Some x => if t_closed x then (s, (RCloseErr, []))
              else (st_set_txs (fst (tx_close_internal c s)) (upd_tx h (fun y => tx_set y (t_live y) (t_async y) true) (txs s)),
                    (ROk, snd (tx_close_internal c s)))
  | None => (s, (RNoHandle, []))
  end.
Proof.
  cbn [step]. destruct (live_tx h s) as [x|]; [|reflexivity]. destruct (t_closed x); [reflexivity|].
  rewrite (surjective_pairing (tx_close_internal c (st_set_txs s _))), tx_close_internal_txs, snd_tx_close_internal_txs.
  reflexivity.
Qed.

Lemma step_DropS c s h :
  step c s (DropS h) =
  match live_tx h s with
  | Some x => (st_set_txs (if t_closed x then s else fst (tx_close_internal c s))
                 (upd_tx h (fun y => tx_set y false (t_async y) true) (txs s)),
               (ROk, if t_closed x then [] else snd (tx_close_internal c s)))
  | None => (s, (RNoHandle, []))
  end.
Proof.
  cbn [step]. destruct (live_tx h s) as [x|]; [|reflexivity]. destruct (t_closed x); [reflexivity|].
  rewrite (surjective_pairing (tx_close_internal c s)), tx_close_internal_fst. reflexivity.
Qed.

Lemma ok_CloseS c h : step_ok_for c (CloseS h).
Proof.
  intros s sp s1 rs w sp1 vs I Hs Hsp. rewrite step_CloseS in Hs. cbn [sp_step] in Hsp.
  destruct (live_tx h s) as [x|] eqn:Hl; [|same Hs Hsp I].
  destruct (t_closed x) eqn:Ec; [same Hs Hsp I|].
  apply live_tx_spec in Hl. destruct Hl as [Hx Hlive].
  destruct (pair_tx _ _ _ _ _ I Hx) as [y [Hy [_ [_ HR]]]].
  injection Hs as <- <- <-. injection Hsp as <- <-. split; [|apply vs_ok_nil].
  apply (sender_gone_inv c s sp h x y _ (fun x0 => {| x_id := x_id x0; x_live := x_live x0; x_closed := true |}) true); auto.
  - destruct HR. constructor; cbn; auto.
  - unfold x_open. cbn. apply andb_false_r.
Qed.

Lemma ok_DropS c h : step_ok_for c (DropS h).
Proof.
  intros s sp s1 rs w sp1 vs I Hs Hsp. rewrite step_DropS in Hs. cbn [sp_step] in Hsp.
  destruct (live_tx h s) as [x|] eqn:Hl; [|same Hs Hsp I].
  apply live_tx_spec in Hl. destruct Hl as [Hx Hlive].
  destruct (pair_tx _ _ _ _ _ I Hx) as [y [Hy [_ [_ HR]]]].
  rewrite Hy in Hsp. injection Hs as <- <- <-.
  assert (Hrel : rel_tx c (tx_set x false (t_async x) true) {| x_id := x_id y; x_live := false; x_closed := true |}).
  { destruct HR. constructor; cbn; auto; intros; discriminate. }
  destruct (t_closed x) eqn:Ec.
  - assert (Hop : x_open y = false).
    { unfold x_open. rewrite (rt_cl1 _ _ _ HR Hlive Ec). apply andb_false_r. }
    rewrite Hop in Hsp. injection Hsp as <- <-. split; [|apply vs_ok_nil].
    apply (inv_upd_tx c s sp h x y); auto. intros z H. discriminate.
  - injection Hsp as <- <-. split; [|apply vs_ok_nil].
    apply (sender_gone_inv c s sp h x y _ (fun x0 => {| x_id := x_id x0; x_live := false; x_closed := true |}) (x_open y)); auto.
    intros z H. discriminate.
Qed.
