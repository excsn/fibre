(* Proofs/PolicyCommon.v — lemmas shared by the policy contract proofs: every
   policy keeps an ordered structure whose key/cost list is what it tracks, the
   invariant is that this list has no duplicate key, and each call permutes it
   as its clause of the contract says. *)
From Fibre Require Import Common.Base Cache.PolicySpec Cache.PolicySieve.

Lemma filter_perm {A} (f : A -> bool) (a b : list A) :
  Permutation a b -> Permutation (filter f a) (filter f b).
Proof.
  induction 1 as [| x l l' _ IH | x y l | l l' l'' _ IH1 _ IH2]; cbn [filter].
  - constructor.
  - destruct (f x); [constructor; exact IH | exact IH].
  - destruct (f x), (f y); try apply Permutation_refl. apply perm_swap.
  - eapply Permutation_trans; eauto.
Qed.

Lemma NoDup_app_disjoint {A} (a b : list A) x : NoDup (a ++ b) -> In x a -> ~ In x b.
Proof.
  induction a as [|y t IH]; cbn [app]; intros Hnd Hin; [contradiction|].
  inversion Hnd as [|? ? Hni Hnd']; subst.
  destruct Hin as [->|Hin].
  - intros Hb. apply Hni. apply in_or_app. right. exact Hb.
  - apply IH; assumption.
Qed.



Lemma rm_app k a b : rm k (a ++ b) = rm k a ++ rm k b.
Proof. rewrite !rm_filter. apply filter_app. Qed.

Lemma rm_perm k a b : Permutation a b -> Permutation (rm k a) (rm k b).
Proof. rewrite !rm_filter. apply filter_perm. Qed.

Lemma lookup_app k a b :
  lookup k (a ++ b) = match lookup k a with Some c => Some c | None => lookup k b end.
Proof.
  induction a as [|[k' c'] t IH]; cbn [app lookup]; [reflexivity|].
  destruct (N.eqb k k'); [reflexivity | exact IH].
Qed.

Lemma perm_rm_cons k c l :
  NoDup (keys l) -> lookup k l = Some c -> Permutation ((k, c) :: rm k l) l.
Proof.
  induction l as [|[k' c'] t IH]; cbn [lookup rm keys map fst]; intros Hnd Hl; [discriminate|].
  inversion Hnd as [|? ? Hni Hnd']; subst.
  destruct (N.eqb_spec k k') as [->|Hn].
  - inversion Hl; subst. rewrite rm_id by exact Hni. apply Permutation_refl.
  - eapply Permutation_trans; [apply perm_swap|]. constructor. apply IH; assumption.
Qed.

Lemma without_app vs a b : without vs (a ++ b) = without vs a ++ without vs b.
Proof. unfold without. apply filter_app. Qed.

Lemma without_perm vs a b : Permutation a b -> Permutation (without vs a) (without vs b).
Proof. unfold without. apply filter_perm. Qed.

Lemma without_all vs a : incl (keys a) vs -> without vs a = [].
Proof.
  unfold without. induction a as [|[k c] t IH]; cbn [filter keys map fst]; intros H; [reflexivity|].
  assert (Hk : mem k vs = true) by (apply mem_In; apply H; left; reflexivity).
  rewrite Hk. cbn [negb]. apply IH. intros x Hx. apply H. right. exact Hx.
Qed.

Lemma without_none vs a : (forall x, In x (keys a) -> ~ In x vs) -> without vs a = a.
Proof.
  unfold without. induction a as [|[k c] t IH]; cbn [filter keys map fst]; intros H; [reflexivity|].
  assert (Hk : mem k vs = false) by (apply mem_false_In; apply H; left; reflexivity).
  rewrite Hk. cbn [negb]. f_equal. apply IH. intros x Hx. apply H. right. exact Hx.
Qed.

Lemma without_cons k vs T : without (k :: vs) T = without vs (rm k T).
Proof.
  unfold without. induction T as [|[k' c] t IH]; cbn [filter rm fst mem existsb]; [reflexivity|].
  fold (mem k' vs). rewrite (N.eqb_sym k' k).
  destruct (N.eqb_spec k k') as [->|Hn]; cbn [orb negb].
  - exact IH.
  - cbn [filter fst]. destruct (mem k' vs); cbn [negb]; [exact IH | f_equal; exact IH].
Qed.

Lemma without_keys_In vs l x : In x (keys (without vs l)) -> In x (keys l).
Proof.
  unfold keys, without. rewrite !in_map_iff. intros [p [Hp Hi]]. apply filter_In in Hi.
  exists p. tauto.
Qed.

Lemma without_NoDup vs l : NoDup (keys l) -> NoDup (keys (without vs l)).
Proof.
  unfold without. induction l as [|[k c] t IH]; cbn [filter keys map fst]; intros H; [constructor|].
  inversion H as [|? ? Hni Hnd]; subst.
  destruct (negb (mem k vs)); [|apply IH; exact Hnd].
  cbn [keys map fst]. constructor; [|apply IH; exact Hnd].
  intros Hi. apply Hni. eapply without_keys_In. exact Hi.
Qed.

Lemma NoDup_cons_rm k c l : NoDup (keys l) -> NoDup (keys ((k, c) :: rm k l)).
Proof.
  intros H. cbn [keys map fst]. constructor; [apply rm_not_in | apply rm_NoDup; exact H].
Qed.

Lemma perm_NoDup_keys a b : Permutation b a -> NoDup (keys a) -> NoDup (keys b).
Proof. intros P H. eapply NoDup_keys_perm; [apply Permutation_sym; exact P | exact H]. Qed.

Lemma perm_cons_inv_NoDup (x : kc) T R : NoDup (keys T) -> Permutation T (x :: R) -> NoDup (keys R).
Proof.
  intros Hnd HP. apply (NoDup_keys_perm _ _ HP) in Hnd. cbn [keys map] in Hnd.
  inversion Hnd; assumption.
Qed.

(** two segments tracked side by side (Slru, Arc, TinyLfu): they share no key *)
Lemma In_keys_app k (a b : list kc) : In k (keys (a ++ b)) <-> In k (keys a) \/ In k (keys b).
Proof. rewrite keys_app. apply in_app_iff. Qed.

Lemma seg_not_right k (a b : list kc) : NoDup (keys (a ++ b)) -> In k (keys a) -> ~ In k (keys b).
Proof. rewrite keys_app. apply NoDup_app_disjoint. Qed.

Lemma seg_not_left k (a b : list kc) : NoDup (keys (a ++ b)) -> In k (keys b) -> ~ In k (keys a).
Proof. intros Hnd Hb Ha. exact (seg_not_right k a b Hnd Ha Hb). Qed.

(* `push_front(k, c)` on the right segment, k coming from either segment ... *)
Lemma perm_push_right k c a b : Permutation (rm k a ++ (k, c) :: rm k b) ((k, c) :: rm k (a ++ b)).
Proof. rewrite rm_app. apply Permutation_sym, Permutation_middle. Qed.

(* ... or known not to be in the left one *)
Lemma perm_touch_right k c a b :
  ~ In k (keys a) -> Permutation (a ++ (k, c) :: rm k b) ((k, c) :: rm k (a ++ b)).
Proof. intros H. rewrite <- (rm_id k a H) at 1. apply perm_push_right. Qed.

(* victims V1, V2 taken out of two segments *)
Lemma perm_split_app (a b v1 v2 r1 r2 : list kc) :
  Permutation a (v1 ++ r1) -> Permutation b (v2 ++ r2) ->
  Permutation (a ++ b) ((v1 ++ v2) ++ r1 ++ r2).
Proof.
  intros Ha Hb. eapply Permutation_trans; [apply Permutation_app; eassumption|].
  rewrite <- !app_assoc. apply Permutation_app_head.
  rewrite !app_assoc. apply Permutation_app_tail. apply Permutation_app_comm.
Qed.

Lemma sum_costs_keys T V :
  NoDup (keys T) -> incl V T -> sumN (map (cost_of T) (keys V)) = total V.
Proof.
  intros Hnd. induction V as [|[k c] t IH]; cbn [keys map fst sumN total]; intros Hin; [reflexivity|].
  unfold cost_of at 1. rewrite (NoDup_lookup k c T Hnd) by (apply Hin; left; reflexivity).
  f_equal. apply IH. intros x Hx. apply Hin. right. exact Hx.
Qed.

(** The workhorse: if the tracked list splits (up to permutation) into the
    victims V and the survivors T', and the eviction stopped because enough was
    freed or nothing is left, the C14 evict clause holds. *)
Lemma evict_ok_split T T' V n c :
  NoDup (keys T) -> Permutation T (V ++ T') -> c = total V ->
  (n <= c \/ T' = []) ->
  evict_ok T T' n (keys V) c.
Proof.
  intros Hnd HP Hc Hstop.
  assert (HndVT : NoDup (keys V ++ keys T')).
  { rewrite <- keys_app. eapply NoDup_keys_perm; eauto. }
  unfold evict_ok. repeat split.
  - apply NoDup_app_l in HndVT. exact HndVT.
  - intros x Hx. eapply Permutation_in.
    + apply Permutation_sym, keys_perm. exact HP.
    + rewrite keys_app. apply in_or_app. left. exact Hx.
  - rewrite Hc. symmetry. apply sum_costs_keys; [exact Hnd|].
    intros x Hx. eapply Permutation_in; [apply Permutation_sym; exact HP|].
    apply in_or_app. left. exact Hx.
  - apply Permutation_sym.
    eapply Permutation_trans; [apply without_perm; exact HP|]. rewrite without_app.
    rewrite without_all by apply incl_refl.
    rewrite without_none; [apply Permutation_refl|].
    intros x Hx Hv. eapply NoDup_app_disjoint; eauto.
  - intros Hn. destruct Hstop as [Hs|Hs]; [exact Hs|].
    rewrite Hs, app_nil_r in HP. apply total_perm in HP. lia.
Qed.

Lemma evict_ok_core T T' n vs c : evict_ok T T' n vs c -> evict_core T T' vs c.
Proof. intros [A [B [C [D _]]]]. repeat split; assumption. Qed.

Lemma evict_core_ok T T' n vs c :
  evict_core T T' vs c -> (n <= total T -> n <= c) -> evict_ok T T' n vs c.
Proof. intros [A [B [C D]]] E. repeat split; assumption. Qed.

(** [access_update] by cases on whether the key is tracked *)
Lemma access_update_in T T' k c :
  In k (keys T) -> Permutation T' ((k, c) :: rm k T) -> access_update T T' k c.
Proof.
  intros Hi P. unfold access_update. destruct (In_keys_lookup _ _ Hi) as [c0 ->]. exact P.
Qed.

Lemma access_update_out T T' k c : ~ In k (keys T) -> Permutation T' T -> access_update T T' k c.
Proof. intros Hn P. unfold access_update. apply lookup_None in Hn. rewrite Hn. exact P. Qed.

Lemma access_update_inv_in T T' k c :
  In k (keys T) -> access_update T T' k c -> Permutation T' ((k, c) :: rm k T).
Proof.
  intros Hi. unfold access_update. destruct (In_keys_lookup _ _ Hi) as [c0 ->]. exact (fun P => P).
Qed.

(** when the access passes the recorded cost (what the cache does: the entry's
    cost), on_access leaves every recorded cost as it is *)
Lemma access_update_same T T' k c :
  NoDup (keys T) -> lookup k T = Some c -> access_update T T' k c -> access_keep T T' k c.
Proof.
  unfold access_update, access_keep. intros Hnd Hl. rewrite Hl. intros P.
  eapply Permutation_trans; [exact P|]. apply perm_rm_cons; assumption.
Qed.

(** Every clause of the contract keeps the tracked keys duplicate-free ... *)
Lemma access_keep_NoDup T T' k c : NoDup (keys T) -> access_keep T T' k c -> NoDup (keys T').
Proof. intros H P. eapply perm_NoDup_keys; eauto. Qed.

Lemma access_update_NoDup T T' k c : NoDup (keys T) -> access_update T T' k c -> NoDup (keys T').
Proof.
  unfold access_update. intros H P. destruct (lookup k T).
  - eapply perm_NoDup_keys; [exact P | apply NoDup_cons_rm; exact H].
  - eapply perm_NoDup_keys; eauto.
Qed.

Lemma admit_full_NoDup T T' k c : NoDup (keys T) -> admit_full T T' k c -> NoDup (keys T').
Proof. intros H P. eapply perm_NoDup_keys; [exact P | apply NoDup_cons_rm; exact H]. Qed.

Lemma admit_keep_old_NoDup T T' k c : NoDup (keys T) -> admit_keep_old T T' k c -> NoDup (keys T').
Proof.
  unfold admit_keep_old. intros H P. destruct (lookup k T) eqn:E.
  - eapply perm_NoDup_keys; eauto.
  - eapply perm_NoDup_keys; [exact P|]. cbn [keys map fst].
    constructor; [apply lookup_None; exact E | exact H].
Qed.

Lemma admit_demote_NoDup T T' k c : NoDup (keys T) -> admit_demote T T' k c -> NoDup (keys T').
Proof.
  intros H [D [_ [_ [_ P]]]]. eapply perm_NoDup_keys; [exact P|].
  apply NoDup_cons_rm. apply without_NoDup. exact H.
Qed.

Lemma admit_evict_full_NoDup T T' k c vs :
  NoDup (keys T) -> admit_evict_full T T' k c vs -> NoDup (keys T').
Proof.
  intros H [_ [_ P]]. eapply perm_NoDup_keys; [exact P|].
  apply without_NoDup. apply NoDup_cons_rm. exact H.
Qed.

Lemma evict_core_NoDup T T' vs c : NoDup (keys T) -> evict_core T T' vs c -> NoDup (keys T').
Proof.
  intros H [_ [_ [_ P]]]. eapply perm_NoDup_keys; [exact P | apply without_NoDup; exact H].
Qed.

Definition keeps_nodup4 (cl : list kc -> list kc -> N -> N -> Prop) : Prop :=
  forall T T' k c, NoDup (keys T) -> cl T T' k c -> NoDup (keys T').

Lemma step_okG_NoDup (acc adm : list kc -> list kc -> N -> N -> Prop) T cl o T' :
  keeps_nodup4 acc -> keeps_nodup4 adm ->
  NoDup (keys T) -> step_okG acc adm evict_ok T cl o T' -> NoDup (keys T').
Proof.
  intros Hacc Hadm HT Hok.
  destruct cl as [k c|k c|k|n|]; destruct o as [| | |vs|vs c0]; cbn [step_okG] in Hok;
    try contradiction.
  - eapply Hacc; eauto.
  - eapply Hadm; eauto.
  - eapply admit_evict_full_NoDup; eauto.
  - eapply perm_NoDup_keys; [exact Hok | apply rm_NoDup; exact HT].
  - eapply evict_core_NoDup; [exact HT | eapply evict_ok_core; exact Hok].
  - rewrite Hok. constructor.
Qed.

(** ... so the per-step clauses, proved for a state without duplicates, are all
    that a policy owes: they lift to every call sequence. *)
Lemma prun_app P s a b :
  fst (prun P s (a ++ b)) = fst (prun P (fst (prun P s a)) b).
Proof.
  revert s. induction a as [|c r IH]; intros s; cbn [app prun]; [reflexivity|].
  destruct (pstep P s c) as [s1 o]. specialize (IH s1).
  destruct (prun P s1 (r ++ b)) as [s2 os] eqn:E1.
  destruct (prun P s1 r) as [s3 os3] eqn:E2.
  cbn [fst] in *. exact IH.
Qed.

Lemma contractG_lift_nodup (acc adm : list kc -> list kc -> N -> N -> Prop) (P : policy) :
  keeps_nodup4 acc -> keeps_nodup4 adm ->
  NoDup (keys (ptracked P (pinit P))) ->
  (forall s cl, NoDup (keys (ptracked P s)) ->
     let '(s', o) := pstep P s cl in step_okG acc adm evict_ok (ptracked P s) cl o (ptracked P s')) ->
  contractG acc adm evict_ok P.
Proof.
  intros Hacc Hadm Hinit Hok cs.
  assert (HI : NoDup (keys (ptracked P (pstate_after P cs)))).
  { unfold pstate_after. induction cs as [|c r IH] using rev_ind; [exact Hinit|].
    rewrite prun_app. cbn [prun]. specialize (Hok _ c IH).
    destruct (pstep P (fst (prun P (pinit P) r)) c) as [s1 o]. cbn [fst].
    exact (step_okG_NoDup _ _ _ _ _ _ Hacc Hadm IH Hok). }
  cbv zeta. split; [exact HI | intros cl; apply Hok; exact HI].
Qed.

(** the contract is monotone in its clauses: refuting a weakened statement
    refutes every stronger one, in particular the full one *)
Lemma contractG_mono (acc acc' adm adm' : list kc -> list kc -> N -> N -> Prop)
      (ev ev' : list kc -> list kc -> N -> list N -> N -> Prop) (P : policy) :
  (forall T T' k c, acc T T' k c -> acc' T T' k c) ->
  (forall T T' k c, adm T T' k c -> adm' T T' k c) ->
  (forall T T' n vs c, ev T T' n vs c -> ev' T T' n vs c) ->
  contractG acc adm ev P -> contractG acc' adm' ev' P.
Proof.
  intros Hacc Hadm Hev H cs. specialize (H cs). cbv zeta in *. destruct H as [Hnd H].
  split; [exact Hnd|]. intros cl. specialize (H cl).
  destruct (pstep P (pstate_after P cs) cl) as [s' o].
  destruct cl as [k c|k c|k|n|]; destruct o as [| | |vs|vs c0]; cbn [step_okG] in *; auto.
Qed.

(** The outer eviction loop ([evict_loop] of PolicySieve.v, shared by Sieve,
    Clock, Random and Arc): every iteration removes one tracked entry, and the
    search for a victim fails only when nothing is tracked. *)
Section Loop.
  Context {St : Type} (one : St -> option (ent * St)) (tr : St -> list kc).
  Hypothesis one_some : forall s v s', NoDup (keys (tr s)) -> one s = Some (v, s') ->
                                       Permutation (tr s) (ekc v :: tr s').
  Hypothesis one_none : forall s, one s = None -> tr s = [].

  Lemma evict_loop_spec fuel : forall want freed s acc s' vs f,
    NoDup (keys (tr s)) -> (length (tr s) <= fuel)%nat ->
    evict_loop one fuel want freed s acc = (s', vs, f) ->
    exists V, vs = rev acc ++ keys V /\ f = freed + total V
      /\ Permutation (tr s) (V ++ tr s')
      /\ (want <= f \/ tr s' = []).
  Proof.
    induction fuel as [|fu IH]; intros want freed s acc s' vs f Hnd Hlen H; cbn [evict_loop] in H;
      [|destruct (N.ltb_spec freed want) as [Hlt|Hge]; [destruct (one s) as [[v s1]|] eqn:E|]].
    2: { (* one more victim *)
      pose proof (one_some _ _ _ Hnd E) as HP.
      assert (Hlen1 : (length (tr s1) <= fu)%nat).
      { apply Permutation_length in HP. cbn [length] in HP. lia. }
      destruct (IH _ _ _ _ _ _ _ (perm_cons_inv_NoDup _ _ _ Hnd HP) Hlen1 H) as [V [Hv [Hf [HP2 Hs]]]].
      exists (ekc v :: V). cbn [keys map fst app total]. repeat split.
      - rewrite Hv. cbn [rev]. rewrite <- app_assoc. reflexivity.
      - rewrite Hf. unfold ekc, ecost. destruct v as [[vk vc] vf]. cbn [fst snd]. lia.
      - eapply Permutation_trans; [exact HP|]. constructor. exact HP2.
      - exact Hs. }
    (* the three ways the loop stops *)
    all: inversion H; subst; exists []; cbn [keys map app total];
      rewrite app_nil_r, N.add_0_r; repeat split; [apply Permutation_refl|].
    - right. destruct (tr s'); [reflexivity | cbn [length] in Hlen; lia].
    - right. apply one_none. exact E.
    - left. exact Hge.
  Qed.

  Lemma evict_loop_ok fuel n s s' vs f :
    NoDup (keys (tr s)) -> (length (tr s) <= fuel)%nat ->
    evict_loop one fuel n 0 s [] = (s', vs, f) ->
    evict_ok (tr s) (tr s') n vs f.
  Proof.
    intros Hnd Hlen H.
    destruct (evict_loop_spec _ _ _ _ _ _ _ _ Hnd Hlen H) as [V [Hv [Hf [HP Hs]]]].
    cbn [rev app] in Hv. subst vs. apply evict_ok_split; [exact Hnd | exact HP | lia | exact Hs].
  Qed.
End Loop.
