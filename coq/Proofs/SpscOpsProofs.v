(* Invariants of the K2 SPSC model for ALL op histories. *)
From Coq Require Import List Arith ZArith Bool Lia.
From Fibre Require Import Chan.SpscOps.
Import ListNotations.
Open Scope nat_scope.

(** * counting occurrences: conservation is stated with counts, derived Permutation/NoDup at the end *)
Definition cnt (x : nat) (l : list nat) : nat := count_occ Nat.eq_dec l x.

Lemma cnt_nil x : cnt x [] = 0.
Proof. reflexivity. Qed.
Lemma cnt_cons x y l : cnt x (y :: l) = (if y =? x then 1 else 0) + cnt x l.
Proof.
  unfold cnt. cbn [count_occ]. destruct (Nat.eq_dec y x) as [E|E].
  - subst. rewrite Nat.eqb_refl. reflexivity.
  - apply Nat.eqb_neq in E. rewrite E. reflexivity.
Qed.
Lemma cnt_app x a b : cnt x (a ++ b) = cnt x a + cnt x b.
Proof. unfold cnt. apply count_occ_app. Qed.
Lemma cnt_split k l x : cnt x l = cnt x (firstn k l) + cnt x (skipn k l).
Proof. rewrite <- cnt_app, firstn_skipn. reflexivity. Qed.
Ltac b2p :=
  repeat match goal with
         | H : (_ =? _) = true |- _ => apply Nat.eqb_eq in H
         | H : (_ =? _) = false |- _ => apply Nat.eqb_neq in H
         | H : (_ <=? _) = true |- _ => apply Nat.leb_le in H
         | H : (_ <=? _) = false |- _ => apply Nat.leb_gt in H
         | H : (_ <? _) = true |- _ => apply Nat.ltb_lt in H
         | H : (_ <? _) = false |- _ => apply Nat.ltb_ge in H
         | H : (_ || _) = true |- _ => apply orb_true_iff in H
         | H : (_ || _) = false |- _ => apply orb_false_iff in H; destruct H
         | H : (_ && _) = true |- _ => apply andb_true_iff in H; destruct H
         | H : (_ && _) = false |- _ => apply andb_false_iff in H
         end.

Lemma cnt_seq x a n : cnt x (seq a n) = if a <=? x then (if x <? a + n then 1 else 0) else 0.
Proof.
  revert a. induction n as [|n IH]; intros a; cbn [seq].
  - rewrite cnt_nil. destruct (a <=? x) eqn:E1, (x <? a + 0) eqn:E2; try reflexivity.
    apply Nat.leb_le in E1. apply Nat.ltb_lt in E2. lia.
  - rewrite cnt_cons, IH.
    destruct (a =? x) eqn:E0, (S a <=? x) eqn:E1, (x <? S a + n) eqn:E2, (a <=? x) eqn:E3, (x <? a + S n) eqn:E4;
      cbn; try reflexivity; b2p; lia.
Qed.

Arguments cnt : simpl never.
Arguments Nat.ltb : simpl never.
Arguments Nat.leb : simpl never.
Arguments Nat.eqb : simpl never.
Arguments Nat.add : simpl never.
Arguments Nat.sub : simpl never.
Arguments Nat.min : simpl never.
Arguments seq : simpl never.
Arguments firstn : simpl never.
Arguments skipn : simpl never.
Arguments Z.eqb : simpl never.
Arguments Z.sub : simpl never.

Definition tot (x : nat) (s : st) : nat :=
  cnt x (received s) + cnt x (q s) + cnt x (held s) + cnt x (returned s) + cnt x (dropped s) + cnt x (drained s).

Definition alive (s : st) : bool := match sh s, rh s with HGone, HGone => false | _, _ => true end.

(* The data.  d_len, d_fifo: capacity and order (C03, C02).  d_cons: every id below `next` is in exactly
   one place (C01, C09).  d_alive, d_dead: the ring is drained only when the second handle goes, and then
   completely; without them d_fifo could not tell buffered from drained.  d_sf, d_rf: a future lives only
   on an async handle that is still there, so a dropped handle leaves no future holding ids. *)
Record InvD (s : st) : Prop := {
  d_len : length (q s) <= cap s;
  d_fifo : accepted s = received s ++ q s ++ drained s;
  d_cons : forall x, tot x s = if x <? next s then 1 else 0;
  d_alive : alive s = true -> drained s = [];
  d_dead : alive s = false -> q s = [];
  d_sf : sf s <> None -> exists c, sh s = HLive KAsync c;
  d_rf : rf s <> None -> exists c, rh s = HLive KAsync c
}.

Ltac split1 :=
  match goal with
  | |- context [match ?x with _ => _ end] =>
      match x with
      | context [match _ with _ => _ end] => fail 1
      | _ => destruct x eqn:?
      end
  end.


Ltac unf_ops :=
  unfold do_try_send, do_send, do_try_send_batch, do_send_batch, do_try_send_batch_mut, do_send_batch_mut,
    do_close_s, do_obs_s, do_conv_s, do_drop_s, do_mk_s, do_poll_s, do_dropfut_s,
    do_recv1, do_recvn, do_close_r, do_obs_r, do_conv_r, do_drop_r, do_mk_r, do_poll_r, do_dropfut_r, do_stream_next,
    gate_s, gate_r, free.
Ltac unf_prims :=
  unfold push, pop, give_back, destroy, alloc, free, close_int_s, close_int_r, close_int_s_if, close_int_r_if,
    shared_drop_if, both_gone, clear_stream_pend, clear_fut_pend, note_disc, stream_unreg,
    wake_r, wake_s, wake_r_if, wake_s_if, senders_alive.

Ltac hrw :=
  repeat match goal with
         | H : sh ?s = _ |- _ => rewrite H in *
         | H : rh ?s = _ |- _ => rewrite H in *
         | H : sf ?s = _ |- _ => rewrite H in *
         | H : rf ?s = _ |- _ => rewrite H in *
         | H : q ?s = _ |- _ => rewrite H in *
         end.
Ltac kinds :=
  repeat match goal with
         | H : kind_eqb ?k _ = true |- _ => destruct k; try discriminate H; clear H
         end.
Ltac lens := rewrite ?app_length, ?firstn_length, ?skipn_length, ?seq_length in *; cbn [length] in *.
Ltac exec_cases o := destruct o; cbn [exec]; unf_ops; cbn; repeat (split1; cbn).

(* A part of the invariant reads few fields (its view), and most branches leave them alone.  The view has to
   be computed before it is compared: conversion of two nested setter terms that are not syntactically
   equal takes time exponential in the nesting depth. *)
Ltac same_view v := unfold v; unf_prims; cbn; reflexivity.

(* ids allocated now are new: with the ids allocated before they are the ids below the new `next` *)
Lemma cnt_fresh x a n : (if x <? a then 1 else 0) + cnt x (seq a n) = if x <? a + n then 1 else 0.
Proof.
  rewrite cnt_seq.
  destruct (x <? a) eqn:E1, (a <=? x) eqn:E2, (x <? a + n) eqn:E3; try reflexivity; b2p; lia.
Qed.

(* a batch that was written in part: its ids are those written and those left; nothing is left of a
   batch that was written completely *)
Ltac cnt_splits x :=
  repeat match goal with
         | |- context [cnt x (?f ?k ?l)] =>
             lazymatch f with @firstn _ => idtac | @skipn _ => idtac end;
             lazymatch goal with
             | _ : cnt x l = cnt x (firstn k l) + cnt x (skipn k l) |- _ => fail
             | _ => pose proof (cnt_split k l x)
             end
         end;
  repeat match goal with
         | H : context [skipn ?k ?l] |- _ =>
             rewrite (skipn_all2 (n:=k) l) in H by (cbn [length]; rewrite ?seq_length; lia)
         end.

(* Branches that do not change the state end at `exact HD`.  For the others the state is computed once and
   the seven clauses are taken in turn, each by the line under its name; a clause the branch does not touch
   is closed by `assumption` right after `constructor`. *)
Lemma invd_exec cf s o : InvD s -> InvD (fst (exec cf s o)).
Proof.
  intros HD. exec_cases o.
  all: try exact HD.
  all: destruct HD as [Hl Hf Hc Ha Hd Hsf Hrf].
  (* the op was let through by a live handle, so nothing has been drained yet *)
  all: try (assert (Hdr : drained s = []) by (apply Ha; unfold alive; hrw; try destruct (sh s); reflexivity)).
  all: try match goal with |- context [shared_drop_if] => unfold shared_drop_if, both_gone; cbn; split1; cbn end.
  all: kinds; unf_prims; cbn.
  all: constructor; unfold alive, tot, held in *; cbn; try assumption.
  (* d_cons: the count of x over all places is the old one, plus one if x is among the ids allocated now;
     what remains is to see that every id moved to exactly one place *)
  all: try (intros x; rewrite <- ?cnt_fresh, <- (Hc x); change (seq (next s) 1) with [next s]; hrw; cbn;
            rewrite ?cnt_app, ?cnt_nil; b2p; cnt_splits x; rewrite ?cnt_nil in *; lia).
  (* d_len *)
  all: try (lens; b2p; lia).
  (* d_sf, d_rf *)
  all: try (hrw; cbn; intros;
            first [discriminate | congruence | eexists; reflexivity | apply Hsf; congruence | apply Hrf; congruence]).
  (* d_fifo *)
  all: try (rewrite Hf, ?Hdr, ?app_nil_r, <- ?app_assoc; repeat f_equal; rewrite ?app_assoc, ?firstn_skipn; reflexivity).
  (* d_alive, d_dead *)
  all: hrw; cbn; intros; rewrite ?Hdr, ?app_nil_r;
       first [discriminate | reflexivity | destruct (sh s); discriminate | auto].
Qed.

Definition is_gone (h : hst) : bool := match h with HGone => true | HLive _ _ => false end.

Ltac z2p :=
  repeat match goal with
         | H : (_ =? _)%Z = true |- _ => apply Z.eqb_eq in H
         | H : (_ =? _)%Z = false |- _ => apply Z.eqb_neq in H
         | H : negb _ = true |- _ => apply negb_true_iff in H
         | H : negb _ = false |- _ => apply negb_false_iff in H
         end.

(* The counts the code keeps, against the ghost record of what happened (`s_ever`/`r_ever`: close()
   returned Ok on that side).  k_cdrop, k_pdrop say what the shared flags mean; k_cd, k_pd, k_sc, k_rc tie the
   counts to the flags, so that "count = 1" is the same as "that side has not left": the wake-up on close
   and the receiver's disconnect test rest on it.  k_scl, k_rcl: a handle's own closed flag is set only by
   close(); the converse fails in the code as it is (a conversion resets the flag, F-07), and it is what
   lets a second close() decrement the count again, hence only `<= 1` in k_sc, k_rc. *)
Record InvK (s : st) : Prop := {
  k_cd : cdrop s = false -> rcount s = 1%Z;
  k_pd : pdrop s = false -> scount s = 1%Z;
  k_sc : (scount s <= 1)%Z;
  k_rc : (rcount s <= 1)%Z;
  k_cdrop : cdrop s = r_ever s || is_gone (rh s);
  k_pdrop : pdrop s = s_ever s || is_gone (sh s);
  k_scl : forall k, sh s = HLive k true -> s_ever s = true;
  k_rcl : forall k, rh s = HLive k true -> r_ever s = true
}.

Ltac hyps_ifs :=
  repeat match goal with
         | H : context [if ?b then _ else _] |- _ => destruct b eqn:?
         | H : context [match ?x with _ => _ end] |- _ =>
             match x with context [match _ with _ => _ end] => fail 1 | _ => destruct x eqn:? end
         end.

Ltac kfin :=
  intros; unfold alive in *; unf_prims; cbn in *; hrw; cbn in *;
  repeat (split1; cbn in * ); hyps_ifs; b2p; z2p; subst; cbn in *;
  try discriminate; try congruence; try lia; auto.

Definition viewK (s : st) := (cdrop s, rcount s, pdrop s, scount s, (r_ever s, s_ever s, rh s, sh s)).

Lemma invk_view s s' : viewK s' = viewK s -> InvK s -> InvK s'.
Proof.
  intros [= A B C D E F G H] [H1 H2 H3 H4 H5 H6 H7 H8].
  constructor; rewrite ?A, ?B, ?C, ?D, ?E, ?F, ?G, ?H; assumption.
Qed.

Lemma invk_exec cf s o : InvK s -> InvK (fst (exec cf s o)).
Proof.
  intros HK. exec_cases o.
  all: try (apply (invk_view s); [same_view viewK | assumption]).
  (* Left: close, conversion and drop of either handle.  kfin computes the clause and closes those about
     counts (lia) and unchanged flags; what remains is k_cdrop / k_pdrop and k_scl / k_rcl, by cases on the
     handle's closed flag: a closed handle has s_ever / r_ever (Hscl, Hrcl), which decides the flag equation
     (Hp, Hc) after close and drop, and a conversion keeps or clears the flag. *)
  all: destruct HK as [Hcd Hpd Hsc Hrc Hc Hp Hscl Hrcl].
  all: constructor; kfin; eauto.
  all: rewrite ?orb_true_r.
  all: destruct closed; cbn; rewrite ?orb_true_r, ?orb_false_r; auto.
  all: try (rewrite Hp, (Hscl _ eq_refl); reflexivity).
  all: try (rewrite Hc, (Hrcl _ eq_refl); reflexivity).
  all: try (apply (Hscl k eq_refl)); try (apply (Hrcl k eq_refl)).
  all: try congruence.
  all: try (eapply Hrcl; reflexivity); try (eapply Hscl; reflexivity).
Qed.

(* The sender's waiter slot.  s_pw: a waker in the slot is that of the pending poll (no dangling
   registration).  s_sp: a pending poll belongs to a registered future that still holds something, on an
   open handle.  s_spw: as long as it has not been woken, its waker is in the slot, the queue is full and
   the receiver is there - so whatever makes room, or the receiver leaving, finds the waker (C06). *)
Record InvS (s : st) : Prop := {
  s_pw : forall w, pw s = Some w -> s_pend s = Some w;
  s_sp : forall w, s_pend s = Some w ->
         exists f k, sf s = Some (f, true) /\ held_of f <> [] /\ sh s = HLive k false;
  s_spw : forall w, s_pend s = Some w -> s_woken s = false ->
          pw s = Some w /\ length (q s) = cap s /\ cdrop s = false
}.

Lemma skipn_nonnil (k : nat) (l : list nat) : k < length l -> skipn k l <> [].
Proof. intros H E. apply (f_equal (@length nat)) in E. rewrite skipn_length in E. cbn in E. lia. Qed.

Ltac orbs :=
  repeat match goal with
         | H : _ || _ = false |- _ => apply orb_false_iff in H; destruct H
         | H : _ && _ = true |- _ => apply andb_true_iff in H; destruct H
         end.

Definition viewS (s : st) := (pw s, s_pend s, s_woken s, sf s, (sh s, length (q s), cap s, cdrop s)).

Lemma invs_view s s' : viewS s' = viewS s -> InvS s -> InvS s'.
Proof.
  intros [= A B C D E F G H] [H1 H2 H3].
  constructor; rewrite ?A, ?B, ?C, ?D, ?E, ?F, ?G, ?H; assumption.
Qed.

Ltac inv_s H := destruct H as [Hpw Hsp Hspw].

(* without a send future nothing is registered or pending, and nothing the sender then does changes that *)
Lemma invs_idle s s' : sf s = None -> (pw s', s_pend s') = (pw s, s_pend s) -> InvS s -> InvS s'.
Proof.
  intros Hf [= Ep Es] HS. inv_s HS.
  assert (Hn : s_pend s = None).
  { destruct (s_pend s) as [w|]; [|reflexivity]. destruct (Hsp w eq_refl) as (f & k & E' & _). congruence. }
  assert (Hm : pw s = None).
  { destruct (pw s) as [w|]; [|reflexivity]. rewrite (Hpw w eq_refl) in Hn. discriminate. }
  constructor; rewrite ?Ep, ?Es, ?Hn, ?Hm; discriminate.
Qed.

(* room is made (a pop) or the receiver leaves (b): a sender that is waiting is woken *)
Lemma invs_wake (b : bool) s s' :
  (pw s', s_pend s', s_woken s', sf s', sh s') = (if b then None else pw s, s_pend s, s_woken s || b && opt_is (pw s), sf s, sh s) ->
  (b = false -> s_pend s <> None -> length (q s') = length (q s) /\ cap s' = cap s /\ cdrop s' = cdrop s) ->
  InvS s -> InvS s'.
Proof.
  intros [= E1 E2 E3 E4 E5] Hb HS. inv_s HS. constructor; rewrite ?E1, ?E2, ?E3, ?E4, ?E5; try assumption.
  - destruct b; [discriminate | apply Hpw].
  - intros w Hp Hw. apply orb_false_iff in Hw. destruct Hw as [Hw Hn].
    destruct (Hspw w Hp Hw) as (A & B & C). rewrite A in Hn. destruct b; [discriminate|].
    destruct (Hb eq_refl) as (-> & -> & ->); [congruence | auto].
Qed.
(* a send future resolves or is dropped: the slot is empty, or as it was if the future was not registered *)
Lemma invs_resolve f reg s s' :
  sf s = Some (f, reg) -> s_pend s' = None -> pw s' = None \/ reg = false /\ pw s' = pw s -> InvS s -> InvS s'.
Proof.
  intros Hf Hn Hp HS. inv_s HS. constructor; rewrite ?Hn; try discriminate.
  intros w Hw. exfalso. destruct Hp as [Hp|[-> Hp]]; [congruence|]. rewrite Hp in Hw.
  destruct (Hsp w (Hpw w Hw)) as (f' & k & E & _). congruence.
Qed.

(* a send future goes to sleep: its handle is open, the receiver there, the queue full *)
Lemma invs_pending f k w s' :
  (pw s', s_pend s', s_woken s', sf s', (sh s', cdrop s')) = (Some w, Some w, false, Some (f, true), (HLive k false, false)) ->
  held_of f <> [] -> length (q s') = cap s' -> InvS s'.
Proof.
  intros [= E1 E2 E3 E4 E5 E6] Hh Hl. constructor; rewrite ?E1, ?E2, ?E3, ?E4, ?E5, ?E6.
  - exact (fun w H => H).
  - intros _ _. eauto.
  - intros w0 [= <-] _. auto.
Qed.

Lemma invs_exec cf s o : InvD s -> InvK s -> InvS s -> InvS (fst (exec cf s o)).
Proof.
  intros HD HK HS. exec_cases o.
  all: try (apply (invs_view s); [same_view viewS | assumption]).
  all: try (apply (invs_idle s); [assumption | unf_prims; cbn; reflexivity | assumption]).
  all: try (apply (invs_wake true s); [unf_prims; cbn; reflexivity | discriminate | assumption]).
  all: kinds.
  all: try (eapply (invs_resolve _ _ s); [eassumption | reflexivity | unf_prims; cbn; auto | assumption]).
  (* PollS returns Pending: the future holds something, and the queue is full (d_len) *)
  1-3: eapply invs_pending; [unf_prims; cbn; hrw; b2p; orbs; subst; match goal with H : cdrop _ = false |- _ => rewrite H end; reflexivity | subst; cbn | unf_prims; cbn; lens; b2p; pose proof (d_len _ HD); lia].
  1: discriminate.
  1-2: apply skipn_nonnil; b2p; cbn [length]; lia.
  (* CloseR, DropR: if the sender is not woken, the receiver had left before *)
  all: match goal with
       | |- context [close_int_r_if ?b] =>
           apply (invs_wake (b && (rcount s =? 1)%Z) s); [unf_prims; cbn; reflexivity | | assumption]
       | _ => apply (invs_wake (rcount s =? 1)%Z s); [unf_prims; cbn; reflexivity | | assumption]
       end.
  all: intros Hb Hp; unf_prims; cbn.
  all: repeat split.
  (* a sender is waiting, so its handle is there and the ring is not drained *)
  all: try (destruct (s_pend s) as [w|] eqn:E; [|congruence]; destruct (s_sp _ HS w E) as (f & k0 & _ & _ & ->); reflexivity).
  all: destruct (cdrop s) eqn:E; [reflexivity|].
  all: rewrite (k_cd _ HK E), Z.eqb_refl, ?andb_true_r in Hb; rewrite ?Hb; first [discriminate Hb | reflexivity].
Qed.

(* The receiver's waiter slot, shared by the receive futures and the Stream registration.  r_cw, r_rreg: a
   waker in the slot belongs to a registered future or to the Stream registration of a live async handle.
   r_pf, r_ps: the pending poll (`r_pend`, the most recent one) is that of a registered future on an open
   handle - an empty batch never waits - or of the Stream.  r_pw: as long as it has not been woken, its waker
   is in the slot, the queue is empty and a sender is counted; the pdrop conjunct is there because a batch
   future tests producer_dropped where the other forms test the count, and the two can disagree (after F-07
   a second close() takes the count past 0).  r_fp: a registered future has a pending poll; without it a resolved
   future could leave the Stream's pending poll with an emptied slot. *)
Record InvR (s : st) : Prop := {
  r_cw : forall w, cw s = Some w -> (exists f, rf s = Some (f, true)) \/ rreg s = true;
  r_rreg : rreg s = true -> exists c, rh s = HLive KAsync c;
  r_pf : forall w, r_pend s = Some (OFut, w) ->
         exists f k, rf s = Some (f, true) /\ rh s = HLive k false /\ (forall m, f = RFBatch m -> m <> 0);
  r_ps : forall w, r_pend s = Some (OStream, w) -> rreg s = true;
  r_pw : forall o w, r_pend s = Some (o, w) -> r_woken s = false ->
         cw s = Some w /\ q s = [] /\ scount s <> 0%Z /\
         (o = OFut -> forall m b, rf s = Some (RFBatch m, b) -> pdrop s = false);
  r_fp : forall f, rf s = Some (f, true) -> exists w, r_pend s = Some (OFut, w)
}.

Definition viewR (s : st) := (q s, cw s, rf s, rreg s, (rh s, r_pend s, r_woken s, scount s, pdrop s)).

Lemma invr_view s s' : viewR s' = viewR s -> InvR s -> InvR s'.
Proof.
  intros [= A B C D E F G H I] [H1 H2 H3 H4 H5 H6].
  constructor; rewrite ?A, ?B, ?C, ?D, ?E, ?F, ?G, ?H, ?I; assumption.
Qed.

Ltac inv_r H := destruct H as [Hcw Hrreg Hpf Hps Hrpw Hfp].

(* the queue changes, but an empty queue stays empty: a pop, or the drain when the second handle goes *)
Lemma invr_q q' s : (q s = [] -> q' = []) -> InvR s -> InvR (set_q q' s).
Proof.
  intros Hq HR. inv_r HR. constructor; cbn; try assumption.
  intros o w Hp Hw. destruct (Hrpw o w Hp Hw) as (A & B & C). auto.
Qed.

Lemma invr_push ids s : InvR s -> InvR (push ids s).
Proof.
  intros HR. inv_r HR. constructor; unf_prims; cbn; try assumption.
  - intros w. destruct (negb (is_nil ids)); [discriminate | apply Hcw].
  - intros o w Hp Hw. apply orb_false_iff in Hw. destruct Hw as [Hw Hn].
    destruct (Hrpw o w Hp Hw) as (A & B & C). rewrite A in Hn. cbn in Hn. rewrite andb_true_r in Hn.
    destruct ids; [|discriminate]. cbn. rewrite app_nil_r. auto.
Qed.

(* the sender closes or goes (b).  A receiver that is waiting and is not woken saw a count other than 1, so
   a sender remains; a batch future waits only while pdrop is false, that is while the count is 1 (k_pd),
   so it is woken *)
Lemma invr_close_s b s : InvK s -> InvR s -> InvR (close_int_s_if b s).
Proof.
  intros HK HR. inv_r HR. constructor; unf_prims; cbn; try assumption.
  - intros w. destruct (b && (scount s =? 1)%Z); [discriminate | apply Hcw].
  - intros o w Hp Hw. apply orb_false_iff in Hw. destruct Hw as [Hw Hn].
    destruct (Hrpw o w Hp Hw) as (A & B & C & D). rewrite A in Hn. cbn in Hn. rewrite andb_true_r in Hn. rewrite Hn.
    destruct b; [|rewrite orb_false_r; auto]. cbn in Hn. apply Z.eqb_neq in Hn.
    repeat split; auto; [pose proof (k_sc _ HK); lia|].
    intros -> m b Hf. destruct Hn. apply (k_pd _ HK), (D eq_refl m b Hf).
Qed.

(* with no future alive nothing is pending for a future, so the handle may change as long as a Stream
   registration keeps an async handle *)
Lemma invr_set_rh h s :
  rf s = None -> (rreg s = true -> exists c, h = HLive KAsync c) -> InvR s -> InvR (set_rh h s).
Proof.
  intros Hf Hh HR. inv_r HR. constructor; cbn; try assumption.
  intros w Hp. destruct (Hpf w Hp) as (f & k & E & _). congruence.
Qed.

(* the Stream side gives up its registration (b) and its pending poll *)
Lemma invr_stream_clear (b : bool) s :
  rf s = None -> InvR s -> InvR (clear_stream_pend (if b then stream_unreg s else s)).
Proof.
  intros Hf HR. inv_r HR.
  assert (Hp : match r_pend s with Some (OStream, _) => None | x => x end = None).
  { destruct (r_pend s) as [[[|] w]|]; try reflexivity. destruct (Hpf w eq_refl) as (f & k & E' & _). congruence. }
  constructor; destruct b; unf_prims; cbn; rewrite ?Hp, ?Hf; try discriminate; try assumption.
  - intros w Hw. destruct (rreg s) eqn:Er; [discriminate|]. destruct (Hcw w Hw) as [[f E]|E]; congruence.
  - intros w Hw. destruct (Hcw w Hw) as [[f E]|E]; [congruence | right; exact E].
Qed.

Lemma invr_mk f s : rf s = None -> InvR s -> InvR (set_rf (Some (f, false)) s).
Proof.
  intros Hf HR. inv_r HR.
  assert (Hp : forall w, r_pend s <> Some (OFut, w)).
  { intros w E. destruct (Hpf w E) as (f' & k & E' & _). congruence. }
  constructor; cbn; try assumption.
  - intros w Hw. destruct (Hcw w Hw) as [[f' E]|E]; [congruence | right; exact E].
  - intros w E. destruct (Hp w E).
  - intros o w E Hw. destruct (Hrpw o w E Hw) as (A & B & C & _). repeat split; auto. intros ->. destruct (Hp w E).
  - discriminate.
Qed.

(* a receive future resolves or is dropped: it leaves the waiter slot empty, or as it was if the future
   was not registered (or no sender is left to use the slot) *)
Lemma invr_resolve f reg cw' s :
  rf s = Some (f, reg) ->
  cw' = cw s /\ reg = false \/ cw' = None /\ (reg = true \/ scount s = 0%Z) ->
  InvR s -> InvR (clear_fut_pend (set_rf None (set_cw cw' s))).
Proof.
  intros Hf Hc HR. inv_r HR. constructor; unf_prims; cbn; try assumption; try discriminate.
  - intros w Hw. destruct Hc as [[-> ->]|[-> _]]; [|discriminate].
    destruct (Hcw w Hw) as [[f' E]|E]; [congruence | right; exact E].
  - intros w. destruct (r_pend s) as [[[|] ?]|]; discriminate.
  - intros w E. apply Hps with w. destruct (r_pend s) as [[[|] ?]|]; try discriminate; exact E.
  - intros o w E Hw. assert (E' : r_pend s = Some (o, w) /\ o = OStream)
      by (destruct (r_pend s) as [[[|] ?]|]; try discriminate; injection E as <- <-; auto).
    destruct E' as [E' ->]. destruct (Hrpw _ w E' Hw) as (A & B & C & _).
    repeat split; auto; try discriminate.
    destruct Hc as [[-> _]|[_ [->|Hz]]]; [exact A | | destruct (C Hz)].
    destruct (Hfp f Hf) as [w' E'']. congruence.
Qed.

(* a receive future goes to sleep: nothing to take, a sender still there *)
Lemma invr_pending f reg k w s :
  rf s = Some (f, reg) -> rh s = HLive k false -> q s = [] -> scount s <> 0%Z ->
  (forall m, f = RFBatch m -> m <> 0 /\ pdrop s = false) ->
  InvR s -> InvR (set_r_woken false (set_r_pend (Some (OFut, w)) (set_rf (Some (f, true)) (set_cw (Some w) s)))).
Proof.
  intros Hf Hh Hq Hs Hm HR. inv_r HR. constructor; cbn; try assumption; try discriminate.
  - intros w0 _. left. eauto.
  - intros w0 _. exists f, k. repeat split; auto. intros m E. apply (Hm m E).
  - intros o w0 [= <- <-] _. repeat split; auto. intros _ m b [= ->]. apply (Hm m eq_refl).
  - intros f0 _. eauto.
Qed.

Lemma invr_stream_pending c w s :
  rf s = None -> rh s = HLive KAsync c -> q s = [] -> scount s <> 0%Z ->
  InvR s -> InvR (set_r_woken false (set_r_pend (Some (OStream, w)) (set_rreg true (set_cw (Some w) s)))).
Proof.
  intros Hf Hh Hq Hs HR. inv_r HR. constructor; cbn; try assumption; try discriminate.
  - intros w0 _. right. reflexivity.
  - intros _. eauto.
  - reflexivity.
  - intros o w0 [= <- <-] _. repeat split; auto. discriminate.
  - intros f0 E. congruence.
Qed.

(* the state reached in a branch has the view of a state that a lemma speaks of; the views are compared
   field by field, the queue first, because that is where the lemma's parameters get their values *)
Tactic Notation "by_effect" uconstr(L) :=
  eapply invr_view; [ | eapply L ];
  [unfold viewR; unf_prims; cbn; repeat apply (f_equal2 pair); reflexivity | ..].
Ltac empty_stays := cbn; intros ->; reflexivity.

Lemma invr_exec cf s o : InvK s -> InvR s -> InvR (fst (exec cf s o)).
Proof.
  intros HK HR. exec_cases o.
  all: try (apply (invr_view s); [same_view viewR | assumption]).
  all: try (by_effect (invr_push _ s); assumption).
  all: try (by_effect (invr_q _ s); [empty_stays | assumption]).
  all: try (by_effect (invr_mk _ s); assumption).
  all: try (by_effect (invr_resolve _ _ _ s); [eassumption | auto | assumption]).
  all: try (by_effect (invr_resolve _ _ _ (set_q _ s)); [eassumption | auto | apply invr_q; [empty_stays | assumption]]).
  all: kinds.
  - (* CloseS *) by_effect (invr_close_s true s); assumption.
  - (* DropS *) by_effect (invr_q _ (close_int_s_if _ s)); [|apply invr_close_s; assumption].
    cbn. destruct (rh s); [|exact (fun H => H)]. reflexivity.
  - (* CloseR *) by_effect (invr_set_rh _ s); [assumption| |assumption].
    intros Hr. destruct (r_rreg _ HR Hr) as [c E]. exists true. congruence.
  - (* ConvR *) by_effect (invr_set_rh _ s); [assumption|intros _; eexists; reflexivity|assumption].
  - by_effect (invr_set_rh _ (clear_stream_pend (stream_unreg s))); [assumption|discriminate|].
    apply (invr_stream_clear true); assumption.
  - by_effect (invr_set_rh _ s); [assumption|intros _; eexists; reflexivity|assumption].
  - by_effect (invr_set_rh _ (clear_stream_pend (stream_unreg s))); [assumption|discriminate|].
    apply (invr_stream_clear true); assumption.
  - (* DropR *) by_effect (invr_q _ (set_rh HGone s)).
    + cbn. destruct (sh s); [|exact (fun H => H)]. reflexivity.
    + apply invr_set_rh; [assumption| |assumption]. intros Hr. destruct (r_rreg _ HR Hr) as [c E]. congruence.
  - by_effect (invr_q _ (set_rh HGone (clear_stream_pend (stream_unreg s)))).
    + cbn. destruct (sh s); [|exact (fun H => H)]. reflexivity.
    + apply invr_set_rh; [assumption|discriminate|]. apply (invr_stream_clear true); assumption.
  - (* PollR *) by_effect (invr_pending _ _ _ _ s); try eassumption; [|discriminate].
    unfold senders_alive in *. z2p. assumption.
  - by_effect (invr_pending _ _ _ _ s); try eassumption.
    + unfold senders_alive in *. z2p. assumption.
    + intros m [= <-]. split; [discriminate|assumption].
  - right. split; [reflexivity|right]. unfold senders_alive in *. z2p. assumption.
  - (* StreamNext *) by_effect (invr_stream_clear false s); assumption.
  - by_effect (invr_stream_pending _ _ s); try eassumption. unfold senders_alive in *. z2p. assumption.
  - by_effect (invr_stream_clear true s); assumption.
  - by_effect (invr_q _ (clear_stream_pend (stream_unreg s))); [empty_stays|]. apply (invr_stream_clear true); assumption.
Qed.

Definition Inv (s : st) : Prop := InvD s /\ InvK s /\ InvS s /\ InvR s.

Lemma inv_init c k : Inv (init c k).
Proof.
  split; [|split; [|split]]; constructor; unfold tot, held, alive; cbn; intros;
    try discriminate; try congruence; try lia; auto.
Qed.

Lemma inv_set_ev e s : Inv s -> Inv (set_ev e s).
Proof.
  intros (HD & HK & HS & HR). destruct HD, HK, HS, HR.
  split; [|split; [|split]]; constructor; unfold tot, held, alive in *; cbn; assumption.
Qed.

Lemma fst_step cf s o : fst (step cf s o) = fst (exec cf (set_ev [] s) o).
Proof. unfold step. destruct (exec cf (set_ev [] s) o). reflexivity. Qed.

Lemma inv_step cf s o : Inv s -> Inv (fst (step cf s o)).
Proof.
  intros H. rewrite fst_step. apply (inv_set_ev []) in H. destruct H as (HD & HK & HS & HR).
  split; [|split; [|split]]; [apply invd_exec | apply invk_exec | apply invs_exec | apply invr_exec]; assumption.
Qed.

Lemma run_preserves cf (P : st -> Prop) :
  (forall s o, P s -> P (fst (step cf s o))) -> forall ops s, P s -> P (fst (run cf s ops)).
Proof.
  intros Hstep. induction ops as [|o r IH]; intros s H; cbn [run]; [exact H|].
  specialize (Hstep s o H). destruct (step cf s o) as [s1 x].
  specialize (IH s1 Hstep). destruct (run cf s1 r). exact IH.
Qed.

Lemma inv_run cf ops : forall s, Inv s -> Inv (fst (run cf s ops)).
Proof. apply run_preserves, inv_step. Qed.
