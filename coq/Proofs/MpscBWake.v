(* Proofs/MpscBWake.v — C06 for the bounded-MPSC K2 model, part 1: what the proof that one step
   keeps the receive-side wake-up invariants W1..W8 (Chan/MpscBSpec.v) needs; the proof itself
   is exec_GW in MpscBWakeThm.v. *)
From Fibre Require Import Common.Base Chan.MpscB Chan.MpscBSpec Proofs.MpscBBase Proofs.MpscBInv Proofs.MpscBProofs.
From Coq Require Import ZifyBool ZifyNat ZifyN.
Ltac Zify.zify_post_hook ::= Z.div_mod_to_equations.

(** turn the opaque counters left by [dm_wl] into a monotonicity fact *)
Ltac wl_mono :=
  repeat match goal with
  | H : ?WK = wk (wake_list ?l ?s0) |- _ =>
      let M := fresh "MW" in
      pose proof (wake_list_wk l s0) as M; unfold wk_le in M; rewrite <- H in M; cbh; clear H
  end.

Ltac inst_mw w :=
  unfold wk_le in *; cbh;
  repeat match goal with
  | MW : forall x : N, _ <= _ |- _ =>
      let X := fresh "MI" in pose proof (MW w) as X; cbv beta in X; clear MW
  end.

Ltac wkfun :=
  repeat match goal with
  | |- context [if ?a =? ?b then _ else _] => destruct (N.eqb_spec a b); subst
  | H : context [if ?a =? ?b then _ else _] |- _ => destruct (N.eqb_spec a b); subst
  end.

(** a bound on a wake counter: mostly there already, else one test in the goal decides; [wkfun]
    (which also splits the tests in the hypotheses) only when that is not enough *)
Ltac wk_lia :=
  first [ assumption
        | try match goal with |- context [if ?a =? ?b then _ else _] => destruct (a =? b) end; lia
        | wkfun; lia ].

Lemma recv_fut_on_rx s f fr : fut_ok s -> rx_one s ->
  aget f (fs s) = Some fr -> is_recv_kind (fk fr) = true -> fh fr = 1.
Proof.
  intros FO RO A K. destruct (FO f fr A) as (r&B&_&C). rewrite K in C. cbn in C. exact (RO _ _ B C).
Qed.

(** a receive future exists, yet a direct call on the receiver handle went through: impossible *)
Ltac no_fut_on_rx FO RO :=
  exfalso;
  match goal with
  | A : aget ?f (fs ?s) = Some ?fr, K : is_recv_kind (fk ?fr) = true,
    NF : has_futs ?h ?s = false, G : aget ?h (hs ?s) = Some ?r, T : htx ?r = false |- _ =>
      pose proof (recv_fut_on_rx s f fr FO RO A K) as X1;
      pose proof (RO h r G T) as X2;
      apply (has_futs_false h s f fr NF A); congruence
  end.

(** a pending waiter [X : c <= wk s w /\ (registered \/ woken \/ multi)] stays one: counters only grow *)
Ltac pend_leaf X w1 :=
  let B1 := fresh "B" in let B2 := fresh "B" in
  destruct X as [B1 B2];
      inst_mw w1;
  split; [wk_lia|];
  destruct B2 as [B2|[B2|B2]];
  [ | right; left; wk_lia | right; right; rewrite ?B2; reflexivity ].

Ltac w2leaf V2 :=
  match goal with
  | A1 : aget ?f1 (fs ?s) = Some ?fr1, K1 : is_recv_kind (fk ?fr1) = true,
    P1 : fpend ?fr1 = Some (?w1, ?c1) |- _ =>
      pend_leaf (V2 f1 w1 c1 (ex_intro _ fr1 (conj A1 (conj K1 P1)))) w1
  end.

Lemma existsb_recv_false (l : list (N * frec)) f fr :
  existsb (fun p => is_recv_kind (fk (snd p))) l = false -> aget f l = Some fr -> is_recv_kind (fk fr) = false.
Proof.
  intros E A. apply aget_In in A. destruct (is_recv_kind (fk fr)) eqn:K; [|reflexivity].
  assert (existsb (fun p => is_recv_kind (fk (snd p))) l = true); [|congruence].
  apply existsb_exists. exists (f, fr). auto.
Qed.

Ltac kinds :=
  repeat match goal with
  | E : fk ?x = FRecv _ |- _ =>
      lazymatch goal with K : is_recv_kind (fk x) = true |- _ => fail
      | _ => assert (is_recv_kind (fk x) = true) by (rewrite E; reflexivity) end
  | E : fk ?x = FRecvB _ _ |- _ =>
      lazymatch goal with K : is_recv_kind (fk x) = true |- _ => fail
      | _ => assert (is_recv_kind (fk x) = true) by (rewrite E; reflexivity) end
  end.

Ltac w3leaf V3 :=
  match goal with
  | A1 : aget ?h1 (hs ?s) = Some ?r1, P1 : hpend ?r1 = Some (?w1, ?c1) |- _ =>
      pend_leaf (V3 h1 w1 c1 (ex_intro _ r1 (conj A1 P1))) w1
  end.

