(* Proofs/TopicC06Proofs.v — C06 for the topic flavour: a pending RecvFuture whose registration was not overwritten
   by another future of the same receiver is woken when its poll becomes Ready (all histories). *)
From Fibre Require Import Common.Base Chan.TopicOps Chan.TopicSpec Chan.TopicSpec06 Proofs.TopicLemmas Proofs.TopicInv
     Proofs.TopicInvSub Proofs.TopicInvRx Proofs.TopicInvPub Proofs.TopicInvTx Proofs.TopicOpsProofs.

Definition idle_reg (y : rxh) (w : N) : Prop :=
  r_live y = true /\ m_waiter (r_mb y) = Some w /\ m_buf (r_mb y) = [] /\ m_disc (r_mb y) = false.

Record Inv6 (s : state) (g : list gfut) : Prop := {
  k_futs : map (fun x => (g_id x, g_rx x)) g = futs s;
  k_nd : NoDup (map g_id g);
  k_reg : forall x w, In x g -> g_pend x = Some w -> g_woken x = false -> g_over x = false ->
          exists y, find_rx (g_rx x) (rxs s) = Some y /\ idle_reg y w
}.

Arguments k_futs {s g}. Arguments k_nd {s g}. Arguments k_reg {s g}.

Lemma inv6_init a cap : Inv6 (init a cap) [].
Proof. constructor; [reflexivity | constructor | intros x w []]. Qed.

(* no complaint about a future whose registration was not overwritten *)
Lemma missed_ok s g f b : Inv6 s g -> In (V6Missed f b) (missed s g) -> b = true.
Proof.
  intros K H. unfold missed in H. apply in_flat_map in H. destruct H as [x [Hx Hv]].
  destruct (is_pending x && rx_ready (g_rx x) s) eqn:E; [|destruct Hv]. destruct Hv as [Hv|[]].
  injection Hv as _ <-. destruct (g_over x) eqn:Eo; [reflexivity|]. exfalso.
  apply andb_true_iff in E. destruct E as [E1 E2]. unfold is_pending in E1.
  destruct (g_pend x) as [w|] eqn:Ep; [|discriminate]. apply negb_true_iff in E1.
  destruct (k_reg K x w Hx Ep E1 Eo) as [y [Hy [L [_ [B D]]]]].
  unfold rx_ready in E2. rewrite Hy, L, B, D in E2. discriminate.
Qed.

(** what a step may do to a mailbox that has a future: leave its idle registration alone, or wake the waker *)
Definition mb_trans (s s1 : state) (wk : list N) : Prop :=
  forall f r y w, In (f, r) (futs s) -> find_rx r (rxs s) = Some y -> idle_reg y w ->
    (exists y1, find_rx r (rxs s1) = Some y1 /\ idle_reg y1 w) \/ In w wk.

(* marking touches only the woken flag *)
Lemma mark_woken_map {B} (p : gfut -> B) wk g :
  (forall x pd w o, p (gf_set x pd w o) = p x) -> map p (mark_woken wk g) = map p g.
Proof.
  intros Hp. unfold mark_woken. rewrite map_map. apply map_ext. intros x.
  destruct (g_pend x); [destruct (mem n wk)|]; auto.
Qed.

Lemma mark_woken_nil g : mark_woken [] g = g.
Proof.
  unfold mark_woken. rewrite <- (map_id g) at 2. apply map_ext. intros x. destruct (g_pend x); reflexivity.
Qed.

Lemma In_mark_woken wk g x' : In x' (mark_woken wk g) ->
  exists x, In x g /\ g_id x' = g_id x /\ g_rx x' = g_rx x /\ g_pend x' = g_pend x /\ g_over x' = g_over x /\
            (g_woken x' = false -> g_woken x = false /\ forall w, g_pend x = Some w -> mem w wk = false).
Proof.
  unfold mark_woken. intros H. apply in_map_iff in H. destruct H as [x [E Hx]]. exists x. split; [exact Hx|].
  destruct (g_pend x) as [w|] eqn:Ep.
  - destruct (mem w wk) eqn:Em; subst x'.
    + cbn. repeat split; auto; discriminate.
    + repeat split; auto. intros w0 E0. injection E0 as <-. exact Em.
  - subst x'. repeat split; auto. intros w0 E0. discriminate.
Qed.

Lemma futs_In s g x : Inv6 s g -> In x g -> In (g_id x, g_rx x) (futs s).
Proof. intros K H. rewrite <- (k_futs K). apply (in_map (fun x0 => (g_id x0, g_rx x0))). exact H. Qed.

Lemma inv6_trans s g s1 wk :
  Inv6 s g -> futs s1 = futs s -> mb_trans s s1 wk -> Inv6 s1 (mark_woken wk g).
Proof.
  intros K Ef Ht. constructor.
  - rewrite mark_woken_map, Ef by reflexivity. apply (k_futs K).
  - rewrite mark_woken_map by reflexivity. apply (k_nd K).
  - intros x' w Hx' Ep Ew Eo. destruct (In_mark_woken _ _ _ Hx') as [x [Hx [E1 [E2 [E3 [E4 E5]]]]]].
    destruct (E5 Ew) as [Ew0 Hm]. rewrite E3 in Ep. rewrite E4 in Eo. rewrite E2.
    destruct (k_reg K x w Hx Ep Ew0 Eo) as [y [Hy Hi]].
    destruct (Ht (g_id x) (g_rx x) y w (futs_In _ _ _ K Hx) Hy Hi) as [[y1 [A B]]|Hin]; [eauto|].
    apply mem_In in Hin. rewrite (Hm w Ep) in Hin. discriminate.
Qed.

(* receivers keep liveness and mailbox *)
Definition rx_mbl (x : rxh) := (r_id x, r_live x, r_mb x).

Lemma find_mbl r l1 l y : map rx_mbl l1 = map rx_mbl l -> find_rx r l = Some y ->
  exists y1, find_rx r l1 = Some y1 /\ r_live y1 = r_live y /\ r_mb y1 = r_mb y.
Proof.
  intros E H. destruct (find_rx_proj rx_mbl r _ _ y ltac:(unfold rx_mbl; congruence) E H) as [y1 [H1 H2]].
  exists y1. unfold rx_mbl in H2. repeat split; congruence.
Qed.

Lemma mb_trans_same s s1 wk : map rx_mbl (rxs s1) = map rx_mbl (rxs s) -> mb_trans s s1 wk.
Proof.
  intros E f r y w _ Hy [A [B [C D]]]. left. destruct (find_mbl _ _ _ _ E Hy) as [y1 [H1 [H2 H3]]].
  exists y1. split; [exact H1|]. unfold idle_reg. rewrite H2, H3. auto.
Qed.

Lemma core_mbl l1 l : map rx_core l1 = map rx_core l -> map rx_mbl l1 = map rx_mbl l.
Proof.
  revert l1. induction l as [|a l IH]; intros l1 E; destruct l1 as [|a1 l1]; try discriminate; [reflexivity|].
  cbn [map] in *. apply cons_eq_inv in E. destruct E as [E1 E2]. rewrite (IH _ E2). f_equal.
  unfold rx_core in E1. unfold rx_mbl. congruence.
Qed.

Lemma mbl_upd r f rs : (forall z, rx_mbl (f z) = rx_mbl z) -> map rx_mbl (upd_rx r f rs) = map rx_mbl rs.
Proof.
  intros H. unfold upd_rx. rewrite map_map. apply map_ext. intros a. destruct (N.eqb (r_id a) r); [apply H | reflexivity].
Qed.

Lemma mb_trans_frame s s2 s3 wk :
  mb_trans s s2 wk -> map rx_mbl (rxs s3) = map rx_mbl (rxs s2) -> mb_trans s s3 wk.
Proof.
  intros H E f r y w Hf Hy Hi. destruct (H f r y w Hf Hy Hi) as [[y2 [A [B1 [B2 [B3 B4]]]]]|Hin]; [|right; exact Hin].
  left. destruct (find_mbl _ _ _ _ E A) as [y3 [H1 [H2 H3]]]. exists y3. split; [exact H1|].
  unfold idle_reg. rewrite H2, H3. auto.
Qed.

Definition step6_ok_for (c : cfg) (o : op) : Prop :=
  forall s g s1 rs wk, Inv6 s g -> step c s o = (s1, (rs, wk)) -> Inv6 s1 (g_step g o rs wk).

(* steps that leave liveness and mailboxes of all receivers alone *)
Lemma ok6_same s g s1 wk :
  Inv6 s g -> futs s1 = futs s -> map rx_mbl (rxs s1) = map rx_mbl (rxs s) -> Inv6 s1 (mark_woken wk g).
Proof. intros K Ef E. apply (inv6_trans s); [exact K | exact Ef | apply mb_trans_same; exact E]. Qed.

Lemma ok6_frame s s' g wk : Inv6 s g -> subs_frame s s' -> Inv6 s' (mark_woken wk g).
Proof. intros K [_ [_ [_ [Ef Ec]]]]. exact (ok6_same _ _ _ _ K Ef (core_mbl _ _ Ec)). Qed.

(* closes a branch of an operation that changes neither futures nor mailboxes *)
Ltac same6 Hs K := injection Hs as <- <- <-; cbn [g_step]; apply (ok6_same _ _ _ _ K); auto.

Lemma ok6_simple c o :
  match o with IsClosedS _ | IsClosedR _ | IsEmptyR _ | CapR _ | ConvS _ | CloneS _ _ | Subscribe _ _ | Unsubscribe _ _
             | ConvR _ | CloseR _ => True | _ => False end -> step6_ok_for c o.
Proof.
  intros Ho s g s1 rs wk K Hs. destruct o; try contradiction; cbn [step g_step] in *.
  - (* CloneS *)
    destruct (live_tx s0 s) as [x|]; [|same6 Hs K].
    destruct (find_tx s' (txs s)); [same6 Hs K|].
    destruct (t_async x); [same6 Hs K|].
    same6 Hs K.
    + destruct (fix04 c && negb (fix04 c && t_closed x)); reflexivity.
    + destruct (fix04 c && negb (fix04 c && t_closed x)); reflexivity.
  - (* ConvS *)
    destruct (live_tx s0 s); same6 Hs K.
  - destruct (live_tx s0 s); same6 Hs K.
  - (* Subscribe *)
    destruct (live_rx r s); [|same6 Hs K].
    injection Hs as <- <- <-. exact (ok6_frame _ _ _ _ K (subscribe_core_frame r t s)).
  - destruct (live_rx r s); [|same6 Hs K].
    injection Hs as <- <- <-. exact (ok6_frame _ _ _ _ K (unsubscribe_core_frame r t s)).
  - (* CloseR *)
    destruct (live_rx r s) as [x|]; [|same6 Hs K].
    destruct (r_closed x); injection Hs as <- <- <-; [apply (ok6_same s); auto|].
    destruct (close_internal_frame c r (st_set_rxs s (upd_rx r (fun y => rx_set_closed y true) (rxs s))))
      as [_ [_ [_ [A3 A4]]]].
    apply (ok6_same s); [exact K | exact A3 |].
    rewrite (core_mbl _ _ A4). cbn [rxs st_set_rxs st_set_rcount]. apply mbl_upd. reflexivity.
  - (* ConvR *)
    destruct (live_rx r s) as [x|]; [|same6 Hs K].
    destruct (rx_busy r s); same6 Hs K.
    cbn [rxs st_set_rxs]. apply mbl_upd. reflexivity.
  - destruct (live_rx r s); same6 Hs K.
  - destruct (live_rx r s); same6 Hs K.
  - destruct (live_rx r s); same6 Hs K.
Qed.

Lemma ok6_CloneR c r r' : step6_ok_for c (CloneR r r').
Proof.
  intros s g s1 rs wk K Hs. cbn [step g_step] in *.
  destruct (live_rx r s) as [x|]; [|same6 Hs K].
  destruct (find_rx r' (rxs s)) eqn:Hf'; [same6 Hs K|].
  assert (Happ : forall xn s2, rxs s2 = rxs s ++ [xn] -> mb_trans s s2 []).
  { intros xn s2 E f r0 y w _ Hy Hi. left. exists y. split; [|exact Hi]. rewrite E, find_rx_app, Hy. reflexivity. }
  destruct (disp_alive s).
  - injection Hs as <- <- <-.
    set (s2 := st_set_rxs (st_set_rcount s (rcount s + 1)%Z)
                 (rxs s ++ [new_rx r' (r_async x) false (m_cap (r_mb x)) (fix05 c && fix04 c && Z.eqb (scount s) 0)])).
    destruct (fold_frame (fun t a => subscribe_core r' t a) (r_subs x) (fun t s0 => subscribe_core_frame r' t s0) s2)
      as [_ [_ [_ [A4 A5]]]].
    apply (inv6_trans s); [exact K | rewrite A4; reflexivity|].
    eapply mb_trans_frame; [eapply (Happ _ s2); reflexivity | apply core_mbl; exact A5].
  - injection Hs as <- <- <-. apply (inv6_trans s); [exact K | reflexivity | eapply Happ; reflexivity].
Qed.

Lemma ok6_DropR c r : step6_ok_for c (DropR r).
Proof.
  intros s g s1 rs wk K Hs. cbn [step g_step] in *.
  destruct (live_rx r s) as [x|]; [|same6 Hs K].
  destruct (rx_busy r s) eqn:Hb; [same6 Hs K|].
  injection Hs as <- <- <-.
  set (sA := st_set_rxs s (upd_rx r (fun y0 => rx_set_closed y0 true) (rxs s))).
  set (s2 := if (if r_async x && negb (fix07 c) then true else negb (r_closed x)) then rx_close_internal c r sA else sA).
  assert (Hs2 : futs s2 = futs s /\ map rx_mbl (rxs s2) = map rx_mbl (rxs s)).
  { assert (EA : map rx_mbl (rxs sA) = map rx_mbl (rxs s)) by (apply mbl_upd; reflexivity).
    unfold s2. destruct (if r_async x && negb (fix07 c) then true else negb (r_closed x)); [|auto].
    destruct (close_internal_frame c r sA) as [_ [_ [_ [A3 A4]]]].
    split; [exact A3 | rewrite (core_mbl _ _ A4); exact EA]. }
  destruct Hs2 as [B1 B2].
  apply (inv6_trans s); [exact K | exact B1|].
  intros f r0 y w Hf Hy Hi. left. pose proof (not_busy_neq _ _ _ _ Hb Hf) as Hne.
  destruct (find_mbl _ _ _ _ B2 Hy) as [y2 [H1 [H2 H3]]].
  exists y2. split.
  - cbn [rxs st_set_rxs]. rewrite find_rx_upd by reflexivity. rewrite H1.
    destruct (N.eqb_spec r0 r); [contradiction | reflexivity].
  - unfold idle_reg. rewrite H2, H3. exact Hi.
Qed.

(** wakes produced by delivering / disconnecting *)
Lemma deliver_list_wakes m : forall l rs x w,
  NoDup (map r_id rs) -> In x rs -> r_live x = true -> In (r_id x) l ->
  In w (snd (mb_deliver (r_mb x) m)) -> In w (snd (deliver_list l m rs)).
Proof.
  induction l as [|a l IH]; intros rs x w Hnd Hx Hl Hin Hw; [destruct Hin|].
  cbn [deliver_list].
  pose proof (deliver_one_spec a m rs Hnd) as H1.
  destruct (deliver_one a m rs) as [rs1 w1] eqn:E1. cbn [fst] in H1.
  destruct (deliver_list l m rs1) as [rs2 w2] eqn:E2. cbn [snd]. apply in_or_app.
  destruct (N.eq_dec (r_id x) a) as [Ea|Ea].
  - left. unfold deliver_one in E1. rewrite (find_id_NoDup r_id _ _ _ Hnd Hx Ea : find_rx _ _ = _), Hl in E1.
    destruct (mb_deliver (r_mb x) m) as [mb' w']. injection E1 as _ <-. exact Hw.
  - right. destruct Hin as [Hin|Hin]; [congruence|].
    assert (Hx1 : In x rs1).
    { rewrite H1. apply in_map_iff. exists x. split; [|exact Hx]. unfold deliver_fn, mem. cbn [existsb].
      destruct (N.eqb_spec (r_id x) a); [contradiction|]. rewrite orb_false_r, andb_false_r. reflexivity. }
    assert (Hnd1 : NoDup (map r_id rs1)).
    { rewrite H1, map_map. erewrite map_ext; [exact Hnd|]. intros z. unfold deliver_fn.
      destruct (r_live z && mem (r_id z) [a]); reflexivity. }
    pose proof (IH rs1 x w Hnd1 Hx1 Hl Hin Hw) as P. rewrite E2 in P. exact P.
Qed.

Lemma map_wakes_snd f rs x w : In x rs -> In w (snd (f x)) -> In w (snd (map_wakes f rs)).
Proof.
  induction rs as [|a rs IH]; intros Hx Hw; [destruct Hx|]. cbn [map_wakes].
  destruct (f a) as [a' wa] eqn:Ea. destruct (map_wakes f rs) as [rs' w'] eqn:Er. cbn [snd] in *.
  apply in_or_app. destruct Hx as [->|Hx]; [left; rewrite Ea in Hw; exact Hw | right; apply IH; assumption].
Qed.

Lemma tx_close_internal_wakes c s x w :
  tx_ran c s = true -> In x (rxs s) -> r_live x = true -> (fix05 c || in_lists (r_id x) (lists s)) = true ->
  m_disc (r_mb x) = false -> m_waiter (r_mb x) = Some w -> In w (snd (tx_close_internal c s)).
Proof.
  intros Hr Hx Hl Hi Hd Hw.
  assert (P : forall s', rxs s' = rxs s -> lists s' = lists s -> In w (snd (disconnect_all c s'))).
  { intros s' E1 E2. unfold disconnect_all. rewrite E1, E2.
    pose proof (map_wakes_snd (fun x0 => if r_live x0 && (fix05 c || in_lists (r_id x0) (lists s))
        then let '(m', w0) := mb_disconnect (r_mb x0) in (rx_set_mb x0 m', w0) else (x0, [])) (rxs s) x w Hx) as Q.
    destruct (map_wakes _ (rxs s)) as [rs' w']. cbn [snd] in *. apply Q.
    rewrite Hl, Hi. cbn [andb]. unfold mb_disconnect. rewrite Hd, Hw. cbn. left. reflexivity. }
  unfold tx_close_internal. unfold tx_ran in Hr. destruct (fix04 c); cbn [negb orb] in Hr.
  - rewrite Hr. apply P; reflexivity.
  - apply P; reflexivity.
Qed.

(* close_internal of a sender: every mailbox with an idle registration stays so or its waker is woken *)
Lemma tx_close_trans c s : mb_trans s (fst (tx_close_internal c s)) (snd (tx_close_internal c s)).
Proof.
  intros f r y w Hf Hy [L [W [B D]]].
  pose proof (find_id_In r_id _ _ _ Hy) as [Hin Hid].
  rewrite tx_close_internal_fst. cbn [rxs st_set_rxs st_set_scount].
  destruct (tx_ran c s) eqn:Hr; [|left; exists y; split; [exact Hy | repeat split; assumption]].
  rewrite find_rx_map by (intros z; apply disc_fn_keeps).
  rewrite Hy. unfold disc_fn. rewrite L. cbn [andb].
  destruct (fix05 c || in_lists (r_id y) (lists s)) eqn:Ei.
  - right. eapply tx_close_internal_wakes; eauto.
  - left. exists y. split; [reflexivity | repeat split; assumption].
Qed.

(* close and drop of a sender handle *)
Lemma ok6_tx_gone c o : match o with CloseS _ | DropS _ => True | _ => False end -> step6_ok_for c o.
Proof.
  intros Ho s g s1 rs wk K Hs.
  assert (Hran : Inv6 (st_set_txs (fst (tx_close_internal c s)) (txs s1)) (mark_woken (snd (tx_close_internal c s)) g)).
  { apply (inv6_trans s); [exact K | rewrite tx_close_internal_fst; reflexivity|].
    eapply mb_trans_frame; [apply tx_close_trans | reflexivity]. }
  destruct o; try contradiction; [rewrite step_CloseS in Hs | rewrite step_DropS in Hs]; cbn [g_step];
    (destruct (live_tx s0 s) as [x|]; [|same6 Hs K]); (destruct (t_closed x); [same6 Hs K|]);
    injection Hs as <- <- <-; exact Hran.
Qed.

(* the one operation for which Inv is needed: delivery as a map over the handles rests on its NoDup clauses *)
Lemma ok6_Publish c h t v s sp : Inv c s sp -> forall g s1 rs wk,
  Inv6 s g -> step c s (Publish h t v) = (s1, (rs, wk)) -> Inv6 s1 (g_step g (Publish h t v) rs wk).
Proof.
  intros I g s1 rs wk K Hs. cbn [step g_step] in *.
  destruct (live_tx h s) as [x|]; [|same6 Hs K].
  destruct (t_closed x || Z.eqb (rcount s) 0); [same6 Hs K|].
  destruct (get_list t (lists s)) as [l|] eqn:El; [|same6 Hs K].
  pose proof (deliver_list_spec (t, v) l (rxs s) (i_lnd _ _ _ I _ _ El) (i_rnd _ _ _ I)) as Hd.
  destruct (deliver_list l (t, v) (rxs s)) as [rs' w'] eqn:Edl. cbn [fst] in Hd. subst rs'.
  injection Hs as <- <- <-.
  apply (inv6_trans s); [exact K | reflexivity|].
  intros f r y w Hf Hy [L [W [B D]]]. pose proof (find_id_In r_id _ _ _ Hy) as [Hin Hid].
  cbn [rxs st_set_rxs]. rewrite find_rx_map.
  2:{ intros z. unfold deliver_fn. destruct (r_live z && mem (r_id z) l); reflexivity. }
  rewrite Hy. unfold deliver_fn. rewrite L. cbn [andb].
  destruct (mem (r_id y) l) eqn:Em; [|left; exists y; split; [reflexivity | repeat split; assumption]].
  unfold mb_deliver. rewrite B. cbn [length]. destruct (N.leb (m_cap (r_mb y)) (N.of_nat 0)) eqn:Ec.
  - left. eexists. split; [reflexivity|]. cbn. repeat split; assumption.
  - right. apply mem_In in Em.
    pose proof (deliver_list_wakes (t, v) l (rxs s) y w (i_rnd _ _ _ I) Hin L Em) as P. rewrite Edl in P. apply P.
    unfold mb_deliver. rewrite B. cbn [length]. rewrite Ec, W. cbn. left. reflexivity.
Qed.

(** receive forms that are not future polls *)
Lemma recv_core_trans s r x none reg s1 rs w :
  live_rx r s = Some x -> (reg <> None -> rx_busy r s = false) ->
  recv_core r x none reg s = (s1, (rs, w)) ->
  futs s1 = futs s /\ w = [] /\ mb_trans s s1 [].
Proof.
  intros Hl Hreg Hrc. apply live_rx_spec in Hl. destruct Hl as [Hx Hlive].
  unfold recv_core, mb_pop in Hrc.
  destruct (m_buf (r_mb x)) as [|[t v] b] eqn:Eb.
  - destruct (m_disc (r_mb x)) eqn:Ed.
    + injection Hrc as <- <- <-. split; [reflexivity|]. split; [reflexivity|]. apply mb_trans_same. reflexivity.
    + destruct reg as [wk|].
      * injection Hrc as <- <- <-. split; [reflexivity|]. split; [reflexivity|].
        intros f r0 y w0 Hf Hy Hi. left. pose proof (not_busy_neq _ _ _ _ (Hreg ltac:(discriminate)) Hf) as Hne.
        exists y. split; [|exact Hi]. cbn [rxs st_set_rxs]. rewrite find_rx_upd by reflexivity. rewrite Hy.
        destruct (N.eqb_spec r0 r); [contradiction | reflexivity].
      * injection Hrc as <- <- <-. split; [reflexivity|]. split; [reflexivity|]. apply mb_trans_same. reflexivity.
  - injection Hrc as <- <- <-. split; [reflexivity|]. split; [reflexivity|].
    intros f r0 y w0 Hf Hy [L [W [B D]]]. left.
    destruct (N.eq_dec r0 r) as [->|Hne].
    + assert (y = x) by congruence. subst y. congruence.
    + exists y. split; [|repeat split; assumption]. cbn [rxs st_set_rxs]. rewrite find_rx_upd by reflexivity. rewrite Hy.
      destruct (N.eqb_spec r0 r); [contradiction | reflexivity].
Qed.

Lemma ok6_recv c o :
  match o with TryRecv _ | RecvTimeout0 _ | PollNext _ _ => True | _ => False end -> step6_ok_for c o.
Proof.
  intros Ho s g s1 rs wk K Hs.
  assert (Hcore : forall r x none reg, live_rx r s = Some x -> (reg <> None -> rx_busy r s = false) ->
            recv_core r x none reg s = (s1, (rs, wk)) -> Inv6 s1 (mark_woken wk g)).
  { intros r x none reg Hl Hreg Hrc. destruct (recv_core_trans s r x none reg s1 rs wk Hl Hreg Hrc) as [A [-> B]].
    apply (inv6_trans s); assumption. }
  destruct o; try contradiction; cbn [step g_step] in *.
  - destruct (live_rx r s) as [x|] eqn:Hl; [|same6 Hs K].
    apply (Hcore r x REmpty None); [exact Hl | congruence | exact Hs].
  - destruct (live_rx r s) as [x|] eqn:Hl; [|same6 Hs K].
    destruct (r_async x); [same6 Hs K|].
    destruct (r_closed x); [apply (Hcore r x RDisc None) | apply (Hcore r x RTimeout None)]; congruence.
  - destruct (live_rx r s) as [x|] eqn:Hl; [|same6 Hs K].
    destruct (negb (r_async x)); [same6 Hs K|].
    destruct (rx_busy r s) eqn:Hb; [same6 Hs K|].
    apply (Hcore r x RPending (Some w)); auto.
Qed.

(** futures: create / drop / poll *)
Lemma ok6_MkRecv c f r : step6_ok_for c (MkRecv f r).
Proof.
  intros s g s1 rs wk K Hs. cbn [step g_step] in *.
  destruct (live_rx r s) as [x|] eqn:Hl; [|same6 Hs K].
  destruct (negb (r_async x)); [same6 Hs K|].
  destruct (existsb (fun p => N.eqb (fst p) f) (futs s)) eqn:Ex; [same6 Hs K|].
  injection Hs as <- <- <-. rewrite mark_woken_nil. constructor.
  - rewrite map_app. cbn. rewrite (k_futs K). reflexivity.
  - rewrite map_app. cbn [map g_id]. apply NoDup_snoc; [apply (k_nd K)|].
    intros Hin. apply in_map_iff in Hin. destruct Hin as [e [Ee He]].
    assert (existsb (fun p => N.eqb (fst p) f) (futs s) = true).
    { apply existsb_exists. exists (g_id e, g_rx e). split; [apply (futs_In _ _ _ K He) | cbn; rewrite Ee; apply N.eqb_refl]. }
    congruence.
  - intros e w Hin Ep Ew Eo. apply in_app_or in Hin. destruct Hin as [Hin|[<-|[]]]; [|discriminate].
    apply (k_reg K e w Hin Ep Ew Eo).
Qed.

Lemma map_filter_fut f g :
  map (fun x => (g_id x, g_rx x)) (filter (fun x => negb (N.eqb (g_id x) f)) g) =
  filter (fun p => negb (N.eqb (fst p) f)) (map (fun x => (g_id x, g_rx x)) g).
Proof.
  induction g as [|a g IH]; cbn [map filter fst]; [reflexivity|].
  destruct (negb (N.eqb (g_id a) f)); cbn [map]; rewrite IH; reflexivity.
Qed.


Lemma ok6_DropF c f : step6_ok_for c (DropF f).
Proof.
  intros s g s1 rs wk K Hs. cbn [step g_step] in *.
  destruct (find (fun p => N.eqb (fst p) f) (futs s)); [|same6 Hs K].
  injection Hs as <- <- <-. rewrite mark_woken_nil. constructor.
  - rewrite map_filter_fut, (k_futs K). reflexivity.
  - apply NoDup_map_filter. apply (k_nd K).
  - intros e w Hin Ep Ew Eo. apply filter_In in Hin. destruct Hin as [Hin _]. apply (k_reg K e w Hin Ep Ew Eo).
Qed.

Lemma find_fut_ghost f g :
  find (fun p => N.eqb (fst p) f) (map (fun x => (g_id x, g_rx x)) g) =
  match find_gf f g with Some e => Some (g_id e, g_rx e) | None => None end.
Proof.
  unfold find_gf. induction g as [|a g IH]; cbn [map find fst]; [reflexivity|].
  destruct (N.eqb (g_id a) f); [reflexivity | exact IH].
Qed.

Lemma ok6_Poll c f w0 : step6_ok_for c (Poll f w0).
Proof.
  intros s g s1 rs wk K Hs. cbn [step] in Hs.
  pose proof (find_fut_ghost f g) as Hfg. rewrite (k_futs K) in Hfg.
  destruct (find (fun p => N.eqb (fst p) f) (futs s)) as [[f' r0]|] eqn:Hf.
  2:{ same6 Hs K. }
  destruct (find_gf f g) as [e|] eqn:He; [|discriminate]. injection Hfg as -> ->.
  destruct (find_id_In g_id _ _ _ He) as [Hein Heid].
  destruct (live_rx (g_rx e) s) as [x|] eqn:Hl.
  2:{ same6 Hs K. }
  apply live_rx_spec in Hl. destruct Hl as [Hx Hlive].
  unfold recv_core, mb_pop in Hs.
  (* the ghost after a poll that returned Ready *)
  assert (Hready : forall s1', (forall x0 y w, In x0 g -> g_id x0 <> f -> find_rx (g_rx x0) (rxs s) = Some y -> idle_reg y w ->
                      exists y1, find_rx (g_rx x0) (rxs s1') = Some y1 /\ idle_reg y1 w) -> futs s1' = futs s ->
            Inv6 s1' (map (fun x0 => if N.eqb (g_id x0) f then gf_set x0 None false false else x0) g)).
  { intros s1' Hkeep Ef. constructor.
    - rewrite map_map, Ef, <- (k_futs K). apply map_ext. intros a. destruct (N.eqb (g_id a) f); reflexivity.
    - rewrite map_map. erewrite map_ext; [apply (k_nd K)|]. intros a. destruct (N.eqb (g_id a) f); reflexivity.
    - intros x' w Hx' Ep Ew Eo. apply in_map_iff in Hx'. destruct Hx' as [x0 [E Hx0]].
      destruct (N.eqb_spec (g_id x0) f) as [Eid|Eid]; subst x'; [discriminate|].
      destruct (k_reg K x0 w Hx0 Ep Ew Eo) as [y [Hy Hi]]. eapply Hkeep; eauto. }
  destruct (m_buf (r_mb x)) as [|[t v] b] eqn:Eb.
  - destruct (m_disc (r_mb x)) eqn:Ed.
    + injection Hs as <- <- <-. cbn [g_step]. rewrite mark_woken_nil. apply Hready; [|reflexivity]. eauto.
    + injection Hs as <- <- <-. cbn [g_step]. rewrite mark_woken_nil, He. constructor.
      * rewrite map_map. cbn [futs st_set_rxs]. rewrite <- (k_futs K). apply map_ext. intros a.
        destruct (N.eqb (g_id a) f); [reflexivity|]. destruct (N.eqb (g_rx a) (g_rx e) && is_pending a); reflexivity.
      * rewrite map_map. erewrite map_ext; [apply (k_nd K)|]. intros a.
        destruct (N.eqb (g_id a) f); [reflexivity|]. destruct (N.eqb (g_rx a) (g_rx e) && is_pending a); reflexivity.
      * intros x' w Hx' Ep Ew Eo. apply in_map_iff in Hx'. destruct Hx' as [x0 [E Hx0]].
        cbn [rxs st_set_rxs]. destruct (N.eqb_spec (g_id x0) f) as [Eid|Eid].
        -- subst x'. cbn in Ep. injection Ep as <-. cbn [g_rx gf_set].
           assert (x0 = e) by (apply (find_id_unique g_id f g e x0 (k_nd K) He Hx0 Eid)). subst x0.
           rewrite find_rx_upd by reflexivity. rewrite Hx, N.eqb_refl. eexists. split; [reflexivity|].
           unfold idle_reg. cbn. auto.
        -- destruct (N.eqb (g_rx x0) (g_rx e) && is_pending x0) eqn:Eb2; subst x'; [discriminate|].
           assert (Hp : is_pending x0 = true) by (unfold is_pending; rewrite Ep, Ew; reflexivity).
           rewrite Hp, andb_true_r in Eb2. apply N.eqb_neq in Eb2.
           destruct (k_reg K x0 w Hx0 Ep Ew Eo) as [y [Hy Hi]]. exists y. split; [|exact Hi].
           rewrite find_rx_upd by reflexivity. rewrite Hy. destruct (N.eqb_spec (g_rx x0) (g_rx e)); [contradiction | reflexivity].
  - injection Hs as <- <- <-. cbn [g_step]. rewrite mark_woken_nil. apply Hready; [|reflexivity].
    intros x0 y w Hx0 Hne Hy [L [W [B D]]]. cbn [rxs st_set_rxs]. rewrite find_rx_upd by reflexivity. rewrite Hy.
    destruct (N.eqb_spec (g_rx x0) (g_rx e)) as [E|E].
    + rewrite E in Hy. assert (y = x) by congruence. subst y. congruence.
    + exists y. split; [reflexivity | repeat split; assumption].
Qed.

Theorem step6_ok c o s sp g s1 rs wk :
  Inv c s sp -> Inv6 s g -> step c s o = (s1, (rs, wk)) -> Inv6 s1 (g_step g o rs wk).
Proof.
  intros I K Hs. destruct o; [exact (ok6_Publish c _ _ _ s sp I g s1 rs wk K Hs) | ..]; clear sp I; revert s g s1 rs wk K Hs;
    try (apply ok6_simple; exact Logic.I); try (apply ok6_recv; exact Logic.I); try (apply ok6_tx_gone; exact Logic.I).
  - (* CloneR *) apply ok6_CloneR.
  - (* DropR *) apply ok6_DropR.
  - (* MkRecv *) apply ok6_MkRecv.
  - (* Poll *) apply ok6_Poll.
  - (* DropF *) apply ok6_DropF.
Qed.

Lemma check6_sound c : forall h s sp g, Inv c s sp -> Inv6 s g ->
  forall f b, In (V6Missed f b) (check6_from c s g h) -> b = true.
Proof.
  induction h as [|o h IH]; intros s sp g I K f b Hv; [destruct Hv|].
  cbn [check6_from] in Hv. destruct (step c s o) as [s1 [rs wk]] eqn:Es.
  pose proof (step6_ok c o s sp g s1 rs wk I K Es) as K1.
  destruct (sp_step sp o rs) as [sp1 vs0] eqn:Ep0.
  destruct (step_ok c o s sp s1 rs wk sp1 vs0 I Es Ep0) as [I1 _].
  apply in_app_or in Hv. destruct Hv as [Hv|Hv].
  - eapply missed_ok; eauto.
  - eapply IH; eauto.
Qed.

(** C06 for topic futures.  Full statement: no future that is pending, un-woken and ready. *)
Definition C06_topic_full (c : cfg) : Prop := forall a cap h, violations6 c a cap h = [].

Definition w_two_futures : list op :=
  [Subscribe 0 0; MkRecv 0 0; MkRecv 1 0; Poll 0 0; Poll 1 1; Publish 0 0 1; Publish 0 0 2; Poll 1 1].

Theorem c06_refuted_two_futures : ~ C06_topic_full pre_fix /\ ~ C06_topic_full post_fix.
Proof. split; intros H; specialize (H true 2 w_two_futures); vm_compute in H; discriminate. Qed.

Lemma witness_two_futures :
  violations6 pre_fix true 2 w_two_futures = [V6Missed 0 true; V6Missed 0 true; V6Missed 0 true].
Proof. vm_compute. reflexivity. Qed.

(* every missed wake-up concerns a future whose registration was overwritten by a later Pending poll of
   another future of the same receiver handle *)
Theorem c06_except_overwritten c a cap h f b : In (V6Missed f b) (violations6 c a cap h) -> b = true.
Proof.
  intros Hv. unfold violations6 in Hv. eapply check6_sound; eauto; [apply inv_init | apply inv6_init].
Qed.

(* cancellation: dropping a future touches nothing but the set of futures *)
Theorem c06_drop_future_harmless c s f s1 rs wk :
  step c s (DropF f) = (s1, (rs, wk)) ->
  rxs s1 = rxs s /\ txs s1 = txs s /\ lists s1 = lists s /\ rcount s1 = rcount s /\ wk = [] /\
  forall f' r, In (f', r) (futs s1) -> f' <> f /\ In (f', r) (futs s).
Proof.
  cbn [step]. destruct (find (fun p => N.eqb (fst p) f) (futs s)) eqn:E; intros H; injection H as <- <- <-.
  - repeat split; auto.
    + cbn in H. apply filter_In in H. destruct H as [_ H]. cbn in H. intros ->. rewrite N.eqb_refl in H. discriminate.
    + cbn in H. apply filter_In in H. tauto.
  - repeat split; auto. intros ->.
    assert (Hn := find_none _ _ E (f, r) H). cbn in Hn. rewrite N.eqb_refl in Hn. discriminate.
Qed.
