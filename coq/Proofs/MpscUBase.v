(* Proofs/MpscUBase.v — proof infrastructure for the unbounded-MPSC K2 model: symbolic execution
   tactics (the head-first evaluation of MpscBBase.v) and the structural invariant GS, kept by
   [exec_GS] in one pass with one part per component. *)
From Fibre Require Import Common.Base Chan.MpscU.
From Fibre Require Export Proofs.MpscCommon.
(* Chan/MpscU.v repeats the list helpers of Chan/MpscB.v word for word (len, aget, adel, aset, keysN,
   cnt, ...), so they are convertible: the facts about them are taken from MpscBBase/MpscBInv by [exact]. *)
From Fibre Require Proofs.MpscBBase.
From Coq Require Import ZifyBool ZifyNat ZifyN.
(* there is no division here, but with this hook the [lia] calls of these proofs cost a fraction
   of what they cost without (half in MpscUInv, a tenth in MpscUWake) *)
Ltac Zify.zify_post_hook ::= Z.div_mod_to_equations.

Lemma len_app {A} (a b : list A) : len (a ++ b) = len a + len b.
Proof. exact (@MpscBBase.len_app A a b). Qed.

Lemma len_nil {A} : len (@nil A) = 0.
Proof. exact (@MpscBBase.len_nil A). Qed.

Lemma len_cons {A} (x : A) l : len (x :: l) = 1 + len l.
Proof. exact (@MpscBBase.len_cons A x l). Qed.

Lemma len_firstn {A} n (l : list A) : len (firstn n l) = N.min (N.of_nat n) (len l).
Proof. exact (@MpscBBase.len_firstn A n l). Qed.

(** the fields [deqn] can change: q rcv *)
Definition deq_frame (s s' : st) : Prop := s' = set_rcv (set_q s (q s')) (rcv s').

Lemma deq_frame_refl s : deq_frame s s.
Proof. unfold deq_frame. destruct s; reflexivity. Qed.

Lemma deq_frame_trans a b c : deq_frame a b -> deq_frame b c -> deq_frame a c.
Proof. unfold deq_frame. intros H1 H2. rewrite H2. rewrite H1. reflexivity. Qed.

Lemma deq1_frame s : deq_frame s (fst (deq1 s)).
Proof. unfold deq_frame, deq1. destruct (q s); destruct s; reflexivity. Qed.

Lemma deqn_frame n : forall s, deq_frame s (fst (deqn n s)).
Proof.
  induction n as [|n IH]; intros s; cbn [deqn]; [apply deq_frame_refl|].
  pose proof (deq1_frame s) as H1.
  destruct (deq1 s) as [s1 [v|]] eqn:E; cbn [fst] in *; [|exact H1].
  specialize (IH s1). destruct (deqn n s1) as [s2 vs] eqn:E2. cbn [fst] in *.
  eapply deq_frame_trans; eauto.
Qed.

Lemma deq1_q s :
  match deq1 s with
  | (s1, Some v) => q s = v :: q s1 /\ rcv s1 = rcv s ++ [v]
  | (s1, None) => q s = [] /\ s1 = s
  end.
Proof. unfold deq1. destruct (q s) as [|v r] eqn:E; cbn; auto. Qed.

Lemma deqn_q n : forall s,
  q s = snd (deqn n s) ++ q (fst (deqn n s)) /\ rcv (fst (deqn n s)) = rcv s ++ snd (deqn n s).
Proof.
  induction n as [|n IH]; intros s; cbn [deqn fst snd app].
  - rewrite app_nil_r. auto.
  - pose proof (deq1_q s) as H1. destruct (deq1 s) as [s1 [v|]] eqn:E.
    + destruct H1 as [Hq Hr]. specialize (IH s1). destruct (deqn n s1) as [s2 vs] eqn:E2.
      cbn [fst snd] in *. destruct IH as [A B]. rewrite Hq, B, Hr, A, <- app_assoc. auto.
    + destruct H1 as [Hq ->]. cbn [fst snd app]. rewrite app_nil_r. auto.
Qed.

Lemma deqn_nil n s : snd (deqn n s) = [] -> n <> O -> q s = [] /\ fst (deqn n s) = s.
Proof.
  destruct n as [|n]; [congruence|]. intros H _. cbn [deqn] in *.
  pose proof (deq1_q s) as H1. destruct (deq1 s) as [s1 [v|]] eqn:E.
  - destruct (deqn n s1); discriminate.
  - cbn [fst]. exact H1.
Qed.

Lemma deqn_nil' m s s0 : deqn (N.to_nat m) s = (s0, []) -> (m =? 0) = false -> q s = [] /\ s0 = s.
Proof.
  intros E H. apply N.eqb_neq in H.
  destruct (deqn_nil (N.to_nat m) s) as [A B]; [rewrite E; reflexivity | lia |].
  rewrite E in B. cbn [fst] in B. auto.
Qed.

Ltac unf :=
  unfold do_try_send, do_send, do_send_b, do_try_recv, do_recv, do_try_recv_b, do_recv_b,
    try_recv_core, recv_b_core, do_close, do_drop_h, do_clone, do_to_async, do_to_sync, obs,
    do_mk_send, do_mk_recv, do_poll, do_drop_f, do_poll_next, lookup_free,
    poll_recv_core, poll_recv_b_core, close_h, destroy, pushl, deq1,
    notify_receiver, put_h, put_f, note_multi, use, giveback, dropv, wake in *.

Ltac cb := cbn [q scount rdrop rw hs fs wk used acc rcv back drp qdrp multi evw evd fixcl
  set_q set_scount set_rdrop set_rw set_hs set_fs set_wk set_used set_acc set_rcv set_back set_drp
  set_qdrp set_multi set_evw set_evd set_fixcl fst snd is_nil pend_of clear_ev].
Ltac cbh := cbn [q scount rdrop rw hs fs wk used acc rcv back drp qdrp multi evw evd fixcl
  set_q set_scount set_rdrop set_rw set_hs set_fs set_wk set_used set_acc set_rcv set_back set_drp
  set_qdrp set_multi set_evw set_evd set_fixcl fst snd is_nil pend_of clear_ev] in *.

(** [deqn] is not unfolded: the new state is a fresh variable that agrees with the old one
    outside q and rcv ([F]), with [Q] for those two *)
Ltac fr_deqn n s :=
  let F := fresh "F" in let Q := fresh "Q" in let E := fresh "E" in
  pose proof (deqn_frame n s) as F; pose proof (deqn_q n s) as Q;
  destruct (deqn n s) as [? ?] eqn:E; cbn [fst snd] in F, Q; unfold deq_frame in F;
  rewrite F; cb.

Ltac prim c :=
  lazymatch c with
  | lookup_free _ _ => unfold lookup_free
  | deq1 _ => unfold deq1
  | poll_recv_core _ _ _ _ => unfold poll_recv_core
  | poll_recv_b_core _ _ _ _ _ => unfold poll_recv_b_core
  | deqn ?n ?s => fr_deqn n s
  end.

(** matches left inside the final state (in [pushl], [close_h], ...) *)
Ltac dm_any :=
  match goal with
  | |- context [match ?x with _ => _ end] =>
      lazymatch x with
      | context [match _ with _ => _ end] => fail
      | _ => first [ match goal with H : x = _ |- _ => rewrite H end | destruct x eqn:? ]
      end
  end.

(** symbolic execution of the [exec s o] in the goal: the head phase on [post Q (exec s o)] with the
    rest of the goal hidden in [Q], then the matches left inside the final state *)
Ltac sx_head Q :=
  match goal with |- context [exec ?s ?o] => pattern (exec s o) end;
  match goal with |- ?P ?x => set (Q := P); change (post Q x) end;
  cbn [exec]; repeat (head_step prim; cb); unfold post.
Ltac sx_rest := unf; cbh; repeat (cb; dm_any).

Ltac symex := let Q := fresh "Q" in sx_head Q; subst Q; cbn beta; sx_rest; cb.

(** the same with [Q] hidden to the end: for goals that mention the final state many times *)
Ltac symex_late := let Q := fresh "Q" in sx_head Q; sx_rest; subst Q; cbn beta; cb.

Lemma aget_aset_eq {A} k (v : A) l : aget k (aset k v l) = Some v.
Proof. exact (@MpscBBase.aget_aset_eq A k v l). Qed.

Lemma aget_adel_eq {A} k (l : list (N * A)) : aget k (adel k l) = None.
Proof. exact (@MpscBBase.aget_adel_eq A k l). Qed.

Lemma aget_adel_neq {A} k k' (l : list (N * A)) : k' <> k -> aget k' (adel k l) = aget k' l.
Proof. exact (@MpscBBase.aget_adel_neq A k k' l). Qed.

Lemma aget_aset_neq {A} k k' (v : A) l : k' <> k -> aget k' (aset k v l) = aget k' l.
Proof. exact (@MpscBBase.aget_aset_neq A k k' v l). Qed.

Lemma aget_None_keys {A} k (l : list (N * A)) : aget k l = None <-> ~ In k (keysN l).
Proof. exact (@MpscBBase.aget_None_keys A k l). Qed.

Lemma keys_adel {A} k x (l : list (N * A)) : In x (keysN (adel k l)) <-> In x (keysN l) /\ x <> k.
Proof. exact (@MpscBBase.keys_adel A k x l). Qed.

Lemma NoDup_adel {A} k (l : list (N * A)) : NoDup (keysN l) -> NoDup (keysN (adel k l)).
Proof. exact (@MpscBBase.NoDup_adel A k l). Qed.

Lemma NoDup_aset {A} k (v : A) l : NoDup (keysN l) -> NoDup (keysN (aset k v l)).
Proof. exact (@MpscBBase.NoDup_aset A k v l). Qed.

Lemma adel_id {A} k (l : list (N * A)) : aget k l = None -> adel k l = l.
Proof. exact (@MpscBBase.adel_id A k l). Qed.

Lemma aget_some_nonempty {A} k (l : list (N * A)) v : aget k l = Some v -> l <> [].
Proof. destruct l; [discriminate | congruence]. Qed.

Lemma aget_In {A} k (l : list (N * A)) v : aget k l = Some v -> In (k, v) l.
Proof. exact (@MpscBBase.aget_In A k l v). Qed.

Lemma has_futs_false h s f fr : has_futs h s = false -> aget f (fs s) = Some fr -> fh fr <> h.
Proof.
  unfold has_futs. intros H G E. apply aget_In in G.
  assert (existsb (fun p => fh (snd p) =? h) (fs s) = true); [|congruence].
  apply existsb_exists. exists (f, fr). split; [assumption|]. cbn. apply N.eqb_eq. exact E.
Qed.

Ltac ag :=
  repeat match goal with
  | H : context [aget ?k (aset ?k _ _)] |- _ => rewrite aget_aset_eq in H
  | |- context [aget ?k (aset ?k _ _)] => rewrite aget_aset_eq
  | H : context [aget ?k (adel ?k _)] |- _ => rewrite aget_adel_eq in H
  | |- context [aget ?k (adel ?k _)] => rewrite aget_adel_eq
  | H : ?a <> ?b |- context [aget ?a (aset ?b _ _)] => rewrite (aget_aset_neq b a) by exact H
  | H : ?a <> ?b |- context [aget ?a (adel ?b _)] => rewrite (aget_adel_neq b a) by exact H
  | H : ?a <> ?b, H2 : context [aget ?a (aset ?b _ _)] |- _ => rewrite (aget_aset_neq b a) in H2 by exact H
  | H : ?a <> ?b, H2 : context [aget ?a (adel ?b _)] |- _ => rewrite (aget_adel_neq b a) in H2 by exact H
  | H : context [aget ?a (aset ?b _ _)] |- _ => destruct (N.eq_dec a b); [subst|]
  | H : context [aget ?a (adel ?b _)] |- _ => destruct (N.eq_dec a b); [subst|]
  | |- context [aget ?a (aset ?b _ _)] => destruct (N.eq_dec a b); [subst|]
  | |- context [aget ?a (adel ?b _)] => destruct (N.eq_dec a b); [subst|]
  end.

Lemma OF_inj a b : OF a = OF b -> a = b.
Proof. congruence. Qed.

Lemma OH_inj a b : OH a = OH b -> a = b.
Proof. congruence. Qed.

Ltac somes :=
  repeat first
  [ opt_step
  | match goal with
    | H : OF _ = OF _ |- _ => apply OF_inj in H; subst
    | H : OH _ = OH _ |- _ => apply OH_inj in H; subst
    | H : OF _ = OH _ |- _ => discriminate H
    | H : OH _ = OF _ |- _ => discriminate H
    end ].

Lemma adel_aset {A} k (v : A) l : adel k (aset k v l) = adel k l.
Proof. exact (@MpscBBase.adel_aset A k v l). Qed.

Lemma open_tx_aset h r l : open_tx (aset h r l) = (if isopen r then 1 else 0) + open_tx (adel h l).
Proof.
  unfold open_tx, aset. cbn [filter snd]. destruct (isopen r); rewrite ?len_cons; lia.
Qed.

Lemma open_tx_adel h l : NoDup (keysN l) ->
  open_tx l = open_tx (adel h l) + match aget h l with Some r => if isopen r then 1 else 0 | None => 0 end.
Proof.
  unfold open_tx. induction l as [|[k v] t IH]; cbn [keysN map fst adel aget filter snd]; intros H; [reflexivity|].
  inversion H as [|? ? Hni Hnd]; subst.
  destruct (N.eqb_spec h k) as [->|Hn].
  - assert (E : aget k t = None) by (apply aget_None_keys; exact Hni).
    rewrite (adel_id k t E). destruct (isopen v); rewrite ?len_cons; lia.
  - cbn [filter snd]. specialize (IH Hnd). destruct (isopen v); rewrite ?len_cons; lia.
Qed.

Lemma exec_GS s o : GS s -> GS (fst (exec s o)).
Proof.
  (* [G] stays folded while [exec] is evaluated; then one part per component of [GS] *)
  intros G. destruct o; symex; try exact G.
  all: destruct G as (N1&N2&FO&RO&SC&RL); unfold GS; cb.
  all: split; [auto using NoDup_aset, NoDup_adel|].
  all: split; [auto using NoDup_aset, NoDup_adel|].
  all: split; [first [assumption |
      (unfold fut_ok in *; cb; intros f1 fr1 Hg);
      (repeat match goal with
       | H : aget _ (fs _) = Some ?fr |- _ =>
           lazymatch goal with
           | K : aget (fh fr) (hs _) = Some _ /\ _ |- _ => fail
           | _ => let r0 := fresh "r" in let A := fresh "A" in
                  destruct (FO _ _ H) as (r0 & A)
           end
       end);
      (ag; somes; bools);
      (repeat match goal with
       | H : aget _ (fs _) = Some ?fr |- _ =>
           lazymatch goal with
           | K : aget (fh fr) (hs _) = Some _ /\ _ |- _ => fail
           | _ => let r0 := fresh "r" in let A := fresh "A" in
                  destruct (FO _ _ H) as (r0 & A)
           end
       end);
      (repeat match goal with H : _ /\ _ |- _ => destruct H end);
      (try match goal with
       | H1 : has_futs (fh ?fr) _ = false, H2 : aget _ (fs _) = Some ?fr |- _ =>
           exfalso; exact (has_futs_false _ _ _ _ H1 H2 eq_refl)
       end);
      (repeat match goal with H : fk _ = _ |- _ => rewrite H in * end);
      (cbn [fh fk fpend is_recv_kind negb] in *);
      (ag; somes);
      (try solve [eexists; split; [reflexivity || eassumption|]; cbn [with_closed with_async with_reg htx hasync hclosed]; split; congruence])]|].
  all: split; [first [assumption |
      (unfold rx_one in *; cb; intros h1 r1 Hg Hx; ag; somes; bools);
      (try solve [eapply RO; eauto]);
      (cbn [with_closed with_async with_reg htx] in *; try congruence);
      (try solve [eapply RO; eauto])]|].
  all: split; [first [assumption |
      (rewrite ?adel_aset, ?open_tx_aset);
      (try match goal with H : aget ?h (hs ?s) = Some _ |- context [adel ?h (hs ?s)] =>
         let E := fresh "E" in pose proof (open_tx_adel h (hs s) N1) as E; rewrite H in E end);
      (try match goal with H : aget ?h (hs ?s) = None |- context [adel ?h (hs ?s)] =>
         rewrite (adel_id h (hs s) H) end);
      (bools; unfold isopen in *; cbn [with_closed with_async with_reg htx hclosed] in *);
      (repeat match goal with H : htx _ = _ |- _ => rewrite H in * | H : hclosed _ = _ |- _ => rewrite H in * end);
      (rewrite ?andb_false_r, ?andb_true_r in *; cbn [andb negb] in *; try lia)]|].
  all: first [assumption |
      (unfold rx_live in *; cb);
      (ag; somes; bools);
      (try exact RL);
      (cbn [with_closed with_async with_reg htx hclosed hasync] in *);
      (split;
    [ intros E; try discriminate E; try (apply RL in E; destruct E as (r'&A&B&C)); somes;
      try congruence;
      try (eexists; split; [reflexivity || eassumption|]; cbn [with_closed with_async with_reg htx hclosed]; split; congruence)
    | intros (r'&A&B&C); somes; cbn [with_closed with_async with_reg htx hclosed] in *; try congruence;
      try (apply RL; eexists; split; [eassumption|]; split; congruence) ]);
      (exfalso; match goal with
       | H : aget ?h (hs _) = Some ?r, Hx : htx ?r = false, Hn : 1 <> ?h |- _ =>
           apply Hn; symmetry; exact (RO _ _ H Hx)
       end)].
Qed.
