(* Proofs/AMapProofs.v — lemmas about Cache/AMap.v *)
From Fibre Require Import Common.Base Cache.AMap.

Section AMapProofs.
  Variable V : Type.
  Implicit Types (m : amap V) (k : N) (v : V).

  Lemma afind_adel_same k m : afind k (adel k m) = None.
  Proof.
    induction m as [|[k' v'] t IH]; cbn [adel afind]; [reflexivity|].
    destruct (N.eqb_spec k k') as [->|Hn]; [exact IH|].
    cbn [afind]. destruct (N.eqb_spec k k'); [congruence | exact IH].
  Qed.

  Lemma afind_adel_other k k' m : k <> k' -> afind k (adel k' m) = afind k m.
  Proof.
    intros Hne. induction m as [|[k2 v2] t IH]; cbn [adel afind]; [reflexivity|].
    destruct (N.eqb_spec k' k2) as [->|Hn].
    - destruct (N.eqb_spec k k2); [congruence | exact IH].
    - cbn [afind]. destruct (N.eqb_spec k k2); [reflexivity | exact IH].
  Qed.

  Lemma afind_aset_same k v m : afind k (aset k v m) = match afind k m with Some _ => Some v | None => None end.
  Proof.
    induction m as [|[k' v'] t IH]; cbn [aset afind]; [reflexivity|].
    destruct (N.eqb_spec k k') as [->|Hn]; cbn [afind].
    - rewrite N.eqb_refl. reflexivity.
    - destruct (N.eqb_spec k k'); [congruence | exact IH].
  Qed.

  Lemma afind_aset_other k k' v m : k <> k' -> afind k (aset k' v m) = afind k m.
  Proof.
    intros Hne. induction m as [|[k2 v2] t IH]; cbn [aset afind]; [reflexivity|].
    destruct (N.eqb_spec k' k2) as [->|Hn]; cbn [afind].
    - destruct (N.eqb_spec k k2); [congruence | exact IH].
    - destruct (N.eqb_spec k k2); [reflexivity | exact IH].
  Qed.

  Lemma akeys_aset k v m : akeys (aset k v m) = akeys m.
  Proof.
    induction m as [|[k' v'] t IH]; cbn [aset akeys map fst]; [reflexivity|].
    destruct (N.eqb k k'); cbn [map fst]; f_equal; exact IH.
  Qed.

  Lemma afind_aput_same k v m : afind k (aput k v m) = Some v.
  Proof.
    unfold aput, ahas. destruct (afind k m) eqn:E.
    - rewrite afind_aset_same, E. reflexivity.
    - cbn [afind]. rewrite N.eqb_refl. reflexivity.
  Qed.

  Lemma afind_aput_other k k' v m : k <> k' -> afind k (aput k' v m) = afind k m.
  Proof.
    intros Hne. unfold aput. destruct (ahas k' m).
    - apply afind_aset_other. exact Hne.
    - cbn [afind]. destruct (N.eqb_spec k k'); [congruence | reflexivity].
  Qed.

  Lemma afind_None_keys k m : afind k m = None <-> ~ In k (akeys m).
  Proof.
    induction m as [|[k' v'] t IH]; cbn [afind akeys map fst].
    - split; auto.
    - destruct (N.eqb_spec k k') as [->|Hn].
      + split; [discriminate | intros H; exfalso; apply H; left; reflexivity].
      + rewrite IH. unfold akeys. split.
        * intros H [He|Hi]; [congruence | auto].
        * intros H Hi. apply H. right. exact Hi.
  Qed.

  Lemma afind_Some_keys k v m : afind k m = Some v -> In k (akeys m).
  Proof.
    intros H. destruct (in_dec N.eq_dec k (akeys m)) as [Hi|Hn]; [exact Hi|].
    apply afind_None_keys in Hn. congruence.
  Qed.

  Lemma afind_In k v m : afind k m = Some v -> In (k, v) m.
  Proof.
    induction m as [|[k' v'] t IH]; cbn [afind]; intros H; [discriminate|].
    destruct (N.eqb_spec k k') as [->|Hn].
    - inversion H; subst. left. reflexivity.
    - right. apply IH. exact H.
  Qed.

  Lemma In_afind k v m : NoDup (akeys m) -> In (k, v) m -> afind k m = Some v.
  Proof.
    induction m as [|[k' v'] t IH]; cbn [afind akeys map fst]; intros Hnd Hin; [contradiction|].
    inversion Hnd as [|? ? Hni Hnd']; subst.
    destruct Hin as [He|Hin].
    - inversion He; subst. rewrite N.eqb_refl. reflexivity.
    - destruct (N.eqb_spec k k') as [->|Hn].
      + exfalso. apply Hni. change (In k' (akeys t)). unfold akeys.
        apply in_map_iff. exists (k', v). auto.
      + apply IH; assumption.
  Qed.

  Lemma akeys_adel_subset k m x : In x (akeys (adel k m)) -> In x (akeys m) /\ x <> k.
  Proof.
    induction m as [|[k' v'] t IH]; cbn [adel akeys map fst]; intros H; [contradiction|].
    destruct (N.eqb_spec k k') as [->|Hn].
    - destruct (IH H) as [A B]. split; [right; exact A | exact B].
    - cbn [akeys map fst] in H. destruct H as [He|Hi].
      + subst. split; [left; reflexivity | congruence].
      + destruct (IH Hi) as [A B]. split; [right; exact A | exact B].
  Qed.

  Lemma adel_NoDup k m : NoDup (akeys m) -> NoDup (akeys (adel k m)).
  Proof.
    induction m as [|[k' v'] t IH]; cbn [adel akeys map fst]; intros H; [constructor|].
    inversion H as [|? ? Hni Hnd]; subst.
    destruct (N.eqb_spec k k') as [->|Hn]; [apply IH; exact Hnd|].
    cbn [akeys map fst]. constructor; [|apply IH; exact Hnd].
    intros Hi. apply akeys_adel_subset in Hi. destruct Hi. contradiction.
  Qed.

  Lemma aset_NoDup k v m : NoDup (akeys m) -> NoDup (akeys (aset k v m)).
  Proof. rewrite akeys_aset. auto. Qed.

  Lemma aput_NoDup k v m : NoDup (akeys m) -> NoDup (akeys (aput k v m)).
  Proof.
    intros H. unfold aput, ahas. destruct (afind k m) eqn:E.
    - apply aset_NoDup. exact H.
    - cbn [akeys map fst]. constructor; [|exact H]. apply afind_None_keys. exact E.
  Qed.

  Lemma adel_id k m : afind k m = None -> adel k m = m.
  Proof.
    induction m as [|[k' v'] t IH]; cbn [adel afind]; intros H; [reflexivity|].
    destruct (N.eqb_spec k k') as [->|Hn]; [discriminate|].
    f_equal. apply IH. exact H.
  Qed.

  Lemma aset_id k v m : ~ In k (akeys m) -> aset k v m = m.
  Proof.
    induction m as [|[k' v'] t IH]; cbn [aset akeys map fst]; intros H; [reflexivity|].
    destruct (N.eqb_spec k k') as [->|Hn]; [exfalso; apply H; left; reflexivity|].
    f_equal. apply IH. intros Hi. apply H. right. exact Hi.
  Qed.

  Lemma afind_adel_Some k k' v m : afind k (adel k' m) = Some v -> afind k m = Some v /\ k <> k'.
  Proof.
    intros H. destruct (N.eq_dec k k') as [->|Hn].
    - rewrite afind_adel_same in H. discriminate.
    - rewrite afind_adel_other in H by exact Hn. auto.
  Qed.

  (* the entries of a sub-list are found in the list *)
  Lemma afind_filter_Some (f : N * V -> bool) k v m :
    NoDup (akeys m) -> In (k, v) (filter f m) -> afind k m = Some v.
  Proof. intros Hnd Hin. apply In_afind; [exact Hnd|]. apply filter_In in Hin. tauto. Qed.
End AMapProofs.

Arguments afind_adel_same {V}.
Arguments afind_adel_other {V}.
Arguments afind_aset_same {V}.
Arguments afind_aset_other {V}.
Arguments afind_aput_same {V}.
Arguments afind_aput_other {V}.
Arguments akeys_aset {V}.
Arguments afind_None_keys {V}.
Arguments afind_Some_keys {V}.
Arguments afind_In {V}.
Arguments In_afind {V}.
Arguments akeys_adel_subset {V}.
Arguments adel_NoDup {V}.
Arguments aset_NoDup {V}.
Arguments aput_NoDup {V}.
Arguments adel_id {V}.
Arguments aset_id {V}.
Arguments afind_adel_Some {V}.
Arguments afind_filter_Some {V}.
