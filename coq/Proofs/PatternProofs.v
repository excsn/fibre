(* Proofs/PatternProofs.v — the pattern encoder Log/Pattern.v: padding only ever adds spaces (or
   panics above width 65535, F-33), so rendering is total for small widths and every converter's
   content appears verbatim in the output; a %-free pattern is one literal. *)
From Fibre Require Import Common.Base Log.Json Log.Pattern.
From Coq Require Import ZifyBool ZifyNat ZifyN.
Open Scope N_scope.

Definition all_spaces (s : bytes) : Prop := Forall (fun b => b = 32) s.

Lemma spaces_all n : all_spaces (spaces n).
Proof. unfold all_spaces, spaces. apply Forall_forall. intros x H. apply repeat_spec in H. exact H. Qed.

Lemma nchars_le s : nchars s <= len s.
Proof.
  unfold nchars, len. induction s as [|b s IH]; cbn [filter length]; [lia|].
  destruct (negb (is_cont b)); cbn [length]; lia.
Qed.

Theorem padding_never_truncates : forall content p out,
  apply_padding content p = Rendered out ->
  exists fill, all_spaces fill /\ (out = fill ++ content \/ out = content ++ fill).
Proof.
  intros content p out. unfold apply_padding.
  destruct (Z.abs_N p <=? len content).
  - intros H. inversion H; subst. exists []. split; [constructor|left; reflexivity].
  - destruct (65535 <? Z.abs_N p); [discriminate|].
    destruct (0 <? p)%Z; intros H; inversion H; subst; eexists; (split; [apply spaces_all|]); [left|right]; reflexivity.
Qed.

Corollary padding_length : forall content p out,
  apply_padding content p = Rendered out -> (length content <= length out)%nat.
Proof.
  intros content p out H. destruct (padding_never_truncates _ _ _ H) as (fill & _ & [->| ->]);
    rewrite app_length; lia.
Qed.

(* when padding happens the result has exactly |p| chars (Rust's width counts chars) *)
Theorem padding_width : forall content p out,
  apply_padding content p = Rendered out -> len content < Z.abs_N p ->
  nchars out = Z.abs_N p.
Proof.
  intros content p out. unfold apply_padding.
  destruct (N.leb_spec (Z.abs_N p) (len content)) as [L|L]; [lia|].
  destruct (65535 <? Z.abs_N p); [discriminate|]. intros H _.
  assert (Hs : forall n, nchars (spaces n) = n).
  { intros n. unfold nchars, spaces, len. rewrite <- (N2Nat.id n) at 2.
    induction (N.to_nat n) as [|k IH]; [reflexivity|]. cbn [repeat filter].
    change (negb (is_cont 32)) with true. cbv iota. cbn [length]. lia. }
  assert (Happ : forall a b, nchars (a ++ b) = nchars a + nchars b).
  { intros a b. unfold nchars, len. rewrite filter_app, app_length. lia. }
  pose proof (nchars_le content).
  destruct (0 <? p)%Z; inversion H; subst; rewrite Happ, Hs; lia.
Qed.

Theorem padding_panics_iff : forall content p,
  apply_padding content p = Panicked <-> (len content < Z.abs_N p /\ 65535 < Z.abs_N p).
Proof.
  intros content p. unfold apply_padding.
  destruct (N.leb_spec (Z.abs_N p) (len content)) as [L|L].
  - split; [discriminate|lia].
  - destruct (N.ltb_spec 65535 (Z.abs_N p)) as [L2|L2].
    + split; [lia|reflexivity].
    + destruct (0 <? p)%Z; split; try discriminate; lia.
Qed.

Definition pads_small (segs : list seg) : Prop :=
  forall c p o, In (Spec c (Some p) o) segs -> (Z.abs p <= 65535)%Z.

Lemma render_spec_small ev c p o : (match p with Some z => (Z.abs z <= 65535)%Z | None => True end) ->
  exists out, render_spec ev c p o = Rendered out.
Proof.
  intros H. unfold render_spec. destruct (c =? 110); [eexists; reflexivity|].
  destruct p as [z|]; [|eexists; reflexivity].
  destruct (apply_padding (spec_content ev c o) z) eqn:E; [eexists; reflexivity|].
  apply padding_panics_iff in E. lia.
Qed.

Lemma render_segs_small ev segs : pads_small segs -> exists out, render_segs ev segs = Rendered out.
Proof.
  induction segs as [|s r IH]; intros H; cbn [render_segs]; [eexists; reflexivity|].
  destruct IH as [b Hb].
  { intros c p o Hin. apply (H c p o). right. exact Hin. }
  rewrite Hb. destruct s as [t|c p o]; cbn [render_seg]; [eexists; reflexivity|].
  destruct (render_spec_small ev c p o) as [a Ha].
  { destruct p as [z|]; [|exact I]. apply (H c z o). left. reflexivity. }
  rewrite Ha. eexists; reflexivity.
Qed.

(* every event renders, for every segment list whose widths std accepts *)
Theorem format_total_small_pads : forall ev segs, pads_small segs ->
  exists out, format_segs ev segs = Rendered out.
Proof.
  intros ev segs H. unfold format_segs. destruct (render_segs_small ev segs H) as [out ->].
  eexists; reflexivity.
Qed.

(* the unrestricted statement is false (finding F-33): a width above 65535 panics *)
Definition format_total_full : Prop :=
  forall ev pat, exists out, format_pattern pat ev = Rendered out.

Definition f33_event : event :=
  mkEvent [50] [] Info [116] [110] (Some [104; 105]) None None None None [].

(* the pattern %65536m *)
Definition f33_pattern : bytes := [37; 54; 53; 53; 51; 54; 109].

Theorem format_total_refuted : ~ format_total_full.
Proof.
  intros H. destruct (H f33_event f33_pattern) as [out Ho]. vm_compute in Ho. discriminate.
Qed.

Definition contains (out s : bytes) : Prop := exists pre post, out = pre ++ s ++ post.

Lemma contains_app_l out s x : contains out s -> contains (x ++ out) s.
Proof. intros (pre & post & ->). exists (x ++ pre), post. rewrite app_assoc. reflexivity. Qed.

Lemma contains_app_r out s x : contains out s -> contains (out ++ x) s.
Proof. intros (pre & post & ->). exists pre, (post ++ x). rewrite <- !app_assoc. reflexivity. Qed.

Lemma render_spec_contains ev c p o out : c <> 110 ->
  render_spec ev c p o = Rendered out -> contains out (spec_content ev c o).
Proof.
  intros Hc. unfold render_spec. destruct (N.eqb_spec c 110) as [E|_]; [contradiction|].
  destruct p as [z|].
  - intros H. destruct (padding_never_truncates _ _ _ H) as (fill & _ & [->| ->]).
    + exists fill, []. rewrite app_nil_r. reflexivity.
    + exists [], fill. reflexivity.
  - intros H. inversion H; subst. exists [], []. rewrite app_nil_r. reflexivity.
Qed.

Lemma render_segs_contains ev c p o : c <> 110 -> forall segs out,
  In (Spec c p o) segs -> render_segs ev segs = Rendered out -> contains out (spec_content ev c o).
Proof.
  intros Hc. induction segs as [|s r IH]; intros out Hin H; [contradiction|].
  cbn [render_segs] in H. destruct (render_seg ev s) as [a|] eqn:Ea; [|discriminate].
  destruct (render_segs ev r) as [b|] eqn:Eb; [|discriminate]. inversion H; subst out.
  destruct Hin as [->|Hin].
  - apply contains_app_r. cbn [render_seg] in Ea. apply (render_spec_contains ev c p o a Hc Ea).
  - apply contains_app_l. apply (IH b Hin eq_refl).
Qed.

(* every converter other than %n has its content reproduced verbatim, whatever the padding *)
Theorem format_contains ev c p o segs out : c <> 110 ->
  In (Spec c p o) segs -> format_segs ev segs = Rendered out -> contains out (spec_content ev c o).
Proof.
  intros Hc Hin. unfold format_segs. destruct (render_segs ev segs) as [r|] eqn:E; [|discriminate].
  intros [= <-]. pose proof (render_segs_contains ev c p o Hc segs r Hin E) as H.
  destruct (ends_nl r); [exact H|apply contains_app_r, H].
Qed.

Theorem message_verbatim : forall ev segs p o out,
  In (Spec 109 p o) segs -> format_segs ev segs = Rendered out ->
  contains out (opt_bytes (e_message ev)).
Proof. intros ev segs p o out. apply (format_contains ev 109). discriminate. Qed.

(* likewise level (%p, %l) and target (%t) *)
Theorem level_target_verbatim : forall ev segs p o out,
  format_segs ev segs = Rendered out ->
  ((In (Spec 112 p o) segs \/ In (Spec 108 p o) segs) -> contains out (level_str (e_level ev)))
  /\ (In (Spec 116 p o) segs -> contains out (e_target ev)).
Proof.
  intros ev segs p o out H. split; [intros [Hin|Hin]|intros Hin].
  - apply (format_contains ev 112 p o segs); [discriminate|assumption..].
  - apply (format_contains ev 108 p o segs); [discriminate|assumption..].
  - apply (format_contains ev 116 p o segs); [discriminate|assumption..].
Qed.

Lemma ends_nl_spec out : ends_nl out = true -> exists body, out = body ++ [10].
Proof.
  induction out as [|b r IH]; cbn [ends_nl]; [discriminate|].
  destruct r as [|c r'].
  - intros H. apply N.eqb_eq in H. subst b. exists []. reflexivity.
  - intros H. destruct (IH H) as [body Hb]. exists (b :: body). rewrite Hb. reflexivity.
Qed.

Theorem format_ends_newline : forall ev segs out, format_segs ev segs = Rendered out ->
  exists body, out = body ++ [10].
Proof.
  intros ev segs out. unfold format_segs. destruct (render_segs ev segs) as [o|]; [|discriminate].
  intros H. inversion H; subst. destruct (ends_nl o) eqn:E; [apply ends_nl_spec, E|].
  exists o. reflexivity.
Qed.

(** * the scanner on %-free text: one literal, rendered verbatim *)
Lemma scan_lit_no_pct : forall inp lit, ~ In 37 inp -> scan SLit lit inp = flush (lit ++ inp).
Proof.
  induction inp as [|b r IH]; intros lit H; cbn [scan].
  - rewrite app_nil_r. reflexivity.
  - destruct (N.eqb_spec b 37) as [->|Hb]; [exfalso; apply H; left; reflexivity|].
    rewrite IH by (intros Hin; apply H; right; exact Hin).
    rewrite <- app_assoc. reflexivity.
Qed.

Theorem literal_pattern : forall pat ev, ~ In 37 pat -> pat <> [] ->
  scan_pattern pat = [Lit pat]
  /\ format_pattern pat ev = Rendered (if ends_nl pat then pat else pat ++ [10]).
Proof.
  intros pat ev H Hne. unfold format_pattern, scan_pattern. rewrite scan_lit_no_pct by exact H.
  cbn [app]. destruct pat as [|b t]; [contradiction|]. cbn [flush]. split; [reflexivity|].
  unfold format_segs. cbn [render_segs render_seg]. rewrite app_nil_r. reflexivity.
Qed.
