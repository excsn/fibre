(* Proofs/MpmcK3Base.v — the lock discipline of the bounded-MPMC atomic-step model (a thread is at an
   in-section pc iff it holds `internal`: InvL) and what it gives for properties of in-section
   pcs (`sec_pcs`); list lemmas. *)
From Coq Require Import List NArith Arith Bool Lia Sorted.
From Fibre Require Import Common.Conc Chan.MpmcK3.
From Fibre Require Export Proofs.MpmcK3Step.
Import ListNotations.

Set Implicit Arguments.

Lemma isnil_true A (l : list A) : isnil l = true <-> l = [].
Proof. destruct l; cbn; split; congruence. Qed.
Lemma isnil_false A (l : list A) : isnil l = false <-> l <> [].
Proof. destruct l; cbn; split; congruence. Qed.

(* strictly inside a critical section of `internal` *)
Definition in_sec (p : pc) : bool :=
  match p with
  | SScan _ _ | SUnpark _ _ | SUnlock _ _ | SRegUnlock _ | SUnlUnlock _
  | RScan _ _ _ | RUnpark _ _ _ | RUnlock _ _ | RRegUnlock _ _ | TCancelUnlock | RUnlUnlock _
  | DScan _ _ _ | DUnlock _ => true
  | _ => false
  end.

Ltac split_thr u t :=
  destruct (Nat.eq_dec u t) as [->|?]; [rewrite ?upd_eq in * | rewrite ?upd_neq in * by assumption].

Definition InvL (s : st) : Prop :=
  (forall u, in_sec (pcs s u) = true -> lk s = Some u) /\
  (forall u, lk s = Some u -> in_sec (pcs s u) = true).

Lemma InvL_init th : InvL (init th).
Proof.
  split; cbn [init lk pcs]; intros u H; [|discriminate].
  destruct (Nat.ltb u (length th)); discriminate.
Qed.

(* a step keeps the lock where it is, takes it while it is free, or gives it back *)
Lemma InvL_move s s' t p' :
  InvL s -> pcs s' = upd (pcs s) t p' ->
  (lk s' = lk s /\ in_sec p' = in_sec (pcs s t)) \/
  (lk s = None /\ lk s' = Some t /\ in_sec p' = true) \/
  (in_sec (pcs s t) = true /\ lk s' = None /\ in_sec p' = false) ->
  InvL s'.
Proof.
  intros [L1 L2] Hp Hk.
  split; intros u; rewrite Hp; unfold upd; destruct (Nat.eqb_spec u t) as [->|N]; intros X.
  - destruct Hk as [[A B]|[(A & B & C)|(A & B & C)]]; [rewrite A; apply L1|..]; congruence.
  - pose proof (L1 u X) as Y. destruct Hk as [[A B]|[(A & B & C)|(A & B & C)]]; [| |apply L1 in A]; congruence.
  - destruct Hk as [[A B]|[(A & B & C)|(A & B & C)]]; [rewrite B; apply L2|..]; congruence.
  - apply L2. destruct Hk as [[A B]|[(A & B & C)|(A & B & C)]]; congruence.
Qed.

Lemma InvL_step cap cf s t s' : InvL s -> Step cap cf s t s' -> InvL s'.
Proof.
  intros HL HS. destruct HS.
  all: eapply InvL_move; [exact HL|st_simpl; reflexivity|]; st_simpl; try open_move; rewrite Epc.
  all: first [ left; split; [reflexivity|]
             | right; left; split; [assumption|split; [reflexivity|]]
             | right; right; split; [|split; [reflexivity|]] ].
  all: case_pc; reflexivity.
Qed.

(* another thread cannot be inside the section while t holds / has just found the lock free *)
Lemma other_not_in_sec s t u :
  InvL s -> u <> t -> (lk s = Some t \/ lk s = None) -> in_sec (pcs s u) = true -> False.
Proof.
  intros [L1 _] N [H|H] X; apply L1 in X; rewrite H in X; congruence.
Qed.

(* a property of (thread, pc) that holds outside the section for free and mentions data only the
   lock holder edits: it is kept for all threads if the mover's new pc has it and either it is kept
   for every other thread's pc, or the mover is the holder (nobody else is inside the section) *)
Lemma sec_pcs (P : st -> nat -> pc -> Prop) s s' t p' :
  InvL s -> (forall u p, in_sec p = false -> P s' u p) ->
  (forall u, P s u (pcs s u)) -> pcs s' = upd (pcs s) t p' -> P s' t p' ->
  (forall u p, u <> t -> P s u p -> P s' u p) \/ lk s = Some t \/ lk s = None ->
  forall u, P s' u (pcs s' u).
Proof.
  intros HL Hfree Hall Hp Ht Hk u. rewrite Hp. unfold upd. destruct (Nat.eqb_spec u t) as [->|N]; [exact Ht|].
  destruct Hk as [Hk|Hk]; [apply Hk, Hall; exact N|]. apply Hfree.
  destruct (in_sec (pcs s u)) eqn:E; [|reflexivity]. exfalso. exact (other_not_in_sec HL N Hk E).
Qed.

Ltac arith_facts := repeat match goal with
  | H : (_ <? _) = true |- _ => apply Nat.ltb_lt in H
  | H : (_ <? _) = false |- _ => apply Nat.ltb_ge in H
  | H : (_ =? _) = true |- _ => apply Nat.eqb_eq in H
  | H : (_ =? _) = false |- _ => apply Nat.eqb_neq in H
  | H : _ && _ = true |- _ => apply andb_prop in H; destruct H
  | H : negb _ = true |- _ => apply negb_true_iff in H
  end.

Lemma from_prod_app p a b : from_prod p (a ++ b) = from_prod p a ++ from_prod p b.
Proof. apply filter_app. Qed.
Lemma from_prod_one_eq p n : from_prod p [(p, n)] = [(p, n)].
Proof. unfold from_prod; cbn. rewrite Nat.eqb_refl. reflexivity. Qed.
Lemma from_prod_one_neq p t n : t <> p -> from_prod p [(t, n)] = [].
Proof. intros H. unfold from_prod; cbn. destruct (Nat.eqb_spec t p); [contradiction|reflexivity]. Qed.
Lemma of_thread_app A t (a b : list (nat * A)) : of_thread t (a ++ b) = of_thread t a ++ of_thread t b.
Proof. unfold of_thread. rewrite filter_app, map_app. reflexivity. Qed.
Lemma of_thread_one_eq A t (x : A) : of_thread t [(t, x)] = [x].
Proof. unfold of_thread; cbn. rewrite Nat.eqb_refl. reflexivity. Qed.
Lemma of_thread_one_neq A t u (x : A) : u <> t -> of_thread t [(u, x)] = [].
Proof. intros H. unfold of_thread; cbn. destruct (Nat.eqb_spec u t); [contradiction|reflexivity]. Qed.

Lemma sorted_snoc l x : StronglySorted lt l -> (forall y, In y l -> y < x) -> StronglySorted lt (l ++ [x]).
Proof.
  induction 1 as [|a l Hs IH Hf]; intros Hx; cbn.
  - constructor; constructor.
  - constructor.
    + apply IH. intros y Hy. apply Hx. right. exact Hy.
    + apply Forall_app. split; [exact Hf|]. constructor; [|constructor]. apply Hx. left. reflexivity.
Qed.

