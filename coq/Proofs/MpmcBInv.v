(* Proofs/MpmcBInv.v — the invariant of the bounded-MPMC K2 model, and how it survives the kinds of change a
   step is made of: an id moving between the caller's hand, the buffer and a future's cell; one future's record
   rewritten together with the waiter queue of its side; the queues alone; one entry of the handle table together
   with the counts; a taint.  The wake primitives and the two core calls are then stated in those terms, with
   their effect on the four registration counters kept apart from the wake-accounting clauses. *)

(* Frames.  The state has 19 fields; the three event fields (wk, dk, bad) matter to no part of the invariant.
   Of the other 16:
     dview / wview / kview   what InvD / InvW / InvK read (InvX_ext: equal view, same InvX);
     core                    all 16 = (dview, wview): InvH_ext, for event-only changes;
     rest                    the 13 that a future's own step never writes: all but fs, arq, asq;
     frameM                  rest + both queues (only records change: the marking loop);
     frame b                 all but fs and the queue of side b (one wake on that side); it also keeps dk;
     frame0                  what neither core call writes: rest without q, acc, recvd (10 fields, + dk).
   So core > frameM > frame b > rest > frame0 in what they keep.  A lemma about a change takes the view
   equation that fits it and is used with [reflexivity]; the conjunctive frames (frame, frame0) are
   what the model-only lemmas about wake_one_* and the core calls conclude, field by field.
   MpmcBProofs.v adds the invariant-free frames cfg / quiet / calm over fx, cap, tn, sc, q, recvd, acc. *)
From Fibre Require Import Common.Base Chan.MpmcB Proofs.MpmcBBase.
From Coq Require Import ZifyBool ZifyNat ZifyN.

(* payload ids held inside live futures (SendFuture.item) *)
Definition cellp (v : N) (x : fut) : bool :=
  f_live x && match f_item x with Some u => N.eqb v u | None => false end.
Definition cells (s : st) (v : N) : nat := cnt (cellp v) (fs s).

(* how many places hold id v *)
Definition tot (s : st) (v : N) : nat :=
  (occ v (recvd s) + occ v (q s) + cells s v + occ v (back s) + occ v (dropped s))%nat.

Definition open_tx (h : handle) : bool := h_live h && negb (h_closed h) && h_tx h.
Definition open_rx (h : handle) : bool := h_live h && negb (h_closed h) && negb (h_tx h).

(* registered futures by side and state: parked-unwoken / woken-not-yet-polled *)
Definition pw_r (x : fut) : bool := f_recv x && f_reg x && is_waiting (f_state x).
Definition pi_r (x : fut) : bool := f_recv x && f_reg x && is_success (f_state x).
Definition pw_s (x : fut) : bool := negb (f_recv x) && f_reg x && is_waiting (f_state x).
Definition pi_s (x : fut) : bool := negb (f_recv x) && f_reg x && is_success (f_state x).

Definition nq (s : st) : nat := length (q s).
Definition ncap (s : st) : nat := N.to_nat (cap s).

Definition taint_ok (f : fixes) (t : taints) : Prop :=
  (fx03 f = true -> t03 t = false) /\ (fx03f f = true -> t03f t = false) /\
  (fx06 f = true -> t06 t = false) /\ (fx07 f = true -> t07 t = false) /\
  (fx08 f = true -> t08 t = false) /\ (fx12 f = true -> t12 t = false) /\
  (fx33 f = true -> t33 t = false).

Definition hok (recv : bool) (h : handle) : Prop :=
  h_live h = true /\ h_tx h = negb recv /\ h_async h = true.

(* data part, with the ids currently "in the caller's hand" (taken by [fresh], not yet placed) *)
Record InvD (hand : list N) (s : st) : Prop := {
  d_cap : (nq s <= ncap s)%nat;
  d_fifo : acc s = recvd s ++ q s;
  d_cons : forall v, (tot s v + occ v hand)%nat = if N.ltb v (next s) then 1%nat else 0%nat
}.

Record InvW (s : st) : Prop := {
  w_hnd : NoDup (akeys (hs s));
  w_fnd : NoDup (akeys (fs s));
  w_arq_nd : NoDup (akeys (arq s));
  w_asq_nd : NoDup (akeys (asq s));
  (* queued waiters point at futures of the right kind; on the send side they are always registered *)
  w_arq_k : forall f w, In (f, w) (arq s) -> exists x, getF f s = Some x /\ f_recv x = true;
  w_asq_k : forall f w, In (f, w) (asq s) -> exists x, getF f s = Some x /\ f_recv x = false /\ f_reg x = true;
  w_reg : forall f x, getF f s = Some x -> f_reg x = true -> f_live x = true /\ f_done x = false;
  (* a registered future still WAITING has its waiter queued *)
  w_wq : forall f x, getF f s = Some x -> f_reg x = true -> is_waiting (f_state x) = true ->
                     In f (akeys (if f_recv x then arq s else asq s));
  w_fh : forall f x, getF f s = Some x -> f_live x = true ->
                     exists h, getH (f_h x) s = Some h /\ hok (f_recv x) h;
  (* once a side's count is 0 every parked waiter of the other side has been CLOSED-woken *)
  w_sc0 : sc s = 0 -> forall f w x, In (f, w) (arq s) -> getF f s = Some x -> is_waiting (f_state x) = false;
  w_rc0 : rc s = 0 -> forall f w x, In (f, w) (asq s) -> getF f s = Some x -> is_waiting (f_state x) = false;
  (* no dangling registration on the receive side — unless the F-06 event happened *)
  w_arq_reg : t06 (tn s) = false -> forall f w, In (f, w) (arq s) -> exists x, getF f s = Some x /\ f_reg x = true;
  w_freed : freed s = negb (any_live s);
  w_taint : taint_ok (fx s) (tn s);
  (* a registered SendFuture holds its item *)
  w_item : forall f x, getF f s = Some x -> f_recv x = false -> f_reg x = true -> f_item x <> None;
  (* a receive-side waiter is unlinked in the same critical section that marks it SUCCESS *)
  w_arq_st : forall f w x, In (f, w) (arq s) -> getF f s = Some x ->
                           is_success (f_state x) = false /\ (f_done x = false -> f_reg x = true)
}.

Record InvK (s : st) : Prop := {
  (* the counts the code keeps are the numbers of open handles — unless the F-07 event happened *)
  k_cnt : t07 (tn s) = false ->
          sc s = N.of_nat (cnt open_tx (hs s)) /\ rc s = N.of_nat (cnt open_rx (hs s));
  (* wake accounting, receive side: parked-unwoken receivers exist only if every buffered item has a
     woken receiver on its way *)
  k_r : t06 (tn s) = false -> t12 (tn s) = false ->
        cnt pw_r (fs s) = 0%nat \/ (nq s <= cnt pi_r (fs s))%nat;
  (* send side: parked-unwoken senders exist only if every free slot has a woken sender on its way *)
  k_s : t12 (tn s) = false ->
        cnt pw_s (fs s) = 0%nat \/ (ncap s <= nq s + cnt pi_s (fs s))%nat
}.

Definition InvH (hand : list N) (s : st) : Prop := InvD hand s /\ InvW s /\ InvK s.
Definition Inv (s : st) : Prop := InvH [] s.

Ltac st_simpl :=
  cbn [cap fx q sc rc asq arq hs fs next acc recvd back dropped freed tn wk dk bad
       with_q with_sc with_rc with_asq with_arq with_hs with_fs with_next with_acc with_recvd
       with_back with_dropped with_freed with_tn with_wk with_dk with_bad
       setF setH wake push give_back destroy] in *.

Definition dview (s : st) := (cap s, q s, fs s, next s, acc s, recvd s, back s, dropped s).
Definition wview (s : st) := (fx s, sc s, rc s, asq s, arq s, hs s, fs s, freed s, tn s).
Definition kview (s : st) := (cap s, q s, sc s, rc s, hs s, fs s, tn s).
Definition core (s : st) := (dview s, wview s).

Lemma InvD_ext hand s s' : dview s' = dview s -> InvD hand s -> InvD hand s'.
Proof.
  destruct s, s'. unfold dview. st_simpl. intros E. injection E as -> -> -> -> -> -> -> ->.
  intros [A B C]. constructor; assumption.
Qed.

Lemma InvW_ext s s' : wview s' = wview s -> InvW s -> InvW s'.
Proof.
  destruct s, s'. unfold wview. st_simpl. intros E. injection E as -> -> -> -> -> -> -> -> ->.
  intros []. constructor; assumption.
Qed.

Lemma InvK_ext s s' : kview s' = kview s -> InvK s -> InvK s'.
Proof.
  destruct s, s'. unfold kview. st_simpl. intros E. injection E as -> -> -> -> -> -> ->.
  intros []. constructor; assumption.
Qed.

Lemma InvH_ext hand s s' : core s' = core s -> InvH hand s -> InvH hand s'.
Proof.
  intros E (D & W & K). pose proof (f_equal fst E) as Ed. pose proof (f_equal snd E) as Ew. cbn [core fst snd] in Ed, Ew.
  split; [|split]; [revert D; apply InvD_ext | revert W; apply InvW_ext | revert K; apply InvK_ext]; try assumption.
  unfold dview, wview, kview in *. injection Ed as ? ? ? ? ? ? ? ?. injection Ew as ? ? ? ? ? ? ? ? ?. congruence.
Qed.

Lemma InvH_wake hand w s : InvH hand s -> InvH hand (wake w s).
Proof. apply InvH_ext. reflexivity. Qed.

Lemma InvH_mark_bad hand b s : InvH hand s -> InvH hand (mark_bad b s).
Proof. destruct b; [apply InvH_ext; reflexivity | auto]. Qed.

Lemma getF_setF f f' x s : getF f' (setF f x s) = if N.eqb f' f then Some x else getF f' s.
Proof. apply aget_aset. Qed.

Lemma getH_setH h h' x s : getH h' (setH h x s) = if N.eqb h' h then Some x else getH h' s.
Proof. unfold getH, setH. st_simpl. apply aget_aset. Qed.

Lemma is_full_spec s : (nq s <= ncap s)%nat -> (is_full s = true <-> nq s = ncap s).
Proof.
  unfold is_full, lenq, nq, ncap. intros H. rewrite N.eqb_eq. lia.
Qed.

Lemma is_full_false s : (nq s <= ncap s)%nat -> is_full s = false -> (nq s < ncap s)%nat.
Proof.
  intros H Hf. destruct (Nat.eq_dec (nq s) (ncap s)) as [E|E]; [|lia].
  apply (is_full_spec s H) in E. congruence.
Qed.

Lemma lenq0 s : N.eqb (lenq s) 0 = true <-> q s = [].
Proof.
  unfold lenq. rewrite N.eqb_eq. destruct (q s); cbn [length]; split; intros H; try reflexivity; try discriminate; lia.
Qed.

Lemma occ_seqN v a n : occ v (seqN a n) = if (a <=? v) && (v <? a + N.of_nat n) then 1%nat else 0%nat.
Proof.
  revert a. induction n as [|n IH]; intros a; cbn [seqN occ].
  - destruct (N.leb_spec a v), (N.ltb_spec v (a + N.of_nat 0)); cbn [andb]; try reflexivity. lia.
  - rewrite IH.
    destruct (N.eqb_spec v a), (N.leb_spec (a + 1) v), (N.ltb_spec v (a + 1 + N.of_nat n)),
             (N.leb_spec a v), (N.ltb_spec v (a + N.of_nat (S n))); cbn [andb]; try reflexivity; lia.
Qed.

Lemma InvH_fresh_n n s : Inv s -> InvH (seqN (next s) n) (with_next (next s + N.of_nat n) s).
Proof.
  intros (D & W & K). split; [|split; [revert W; apply InvW_ext | revert K; apply InvK_ext]; reflexivity].
  destruct D as [A B C]. constructor; [exact A | exact B |].
  intros v. specialize (C v). change (tot (with_next (next s + N.of_nat n) s) v) with (tot s v).
  cbn [next with_next occ] in *. rewrite occ_seqN.
  destruct (N.leb_spec (next s) v), (N.ltb_spec v (next s + N.of_nat n)), (N.ltb_spec v (next s)); cbn [andb]; lia.
Qed.

Lemma InvH_fresh s : Inv s -> InvH [next s] (with_next (next s + 1) s).
Proof. exact (InvH_fresh_n 1 s). Qed.

Lemma InvH_give_back un s : InvH un s -> Inv (with_back (back s ++ un) s).
Proof.
  intros (D & W & K). split; [|split; [revert W; apply InvW_ext | revert K; apply InvK_ext]; reflexivity].
  destruct D as [A B C]. constructor; [exact A | exact B |].
  intros u. specialize (C u). unfold tot, cells in *. st_simpl. rewrite occ_app. cbn [occ]. lia.
Qed.

Lemma InvH_destroy v s : InvH [v] s -> Inv (destroy v s).
Proof.
  intros (D & W & K). split; [|split; [revert W; apply InvW_ext | revert K; apply InvK_ext]; reflexivity].
  destruct D as [A B C]. constructor; [exact A | exact B |].
  intros u. specialize (C u). unfold tot, cells, destroy in *. st_simpl. rewrite occ_app. cbn [occ] in *. lia.
Qed.

Lemma InvD_push v r s : InvD (v :: r) s -> (nq s < ncap s)%nat -> InvD r (push v s).
Proof.
  intros [A B C] Hlt. constructor; unfold nq, ncap, tot, cells, push in *; st_simpl.
  - rewrite app_length. cbn [length]. lia.
  - rewrite B. rewrite app_assoc. reflexivity.
  - intros u. specialize (C u). rewrite occ_app. cbn [occ] in *. lia.
Qed.

(* a push needs room, and a woken receiver on its way for the new item if any receiver is parked *)
Lemma InvK_push v s :
  InvK s ->
  (t06 (tn s) = false -> t12 (tn s) = false -> cnt pw_r (fs s) = 0%nat \/ (nq s + 1 <= cnt pi_r (fs s))%nat) ->
  InvK (push v s).
Proof.
  intros [K1 K2 K3] Hr. constructor; unfold nq, ncap, push in *; st_simpl.
  - assumption.
  - intros T1 T2. specialize (Hr T1 T2). rewrite app_length. cbn [length]. lia.
  - intros T. specialize (K3 T). rewrite app_length. cbn [length]. lia.
Qed.

Lemma InvH_push v r s :
  InvH (v :: r) s -> (nq s < ncap s)%nat ->
  (t06 (tn s) = false -> t12 (tn s) = false ->
   cnt pw_r (fs s) = 0%nat \/ (nq s + 1 <= cnt pi_r (fs s))%nat) ->
  InvH r (push v s).
Proof.
  intros (D & W & K) Hlt Hr.
  split; [apply InvD_push; assumption|]. split; [revert W; apply InvW_ext; reflexivity | apply InvK_push; assumption].
Qed.

Lemma cnt_fs (P : fut -> bool) f x x' s s' :
  NoDup (akeys (fs s)) -> getF f s = Some x -> fs s' = aset f x' (fs s) ->
  (cnt P (fs s') + b2n (P x) = cnt P (fs s) + b2n (P x'))%nat.
Proof. intros Hnd Hg ->. apply cnt_aset; assumption. Qed.

Lemma cnt_upd (P : fut -> bool) f x x' arq' asq' s :
  NoDup (akeys (fs s)) -> getF f s = Some x ->
  (cnt P (fs (with_arq arq' (with_asq asq' (setF f x' s)))) + b2n (P x) = cnt P (fs s) + b2n (P x'))%nat.
Proof. intros Hnd Hg. apply (cnt_fs P f x x' s); auto. Qed.

Lemma cnt4 f x x' s s' :
  NoDup (akeys (fs s)) -> getF f s = Some x -> fs s' = aset f x' (fs s) ->
  (cnt pw_r (fs s') + b2n (pw_r x) = cnt pw_r (fs s) + b2n (pw_r x'))%nat /\
  (cnt pi_r (fs s') + b2n (pi_r x) = cnt pi_r (fs s) + b2n (pi_r x'))%nat /\
  (cnt pw_s (fs s') + b2n (pw_s x) = cnt pw_s (fs s) + b2n (pw_s x'))%nat /\
  (cnt pi_s (fs s') + b2n (pi_s x) = cnt pi_s (fs s) + b2n (pi_s x'))%nat.
Proof. intros Hnd Hg E. repeat split; apply (cnt_fs _ f); assumption. Qed.

(* the data part: the future's cell and the caller's hand may exchange an id *)
Lemma InvD_upd hand hand' f x x' s s' :
  InvD hand s -> NoDup (akeys (fs s)) -> getF f s = Some x -> fs s' = aset f x' (fs s) ->
  (cap s', q s', next s', acc s', recvd s', back s', dropped s') = (cap s, q s, next s, acc s, recvd s, back s, dropped s) ->
  (forall v, (b2n (cellp v x') + occ v hand' = b2n (cellp v x) + occ v hand)%nat) ->
  InvD hand' s'.
Proof.
  intros [A B C] Hnd Hg Ef E Hc. injection E as Ec Eq En Ea Er Eb Ed. constructor.
  - unfold nq, ncap. rewrite Eq, Ec. exact A.
  - rewrite Ea, Er, Eq. exact B.
  - intros v. specialize (C v). specialize (Hc v). pose proof (cnt_fs (cellp v) f x x' s s' Hnd Hg Ef).
    unfold tot, cells in *. rewrite Er, Eq, Eb, Ed, En. lia.
Qed.

Lemma cell_same x x' hand :
  f_live x' = f_live x -> f_item x' = f_item x ->
  forall v, (b2n (cellp v x') + occ v hand = b2n (cellp v x) + occ v hand)%nat.
Proof. intros E1 E2 v. unfold cellp. rewrite E1, E2. reflexivity. Qed.

Definition qupd (f : N) (l l' : list (N * N)) : Prop :=
  NoDup (akeys l') /\ forall f1 w1, f1 <> f -> (In (f1, w1) l' <-> In (f1, w1) l).

Lemma qupd_same f l : NoDup (akeys l) -> qupd f l l.
Proof. intros H. split; [exact H | tauto]. Qed.

Lemma qupd_unlink f l : NoDup (akeys l) -> qupd f l (unlink f l).
Proof.
  intros H. split; [apply unlink_NoDup; exact H|]. intros f1 w1 Hne. rewrite unlink_In. cbn [fst]. tauto.
Qed.

Lemma qupd_push f w l : NoDup (akeys l) -> ~ In f (akeys l) -> qupd f l (l ++ [(f, w)]).
Proof.
  intros H Hn. split; [rewrite akeys_app; apply NoDup_snoc; assumption|].
  intros f1 w1 Hne. rewrite in_app_iff. cbn [In]. split; [intros [Hi|[E|[]]] | tauto]; [exact Hi | congruence].
Qed.

Lemma qupd_set_waker f w l : NoDup (akeys l) -> qupd f l (set_waker f w l).
Proof.
  intros H. split; [rewrite set_waker_keys; exact H|]. intros f1 w1 Hne. apply set_waker_other. exact Hne.
Qed.

Lemma qupd_keys f l l' f1 : qupd f l l' -> f1 <> f -> In f1 (akeys l) -> In f1 (akeys l').
Proof.
  intros [_ H] Hne Hi. apply akeys_In in Hi. destruct Hi as [w1 Hi]. apply In_akeys with w1. apply H; assumption.
Qed.

(* The two last premises speak of f's own entry, if it has one afterwards. *)
Lemma InvW_upd f x x' s s' :
  InvW s -> getF f s = Some x -> fs s' = aset f x' (fs s) ->
  (fx s', sc s', rc s', hs s', freed s', tn s') = (fx s, sc s, rc s, hs s, freed s, tn s) ->
  f_recv x' = f_recv x -> f_h x' = f_h x -> (f_live x' = true -> f_live x = true) ->
  (f_reg x' = true -> f_live x' = true /\ f_done x' = false /\ (f_recv x = false -> f_item x' <> None)) ->
  (if f_recv x then qupd f (arq s) (arq s') /\ asq s' = asq s else qupd f (asq s) (asq s') /\ arq s' = arq s) ->
  (f_reg x' = true -> is_waiting (f_state x') = true -> In f (akeys (if f_recv x then arq s' else asq s'))) ->
  (f_recv x = true -> In f (akeys (arq s')) ->
     is_success (f_state x') = false /\ (f_done x' = false -> f_reg x' = true)
     /\ (sc s = 0 -> is_waiting (f_state x') = false) /\ (t06 (tn s) = false -> f_reg x' = true)) ->
  (f_recv x = false -> In f (akeys (asq s')) -> f_reg x' = true /\ (rc s = 0 -> is_waiting (f_state x') = false)) ->
  InvW s'.
Proof.
  intros HW Hg Efs E Er Eh El Hreg Hq Hwq Hra Hsa. injection E as Efx Esc Erc Ehs Efr Etn.
  assert (G : forall f1, getF f1 s' = if N.eqb f1 f then Some x' else getF f1 s)
    by (intros f1; unfold getF; rewrite Efs; apply aget_aset).
  assert (Fr : forall w, In (f, w) (arq s') -> f_recv x = true).
  { intros w Hi. destruct (f_recv x) eqn:Erx; [reflexivity|]. destruct Hq as [_ E]. rewrite E in Hi.
    destruct (w_arq_k s HW f w Hi) as (z & Hz & Hrz). congruence. }
  assert (Fs : forall w, In (f, w) (asq s') -> f_recv x = false).
  { intros w Hi. destruct (f_recv x) eqn:Erx; [|reflexivity]. destruct Hq as [_ E]. rewrite E in Hi.
    destruct (w_asq_k s HW f w Hi) as (z & Hz & Hrz & _). congruence. }
  assert (Qr : qupd f (arq s) (arq s')).
  { destruct (f_recv x); destruct Hq as [A B]; [exact A | rewrite B; apply qupd_same, (w_arq_nd s HW)]. }
  assert (Qs : qupd f (asq s) (asq s')).
  { destruct (f_recv x); destruct Hq as [A B]; [rewrite B; apply qupd_same, (w_asq_nd s HW) | exact A]. }
  constructor.
  - rewrite Ehs. apply (w_hnd s HW).
  - rewrite Efs. apply NoDup_aset, (w_fnd s HW).
  - apply Qr.
  - apply Qs.
  - intros f1 w1 Hi. rewrite G. destruct (N.eqb_spec f1 f) as [->|Hne].
    + exists x'. split; [reflexivity|]. rewrite Er. apply (Fr w1 Hi).
    + apply (w_arq_k s HW f1 w1). apply Qr; assumption.
  - intros f1 w1 Hi. rewrite G. destruct (N.eqb_spec f1 f) as [->|Hne].
    + exists x'. split; [reflexivity|]. rewrite Er. split; [apply (Fs w1 Hi)|].
      apply Hsa; [apply (Fs w1 Hi) | apply In_akeys with w1; exact Hi].
    + apply (w_asq_k s HW f1 w1). apply Qs; assumption.
  - intros f1 y Hy Hrg. rewrite G in Hy. destruct (N.eqb_spec f1 f) as [->|Hne].
    + injection Hy as <-. destruct (Hreg Hrg) as (A & B & _). auto.
    + apply (w_reg s HW f1 y Hy Hrg).
  - intros f1 y Hy Hrg Hwy. rewrite G in Hy. destruct (N.eqb_spec f1 f) as [->|Hne].
    + injection Hy as <-. rewrite Er. apply Hwq; assumption.
    + pose proof (w_wq s HW f1 y Hy Hrg Hwy) as Hi.
      destruct (f_recv y); [apply (qupd_keys f _ _ f1 Qr) | apply (qupd_keys f _ _ f1 Qs)]; assumption.
  - intros f1 y Hy Hl. unfold getH. rewrite Ehs. rewrite G in Hy. destruct (N.eqb_spec f1 f) as [->|Hne].
    + injection Hy as <-. rewrite Eh, Er. apply (w_fh s HW f x Hg (El Hl)).
    + apply (w_fh s HW f1 y Hy Hl).
  - rewrite Esc. intros Hsc f1 w1 y Hi Hy. rewrite G in Hy. destruct (N.eqb_spec f1 f) as [->|Hne].
    + injection Hy as <-. apply (Hra (Fr w1 Hi) (In_akeys _ _ _ Hi)). exact Hsc.
    + apply (w_sc0 s HW Hsc f1 w1 y); [apply Qr|]; assumption.
  - rewrite Erc. intros Hrc f1 w1 y Hi Hy. rewrite G in Hy. destruct (N.eqb_spec f1 f) as [->|Hne].
    + injection Hy as <-. apply (Hsa (Fs w1 Hi) (In_akeys _ _ _ Hi)). exact Hrc.
    + apply (w_rc0 s HW Hrc f1 w1 y); [apply Qs|]; assumption.
  - rewrite Etn. intros T f1 w1 Hi. rewrite G. destruct (N.eqb_spec f1 f) as [->|Hne].
    + exists x'. split; [reflexivity|]. apply (Hra (Fr w1 Hi) (In_akeys _ _ _ Hi)). exact T.
    + apply (w_arq_reg s HW T f1 w1). apply Qr; assumption.
  - rewrite Efr. unfold any_live. rewrite Ehs. apply (w_freed s HW).
  - rewrite Efx, Etn. apply (w_taint s HW).
  - intros f1 y Hy Hrv Hrg. rewrite G in Hy. destruct (N.eqb_spec f1 f) as [->|Hne].
    + injection Hy as <-. apply (Hreg Hrg). congruence.
    + apply (w_item s HW f1 y Hy Hrv Hrg).
  - intros f1 w1 y Hi Hy. rewrite G in Hy. destruct (N.eqb_spec f1 f) as [->|Hne].
    + injection Hy as <-. destruct (Hra (Fr w1 Hi) (In_akeys _ _ _ Hi)) as (A & B & _). auto.
    + apply (w_arq_st s HW f1 w1 y); [apply Qr|]; assumption.
Qed.

Definition rest (s : st) :=
  ((cap s, q s, next s, acc s, recvd s, back s, dropped s), (fx s, sc s, rc s, hs s, freed s, tn s)).

(* f ends up unregistered: the entry of its side's queue is unlinked, or none is left except a stale one of a
   completed future (receive side, F-06); its cell and the caller's hand may exchange an id *)
Lemma Inv_unreg hand hand' f x x' s s' :
  InvD hand s -> InvW s -> getF f s = Some x -> fs s' = aset f x' (fs s) -> rest s' = rest s ->
  f_recv x' = f_recv x -> f_h x' = f_h x -> (f_live x' = true -> f_live x = true) -> f_reg x' = false ->
  (forall v, (b2n (cellp v x') + occ v hand' = b2n (cellp v x) + occ v hand)%nat) ->
  (if f_recv x then qupd f (arq s) (arq s') /\ asq s' = asq s else qupd f (asq s) (asq s') /\ arq s' = arq s) ->
  (f_recv x = true -> In f (akeys (arq s')) ->
     In f (akeys (arq s)) /\ f_state x' = f_state x /\ f_done x' = true /\ (t06 (tn s) = false -> f_reg x = false)) ->
  (f_recv x = false -> ~ In f (akeys (asq s'))) ->
  InvD hand' s' /\ InvW s'.
Proof.
  intros HD HW Hg Efs E Er Eh El Hr Hc Hq Hra Hsa.
  pose proof (f_equal fst E) as E1. pose proof (f_equal snd E) as E2. cbn [rest fst snd] in E1, E2. split.
  - apply (InvD_upd hand hand' f x x' s); try assumption. apply (w_fnd s HW).
  - apply (InvW_upd f x x' s); try assumption.
    + rewrite Hr. discriminate.
    + rewrite Hr. discriminate.
    + intros Hrv Hi. destruct (Hra Hrv Hi) as (Hi0 & Es & Hd & Hr0). apply akeys_In in Hi0. destruct Hi0 as [w Hi0].
      rewrite Es. destruct (w_arq_st s HW f w x Hi0 Hg) as [A B]. split; [exact A|]. split; [congruence|].
      split; [intros Hsc; apply (w_sc0 s HW Hsc f w x Hi0 Hg)|].
      intros T. destruct (w_arq_reg s HW T f w Hi0) as (y & Hy & Hry). specialize (Hr0 T). congruence.
    + intros Hrv Hi. destruct (Hsa Hrv Hi).
Qed.


Lemma pw_r_val x : pw_r x = f_recv x && f_reg x && is_waiting (f_state x). Proof. reflexivity. Qed.
Lemma pi_r_val x : pi_r x = f_recv x && f_reg x && is_success (f_state x). Proof. reflexivity. Qed.
Lemma pw_s_val x : pw_s x = negb (f_recv x) && f_reg x && is_waiting (f_state x). Proof. reflexivity. Qed.
Lemma pi_s_val x : pi_s x = negb (f_recv x) && f_reg x && is_success (f_state x). Proof. reflexivity. Qed.

Lemma waiting_not_success w : is_waiting w = true -> is_success w = false.
Proof. destruct w; (discriminate || reflexivity). Qed.

Lemma success_not_waiting w : is_success w = true -> is_waiting w = false.
Proof. destruct w; (discriminate || reflexivity). Qed.

Ltac rw_bools H :=
  repeat match goal with
         | E : _ = true |- _ => rewrite E in H
         | E : _ = false |- _ => rewrite E in H
         end.

(* evaluate the counter predicates in H on a record whose fields are known from boolean equations in the context *)
Ltac ev_preds H :=
  rewrite ?pw_r_val, ?pi_r_val, ?pw_s_val, ?pi_s_val in H;
  cbn [f_recv f_reg f_state f_live f_done f_item f_h set_state set_reg set_done set_item set_dead] in H;
  rw_bools H;
  cbn [andb negb b2n is_waiting is_success] in H;
  rewrite ?andb_false_r, ?andb_true_r in H; cbn [andb negb b2n] in H;
  rewrite ?andb_false_r, ?andb_true_r in H; cbn [andb negb b2n] in H;
  rewrite ?Nat.add_0_r in H.

Lemma preds_unreg x : f_reg x = false -> pw_r x = false /\ pi_r x = false /\ pw_s x = false /\ pi_s x = false.
Proof.
  intros H. unfold pw_r, pi_r, pw_s, pi_s. rewrite H. rewrite !andb_false_r. repeat split.
Qed.

Lemma InvK_intro s :
  (t07 (tn s) = false -> sc s = N.of_nat (cnt open_tx (hs s)) /\ rc s = N.of_nat (cnt open_rx (hs s))) ->
  (t06 (tn s) = false -> t12 (tn s) = false -> cnt pw_r (fs s) = 0%nat \/ (nq s <= cnt pi_r (fs s))%nat) ->
  (t12 (tn s) = false -> cnt pw_s (fs s) = 0%nat \/ (ncap s <= nq s + cnt pi_s (fs s))%nat) ->
  InvK s.
Proof. intros A B C. constructor; assumption. Qed.

(* at most one waiter of a side goes from parked-unwoken to woken; b = 0 only if none is parked *)
Definition eff_r (s s' : st) : Prop :=
  cnt pw_s (fs s') = cnt pw_s (fs s) /\ cnt pi_s (fs s') = cnt pi_s (fs s) /\
  exists b : nat, (b <= 1)%nat /\ (cnt pw_r (fs s') + b = cnt pw_r (fs s))%nat
                  /\ (cnt pi_r (fs s') = cnt pi_r (fs s) + b)%nat
                  /\ (b = 0%nat -> t06 (tn s) = false -> cnt pw_r (fs s) = 0%nat).

Definition eff_s (s s' : st) : Prop :=
  cnt pw_r (fs s') = cnt pw_r (fs s) /\ cnt pi_r (fs s') = cnt pi_r (fs s) /\
  exists b : nat, (b <= 1)%nat /\ (cnt pw_s (fs s') + b = cnt pw_s (fs s))%nat
                  /\ (cnt pi_s (fs s') = cnt pi_s (fs s) + b)%nat
                  /\ (b = 0%nat -> cnt pw_s (fs s) = 0%nat).

(* the count clause is about handles only; the two wake-accounting clauses are carried over one by one *)
Lemma InvK_shift s s' :
  InvK s -> (cap s', sc s', rc s', hs s', tn s') = (cap s, sc s, rc s, hs s, tn s) ->
  (t06 (tn s) = false -> t12 (tn s) = false ->
     cnt pw_r (fs s) = 0%nat \/ (nq s <= cnt pi_r (fs s))%nat ->
     cnt pw_r (fs s') = 0%nat \/ (nq s' <= cnt pi_r (fs s'))%nat) ->
  (t12 (tn s) = false ->
     cnt pw_s (fs s) = 0%nat \/ (ncap s <= nq s + cnt pi_s (fs s))%nat ->
     cnt pw_s (fs s') = 0%nat \/ (ncap s <= nq s' + cnt pi_s (fs s'))%nat) ->
  InvK s'.
Proof.
  intros [K1 K2 K3] E H2 H3. injection E as Ec Esc Erc Ehs Etn.
  constructor; unfold ncap; rewrite ?Etn, ?Ehs, ?Esc, ?Erc, ?Ec; auto.
Qed.

(* the clauses survive a wake; afterwards the side can take one more item / free slot *)
Lemma InvK_eff_r s s' :
  InvK s -> (cap s', q s', sc s', rc s', hs s', tn s') = (cap s, q s, sc s, rc s, hs s, tn s) -> eff_r s s' ->
  InvK s' /\ (t06 (tn s) = false -> t12 (tn s) = false ->
              cnt pw_r (fs s') = 0%nat \/ (nq s + 1 <= cnt pi_r (fs s'))%nat).
Proof.
  intros K E (S1 & S2 & b & Hb & R1 & R2 & R3). injection E as Ec Eq Esc Erc Ehs Etn.
  assert (En : nq s' = nq s) by (unfold nq; rewrite Eq; reflexivity).
  assert (P : t06 (tn s) = false -> t12 (tn s) = false -> cnt pw_r (fs s) = 0%nat \/ (nq s <= cnt pi_r (fs s))%nat ->
              cnt pw_r (fs s') = 0%nat \/ (nq s + 1 <= cnt pi_r (fs s'))%nat).
  { intros T1 _ K2. clear - K2 Hb R1 R2 R3 T1. destruct b as [|[|b]]; [specialize (R3 eq_refl T1) | |]; lia. }
  split; [|intros T1 T2; apply (P T1 T2), (k_r s K T1 T2)].
  apply (InvK_shift s s' K); [congruence | | rewrite En, S1, S2; auto].
  intros T1 T2 K2. rewrite En. specialize (P T1 T2 K2). clear - P. lia.
Qed.

Lemma InvK_eff_s s s' :
  InvK s -> (cap s', q s', sc s', rc s', hs s', tn s') = (cap s, q s, sc s, rc s, hs s, tn s) -> eff_s s s' ->
  InvK s' /\ (t12 (tn s) = false ->
              cnt pw_s (fs s') = 0%nat \/ (ncap s + 1 <= nq s + cnt pi_s (fs s'))%nat).
Proof.
  intros K E (S1 & S2 & b & Hb & R1 & R2 & R3). injection E as Ec Eq Esc Erc Ehs Etn.
  assert (En : nq s' = nq s) by (unfold nq; rewrite Eq; reflexivity).
  assert (P : cnt pw_s (fs s) = 0%nat \/ (ncap s <= nq s + cnt pi_s (fs s))%nat ->
              cnt pw_s (fs s') = 0%nat \/ (ncap s + 1 <= nq s + cnt pi_s (fs s'))%nat).
  { intros K3. clear - K3 Hb R1 R2 R3. destruct b as [|[|b]]; [specialize (R3 eq_refl) | |]; lia. }
  split; [|intros T; apply P, (k_s s K T)].
  apply (InvK_shift s s' K); [congruence | rewrite En, S1, S2; auto |].
  intros T K3. rewrite En. specialize (P K3). clear - P. lia.
Qed.

(* [true] is the receive side *)
Definition wq (b : bool) (s : st) := if b then arq s else asq s.
Definition with_wq (b : bool) l (s : st) := if b then with_arq l s else with_asq l s.
Definition pw (b : bool) := if b then pw_r else pw_s.

Definition wake_one (b : bool) (s : st) : st :=
  match first_waiting (fun f => getF f s) (wq b s) with
  | Some (f, w) =>
      match getF f s with
      | Some x => mark_bad (negb (f_live x)) (wake w (with_wq b (remove_first f (wq b s)) (setF f (set_state Success x) s)))
      | None => s
      end
  | None => s
  end.

Lemma wake_one_recv_is s : wake_one_recv s = wake_one true s. Proof. reflexivity. Qed.
Lemma wake_one_send_is s : wake_one_send s = wake_one false s. Proof. reflexivity. Qed.

(* the waiter (f, w) of side b is woken with SUCCESS; [keep] = its entry stays (the non-last receiver's nudge) *)
Definition woken (b keep : bool) (f w : N) (x : fut) (s : st) : st :=
  wake w (with_wq b (if keep then wq b s else unlink f (wq b s)) (setF f (set_state Success x) s)).

Lemma wq_entry b s f w : InvW s -> In (f, w) (wq b s) ->
  exists x, getF f s = Some x /\ f_recv x = b /\ (b = false \/ t06 (tn s) = false -> f_reg x = true).
Proof.
  intros HW Hi. destruct b; cbn [wq] in Hi.
  - destruct (w_arq_k s HW f w Hi) as (x & Hg & Hr). exists x. split; [exact Hg|]. split; [exact Hr|].
    intros [E|T]; [discriminate|]. destruct (w_arq_reg s HW T f w Hi) as (y & Hy & Hry). congruence.
  - destruct (w_asq_k s HW f w Hi) as (x & Hg & Hr & Hrg). eauto.
Qed.

Lemma wq_nd b s : InvW s -> NoDup (akeys (wq b s)).
Proof. intros HW. destruct b; [apply (w_arq_nd s HW) | apply (w_asq_nd s HW)]. Qed.

Lemma woken_spec b keep hand f w x s :
  InvD hand s -> InvW s -> In (f, w) (wq b s) -> getF f s = Some x -> is_waiting (f_state x) = true ->
  b && keep = false ->
  InvD hand (woken b keep f w x s) /\ InvW (woken b keep f w x s)
  /\ if b then eff_r s (woken b keep f w x s) else eff_s s (woken b keep f w x s).
Proof.
  intros HD HW Hin Hg Hw Hk.
  destruct (wq_entry b s f w HW Hin) as (x0 & Hg' & Hrv & Hreg). rewrite Hg in Hg'. injection Hg' as <-.
  assert (Ef : fs (woken b keep f w x s) = aset f (set_state Success x) (fs s)) by (destruct b; reflexivity).
  assert (Er : rest (woken b keep f w x s) = rest s) by (destruct b; reflexivity).
  pose proof (f_equal fst Er) as E1. pose proof (f_equal snd Er) as E2. cbn [rest fst snd] in E1, E2.
  split; [|split].
  - apply (InvD_upd hand hand f x (set_state Success x) s); try assumption; [apply (w_fnd s HW) | reflexivity].
  - apply (InvW_upd f x (set_state Success x) s); try reflexivity; try assumption.
    + cbn. auto.
    + cbn. intros Hr. destruct (w_reg s HW f x Hg Hr). repeat split; try assumption. intros Hs. apply (w_item s HW f x Hg Hs Hr).
    + rewrite Hrv. destruct b; (split; [|reflexivity]); cbn [woken wq with_wq]; st_simpl.
      * cbn in Hk. subst keep. apply qupd_unlink, (w_arq_nd s HW).
      * destruct keep; [apply qupd_same | apply qupd_unlink]; apply (w_asq_nd s HW).
    + cbn. discriminate.
    + intros E Hi. rewrite E in Hrv. subst b. cbn in Hk. subst keep. apply unlink_keys in Hi. tauto.
    + intros E _. rewrite E in Hrv. subst b. cbn. split; [apply Hreg; auto | reflexivity].
  - destruct (cnt4 f x (set_state Success x) s _ (w_fnd s HW) Hg Ef) as (C1 & C2 & C3 & C4).
    pose proof (waiting_not_success _ Hw) as Hs. destruct b.
    + ev_preds C1. ev_preds C2. ev_preds C3. ev_preds C4.
      split; [clear - C3; lia|]. split; [clear - C4; lia|]. exists (b2n (f_reg x)).
      split; [destruct (f_reg x); cbn; clear; lia|]. split; [clear - C1; lia|]. split; [clear - C2; lia|].
      intros Hb T. rewrite Hreg in Hb; [discriminate | auto].
    + pose proof (Hreg (or_introl eq_refl)) as Hr. ev_preds C1. ev_preds C2. ev_preds C3. ev_preds C4.
      split; [clear - C1; lia|]. split; [clear - C2; lia|]. exists 1%nat.
      split; [clear; lia|]. split; [clear - C3; lia|]. split; [clear - C4; lia | discriminate].
Qed.


(* an unregistered future's record is rewritten (completed, dropped, its item taken or put back) *)
Lemma cnt4_same f x x' s s' :
  NoDup (akeys (fs s)) -> getF f s = Some x -> fs s' = aset f x' (fs s) ->
  (pw_r x', pi_r x', pw_s x', pi_s x') = (pw_r x, pi_r x, pw_s x, pi_s x) ->
  cnt pw_r (fs s') = cnt pw_r (fs s) /\ cnt pi_r (fs s') = cnt pi_r (fs s) /\
  cnt pw_s (fs s') = cnt pw_s (fs s) /\ cnt pi_s (fs s') = cnt pi_s (fs s).
Proof.
  intros Hnd Hg E Ep. injection Ep as E1 E2 E3 E4. destruct (cnt4 f x x' s s' Hnd Hg E) as (C1 & C2 & C3 & C4).
  rewrite E1 in C1. rewrite E2 in C2. rewrite E3 in C3. rewrite E4 in C4.
  apply Nat.add_cancel_r in C1, C2, C3, C4. auto.
Qed.

Lemma InvH_rewrite hand hand' f x x' s :
  InvH hand s -> getF f s = Some x -> f_reg x = false -> f_reg x' = false ->
  f_recv x' = f_recv x -> f_h x' = f_h x -> f_state x' = f_state x -> (f_live x' = true -> f_live x = true) ->
  (f_done x = true -> f_done x' = true) ->
  (forall v, (b2n (cellp v x') + occ v hand' = b2n (cellp v x) + occ v hand)%nat) ->
  InvH hand' (setF f x' s).
Proof.
  intros (HD & HW & HK) Hg Hr Hr' Er Eh Es El Hd Hc.
  destruct (Inv_unreg hand hand' f x x' s (setF f x' s) HD HW Hg) as [D' W']; try reflexivity; try assumption.
  - destruct (f_recv x); (split; [apply qupd_same | reflexivity]); [apply (w_arq_nd s HW) | apply (w_asq_nd s HW)].
  - intros _ Hi. split; [exact Hi|]. split; [exact Es|]. split; [|auto]. apply Hd.
    apply akeys_In in Hi. destruct Hi as [w Hi]. destruct (w_arq_st s HW f w x Hi Hg) as [_ B].
    destruct (f_done x); [reflexivity|]. rewrite (B eq_refl) in Hr. discriminate.
  - intros _ Hi. apply akeys_In in Hi. destruct Hi as [w Hi]. destruct (w_asq_k s HW f w Hi) as (y & Hy & _ & Hry). congruence.
  - split; [exact D' | split; [exact W'|]].
    destruct (cnt4_same f x x' s (setF f x' s) (w_fnd s HW) Hg eq_refl) as (E1 & E2 & E3 & E4).
    { destruct (preds_unreg x Hr) as (A1 & A2 & A3 & A4), (preds_unreg x' Hr') as (B1 & B2 & B3 & B4). congruence. }
    apply (InvK_shift s (setF f x' s) HK eq_refl); change (nq (setF f x' s)) with (nq s); rewrite ?E1, ?E2, ?E3, ?E4; auto.
Qed.

Definition frame (b : bool) (s s' : st) : Prop :=
  cap s' = cap s /\ fx s' = fx s /\ q s' = q s /\ sc s' = sc s /\ rc s' = rc s /\ wq (negb b) s' = wq (negb b) s /\
  hs s' = hs s /\ next s' = next s /\ acc s' = acc s /\ recvd s' = recvd s /\ back s' = back s /\
  dropped s' = dropped s /\ freed s' = freed s /\ tn s' = tn s /\ dk s' = dk s.

Lemma wake_one_frame b s : frame b s (wake_one b s).
Proof.
  unfold wake_one, frame.
  destruct (first_waiting (fun f => getF f s) (wq b s)) as [[f w]|]; [|repeat split].
  destruct (getF f s) as [x|]; [|repeat split].
  destruct (negb (f_live x)), b; repeat split.
Qed.

Lemma InvD_mark_bad hand b s : InvD hand s -> InvD hand (mark_bad b s).
Proof. destruct b; [apply InvD_ext; reflexivity | auto]. Qed.
Lemma InvW_mark_bad b s : InvW s -> InvW (mark_bad b s).
Proof. destruct b; [apply InvW_ext; reflexivity | auto]. Qed.

(* data and well-formedness without assuming the wake-accounting clauses (used where a wake is being passed
   on and the accounting is momentarily one short), and the effect on the counters *)
Lemma wake_one_eq b s :
  InvW s ->
  (wake_one b s = s /\
   forall f w x, In (f, w) (wq b s) -> getF f s = Some x -> is_waiting (f_state x) = false)
  \/ exists f w x, In (f, w) (wq b s) /\ getF f s = Some x /\ is_waiting (f_state x) = true /\
                   wake_one b s = mark_bad (negb (f_live x)) (woken b false f w x s).
Proof.
  intros HW. unfold wake_one.
  destruct (first_waiting (fun f => getF f s) (wq b s)) as [[f w]|] eqn:E.
  - apply first_waiting_Some in E. destruct E as [Hi [x [Hg Hw]]]. right. exists f, w, x.
    rewrite Hg. unfold woken. rewrite (remove_first_unlink f (wq b s) (wq_nd b s HW)). auto.
  - left. split; [reflexivity|]. intros f w x Hi Hg.
    eapply (first_waiting_None _ _ E f w x Hi). exact Hg.
Qed.

Lemma wake_one_getF b s f1 : ~ In f1 (akeys (wq b s)) -> getF f1 (wake_one b s) = getF f1 s.
Proof.
  intros Hn. unfold wake_one.
  destruct (first_waiting (fun f => getF f s) (wq b s)) as [[f w]|] eqn:E; [|reflexivity].
  apply first_waiting_Some in E. destruct E as [Hi _]. destruct (getF f s) as [x|]; [|reflexivity].
  assert (G : getF f1 (mark_bad (negb (f_live x)) (wake w (with_wq b (remove_first f (wq b s)) (setF f (set_state Success x) s))))
              = getF f1 (setF f (set_state Success x) s)) by (destruct (negb (f_live x)), b; reflexivity).
  rewrite G, getF_setF. destruct (N.eqb_spec f1 f) as [->|]; [destruct Hn; apply In_akeys with w; exact Hi | reflexivity].
Qed.

Lemma no_waiting b s :
  InvW s ->
  (forall f w x, In (f, w) (wq b s) -> getF f s = Some x -> is_waiting (f_state x) = false) ->
  cnt (pw b) (fs s) = 0%nat.
Proof.
  intros HW H. apply cnt_zero. intros f x Hi.
  destruct (pw b x) eqn:E; [|reflexivity]. exfalso.
  assert (Ex : f_recv x = b /\ f_reg x = true /\ is_waiting (f_state x) = true).
  { destruct b; cbn [pw] in E; unfold pw_r, pw_s in E; apply andb_prop in E; destruct E as [E Ew];
      apply andb_prop in E; destruct E as [Er Eg]; [|apply negb_true_iff in Er]; auto. }
  destruct Ex as (Er & Eg & Ew).
  assert (Hg : getF f s = Some x) by (apply In_aget; [apply (w_fnd s HW) | exact Hi]).
  pose proof (w_wq s HW f x Hg Eg Ew) as Hq. rewrite Er in Hq. change (In f (akeys (wq b s))) in Hq.
  apply akeys_In in Hq. destruct Hq as [w Hq]. rewrite (H f w x Hq Hg) in Ew. discriminate.
Qed.

Lemma wake_one_spec b hand s :
  InvD hand s -> InvW s ->
  InvD hand (wake_one b s) /\ InvW (wake_one b s) /\ if b then eff_r s (wake_one b s) else eff_s s (wake_one b s).
Proof.
  intros HD HW. destruct (wake_one_eq b s HW) as [[E Hn]|(f & w & x & Hi & Hg & Hw & E)]; rewrite E.
  - split; [exact HD|]. split; [exact HW|]. pose proof (no_waiting b s HW Hn) as Z.
    destruct b; (split; [reflexivity|]; split; [reflexivity|]; exists 0%nat; repeat split; try lia; intros; exact Z).
  - destruct (woken_spec b false hand f w x s HD HW Hi Hg Hw (andb_false_r b)) as (A & B & C).
    split; [apply InvD_mark_bad; exact A|]. split; [apply InvW_mark_bad; exact B|].
    destruct (negb (f_live x)), b; exact C.
Qed.

Lemma frame_kview b s s' : frame b s s' ->
  (cap s', q s', sc s', rc s', hs s', tn s') = (cap s, q s, sc s, rc s, hs s, tn s).
Proof. intros (F1&_&F3&F4&F5&_&F7&_&_&_&_&_&_&F14&_). congruence. Qed.

Lemma InvH_wake_one_recv hand s :
  InvH hand s ->
  InvH hand (wake_one_recv s)
  /\ (t06 (tn s) = false -> t12 (tn s) = false ->
      cnt pw_r (fs (wake_one_recv s)) = 0%nat \/ (nq s + 1 <= cnt pi_r (fs (wake_one_recv s)))%nat).
Proof.
  intros (D & W & K). destruct (wake_one_spec true hand s D W) as (D' & W' & E).
  destruct (InvK_eff_r s _ K (frame_kview true _ _ (wake_one_frame true s)) E) as [K' P].
  split; [split; [|split]|]; assumption.
Qed.

Definition frame0 (s s' : st) : Prop :=
  cap s' = cap s /\ fx s' = fx s /\ sc s' = sc s /\ rc s' = rc s /\ hs s' = hs s /\ next s' = next s /\
  back s' = back s /\ dropped s' = dropped s /\ freed s' = freed s /\ tn s' = tn s /\ dk s' = dk s.

Lemma try_send_core_spec v s :
  InvD [v] s -> InvW s ->
  match try_send_core v s with
  | (s', TsOk) => InvD [] s' /\ InvW s' /\ rc s <> 0 /\ (nq s < ncap s)%nat
                  /\ q s' = q s ++ [v] /\ acc s' = acc s ++ [v] /\ recvd s' = recvd s
                  /\ frame0 s s' /\ asq s' = asq s /\ eff_r s s'
                  /\ (forall f1, ~ In f1 (akeys (arq s)) -> getF f1 s' = getF f1 s)
  | (s', TsFull) => s' = s /\ rc s <> 0 /\ nq s = ncap s
  | (s', TsClosed) => s' = s /\ rc s = 0
  end.
Proof.
  intros HD HW. unfold try_send_core.
  destruct (N.eqb_spec (rc s) 0) as [E|E]; [auto|].
  pose proof (d_cap _ _ HD) as Hcap.
  destruct (is_full s) eqn:Ef; [split; [reflexivity|]; split; [exact E | apply (is_full_spec s Hcap); exact Ef]|].
  pose proof (is_full_false s Hcap Ef) as Hlt.
  rewrite wake_one_recv_is.
  destruct (wake_one_spec true [v] s HD HW) as (A & B & Ce).
  destruct (wake_one_frame true s) as (Fcap & Ffx & Fq & Fsc & Frc & Fasq & Fhs & Fnext & Facc & Frecvd & Fback & Fdropped & Ffreed & Ftn & Fdk).
  split; [apply InvD_push; [exact A | unfold nq, ncap; rewrite Fq, Fcap; exact Hlt]|].
  split; [revert B; apply InvW_ext; reflexivity|]. unfold push. st_simpl.
  unfold frame0. st_simpl. rewrite Fq, Facc.
  split; [exact E|]. split; [exact Hlt|]. split; [reflexivity|]. split; [reflexivity|]. split; [exact Frecvd|].
  split; [repeat split; assumption|]. split; [exact Fasq|]. split; [exact Ce | exact (wake_one_getF true s)].
Qed.

Lemma try_send_core_inv v s :
  InvH [v] s -> match try_send_core v s with (s', TsOk) => Inv s' | (s', _) => s' = s end.
Proof.
  intros (D & W & K). pose proof (try_send_core_spec v s D W) as P. unfold try_send_core in *.
  destruct (rc s =? 0); [reflexivity|]. destruct (is_full s); [reflexivity|].
  destruct P as (D' & W' & _ & _ & _ & _ & _ & _ & _ & E & _). split; [exact D' | split; [exact W'|]].
  rewrite wake_one_recv_is in *. pose proof (wake_one_frame true s) as F.
  destruct (InvK_eff_r s _ K (frame_kview true _ _ F) E) as [K' P]. apply InvK_push; [exact K'|].
  destruct F as (_&_&Fq&_&_&_&_&_&_&_&_&_&_&Ftn&_). unfold nq in *. rewrite Ftn, Fq. exact P.
Qed.

Lemma try_recv_core_spec hand s :
  InvD hand s -> InvW s ->
  match try_recv_core s with
  | (s', TrVal v) => InvD hand s' /\ InvW s' /\ q s = v :: q s' /\ recvd s' = recvd s ++ [v]
                     /\ frame0 s s' /\ arq s' = arq s /\ acc s' = acc s /\ eff_s s s'
                     /\ (forall f1, ~ In f1 (akeys (asq s)) -> getF f1 s' = getF f1 s)
  | (s', TrEmpty) => s' = s /\ q s = [] /\ sc s <> 0
  | (s', TrDisc) => s' = s /\ q s = [] /\ sc s = 0
  end.
Proof.
  intros HD HW. unfold try_recv_core. destruct (q s) as [|v t] eqn:Eq.
  - destruct (N.eqb_spec (sc s) 0); auto.
  - set (s1 := with_recvd (recvd s ++ [v]) (with_q t s)).
    assert (HD1 : InvD hand s1).
    { subst s1. destruct HD as [A B C]. constructor; unfold nq, ncap, tot, cells in *; st_simpl.
      - rewrite Eq in A. cbn [length] in A. lia.
      - rewrite B, Eq. rewrite <- app_assoc. reflexivity.
      - intros u. specialize (C u). rewrite Eq in C. rewrite occ_app. cbn [occ] in *. lia. }
    assert (HW1 : InvW s1) by (revert HW; apply InvW_ext; reflexivity).
    rewrite wake_one_send_is.
    destruct (wake_one_spec false hand s1 HD1 HW1) as (A & B & Ce).
    destruct (wake_one_frame false s1) as (Fcap & Ffx & Fq & Fsc & Frc & Farq & Fhs & Fnext & Facc & Frecvd & Fback & Fdropped & Ffreed & Ftn & Fdk).
    split; [exact A|]. split; [exact B|]. split; [rewrite Fq; reflexivity|]. split; [exact Frecvd|].
    split; [unfold frame0; repeat split; assumption|]. split; [exact Farq|]. split; [exact Facc|].
    split; [exact Ce | exact (wake_one_getF false s1)].
Qed.

(* the wake-accounting clauses after one item was popped and a parked sender woken for the slot *)
Lemma InvK_pop s s' :
  InvK s -> (cap s', sc s', rc s', hs s', tn s') = (cap s, sc s, rc s, hs s, tn s) -> eff_s s s' ->
  nq s = (nq s' + 1)%nat -> InvK s'.
Proof.
  intros K E (S1 & S2 & b & Hb & R1 & R2 & R3) Hq. apply (InvK_shift s s' K E).
  - intros _ _ K2. rewrite S1, S2. clear - K2 Hq. lia.
  - intros _ K3. clear - K3 Hb R1 R2 R3 Hq. destruct b as [|[|b]]; [specialize (R3 eq_refl) | |]; lia.
Qed.

Lemma try_recv_core_inv hand s :
  InvH hand s -> match try_recv_core s with (s', TrVal _) => InvH hand s' | (s', _) => s' = s end.
Proof.
  intros (D & W & K). pose proof (try_recv_core_spec hand s D W) as P.
  destruct (try_recv_core s) as [s' [v| |]]; try apply P.
  destruct P as (D' & W' & Hq & _ & F & _ & _ & E & _). split; [exact D' | split; [exact W'|]].
  destruct F as (Fcap&_&Fsc&Frc&Fhs&_&_&_&_&Ftn&_).
  apply (InvK_pop s s' K); [congruence | exact E | unfold nq; rewrite Hq; cbn [length]; lia].
Qed.

(* a WAITING future is marked CLOSED (its queue entry stays) *)
Lemma InvH_mark_closed hand f x s :
  InvH hand s -> getF f s = Some x -> is_waiting (f_state x) = true ->
  InvH hand (setF f (set_state WClosed x) s).
Proof.
  intros (D & W & K) Hg Hw. pose proof (w_fnd s W) as Hnd. split; [|split].
  - apply (InvD_upd hand hand f x (set_state WClosed x) s); try reflexivity; assumption.
  - apply (InvW_upd f x (set_state WClosed x) s); try reflexivity; try assumption.
    + cbn. auto.
    + cbn. intros Hr. destruct (w_reg s W f x Hg Hr). repeat split; try assumption.
      intros Hrv. apply (w_item s W f x Hg Hrv Hr).
    + destruct (f_recv x); (split; [apply qupd_same | reflexivity]); [apply (w_arq_nd s W) | apply (w_asq_nd s W)].
    + cbn. discriminate.
    + intros _ Hi. apply akeys_In in Hi. destruct Hi as [w1 Hi]. destruct (w_arq_st s W f w1 x Hi Hg) as [A B].
      cbn. repeat split; auto. intros T. destruct (w_arq_reg s W T f w1 Hi) as (y & Hy & Hr). congruence.
    + intros _ Hi. apply akeys_In in Hi. destruct Hi as [w1 Hi]. destruct (w_asq_k s W f w1 Hi) as (y & Hy & _ & Hr).
      cbn. split; [congruence | reflexivity].
  - destruct (cnt4 f x (set_state WClosed x) s (setF f (set_state WClosed x) s) Hnd Hg eq_refl) as (C1 & C2 & C3 & C4).
    pose proof (waiting_not_success _ Hw) as Hs.
    ev_preds C1. ev_preds C2. ev_preds C3. ev_preds C4.
    destruct K as [K1 K2 K3]. apply InvK_intro.
    + exact K1.
    + intros T1 T2. specialize (K2 T1 T2). change (nq (setF f (set_state WClosed x) s)) with (nq s). clear - K2 C1 C2. lia.
    + intros T. specialize (K3 T). change (nq (setF f (set_state WClosed x) s)) with (nq s).
      change (ncap (setF f (set_state WClosed x) s)) with (ncap s). clear - K3 C3 C4. lia.
Qed.

Definition frameM (s s' : st) : Prop := (rest s', arq s', asq s') = (rest s, arq s, asq s).

Lemma mark_all_spec hand l : forall s,
  InvH hand s ->
  let s' := mark_all WClosed l s in
  InvH hand s' /\ frameM s s'
  /\ (forall f x', getF f s' = Some x' ->
        exists x, getF f s = Some x /\ (is_waiting (f_state x') = true -> x' = x))
  /\ (forall f w x', In (f, w) l -> getF f s' = Some x' -> is_waiting (f_state x') = false).
Proof.
  induction l as [|[f w] t IH]; intros s H; cbv zeta.
  - split; [exact H|]. split; [reflexivity|]. split; [eauto | intros ? ? ? []].
  - (* the head entry: afterwards f is not WAITING, and no record has become WAITING *)
    assert (exists s1, mark_all WClosed ((f, w) :: t) s = mark_all WClosed t s1 /\ InvH hand s1 /\ frameM s s1
              /\ (forall f1 y1, getF f1 s1 = Some y1 ->
                    exists y, getF f1 s = Some y /\ (is_waiting (f_state y1) = true -> y1 = y))
              /\ (forall y1, getF f s1 = Some y1 -> is_waiting (f_state y1) = false))
      as (s1 & -> & H1 & F1 & C1 & D1).
    { cbn [mark_all]. destruct (getF f s) as [x|] eqn:Hg; [destruct (is_waiting (f_state x)) eqn:Hw|].
      - eexists. split; [reflexivity|].
        assert (G1 : forall f1, getF f1 (mark_bad (negb (f_live x)) (wake w (setF f (set_state WClosed x) s)))
                                = if N.eqb f1 f then Some (set_state WClosed x) else getF f1 s)
          by (intros f1; destruct (negb (f_live x)); apply getF_setF).
        split; [apply InvH_mark_bad, InvH_wake, InvH_mark_closed; assumption|].
        split; [destruct (negb (f_live x)); reflexivity|]. split.
        + intros f1 y1 Hy. rewrite G1 in Hy. destruct (N.eqb_spec f1 f) as [->|]; [|eauto].
          injection Hy as <-. exists x. split; [exact Hg | discriminate].
        + intros y1 Hy. rewrite G1, N.eqb_refl in Hy. injection Hy as <-. reflexivity.
      - exists s. split; [reflexivity|]. split; [exact H|]. split; [reflexivity|]. split; [eauto|].
        intros y1 Hy. congruence.
      - exists s. split; [reflexivity|]. split; [exact H|]. split; [reflexivity|]. split; [eauto|].
        intros y1 Hy. congruence. }
    destruct (IH s1 H1) as (A & B & C & D). cbv zeta in *.
    split; [exact A|]. split; [unfold frameM in *; congruence|]. split.
    + intros f1 x' Hx'. destruct (C f1 x' Hx') as (y1 & Hy1 & W1). destruct (C1 f1 y1 Hy1) as (y & Hy & W).
      exists y. split; [exact Hy|]. intros Hw. pose proof (W1 Hw) as ->. exact (W Hw).
    + intros f1 w1 x' [E|Hi] Hx'; [|eapply D; eauto]. injection E as <- <-.
      destruct (C f x' Hx') as (y1 & Hy1 & W1). destruct (is_waiting (f_state x')) eqn:Ew; [|reflexivity].
      rewrite (W1 eq_refl), (D1 y1 Hy1) in Ew. discriminate.
Qed.

(** * taints only weaken the conditional clauses *)
Definition tle (a b : taints) : Prop :=
  (t03 b = false -> t03 a = false) /\ (t03f b = false -> t03f a = false) /\
  (t06 b = false -> t06 a = false) /\ (t07 b = false -> t07 a = false) /\
  (t08 b = false -> t08 a = false) /\ (t12 b = false -> t12 a = false) /\
  (t33 b = false -> t33 a = false).

Lemma tle_refl a : tle a a.
Proof. unfold tle. tauto. Qed.

Lemma tle_trans a b c : tle a b -> tle b c -> tle a c.
Proof. unfold tle. tauto. Qed.

Lemma InvW_with_tn t s : InvW s -> tle (tn s) t -> taint_ok (fx s) t -> InvW (with_tn t s).
Proof.
  intros HW (L1 & L2 & L3 & L4 & L5 & L6 & L7) Hok.
  constructor; unfold getF, getH, any_live; st_simpl; try apply HW; [|exact Hok].
  intros T. apply (w_arq_reg s HW). auto.
Qed.

Lemma InvK_with_tn t s : InvK s -> tle (tn s) t -> InvK (with_tn t s).
Proof.
  intros [K1 K2 K3] (L1 & L2 & L3 & L4 & L5 & L6 & L7). constructor; unfold nq, ncap in *; st_simpl; auto.
Qed.

Lemma InvH_with_tn hand t s :
  InvH hand s -> tle (tn s) t -> taint_ok (fx s) t -> InvH hand (with_tn t s).
Proof.
  intros (D & W & K) L Hok.
  split; [revert D; apply InvD_ext; reflexivity|]. split; [apply InvW_with_tn | apply InvK_with_tn]; assumption.
Qed.

Lemma InvH_taint hand (g : taints -> taints) b s :
  InvH hand s -> tle (tn s) (g (tn s)) -> (b = true -> taint_ok (fx s) (g (tn s))) ->
  InvH hand (taint g b s).
Proof.
  intros H L Hok. unfold taint. destruct b; [|exact H]. apply InvH_with_tn; auto.
Qed.

Lemma tle_set_t03 t : tle t (set_t03 t). Proof. unfold tle, set_t03; cbn; repeat split; auto; discriminate. Qed.
Lemma tle_set_t03f t : tle t (set_t03f t). Proof. unfold tle, set_t03f; cbn; repeat split; auto; discriminate. Qed.
Lemma tle_set_t06 t : tle t (set_t06 t). Proof. unfold tle, set_t06; cbn; repeat split; auto; discriminate. Qed.
Lemma tle_set_t07 t : tle t (set_t07 t). Proof. unfold tle, set_t07; cbn; repeat split; auto; discriminate. Qed.
Lemma tle_set_t08 t : tle t (set_t08 t). Proof. unfold tle, set_t08; cbn; repeat split; auto; discriminate. Qed.
Lemma tle_set_t12 t : tle t (set_t12 t). Proof. unfold tle, set_t12; cbn; repeat split; auto; discriminate. Qed.
Lemma tle_set_t33 t : tle t (set_t33 t). Proof. unfold tle, set_t33; cbn; repeat split; auto; discriminate. Qed.

Lemma ok_set_t03 f t : taint_ok f t -> fx03 f = false -> taint_ok f (set_t03 t).
Proof. unfold taint_ok, set_t03; cbn. intros (A&B&C&D&E&F&G) H. repeat split; auto. congruence. Qed.
Lemma ok_set_t03f f t : taint_ok f t -> fx03f f = false -> taint_ok f (set_t03f t).
Proof. unfold taint_ok, set_t03f; cbn. intros (A&B&C&D&E&F&G) H. repeat split; auto. congruence. Qed.
Lemma ok_set_t06 f t : taint_ok f t -> fx06 f = false -> taint_ok f (set_t06 t).
Proof. unfold taint_ok, set_t06; cbn. intros (A&B&C&D&E&F&G) H. repeat split; auto. congruence. Qed.
Lemma ok_set_t07 f t : taint_ok f t -> fx07 f = false -> taint_ok f (set_t07 t).
Proof. unfold taint_ok, set_t07; cbn. intros (A&B&C&D&E&F&G) H. repeat split; auto. congruence. Qed.
Lemma ok_set_t08 f t : taint_ok f t -> fx08 f = false -> taint_ok f (set_t08 t).
Proof. unfold taint_ok, set_t08; cbn. intros (A&B&C&D&E&F&G) H. repeat split; auto. congruence. Qed.
Lemma ok_set_t12 f t : taint_ok f t -> fx12 f = false -> taint_ok f (set_t12 t).
Proof. unfold taint_ok, set_t12; cbn. intros (A&B&C&D&E&F&G) H. repeat split; auto. congruence. Qed.
Lemma ok_set_t33 f t : taint_ok f t -> fx33 f = false -> taint_ok f (set_t33 t).
Proof. unfold taint_ok, set_t33; cbn. intros (A&B&C&D&E&F&G) H. repeat split; auto. congruence. Qed.

Lemma not_borrowed h s :
  borrowed h s = false -> forall f x, getF f s = Some x -> f_live x = true -> f_h x <> h.
Proof.
  unfold borrowed. intros Hb f x Hg Hl E.
  assert (Hi : In (f, x) (fs s)) by (apply aget_In; exact Hg).
  assert (existsb (fun e => f_live (snd e) && (f_h (snd e) =? h)) (fs s) = true).
  { apply existsb_exists. exists (f, x). split; [exact Hi|]. cbn [snd]. rewrite Hl, E, N.eqb_refl. reflexivity. }
  congruence.
Qed.

Lemma live_exists (l : list (N * handle)) :
  NoDup (akeys l) ->
  (existsb (fun e => h_live (snd e)) l = true <-> exists h x, aget h l = Some x /\ h_live x = true).
Proof.
  intros Hnd. rewrite existsb_exists. split.
  - intros [[h x] [Hi Hl]]. cbn [snd] in Hl. exists h, x. split; [apply In_aget; assumption | exact Hl].
  - intros [h [x [Hg Hl]]]. exists (h, x). split; [apply aget_In; exact Hg | exact Hl].
Qed.


Lemma InvH_handles hand s s' :
  InvH hand s -> dview s' = dview s -> (fx s', asq s', arq s', tn s') = (fx s, asq s, arq s, tn s) ->
  NoDup (akeys (hs s')) ->
  (forall f z, getF f s = Some z -> f_live z = true -> exists h, getH (f_h z) s' = Some h /\ hok (f_recv z) h) ->
  (sc s' = 0 -> forall f w x, In (f, w) (arq s) -> getF f s = Some x -> is_waiting (f_state x) = false) ->
  (rc s' = 0 -> forall f w x, In (f, w) (asq s) -> getF f s = Some x -> is_waiting (f_state x) = false) ->
  freed s' = negb (any_live s') ->
  (t07 (tn s) = false -> sc s' = N.of_nat (cnt open_tx (hs s')) /\ rc s' = N.of_nat (cnt open_rx (hs s'))) ->
  InvH hand s'.
Proof.
  intros (D & W & K) Ed E Hnd Hfh Hsc Hrc Hfr Hcnt.
  assert (Ef : fs s' = fs s /\ q s' = q s /\ cap s' = cap s) by (unfold dview in Ed; split; [|split]; congruence).
  destruct Ef as (Ef & Eq & Ec). injection E as Efx Easq Earq Etn.
  split; [revert D; apply InvD_ext; exact Ed|]. split.
  - apply (InvW_ext (with_freed (freed s') (with_hs (hs s') (with_sc (sc s') (with_rc (rc s') s)))));
      [unfold wview; st_simpl; congruence|].
    constructor; unfold any_live; st_simpl; try apply W; assumption.
  - destruct K as [K1 K2 K3]. unfold nq, ncap in *.
    apply InvK_intro; unfold nq, ncap; rewrite ?Etn, ?Ef, ?Eq, ?Ec; assumption.
Qed.

(* [y] is written at [h] (a new entry, a closed or a dead one); the counts move with the number of open
   handles, the freed flag is recomputed *)
Lemma InvH_setH hand h y s s' :
  InvH hand s -> hs s' = aset h y (hs s) ->
  dview s' = dview s -> (fx s', asq s', arq s', tn s') = (fx s, asq s, arq s, tn s) ->
  (forall f z, getF f s = Some z -> f_live z = true -> f_h z = h -> hok (f_recv z) y) ->
  (sc s' = 0 -> forall f w x, In (f, w) (arq s) -> getF f s = Some x -> is_waiting (f_state x) = false) ->
  (rc s' = 0 -> forall f w x, In (f, w) (asq s) -> getF f s = Some x -> is_waiting (f_state x) = false) ->
  freed s' = negb (any_live s') ->
  (t07 (tn s) = false ->
     sc s' + N.of_nat (bo open_tx (getH h s)) = sc s + N.of_nat (b2n (open_tx y)) /\
     rc s' + N.of_nat (bo open_rx (getH h s)) = rc s + N.of_nat (b2n (open_rx y))) ->
  InvH hand s'.
Proof.
  intros H Ehs Ed E Hfh Hsc Hrc Hfr Hcnt. pose proof (proj1 (proj2 H)) as W.
  apply (InvH_handles hand s); try assumption.
  - rewrite Ehs. apply NoDup_aset, (w_hnd s W).
  - intros f z Hz Hl. unfold getH. rewrite Ehs, aget_aset. destruct (N.eqb_spec (f_h z) h) as [E0|].
    + exists y. split; [reflexivity | apply (Hfh f z); assumption].
    + apply (w_fh s W f z); assumption.
  - intros T. destruct (k_cnt s (proj2 (proj2 H)) T) as [A B]. destruct (Hcnt T) as [C1 C2]. rewrite Ehs.
    pose proof (cnt_aset_any open_tx h y (hs s) (w_hnd s W)) as P1.
    pose proof (cnt_aset_any open_rx h y (hs s) (w_hnd s W)) as P2.
    unfold getH in C1, C2. clear - A B C1 C2 P1 P2. lia.
Qed.

(** * only the waiter queues change: entries of futures that are not WAITING are dropped, wakers replaced *)
Lemma InvH_queues hand s s' :
  InvH hand s -> dview s' = dview s ->
  (fx s', sc s', rc s', hs s', freed s', tn s') = (fx s, sc s, rc s, hs s, freed s, tn s) ->
  NoDup (akeys (arq s')) -> NoDup (akeys (asq s')) ->
  (forall f, In f (akeys (arq s')) -> In f (akeys (arq s))) ->
  (forall f, In f (akeys (asq s')) -> In f (akeys (asq s))) ->
  (forall f, In f (akeys (arq s)) ->
     In f (akeys (arq s')) \/ forall x, getF f s = Some x -> is_waiting (f_state x) = false) ->
  (forall f, In f (akeys (asq s)) ->
     In f (akeys (asq s')) \/ forall x, getF f s = Some x -> is_waiting (f_state x) = false) ->
  InvH hand s'.
Proof.
  intros (D & W & K) Ed E Nr Ns Sr Ss Kr Ks.
  assert (Ef : fs s' = fs s /\ q s' = q s /\ cap s' = cap s) by (unfold dview in Ed; split; [|split]; congruence).
  destruct Ef as (Ef & Eq & Ec). injection E as Efx Esc Erc Ehs Efr Etn.
  assert (Ar : forall f w, In (f, w) (arq s') -> exists w2, In (f, w2) (arq s))
    by (intros f w Hi; apply akeys_In, Sr, In_akeys with w; exact Hi).
  assert (As : forall f w, In (f, w) (asq s') -> exists w2, In (f, w2) (asq s))
    by (intros f w Hi; apply akeys_In, Ss, In_akeys with w; exact Hi).
  split; [revert D; apply InvD_ext; exact Ed|]. split; [|revert K; apply InvK_ext; unfold kview; congruence].
  apply (InvW_ext (with_arq (arq s') (with_asq (asq s') s))); [unfold wview; st_simpl; congruence|].
  constructor; unfold any_live; st_simpl; try apply W; try assumption.
  - intros f w Hi. destruct (Ar f w Hi) as [w2 Hi2]. apply (w_arq_k s W f w2 Hi2).
  - intros f w Hi. destruct (As f w Hi) as [w2 Hi2]. apply (w_asq_k s W f w2 Hi2).
  - intros f y Hy Hrg Hwy. pose proof (w_wq s W f y Hy Hrg Hwy) as Hi.
    destruct (f_recv y); [destruct (Kr f Hi) as [Hk|Hn] | destruct (Ks f Hi) as [Hk|Hn]]; try exact Hk;
      rewrite (Hn y Hy) in Hwy; discriminate.
  - intros Hsc f w y Hi. destruct (Ar f w Hi) as [w2 Hi2]. apply (w_sc0 s W Hsc f w2 y Hi2).
  - intros Hrc f w y Hi. destruct (As f w Hi) as [w2 Hi2]. apply (w_rc0 s W Hrc f w2 y Hi2).
  - intros T f w Hi. destruct (Ar f w Hi) as [w2 Hi2]. apply (w_arq_reg s W T f w2 Hi2).
  - intros f w y Hi. destruct (Ar f w Hi) as [w2 Hi2]. apply (w_arq_st s W f w2 y Hi2).
Qed.
