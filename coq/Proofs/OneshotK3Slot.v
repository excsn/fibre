(* Proofs/OneshotK3Slot.v — the value slot follows the state machine (K3 oneshot model): occupied
   iff SENT, or WRITING after the write, or TAKEN while the unique taker has not emptied it; emptied
   by Drop for OneShotShared at the latest.  For every cfg, N, programs and schedules. *)
From Coq Require Import List Arith Bool Lia.
From Fibre Require Import Common.Conc Chan.OneshotK3 Proofs.OneshotK3Base Proofs.OneshotK3Life.
Import ListNotations.

Section Slot.
  Variable C : cfg.
  Variable n : nat.
  Variable sprog : nat -> sop.

  Notation inr := (inr n).
  Notation LInv := (LInv n).

  (* everybody released the shared state and Drop for OneShotShared has run *)
  Definition shdone (s : st) : Prop :=
    arc s = 0 /\ rpc s <> RShLoad /\ forall t, spc s t <> SShLoad.

  Lemma arc0_rel s : LInv s -> arc s = 0 -> rrel (rpc s) = true /\ forall t, inr t -> srel (spc s t) = true.
  Proof.
    intros L A. pose proof (l_arc _ _ L) as E. rewrite A in E.
    destruct (rrel (rpc s)); [|lia]. split; [reflexivity|]. intros t Ht.
    assert (Z : cntf (fun t => negb (srel (spc s t))) n = 0) by lia.
    pose proof (cntf_zero _ _ Z t Ht) as X. cbv beta in X. destruct (srel (spc s t)); [reflexivity|discriminate].
  Qed.

  Record SInv (s : st) : Prop := mkSInv {
    v_ec : cs s = Empty \/ cs s = Closed -> slot s = None;
    v_sent : cs s = Sent -> slot s <> None \/ shdone s;
    v_wr1 : forall t, spc s t = SSwap -> slot s = Some t;
    v_wr : cs s = Writing -> slot s = None \/ exists t, spc s t = SSwap;
    v_tk1 : rtaker (rpc s) = true -> slot s <> None;
    v_tk2 : forall t, spc s t = DLock -> slot s <> None;
    v_tk3 : cs s = Taken -> slot s <> None -> rtaker (rpc s) = true \/ exists t, spc s t = DLock;
    v_shd : shdone s -> slot s = None;
    v_unr : forall c, rpc s <> TNone c /\ rpc s <> TUnlock c None
  }.

  Lemma SInv_init rp : SInv (init n rp).
  Proof.
    constructor; cbn; intros; try discriminate; try congruence; auto.
    split; discriminate.
  Qed.

  (* the last handle is gone and nobody is about to run the shared drop: a value can only be left
     in the slot in state SENT *)
  Lemma arc0_slot s : LInv s -> SInv s -> arc s = 0 -> cs s <> Sent -> slot s = None.
  Proof.
    intros L V A N. destruct (arc0_rel s L A) as [Rr Rs].
    destruct (slot s) eqn:E; [exfalso|reflexivity]. destruct (cs s) eqn:Cs.
    - rewrite (v_ec _ V (or_introl Cs)) in E. discriminate E.
    - destruct (l_w3 _ _ L Cs) as [u [Hu W]]. specialize (Rs u Hu). destruct (spc s u); discriminate.
    - exact (N eq_refl).
    - destruct (v_tk3 _ V Cs) as [X|[u X]]; [rewrite E; discriminate|destruct (rpc s); discriminate|].
      specialize (Rs u (inr_of_pc n s u L ltac:(rewrite X; discriminate))). rewrite X in Rs. discriminate Rs.
    - rewrite (v_ec _ V (or_intror Cs)) in E. discriminate E.
  Qed.

  Lemma SInv_sstep s t s' e : inr t -> LInv s -> SInv s -> sstep sprog s t = Some (s', e) -> SInv s'.
  Proof.
    intros Rt L V H. apply (sstep_inv sprog) in H.
    assert (Dn : shdone s -> False).
    { intros [A [_ B]]. apply (B t). apply (SStep_rel _ _ _ _ _ H). exact (proj2 (arc0_rel s L A) t Rt). }
    remember (spc s t) as p eqn:Epc in H.
    pose proof (l_w1 _ _ L t) as Wt. pose proof (l_wu _ _ L t) as Ut. pose proof (l_tk _ _ L t) as Kt.
    pose proof (l_tku2 _ _ L t) as Vt. pose proof (fun A => proj2 (arc0_rel s L A) t Rt) as Au.
    rewrite <- Epc in Wt, Ut, Kt, Vt, Au.
    assert (Wn : writer p = true -> p <> SSwap -> slot s = None).
    { intros W N. destruct (v_wr _ V (Wt W)) as [X|[u X]]; [exact X|].
      rewrite <- (Ut u W ltac:(rewrite X; reflexivity)), <- Epc in X. destruct (N X). }
    assert (Tz : rtaker (rpc s) = true -> rtakz (rpc s) = true) by (destruct (rpc s); intros X; first [exact X|reflexivity]).
    constructor.
    - scases H; try exact (v_ec _ V); intros X;
        first [ reflexivity | (apply Wn; [reflexivity|discriminate]) | apply (v_ec _ V); left; assumption
              | exfalso; specialize (Wt eq_refl); destruct X; congruence | destruct X; discriminate ].
    (* once shdone holds no sender steps (Dn); the thread running the shared drop empties the slot and
       establishes shdone *)
    - scases H; intros X.
      all: try (destruct (v_sent _ V X) as [Y|Y]; [|destruct (Dn Y)]).
      all: try (left; first [exact Y | discriminate]).
      all: try (exfalso; specialize (Kt eq_refl); congruence).
      + left. rewrite (v_wr1 _ V t (eq_sym Epc)). discriminate.
      + right. unfold shdone. scbn. split; [exact (l_sh2a _ _ L t (eq_sym Epc))|split].
        * intros R. exact (l_sh1b _ _ L R t (eq_sym Epc)).
        * intros u. thr u t N; [discriminate|]. intros Y2. exact (N (eq_sym (l_sh2b _ _ L t u (eq_sym Epc) Y2))).
    - intros u. scases H; try exact (v_wr1 _ V u); thr u t N; intros X;
        first [ discriminate X | reflexivity | exact (v_wr1 _ V u X)
              | exfalso; apply N; symmetry; apply (Ut u eq_refl); rewrite X; reflexivity
              | exfalso; pose proof (l_w1 _ _ L u ltac:(rewrite X; reflexivity)); first [specialize (Kt eq_refl)|idtac]; congruence ].
    - scases H; try exact (v_wr _ V); intros X; try discriminate X;
        first [ left; apply (v_ec _ V); left; assumption
              | right; exists t; rewrite upd_eq; reflexivity
              | exfalso; specialize (Kt eq_refl); congruence
              | exfalso; congruence
              | destruct (v_wr _ V X) as [Y|Y]; [left; exact Y|right];
                apply (ex_upd (fun _ q => q = SSwap)); [exact Y|]; rewrite <- Epc; intros Z; discriminate Z ].
    - scases H; try exact (v_tk1 _ V); intros X;
        first [ discriminate
              | exfalso; exact (l_tku1 _ _ L (Tz X) t (eq_sym Epc))
              | exfalso; pose proof (l_tkr _ _ L (Tz X)); congruence ].
    - intros u. scases H; try exact (v_tk2 _ V u); thr u t N; intros X;
        first [ discriminate | exact (v_tk2 _ V u X)
              | destruct (v_sent _ V ltac:(assumption)) as [Y|Y]; [exact Y|destruct (Dn Y)]
              | exfalso; exact (N (eq_sym (Vt u eq_refl X)))
              | exfalso; pose proof (l_tk _ _ L u X); congruence ].
    - scases H; try exact (v_tk3 _ V); intros X Y;
        first [ right; exists t; rewrite upd_eq; reflexivity
              | exfalso; specialize (Wt eq_refl); congruence | exfalso; congruence
              | destruct (v_tk3 _ V X Y) as [Z|Z]; [left; exact Z|right];
                apply (ex_upd (fun _ q => q = DLock)); [exact Z|]; rewrite <- Epc; intros Z2;
                discriminate Z2 ].
    (* arc = 0 after the step: t was the thread at SShLoad, and what it did not drop was not there *)
    - unfold shdone. scases H; intros [A [B Cc]];
        first [ reflexivity
              | exfalso; apply (Cc t); rewrite upd_eq; reflexivity
              | exfalso; assert (A0 : arc s = 0) by lia; discriminate (Au A0)
              | idtac ].
      match goal with N : _ \/ _ |- _ => destruct N as [N|N]; [exact (arc0_slot s L V A N)|exact N] end.
    - scases H; exact (v_unr _ V).
  Qed.

  (* receiver pcs that are never entered, and lock steps that always find the value *)
  Lemma rstep_dead s p :
    SInv s -> p = rpc s ->
    match p with TNone _ | TUnlock _ None => False | TLock _ | CLock _ => slot s <> None | _ => True end.
  Proof.
    intros V ->. destruct (rpc s) eqn:E; try exact I; try (apply (v_tk1 _ V); rewrite E; reflexivity).
    - exact (proj1 (v_unr _ V _) E).
    - destruct r; [exact I|exact (proj2 (v_unr _ V _) E)].
  Qed.

  Lemma SInv_rstep s s' e : LInv s -> SInv s -> rstep C s = Some (s', e) -> SInv s'.
  Proof.
    intros L V H. apply (rstep_inv C s s' e (l_tcas _ _ L) (l_unr _ _ L)) in H.
    assert (Dn : shdone s -> False).
    { intros [A [B _]]. apply B. apply (RStep_rel _ _ _ _ H). exact (proj1 (arc0_rel s L A)). }
    remember (rpc s) as p eqn:Epc in H. pose proof (rstep_dead s p V Epc) as Dd.
    pose proof (l_tkr _ _ L) as Atkr. pose proof (l_tku1 _ _ L) as Atku. pose proof (v_tk3 _ V) as Atk3.
    pose proof (fun A => proj1 (arc0_rel s L A)) as Au. rewrite <- Epc in Atkr, Atku, Atk3, Au.
    assert (Sn : cs s = Sent -> slot s <> None).
    { intros X. destruct (v_sent _ V X) as [Y|Y]; [exact Y|destruct (Dn Y)]. }
    constructor.
    - rcasesV H Dd; try exact (v_ec _ V); intros X;
        first [reflexivity | apply (v_ec _ V); left; assumption | destruct X; discriminate].
    - rcasesV H Dd; intros X; try discriminate X.
      all: try (left; apply Sn; exact X).
      all: try (exfalso; pose proof (Atkr eq_refl); congruence).
      right. unfold shdone. scbn. split; [exact (l_sh1a _ _ L (eq_sym Epc))|split; [discriminate|]].
      exact (l_sh1b _ _ L (eq_sym Epc)).
    - rcasesV H Dd; try exact (v_wr1 _ V); intros u X; exfalso;
        pose proof (l_w1 _ _ L u ltac:(rewrite X; reflexivity)); try pose proof (Atkr eq_refl); congruence.
    - rcasesV H Dd; try exact (v_wr _ V); intros X; try discriminate X; exfalso;
        try pose proof (Atkr eq_refl); congruence.
    - rcasesV H Dd; try exact (v_tk1 _ V); intros X; first [discriminate X | apply Sn; assumption].
    - rcasesV H Dd; try exact (v_tk2 _ V); intros u X; exfalso;
        first [exact (Atku eq_refl u X) | pose proof (l_tk _ _ L u X); congruence].
    - rcasesV H Dd; try exact (v_tk3 _ V); intros X Y;
        first [ discriminate X | left; reflexivity | destruct (Y eq_refl)
              | destruct (Atk3 X Y) as [Z|Z]; [(left; exact Z)|right; exact Z] ].
    - unfold shdone. rcasesV H Dd; intros [A [B Cc]];
        first [ reflexivity | destruct (B eq_refl) | exfalso; assert (A0 : arc s = 0) by lia; discriminate (Au A0) | idtac ].
      match goal with N : _ \/ _ |- _ => destruct N as [N|N]; [exact (arc0_slot s L V A N)|exact N] end.
    - rcasesV H Dd; try exact (v_unr _ V); intros c0; split; discriminate.
  Qed.

  Theorem LS_reachable rp s : reachable (sys C n sprog rp) s -> LInv s /\ SInv s.
  Proof.
    intros R. split; [exact (LInv_reachable C n sprog rp s R)|]. revert s R.
    apply (lift_over C n sprog rp LInv); eauto using LInv_reachable, SInv_init, SInv_rstep, SInv_sstep.
  Qed.
End Slot.


