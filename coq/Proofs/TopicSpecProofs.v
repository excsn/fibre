(* Proofs/TopicSpecProofs.v — what the reference's logs mean, for EVERY trace of (operation, result)
   pairs (not only the model's): per receiver handle,
     kept(expected) = received ++ still-queued          (exactly once, in publish order, nothing else)
     omitted        = number of expected publishes that found the ideal mailbox full
     |queue| <= capacity
   where `expected` logs, in order, each accepted publish whose topic was in the handle's
   subscription set at publish time (by definition of sp_step). *)
From Fibre Require Import Common.Base Chan.TopicOps Chan.TopicSpec Proofs.TopicLemmas Proofs.TopicInv Proofs.TopicInvRecv.

Definition kept (e : list (msg * bool)) : list msg := map fst (filter (fun p => negb (snd p)) e).
Definition omitted (e : list (msg * bool)) : list msg := map fst (filter (fun p => snd p) e).

Definition log_ok (y : srx) : Prop :=
  kept (s_exp y) = s_got y ++ s_q y /\
  s_full y = N.of_nat (length (omitted (s_exp y))) /\
  N.of_nat (length (s_q y)) <= s_cap y.

Lemma kept_snoc e m b : kept (e ++ [(m, b)]) = kept e ++ (if b then [] else [m]).
Proof. unfold kept. rewrite filter_app, map_app. cbn. destruct b; reflexivity. Qed.

Lemma omitted_snoc e m b : omitted (e ++ [(m, b)]) = omitted e ++ (if b then [m] else []).
Proof. unfold omitted. rewrite filter_app, map_app. cbn. destruct b; reflexivity. Qed.

Lemma log_ok_offer y m : log_ok y -> log_ok (srx_offer y m).
Proof.
  intros [H1 [H2 H3]]. unfold srx_offer.
  destruct (N.ltb_spec (N.of_nat (length (s_q y))) (s_cap y)) as [L|L]; unfold log_ok;
    cbn [s_exp s_got s_q s_full s_cap].
  - rewrite kept_snoc, omitted_snoc, H1, app_nil_r, app_assoc, app_length. cbn [length]. repeat split; auto. lia.
  - rewrite kept_snoc, omitted_snoc, H1, app_nil_r, app_length. cbn [length]. repeat split; auto. lia.
Qed.

Lemma log_ok_take y m q' : log_ok y -> s_q y = m :: q' -> log_ok (srx_take y m q').
Proof.
  intros [H1 [H2 H3]] Hq. unfold log_ok, srx_take. cbn [s_exp s_got s_q s_full s_cap]. rewrite Hq in *. cbn [length] in H3.
  repeat split; auto; [rewrite <- app_assoc; exact H1 | lia].
Qed.

Lemma log_ok_same y y' :
  s_q y' = s_q y -> s_cap y' = s_cap y -> s_full y' = s_full y -> s_exp y' = s_exp y -> s_got y' = s_got y ->
  log_ok y -> log_ok y'.
Proof. unfold log_ok. intros -> -> -> -> ->. auto. Qed.

Lemma Forall_upd_srx (P : srx -> Prop) r g l :
  Forall P l -> (forall y, P y -> P (g y)) -> Forall P (upd_srx r g l).
Proof.
  intros H Hg. unfold upd_srx. apply Forall_forall. intros z Hz. apply in_map_iff in Hz.
  destruct Hz as [a [Ea Ha]]. rewrite Forall_forall in H. specialize (H a Ha).
  destruct (N.eqb (s_id a) r); subst z; auto.
Qed.

Lemma Forall_map_srx (P : srx -> Prop) g l :
  Forall P l -> (forall y, P y -> P (g y)) -> Forall P (map g l).
Proof.
  intros H Hg. apply Forall_forall. intros z Hz. apply in_map_iff in Hz.
  destruct Hz as [a [Ea Ha]]. rewrite Forall_forall in H. subst z. auto.
Qed.

Definition sp_wf (sp : spec) : Prop := NoDup (map s_id (sp_rx sp)) /\ Forall log_ok (sp_rx sp).

Lemma wf_upd sp r g :
  sp_wf sp -> (forall y, s_id (g y) = s_id y) ->
  (forall y, In y (sp_rx sp) -> s_id y = r -> log_ok y -> log_ok (g y)) ->
  sp_wf (sp_set_rx sp (upd_srx r g (sp_rx sp))).
Proof.
  intros [H1 H2] Hid Hg. split; cbn [sp_rx sp_set_rx].
  - rewrite (map_id_upd s_id) by exact Hid. exact H1.
  - unfold upd_srx. apply Forall_forall. intros z Hz. apply in_map_iff in Hz. destruct Hz as [a [Ea Ha]].
    rewrite Forall_forall in H2. destruct (N.eqb_spec (s_id a) r) as [E|E]; subst z; auto.
Qed.

Lemma wf_map sp g :
  sp_wf sp -> (forall y, s_id (g y) = s_id y) -> (forall y, log_ok y -> log_ok (g y)) ->
  sp_wf (sp_set_rx sp (map g (sp_rx sp))).
Proof.
  intros [H1 H2] Hid Hg. split; cbn [sp_rx sp_set_rx].
  - rewrite map_map. erewrite map_ext; [exact H1 | exact Hid].
  - apply Forall_map_srx; assumption.
Qed.

Lemma sp_recv_wf sp r rs : sp_wf sp -> sp_wf (fst (sp_recv sp r rs)).
Proof.
  intros H. unfold sp_recv. destruct (find_srx r (sp_rx sp)) as [x|] eqn:Ef; [|exact H].
  destruct rs; try exact H.
  - destruct (s_q x) as [|m q'] eqn:Eq; [exact H|].
    destruct (msg_eqb m (t, v)) eqn:Em; [|exact H]. cbn [fst].
    apply msg_eqb_eq in Em. subst m. apply wf_upd; [exact H | reflexivity|].
    intros y Hy Hid Hl. pose proof (find_id_unique s_id r _ x y (proj1 H) Ef Hy Hid). subst y.
    apply log_ok_take; assumption.
  - destruct (s_q x); [|exact H]. destruct (negb (s_closed x) && negb (any_open sp)); exact H.
  - destruct (s_q x); [|exact H]. destruct (negb (s_closed x) && negb (any_open sp)); exact H.
  - destruct (s_q x); [|exact H]. destruct (negb (s_closed x) && negb (any_open sp)); exact H.
  - destruct (s_closed x); [exact H|]. destruct (s_q x); [|exact H]. destruct (any_open sp); exact H.
Qed.

Lemma wf_set_tx sp l : sp_wf sp -> sp_wf (sp_set_tx sp l).
Proof. intros H. exact H. Qed.

Lemma after_sender_gone_wf sp : sp_wf sp -> sp_wf (after_sender_gone sp).
Proof.
  intros H. unfold after_sender_gone. destruct (any_open sp); [exact H|].
  apply wf_map; [exact H | reflexivity|]. intros y Hl. eapply log_ok_same; [..|exact Hl]; reflexivity.
Qed.

(* only an accepted publish, a successful receive and the handle operations of receivers touch the logs *)
Lemma sp_step_wf sp o rs : sp_wf sp -> sp_wf (fst (sp_step sp o rs)).
Proof.
  intros H.
  destruct o; cbn [sp_step]; try (apply sp_recv_wf; exact H);
    try (destruct (find _ (sp_futs sp)) as [[f' r]|]; [apply sp_recv_wf|]; exact H);
    (destruct rs; try exact H; cbn [fst]).
  - (* Publish *) apply wf_map; [exact H | |].
    + intros y. destruct (s_live y && mem t (s_subs y)); [|reflexivity].
      unfold srx_offer. destruct (N.ltb (N.of_nat (length (s_q y))) (s_cap y)); reflexivity.
    + intros y Hl. destruct (s_live y && mem t (s_subs y)); [apply log_ok_offer|]; exact Hl.
  - (* CloneS *) destruct (find_stx s (sp_tx sp)); [|exact H]. destruct (find_stx s' (sp_tx sp)); exact H.
  - (* CloseS *) apply after_sender_gone_wf. exact H.
  - (* DropS *) destruct (match find_stx s (sp_tx sp) with Some x => x_open x | None => false end);
      [apply after_sender_gone_wf|]; exact H.
  - (* Subscribe *) apply wf_upd; [exact H | |].
    + intros y. destruct (mem t (s_subs y)); reflexivity.
    + intros y _ _ Hl. destruct (mem t (s_subs y)); [exact Hl|]. eapply log_ok_same; [..|exact Hl]; reflexivity.
  - (* Unsubscribe *) apply wf_upd; [exact H | reflexivity|]. intros y _ _ Hl. eapply log_ok_same; [..|exact Hl]; reflexivity.
  - (* CloneR *) destruct (find_srx r (sp_rx sp)) as [x|]; [|exact H].
    destruct (find_srx r' (sp_rx sp)) eqn:En; [exact H|]. cbn [fst]. destruct H as [H1 H2].
    split; cbn [sp_rx sp_set_rx].
    + rewrite map_app. cbn [map srx_new s_id]. apply NoDup_snoc; [exact H1 | apply (find_id_None s_id); exact En].
    + apply Forall_app. split; [exact H2|]. constructor; [|constructor].
      unfold log_ok, srx_new, kept, omitted. cbn. repeat split; auto. lia.
  - (* CloseR *) apply wf_upd; [exact H | reflexivity|]. intros y _ _ Hl. eapply log_ok_same; [..|exact Hl]; reflexivity.
  - (* DropR *) apply wf_upd; [exact H | reflexivity|]. intros y _ _ Hl. eapply log_ok_same; [..|exact Hl]; reflexivity.
Qed.

Fixpoint sp_run (sp : spec) (tr : list (op * res)) : spec :=
  match tr with
  | [] => sp
  | (o, rs) :: tr' => sp_run (fst (sp_step sp o rs)) tr'
  end.

Theorem reference_logs cap tr : sp_wf (sp_run (sp_init cap) tr).
Proof.
  assert (H0 : sp_wf (sp_init cap)).
  { split; cbn.
    - constructor; [intros []|constructor].
    - constructor; [|constructor]. unfold log_ok, kept, omitted. cbn. repeat split; auto. lia. }
  revert H0. generalize (sp_init cap). induction tr as [|[o rs] tr IH]; intros sp H; cbn [sp_run]; [exact H|].
  apply IH. apply sp_step_wf. exact H.
Qed.

(* in particular for the traces of the model *)
Lemma spec_from_run c : forall h s sp, exists tr, spec_from c s sp h = sp_run sp tr.
Proof.
  induction h as [|o h IH]; intros s sp; [exists []; reflexivity|].
  cbn [spec_from]. destruct (step c s o) as [s1 [rs w]]. destruct (IH s1 (fst (sp_step sp o rs))) as [tr E].
  exists ((o, rs) :: tr). exact E.
Qed.

Theorem reference_logs_model c a cap h : sp_wf (spec_after c a cap h).
Proof.
  unfold spec_after. destruct (spec_from_run c h (init a cap) (sp_init cap)) as [tr ->]. apply reference_logs.
Qed.
