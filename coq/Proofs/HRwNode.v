(* Proofs/HRwNode.v — HybridRwLock: waiter-node invariants RInvE. *)
From Coq Require Import List NArith Arith Bool Lia.
From Fibre Require Import Common.Conc Sync.HMutex Sync.HRwLock Proofs.HMutexBase Proofs.HRwBase Proofs.HRwGuard Proofs.HRwQueue.
Import ListNotations.

(* ---- waiter nodes: a linked node without a handle has been marked WOKEN; the handle registered in a
   linked node is its owner's *)
Definition rinsync (p : rpc) : bool :=
  match p with
  | RTALoad (RASpin _ _) | RTACas (RASpin _ _) _ _ _ | RYield _ _ | RSpinNext _ _
  | RLLSwap (RLQ (RQSync _ _)) | RLLLoad (RLQ (RQSync _ _)) | RLLSpin (RLQ (RQSync _ _))
  | RQRearm (RQSync _ _) | RQFor (RQSync _ _) | RQLoad (RQSync _ _) | RQCas (RQSync _ _) _ _ _
  | RFix1 (RFQ (RQSync _ _)) | RFix2 (RFQ (RQSync _ _)) | RQUnl (RQSync _ _) _
  | RPLoad _ | RPark _
  | RLLSwap (RLX (RQSync _ _)) | RLLLoad (RLX (RQSync _ _)) | RLLSpin (RLX (RQSync _ _))
  | RFix1 (RFX (RQSync _ _)) | RFix2 (RFX (RQSync _ _)) | RXUnl (RQSync _ _) => true
  | _ => false
  end.

Definition rkindok (k : wk) (p : rpc) (f : option (rw * bool)) : Prop :=
  match k with
  | WThread => rinsync p = true
  | WBlock => exists kk, f = Some (kk, true)
  | WCount => exists kk, f = Some (kk, false)
  end.

Definition RInvE s :=
  (forall h b, In (h, b) (rqueue s) -> rnarm s h = None -> rnwk s h = true)
  /\ (forall h b k, In (h, b) (rqueue s) -> rnarm s h = Some k -> rkindok k (rpcs s h) (rfut s h)).

(* One pass over the steps.  First clause: the list only loses nodes, a re-armed node has a handle,
   a marked or swept node is WOKEN; the second clause is left for the rest of the script. *)
Lemma RInvE_step s t c s' e :
  RInvP s -> RInvC s -> RInvE s -> rwstep s t c = Some (s', e) -> RInvE s'.
Proof.
  intros P (C1 & C2 & C3) [E1 E2] H.
  pose proof (E2 t) as E2t. pose proof (C2 t) as Ct. pose proof (P t) as Pt. unfold rlinkok in Ct.
  rstep_cases H; rewrite Epc in E2t, Ct, Pt; cbn [rlk flk rfutok] in Ct, Pt; unfold RInvE; rsimpl_goal.
  all: try match goal with E : rqueue _ = [] |- context [RWSweep] => idtac | E : rqueue _ = [] |- _ => rewrite <- E end.
  all: try match goal with E : rqueue _ = _ :: _ |- context [RWSweep] => idtac | E : rqueue _ = _ :: _ |- _ => rewrite <- E end.
  all: split;
    [ first
      [ exact E1
      | solve [ intros hh bb Hin; apply qrem_In in Hin; destruct Hin as [Hin _]; eapply E1; exact Hin ]
      | solve [ rewrite rflush_queue, rflush_narm, rflush_nwk; rsimpl_goal; exact E1 ]
      | solve [ intros hh bb Hin; split_thr hh t; [ discriminate
                | try (apply In_app1 in Hin; destruct Hin as [Hin|Hin]; [|injection Hin; intros; congruence]); eapply E1; exact Hin ] ]
      | intros hh bb Hin; match goal with |- upd _ ?n _ _ = _ -> _ => destruct (Nat.eq_dec hh n) as [->|Hn] end;
        [ rewrite !upd_eq; reflexivity
        | rewrite !upd_neq by assumption; eapply E1;
          first [ exact Hin | match goal with E : rqueue _ = _ :: _ |- _ => rewrite E; right; exact Hin end ] ] ]
    | ].
  all: try solve [ rewrite rflush_queue, rflush_narm, rflush_fut; rsimpl_goal; intros hh bb kk Hin Hk;
                   match goal with |- context [rflush ?s0 ?tt ?ws] =>
                     destruct (Nat.eq_dec hh tt) as [->|Hne];
                     [ specialize (E2t bb kk Hin Hk); destruct kk; cbn [rkindok rinsync] in *; try discriminate E2t; assumption
                     | rewrite rflush_pcs by assumption; rsimpl_goal; eapply E2; eassumption ] end ].
  all: intros hh bb kk Hin Hk.
  all: try (apply qrem_In in Hin; destruct Hin as [Hin Hne]).
  all: try solve [ split_thr hh t; [ try contradiction;
                     specialize (E2t bb kk Hin Hk); destruct kk; cbn [rkindok rinsync] in *; auto; try congruence;
                     try (lazymatch type of E2t with ex _ => destruct E2t as [kx E2t] end; rewrite E2t in *; cbn [flk] in *; eauto; try congruence)
                   | eapply E2; eassumption ] ].
  (* the stepping thread's node is not linked *)
  all: try solve [ split_thr hh t; [ | eapply E2; eassumption ]; exfalso;
                   try match type of Ct with context [rfut _ _] =>
                         first [ rewrite Pt in Ct | destruct Pt as [Pt|Pt]; rewrite Pt in Ct | destruct Pt as [kx Pt]; rewrite Pt in Ct ] end;
                   case_vars_of Ct; cbn [rlk flk is_wr andb orb negb] in Ct;
                   try (destruct (rnwk s t) eqn:FN; cbn [orb negb] in Ct); try contradiction; eapply Ct; eauto ].
  (* PollNext: the future's node gets allocated *)
  1-4: (split_thr hh t; [ | eapply E2; eassumption ];
        destruct Pt as [Pt|Pt]; rewrite Pt in *; cbn [flk] in Ct;
        [ exfalso; eapply Ct; eauto
        | specialize (E2t bb kk Hin Hk); destruct kk; cbn [rkindok rinsync] in *; try discriminate E2t;
          destruct E2t as [kx E2t]; injection E2t as -> ->; eauto ]).
  (* re-arm *)
  1-5: (try (apply In_app1 in Hin); revert Hk; split_thr hh t; intros Hk;
        [ injection Hk as <-; try (destruct blk); cbn [rkindok rinsync rkind_of]; rewrite ?Pt; eauto
        | eapply E2; [ | eassumption ]; first [ eassumption | destruct Hin as [Hin|Hin]; [exact Hin|injection Hin; intros; congruence] ] ]).
  all: (revert Hk; destruct (Nat.eq_dec hh n) as [->|Hn];
        [ rewrite upd_eq; discriminate | rewrite upd_neq by assumption; intros Hk ];
        assert (Hin' : In (hh, bb) (rqueue s))
          by (first [ exact Hin | match goal with E : rqueue _ = _ :: _ |- _ => rewrite E; right; exact Hin end ]);
        split_thr hh t;
        [ specialize (E2t bb kk Hin' Hk); destruct kk; cbn [rkindok rinsync] in *; try discriminate E2t; assumption
        | eapply E2; eassumption ]).
Qed.

