(* Proofs/LoaderProofs.v — loader single-flight (C15) and the stale clause of C12 on the section
   model Cache/Loader.v, for every schedule.  The invariant [PInv cf g s] has the current time [g] as
   a parameter ([Inv cf s] is [PInv cf (gt s) s]); it says what each future's record ([finv]) and each
   caller's program counter ([pcinv]) promise.  A step is carried by one of three lemmas: the caller
   changes only its own record ([PInv_caller]), a future is created ([PInv_create]), the record of one
   future changes ([PInv_fut]); [caller_step_inv] and [task_step_inv] go through the sections of the
   model once.  The theorems of C15 are read off the invariant at the end. *)
From Fibre Require Import Common.Base Cache.Loader.
Import ListNotations.
Open Scope N_scope.

Lemma updn_eq {A} (m : nat -> A) k v : updn m k v k = v.
Proof. unfold updn. now rewrite Nat.eqb_refl. Qed.
Lemma updn_neq {A} (m : nat -> A) k v x : x <> k -> updn m k v x = m x.
Proof. unfold updn. intros H. destruct (Nat.eqb_spec x k); congruence. Qed.
Lemma updN_eq {A} (m : N -> A) k v : updN m k v k = v.
Proof. unfold updN. now rewrite N.eqb_refl. Qed.
Lemma updN_neq {A} (m : N -> A) k v x : x <> k -> updN m k v x = m x.
Proof. unfold updN. intros H. destruct (N.eqb_spec x k); congruence. Qed.

Lemma wake_pc cs ws c : c_pc (wake_all cs ws c) = c_pc (cs c).
Proof. unfold wake_all. destruct (existsb _ ws); reflexivity. Qed.
Lemma wake_prog cs ws c : c_prog (wake_all cs ws c) = c_prog (cs c).
Proof. unfold wake_all. destruct (existsb _ ws); reflexivity. Qed.
Lemma wake_token_keep cs ws c : c_token (cs c) = true -> c_token (wake_all cs ws c) = true.
Proof. unfold wake_all. destruct (existsb _ ws); auto. Qed.
Lemma wake_token_in cs ws c : In c ws -> c_token (wake_all cs ws c) = true.
Proof.
  unfold wake_all. intros H. destruct (existsb (Nat.eqb c) ws) eqn:E; [reflexivity|].
  exfalso. assert (X : existsb (Nat.eqb c) ws = true) by (apply existsb_exists; exists c; split; [assumption|apply Nat.eqb_refl]).
  congruence.
Qed.

Definition premark (p : tpc) : bool :=
  match p with TLoad | TWrite _ _ | TUnmark _ => true | _ => false end.

Definition mkwr (f : nat) (k v c : N) : wr := {| w_fut := f; w_key := k; w_val := v; w_cost := c |}.

(* reduce projections of the states and futures that the model builds with its setters *)
Ltac red_st :=
  cbn [finish push_out push_ret set_caller set_fut create_future reset_key reset_everything
       reset_keys remove_key wheel_cancel wheel_schedule wheel_advance
       w_clock w_map w_pending w_futs w_nfut w_callers w_wheel w_runs w_gt w_reset
       w_outs w_rets w_writes mkst
       clock map pending futs nfut callers timers tick next_timer nruns runs gt reset_k reset_all
       runs_since outs rets writes
       f_key f_state f_waiters f_tpc f_read_at f_reset_seen f_created f_loaded f_written f_unmarked
       f_ncomplete fw_state fw_tpc fw_loaded fw_written fw_unmarked fw_ncomplete new_future mkf
       c_prog c_pc c_token r_caller r_key r_via r_val].

(* the loader returned [v] for future [f] and the task wrote it to the map with its cost *)
Definition wrote (ws : list wr) (f : nat) (F : future) (v : N) : Prop :=
  exists c, f_loaded F = Some (v, c) /\ In (mkwr f (f_key F) v c) ws.

(* what the task's program counter says about the future's ghost fields and state *)
Definition tinv (ws : list wr) (f : nat) (F : future) : Prop :=
  match f_tpc F with
  | TLoad => f_state F = Computing /\ f_loaded F = None /\ f_written F = None /\ f_unmarked F = None /\ f_ncomplete F = 0%nat
  | TWrite v c => f_state F = Computing /\ f_loaded F = Some (v, c) /\ f_written F = None /\ f_unmarked F = None /\ f_ncomplete F = 0%nat
  | TUnmark v => f_state F = Computing /\ wrote ws f F v /\ f_written F <> None /\ f_unmarked F = None /\ f_ncomplete F = 0%nat
  | TComplete v => f_state F = Computing /\ wrote ws f F v /\ f_written F <> None /\ f_unmarked F <> None /\ f_ncomplete F = 0%nat
  | TDone => exists v, f_state F = Complete v /\ f_waiters F = [] /\ wrote ws f F v
                 /\ f_written F <> None /\ f_unmarked F <> None /\ f_ncomplete F = 1%nat
  end.

(* the entry of [k] is fresh, or [k] was reset after time [w] *)
Definition fresh_or_reset (s : state) (k : N) (w : nat) : Prop :=
  is_fresh (clock s) (map s k) = true \/ (w < last_reset s k)%nat.

(* The invariant takes the current time [g] as a parameter: a step stamps what it does with
   [gt s] and only then advances [gt], so the bounds below hold for [g = gt s] between steps and
   have to be stated for [S (gt s)] in the middle of one. *)
Record finv (cf : config) (g : nat) (s : state) (f : nat) (F : future) : Prop := {
  fi_task : tinv (writes s) f F;
  (* the marker of a key designates the load whose task has not yet removed it *)
  fi_mark : pending s (f_key F) = Some f <-> premark (f_tpc F) = true;
  fi_read : (f_read_at F < g)%nat;
  fi_created : (f_created F < g)%nat;
  fi_written : forall w, f_written F = Some w -> (w < g)%nat;
  fi_unmarked : forall u, f_unmarked F = Some u -> (u < g)%nat;
  fi_fresh : c_ttl cf <> Some 0 -> forall w, f_written F = Some w -> fresh_or_reset s (f_key F) w
}.

(* whatever was written for [k] before a caller's miss at [r] has been reset since: [rs], the last
   reset the caller saw, is later than the write.  A caller carries this from its miss to its stripe
   section; if it creates a future there, it becomes [I_lateF] for that future. *)
Definition late (cf : config) (s : state) (k : N) (r rs : nat) : Prop :=
  c_ttl cf <> Some 0 -> forall f F w, futs s f = Some F -> f_key F = k -> f_written F = Some w ->
  (w < r)%nat -> (w < rs)%nat.

Definition pcinv (cf : config) (g : nat) (s : state) (c : nat) (C : caller) : Prop :=
  match c_pc C with
  | CIdle => True
  | CStripe k r rs => (r < g)%nat /\ late cf s k r rs
  | CWait k f => exists F, futs s f = Some F /\ f_key F = k
  | CPark k f => exists F, futs s f = Some F /\ f_key F = k /\
                   (c_token C = true \/ (f_state F = Computing /\ In c (f_waiters F)))
  end.

Record PInv (cf : config) (g : nat) (s : state) : Prop := {
  I_wf   : forall f, (nfut s <= f)%nat -> futs s f = None;
  I_fut  : forall f F, futs s f = Some F -> finv cf g s f F;
  I_pend : forall k f, pending s k = Some f -> exists F, futs s f = Some F /\ f_key F = k;
  I_call : forall c, pcinv cf g s c (callers s c);
  I_ret  : forall r f, In r (rets s) -> r_via r = Some f ->
             exists F, futs s f = Some F /\ f_key F = r_key r /\ f_state F = Complete (r_val r);
  (* why a second load of a key exists: its creator read the map before the first value was written
     (late arrival, F-22), or saw a reset that came after the write *)
  I_lateF : c_ttl cf <> Some 0 -> forall f1 f2 F1 F2 w, f1 <> f2 ->
             futs s f1 = Some F1 -> futs s f2 = Some F2 -> f_key F1 = f_key F2 ->
             f_written F1 = Some w -> (w < f_read_at F2)%nat -> (w < f_reset_seen F2)%nat;
  (* loads of one key do not overlap: the marker of the earlier was gone when the later was created *)
  I_seq  : forall f1 f2 F1 F2, (f1 < f2)%nat -> futs s f1 = Some F1 -> futs s f2 = Some F2 ->
             f_key F1 = f_key F2 -> exists u, f_unmarked F1 = Some u /\ (u < f_created F2)%nat
}.

Definition Inv (cf : config) (s : state) : Prop := PInv cf (gt s) s.

Lemma tinv_mono ws ws' f F : (forall w, In w ws -> In w ws') -> tinv ws f F -> tinv ws' f F.
Proof.
  intros Hi. assert (W : forall v, wrote ws f F v -> wrote ws' f F v).
  { intros v (c & A & B). exists c. auto. }
  unfold tinv. destruct (f_tpc F); try tauto.
  - intros (A & B & C). auto.
  - intros (A & B & C). auto.
  - intros (v & A & A' & B & C). exists v. auto.
Qed.

(* what the invariant of a future reads of the rest of the state *)
Lemma finv_mono cf g g' s s' f F :
  finv cf g s f F -> (g <= g')%nat ->
  (forall w, In w (writes s) -> In w (writes s')) ->
  (pending s' (f_key F) = Some f <-> pending s (f_key F) = Some f) ->
  (c_ttl cf <> Some 0 -> forall w, (w < g)%nat -> fresh_or_reset s (f_key F) w -> fresh_or_reset s' (f_key F) w) ->
  finv cf g' s' f F.
Proof.
  intros [T M R C W U Fr] L Hw Hp He. constructor.
  - exact (tinv_mono _ _ _ _ Hw T).
  - rewrite Hp. exact M.
  - exact (Nat.lt_le_trans _ _ _ R L).
  - exact (Nat.lt_le_trans _ _ _ C L).
  - intros w H. exact (Nat.lt_le_trans _ _ _ (W w H) L).
  - intros u H. exact (Nat.lt_le_trans _ _ _ (U u H) L).
  - intros Ht w H. exact (He Ht w (W w H) (Fr Ht w H)).
Qed.

Definition env_le (g : nat) (s s' : state) : Prop :=
  forall k w, (w < g)%nat -> fresh_or_reset s k w -> fresh_or_reset s' k w.

Lemma PInv_caller cf g g' s s' c C :
  PInv cf g s -> (g <= g')%nat ->
  futs s' = futs s -> nfut s' = nfut s -> pending s' = pending s -> writes s' = writes s ->
  callers s' = updn (callers s) c C -> pcinv cf g' s c C ->
  (forall r f, In r (rets s') -> r_via r = Some f -> In r (rets s) \/
     exists F, futs s f = Some F /\ f_key F = r_key r /\ f_state F = Complete (r_val r)) ->
  (c_ttl cf <> Some 0 -> env_le g s s') ->
  PInv cf g' s'.
Proof.
  intros IV L Ef En Ep Ew Ec Hc Hr He. constructor; rewrite ?Ef, ?En, ?Ep.
  - exact (I_wf _ _ _ IV).
  - intros f F HF. apply (finv_mono cf g g' s); [exact (I_fut _ _ _ IV f F HF) | exact L | | |].
    + rewrite Ew. auto.
    + rewrite Ep. tauto.
    + intros Ht w. apply (He Ht).
  - exact (I_pend _ _ _ IV).
  - intros c'. unfold pcinv, late in *. rewrite Ec, Ef. unfold updn.
    destruct (Nat.eqb_spec c' c) as [->|Hn]; [exact Hc|].
    pose proof (I_call _ _ _ IV c') as X. unfold pcinv, late in X.
    destruct (c_pc (callers s c')); try exact X. destruct X; split; [lia | assumption].
  - intros r f Hi Hv. destruct (Hr r f Hi Hv) as [H|H]; [exact (I_ret _ _ _ IV r f H Hv) | exact H].
  - exact (I_lateF _ _ _ IV).
  - exact (I_seq _ _ _ IV).
Qed.

(* the task stamps its write before it removes the marker, and removes the marker before [TComplete] *)
Lemma tinv_stamps ws f F : tinv ws f F ->
  (f_unmarked F = None -> premark (f_tpc F) = true) /\ (f_written F = None -> f_unmarked F = None).
Proof.
  unfold tinv. destruct (f_tpc F); cbn [premark];
    [intros (_ & _ & W & U & _) ..| intros (v & _ & _ & _ & W & U & _)]; split; intros; congruence.
Qed.

(* without a marker for [k], every load of [k] so far has removed its own *)
Lemma seq_new cf g s k : PInv cf g s -> pending s k = None ->
  forall f1 F1, futs s f1 = Some F1 -> f_key F1 = k ->
  exists u, f_unmarked F1 = Some u /\ (u < g)%nat.
Proof.
  intros IV Hp f1 F1 HF HK. pose proof (I_fut _ _ _ IV _ _ HF) as FI.
  destruct (premark (f_tpc F1)) eqn:Ep.
  - apply (fi_mark _ _ _ _ _ FI) in Ep. congruence.
  - destruct (f_unmarked F1) as [u|] eqn:Hu; [eauto using (fi_unmarked _ _ _ _ _ FI)|].
    apply (tinv_stamps _ _ _ (fi_task _ _ _ _ _ FI)) in Hu. congruence.
Qed.

Lemma PInv_create cf s k r rs :
  PInv cf (gt s) s -> pending s k = None -> (r <= gt s)%nat -> late cf s k r rs ->
  PInv cf (S (gt s)) (create_future s k r rs).
Proof.
  intros IV Hp Hr Hl. pose proof (I_wf _ _ _ IV) as W.
  assert (G : forall f F X, futs s f = Some F -> updn (futs s) (nfut s) X f = Some F).
  { intros f F X HF. rewrite updn_neq; [exact HF|]. intros ->. rewrite W in HF by lia. discriminate. }
  constructor; unfold pcinv, late in *; red_st.
  - intros f Hf. rewrite updn_neq by lia. apply W. lia.
  - intros f F. unfold updn. destruct (Nat.eqb_spec f (nfut s)) as [->|Hn].
    + intros [= <-]. constructor; cbn; try discriminate; try lia.
      * repeat split.
      * rewrite updN_eq. tauto.
    + intros HF. apply (finv_mono cf (gt s) _ s); [exact (I_fut _ _ _ IV f F HF) | lia | auto | | auto].
      cbn. unfold updN. destruct (N.eqb_spec (f_key F) k) as [->|]; [|tauto].
      rewrite Hp. split; [intros [= <-]; contradiction | discriminate].
  - intros k0 f. unfold updN. destruct (N.eqb_spec k0 k) as [->|].
    + intros [= <-]. rewrite updn_eq. eexists. split; reflexivity.
    + intros H. destruct (I_pend _ _ _ IV _ _ H) as (F & HF & HK). eauto.
  - intros c. pose proof (I_call _ _ _ IV c) as X. unfold pcinv, late in X.
    destruct (c_pc (callers s c)) as [|k0 r0 rs0|k0 f0|k0 f0].
    + exact I.
    + destruct X as (A & B). split; [lia|]. intros Ht f F w. unfold updn.
      destruct (Nat.eqb_spec f (nfut s)); [intros [= <-]; discriminate | exact (B Ht f F w)].
    + destruct X as (F & HF & HK). eauto.
    + destruct X as (F & HF & HK). eauto.
  - intros r0 f Hi Hv. destruct (I_ret _ _ _ IV _ _ Hi Hv) as (F & HF & X). eauto.
  - intros Ht f1 f2 F1 F2 w Hne. unfold updn.
    destruct (Nat.eqb_spec f1 (nfut s)); [intros [= <-]; discriminate|].
    destruct (Nat.eqb_spec f2 (nfut s)); [|exact (I_lateF _ _ _ IV Ht f1 f2 F1 F2 w Hne)].
    intros HF1 [= <-]. exact (Hl Ht f1 F1 w HF1).
  - intros f1 f2 F1 F2 Hlt. unfold updn.
    destruct (Nat.eqb_spec f2 (nfut s)) as [->|H2].
    + rewrite (proj2 (Nat.eqb_neq _ _)) by lia. intros HF1 [= <-]. exact (seq_new _ _ _ _ IV Hp f1 F1 HF1).
    + destruct (Nat.eqb_spec f1 (nfut s)) as [->|]; [|exact (I_seq _ _ _ IV f1 f2 F1 F2 Hlt)].
      intros _ HF2. rewrite W in HF2 by lia. discriminate.
Qed.

Definition fsame (F F' : future) : Prop :=
  f_key F' = f_key F /\ f_read_at F' = f_read_at F /\ f_reset_seen F' = f_reset_seen F
  /\ f_created F' = f_created F.

Lemma fsame_refl F : fsame F F.
Proof. repeat split. Qed.

(* what a step at time [g] may do to the record of a future *)
Record fext (g : nat) (F F' : future) : Prop := {
  fe_same : fsame F F';
  fe_state : forall v, f_state F = Complete v -> f_state F' = Complete v;
  fe_unmarked : forall u, f_unmarked F = Some u -> f_unmarked F' = Some u;
  fe_written : forall w, f_written F' = Some w -> f_written F = Some w \/ w = g;
  fe_unmarked_new : forall u, f_unmarked F' = Some u -> f_unmarked F = Some u \/ u = g
}.

(* the invariant of a changed future: its task invariant, its marker and the freshness of what it
   wrote have to be shown; the time stamps are taken care of *)
Lemma finv_upd cf g s s' f F F' :
  finv cf g s f F -> fext g F F' -> tinv (writes s') f F' ->
  (pending s' (f_key F') = Some f <-> premark (f_tpc F') = true) ->
  (c_ttl cf <> Some 0 -> forall w, f_written F' = Some w -> fresh_or_reset s' (f_key F') w) ->
  finv cf (S g) s' f F'.
Proof.
  intros [T M R C W U Fr] [(E1 & E2 & E3 & E4) _ _ XW XU] T' M' Fr'.
  constructor; [exact T' | exact M' | lia | lia | | | exact Fr'].
  - intros w H. destruct (XW w H) as [H'| ->]; [specialize (W w H')|]; lia.
  - intros u H. destruct (XU u H) as [H'| ->]; [specialize (U u H')|]; lia.
Qed.

Lemma fext_refl g F : fext g F F.
Proof. constructor; auto using fsame_refl. Qed.

(* while the future is Computing: the time stamps that are set stay, the others may be set to [g] *)
Lemma fext_computing g F F' :
  f_state F = Computing -> fsame F F' ->
  f_written F' = f_written F \/ (f_written F = None /\ f_written F' = Some g) ->
  f_unmarked F' = f_unmarked F \/ (f_unmarked F = None /\ f_unmarked F' = Some g) ->
  fext g F F'.
Proof.
  intros Hs Hf [Ew|(Ew & Ew')] [Eu|(Eu & Eu')]; constructor; try exact Hf; intros x Hx;
    try congruence; rewrite ?Ew, ?Ew', ?Eu, ?Eu' in *; first [now left | injection Hx as <-; now right].
Qed.

Lemma PInv_fut cf g s s' f F F' :
  PInv cf g s -> futs s f = Some F -> fext g F F' ->
  futs s' = updn (futs s) f (Some F') -> nfut s' = nfut s -> rets s' = rets s ->
  (forall w, In w (writes s) -> In w (writes s')) ->
  (forall k, pending s' k = pending s k \/ (pending s k = Some f /\ pending s' k = None)) ->
  (forall c, c_pc (callers s' c) = c_pc (callers s c) /\
             (c_token (callers s c) = true -> c_token (callers s' c) = true)) ->
  (forall c, c_token (callers s c) = true \/ (f_state F = Computing /\ In c (f_waiters F)) ->
             c_token (callers s' c) = true \/ (f_state F' = Computing /\ In c (f_waiters F'))) ->
  (c_ttl cf <> Some 0 -> env_le g s s') ->
  tinv (writes s') f F' ->
  (pending s' (f_key F') = Some f <-> premark (f_tpc F') = true) ->
  (c_ttl cf <> Some 0 -> forall w, f_written F' = Some w -> fresh_or_reset s' (f_key F') w) ->
  PInv cf (S g) s'.
Proof.
  intros IV HF X Ef En Er Hw Hp Hc Hk He T' M' Fr'.
  pose proof (finv_upd _ _ _ _ _ _ _ (I_fut _ _ _ IV f F HF) X T' M' Fr') as HF'.
  pose proof (Nat.le_succ_diag_r g) as L.
  pose proof (I_wf _ _ _ IV) as W.
  assert (K : forall f0 G, futs s f0 = Some G -> exists G', futs s' f0 = Some G' /\ fext g G G').
  { intros f0 G HG. rewrite Ef. unfold updn. destruct (Nat.eqb_spec f0 f) as [->|].
    - exists F'. rewrite HF in HG. injection HG as <-. auto.
    - exists G. auto using fext_refl. }
  assert (K' : forall f0 G', futs s' f0 = Some G' -> exists G, futs s f0 = Some G /\ fext g G G').
  { intros f0 G'. rewrite Ef. unfold updn. destruct (Nat.eqb_spec f0 f) as [->|].
    - intros [= <-]. eauto.
    - intros HG. exists G'. auto using fext_refl. }
  constructor.
  - intros f0 H. rewrite Ef, En in *. rewrite updn_neq; [apply W; exact H|].
    intros ->. rewrite W in HF by exact H. discriminate.
  - intros f0 G. rewrite Ef. unfold updn. destruct (Nat.eqb_spec f0 f) as [->|Hn]; [intros [= <-]; exact HF'|].
    intros HG. apply (finv_mono cf g (S g) s); [exact (I_fut _ _ _ IV f0 G HG) | exact L | exact Hw | |].
    + destruct (Hp (f_key G)) as [->|(A & B)]; [tauto|]. rewrite A, B.
      split; [discriminate | intros [= ->]; contradiction].
    + intros Ht w. apply (He Ht).
  - intros k f0 H. destruct (Hp k) as [E|(_ & B)]; [rewrite E in H | congruence].
    destruct (I_pend _ _ _ IV _ _ H) as (G & HG & HK). destruct (K f0 G HG) as (G' & HG' & [(E1 & _) _ _ _]).
    exists G'. split; [exact HG' | congruence].
  - intros c. pose proof (I_call _ _ _ IV c) as Y. unfold pcinv, late in *. destruct (Hc c) as (Epc & Etk).
    rewrite Epc. destruct (c_pc (callers s c)) as [|k r rs|k f0|k f0].
    + exact I.
    + destruct Y as (A & B). split; [clear - A; lia|]. intros Ht f0 G' w HG' HK HW Hlt.
      destruct (K' f0 G' HG') as (G & HG & [(E1 & _) _ _ XW]).
      destruct (XW w HW) as [HW'| ->]; [|clear - A Hlt; lia]. apply (B Ht f0 G w HG); [congruence | exact HW' | exact Hlt].
    + destruct Y as (G & HG & HK). destruct (K f0 G HG) as (G' & HG' & [(E1 & _) _ _ _]).
      exists G'. split; [exact HG' | congruence].
    + destruct Y as (G & HG & HK & D). rewrite Ef. unfold updn. destruct (Nat.eqb_spec f0 f) as [->|Hn].
      * rewrite HF in HG. injection HG as <-. exists F'. split; [reflexivity|].
        split; [destruct X as [(E1 & _) _ _ _]; congruence | exact (Hk c D)].
      * exists G. split; [exact HG|]. split; [exact HK|]. destruct D as [D|D]; [left; exact (Etk D) | right; exact D].
  - rewrite Er. intros r f0 Hi Hv. destruct (I_ret _ _ _ IV _ _ Hi Hv) as (G & HG & HK & HS).
    destruct (K f0 G HG) as (G' & HG' & [(E1 & _) XS _ _]).
    exists G'. split; [exact HG'|]. split; [congruence | exact (XS _ HS)].
  - intros Ht f1 f2 F1 F2 w Hne HF1 HF2 HK HW Hlt.
    destruct (K' f1 F1 HF1) as (G1 & HG1 & [(E1 & _) _ _ XW]).
    destruct (K' f2 F2 HF2) as (G2 & HG2 & [(E2 & R2 & S2 & _) _ _ _]).
    rewrite R2 in Hlt. rewrite S2. destruct (XW w HW) as [HW'| ->].
    + apply (I_lateF _ _ _ IV Ht f1 f2 G1 G2 w Hne HG1 HG2); [congruence | exact HW' | exact Hlt].
    + pose proof (fi_read _ _ _ _ _ (I_fut _ _ _ IV _ _ HG2)) as R. clear - R Hlt. lia.
  - intros f1 f2 F1 F2 Hlt HF1 HF2 HK.
    destruct (K' f1 F1 HF1) as (G1 & HG1 & [(E1 & _) _ XU _]).
    destruct (K' f2 F2 HF2) as (G2 & HG2 & [(E2 & _ & _ & C2) _ _ _]).
    destruct (I_seq _ _ _ IV f1 f2 G1 G2 Hlt HG1 HG2) as (u & Hu & Hc'); [congruence|].
    exists u. split; [exact (XU u Hu) | congruence].
Qed.

Lemma new_entry_fresh cf now v c h : c_ttl cf <> Some 0 ->
  is_fresh now (Some (new_entry cf now v c h)) = true.
Proof.
  intros Ht. unfold is_fresh, new_entry. cbn [e_exp]. destruct (c_ttl cf) as [t|].
  - assert (t <> 0) by congruence. apply orb_true_iff. right. apply N.ltb_lt. lia.
  - reflexivity.
Qed.

Lemma classify_not_hit_not_fresh cf now oe :
  (forall v, classify cf now oe <> RHit v) -> is_fresh now oe = false.
Proof.
  unfold classify, is_fresh. destruct oe as [e|]; [|reflexivity]. intros H.
  destruct (e_exp e =? 0); [exfalso; eapply H; reflexivity|].
  destruct (now <? e_exp e); [exfalso; eapply H; reflexivity|]. reflexivity.
Qed.

(* a caller that does not hit in the map may start a load: what was written earlier has been reset *)
Lemma miss_late cf s k : PInv cf (gt s) s -> (forall v, classify cf (clock s) (map s k) <> RHit v) ->
  late cf s k (gt s) (last_reset s k).
Proof.
  intros IV Hc Ht f F w HF HK HW _.
  destruct (fi_fresh _ _ _ _ _ (I_fut _ _ _ IV f F HF) Ht w HW) as [X|X]; rewrite HK in X; [|exact X].
  rewrite (classify_not_hit_not_fresh cf _ _ Hc) in X. discriminate.
Qed.

Lemma ret_none (P : ret -> nat -> Prop) r l : r_via r = None ->
  forall r0 f, In r0 (r :: l) -> r_via r0 = Some f -> In r0 l \/ P r0 f.
Proof. intros Hn r0 f [<-|Hi] Hv; [congruence | auto]. Qed.

Lemma tinv_waiters ws f F l :
  tinv ws f F -> f_state F = Computing -> tinv ws f (fw_state F Computing l).
Proof.
  unfold tinv. red_st. intros T Hs. destruct (f_tpc F); try (destruct T as (_ & B); split; [reflexivity | exact B]).
  destruct T as (v & X & _). congruence.
Qed.

(* [frame] is run on the premises of [PInv_caller] and [PInv_fut] once the new state is explicit; it
   leaves the premises about what the section really does.  What it closes, and by what:
   - the equations between fields of the new and the old state (futs, nfut, pending, writes, rets,
     callers): [reflexivity] after [red_st];
   - [g <= g'], and [pcinv] of a caller that is back at [CIdle] (it reduces to [True]): [auto];
   - a premise about a field the section does not touch (rets or writes carried over, pending
     unchanged, callers and the park clause unchanged, [env_le] with map, clock and resets as they
     were, marker and freshness of a future whose stamps did not change): after [red_st] it is an
     implication between identical statements or a hypothesis of the context, which [auto] finds. *)
Ltac frame := red_st; try reflexivity; unfold pcinv, env_le; red_st; auto.

Lemma caller_step_inv cf s c b s1 :
  PInv cf (gt s) s -> caller_step cf s c b = Some s1 -> PInv cf (S (gt s1)) (w_gt s1 (S (gt s1))).
Proof.
  intros IV H. unfold caller_step in H. pose proof (I_call _ _ _ IV c) as Cc. unfold pcinv in Cc.
  (* most sections change nothing but the caller's own record *)
  pose proof (fun s' C => PInv_caller cf (gt s) (S (gt s)) s s' c C IV (Nat.le_succ_diag_r _)) as Own.
  destruct (c_pc (callers s c)) as [|k r rs|k f|k f] eqn:Epc.
  - (* a new call *)
    destruct (c_prog (callers s c)) as [|o rest]; [discriminate|]. injection H as <-.
    destruct o as [k|k v cst|k|k|dt|]; unfold start_op;
      [| eapply Own; frame;
         intros Ht k0 w Hw X; unfold fresh_or_reset, last_reset in *; red_st ..].
    + (* fetch_with: the map-read section *)
      assert (Served : forall v, PInv cf (S (gt s))
                (w_gt (finish (push_ret s c k None v) c rest (c_token (callers s c)) (ORet v)) (S (gt s)))).
      { intros v. eapply Own; frame. apply ret_none. reflexivity. }
      destruct (classify cf (clock s) (map s k)) as [v|v|] eqn:Ecl.
      * apply Served.
      * destruct b; [apply Served|]. destruct (pending s k) eqn:Ep; [apply Served|].
        eapply (PInv_caller cf (S (gt s)) _ (create_future s k (gt s) (last_reset s k)) _ c);
          [apply PInv_create; [exact IV | exact Ep | lia | apply (miss_late _ _ _ IV); congruence] | ..]; frame.
        apply ret_none. reflexivity.
      * eapply Own; frame.
        split; [lia|]. apply (miss_late _ _ _ IV). congruence.
    + (* insert: the new entry is fresh *)
      unfold updN. destruct (N.eqb_spec k0 k); [left; apply new_entry_fresh; exact Ht | exact X].
    + (* remove and invalidate reset the key now *)
      unfold updN. destruct (N.eqb_spec k0 k); [right; lia | exact X].
    + unfold updN. destruct (N.eqb_spec k0 k); [right; lia | exact X].
    + (* advancing the clock resets every key *)
      right. lia.
    + (* maintenance resets the keys it removes *)
      destruct (mem k0 _); [right; lia | exact X].
  - (* the stripe section: join the pending load or start one *)
    destruct Cc as (Hr & Hl). destruct (pending s k) as [f|] eqn:Ep; injection H as <-.
    + eapply Own; frame. exact (I_pend _ _ _ IV _ _ Ep).
    + eapply (PInv_caller cf (S (gt s)) _ (create_future s k r rs) _ c);
        [apply PInv_create; [exact IV | exact Ep | lia | exact Hl] | ..]; frame.
      rewrite updn_eq. eexists. split; reflexivity.
  - (* the future's mutex: take the value or register as a waiter *)
    destruct Cc as (F & HF & HK). rewrite HF in H. destruct (f_state F) as [|v] eqn:Est; injection H as <-.
    + pose proof (I_fut _ _ _ IV f F HF) as [T M _ _ _ _ Fr].
      eapply (PInv_caller cf (S (gt s)) _ (w_futs s (updn (futs s) f (Some (fw_state F Computing (c :: f_waiters F))))) _ c).
      { eapply (PInv_fut cf (gt s) s _ f F _ IV HF); frame.
        - apply fext_computing; red_st; auto. repeat split.
        - intros c0 [D|[D1 D2]]; [left; exact D | right; split; [reflexivity | right; exact D2]].
        - apply tinv_waiters; assumption. }
      all: frame.
      rewrite updn_eq. exists (fw_state F Computing (c :: f_waiters F)). red_st. auto 6 using in_eq.
    + eapply Own; frame.
      intros r0 f0 [<-|Hi] Hv; [right | auto]. red_st. injection Hv as <-. eauto.
  - (* park returns, by its token or spuriously *)
    destruct Cc as (F & HF & HK & _).
    assert (PInv cf (S (gt s)) (w_gt (set_caller s c (c_prog (callers s c)) (CWait k f) false) (S (gt s)))).
    { eapply Own; frame. eauto. }
    destruct (c_token (callers s c)); [|destruct b; [|discriminate]]; injection H as <-; assumption.
Qed.

Lemma task_step_inv cf s f s1 :
  PInv cf (gt s) s -> task_step cf s f = Some s1 -> PInv cf (S (gt s1)) (w_gt s1 (S (gt s1))).
Proof.
  intros IV H. unfold task_step in H. destruct (futs s f) as [F|] eqn:HF; [|discriminate].
  pose proof (I_fut _ _ _ IV f F HF) as [T M _ _ _ _ Fr]. unfold tinv in T.
  destruct (f_tpc F) as [|v c|v|v|] eqn:Etpc; [injection H as <- ..|discriminate];
    destruct T as (T1 & T2 & T3 & T4 & T5);
    eapply (PInv_fut cf (gt s) s _ f F _ IV HF); frame.
  - (* the loader runs *)
    apply fext_computing; red_st; auto. repeat split.
  - unfold tinv. red_st. auto.
  - (* the map is written *)
    apply fext_computing; red_st; auto. repeat split.
  - auto using in_cons.
  - intros Ht k0 w _ Y. unfold fresh_or_reset, last_reset in *. red_st. unfold updN.
    destruct (N.eqb_spec k0 (f_key F)); [left; apply new_entry_fresh; exact Ht | exact Y].
  - unfold tinv. red_st. split; [exact T1|]. split; [exists c; split; [exact T2 | left; reflexivity]|].
    split; [discriminate | auto].
  - intros Ht w _. left. red_st. rewrite updN_eq. apply new_entry_fresh. exact Ht.
  - (* the marker is removed *)
    apply fext_computing; red_st; auto. repeat split.
  - intros k0. unfold updN. destruct (N.eqb_spec k0 (f_key F)) as [->|]; [right | left; reflexivity].
    split; [apply M; reflexivity | reflexivity].
  - unfold tinv. red_st. split; [exact T1|]. split; [exact T2|]. split; [exact T3|]. split; [discriminate | exact T5].
  - rewrite updN_eq. split; discriminate.
  - (* the future is completed and its waiters are woken *)
    apply fext_computing; red_st; auto. repeat split.
  - intros c0. split; [apply wake_pc | apply wake_token_keep].
  - intros c0 [D|[_ D]]; left; [apply wake_token_keep | apply wake_token_in]; assumption.
  - unfold tinv. red_st. exists v. rewrite T5. split; [reflexivity|]. split; [reflexivity | auto].
Qed.

Lemma Inv_step cf s t b s' : Inv cf s -> step cf s t b = Some s' -> Inv cf s'.
Proof.
  unfold Inv, step. intros IV H.
  destruct t as [c|f]; [destruct (caller_step cf s c b) as [s1|] eqn:E | destruct (task_step cf s f) as [s1|] eqn:E];
    try discriminate; injection H as <-; cbn [gt w_gt].
  - exact (caller_step_inv _ _ _ _ _ IV E).
  - exact (task_step_inv _ _ _ _ IV E).
Qed.

Lemma Inv_init cf t0 progs : Inv cf (init t0 progs).
Proof.
  constructor; cbn; intros; try discriminate; try reflexivity; try exact Logic.I.
  contradiction.
Qed.

Lemma Inv_run cf sch : forall s, Inv cf s -> Inv cf (run cf s sch).
Proof.
  induction sch as [|[t b] r IH]; intros s IV; cbn [run]; [assumption|].
  destruct (step cf s t b) as [s'|] eqn:E; [apply IH; eapply Inv_step; eassumption | now apply IH].
Qed.

Theorem Inv_reachable cf t0 progs s : reachable cf t0 progs s -> Inv cf s.
Proof. intros (sch & <-). apply Inv_run, Inv_init. Qed.

Lemma Inv_task cf s f F : Inv cf s -> futs s f = Some F -> tinv (writes s) f F.
Proof. intros IV HF. exact (fi_task _ _ _ _ _ (I_fut _ _ _ IV _ _ HF)). Qed.

Lemma tinv_state ws f F : tinv ws f F ->
  (f_state F = Computing /\ f_ncomplete F = 0%nat /\ f_tpc F <> TDone) \/
  (exists v, f_state F = Complete v /\ f_ncomplete F = 1%nat /\ wrote ws f F v /\ f_tpc F = TDone).
Proof.
  unfold tinv. destruct (f_tpc F); [left; split; [tauto | split; [tauto | discriminate]] ..|].
  intros (v & A & _ & B & _ & _ & C). right. eauto 6.
Qed.

(* (a) each LoadFuture is completed exactly once *)
Theorem complete_once cf t0 progs s f F : reachable cf t0 progs s -> futs s f = Some F ->
  f_ncomplete F = match f_state F with Computing => 0%nat | Complete _ => 1%nat end.
Proof.
  intros R HF.
  destruct (tinv_state _ _ _ (Inv_task _ _ _ _ (Inv_reachable _ _ _ _ R) HF)) as [(-> & -> & _)|(v & -> & -> & _)];
    reflexivity.
Qed.

(* (a) completion wakes every registered waiter and empties the list *)
Theorem complete_wakes_all cf s f F v b : futs s f = Some F -> f_tpc F = TComplete v ->
  exists s', step cf s (Task f) b = Some s'
    /\ (forall c, In c (f_waiters F) -> c_token (callers s' c) = true)
    /\ exists F', futs s' f = Some F' /\ f_state F' = Complete v /\ f_waiters F' = []
                  /\ f_ncomplete F' = S (f_ncomplete F) /\ f_tpc F' = TDone.
Proof.
  intros HF Ht. unfold step, task_step. rewrite HF, Ht. eexists. split; [reflexivity|]. red_st. split.
  - intros c Hc. now apply wake_token_in.
  - rewrite updn_eq. eexists. split; [reflexivity|]. red_st. repeat split.
Qed.

(* safety form of "no caller waits forever once the loader has returned": a caller blocked in
   park waits on a future of ITS key that is still Computing, has it on the waiter list, and the
   future's loader task is enabled (it is never blocked: every task step is enabled). *)
Theorem no_waiter_left cf t0 progs s c k f : reachable cf t0 progs s ->
  c_pc (callers s c) = CPark k f -> c_token (callers s c) = false ->
  exists F, futs s f = Some F /\ f_key F = k /\ f_state F = Computing /\ In c (f_waiters F)
            /\ exists s', step cf s (Task f) false = Some s'.
Proof.
  intros R HP HT. pose proof (Inv_reachable _ _ _ _ R) as IV.
  pose proof (I_call _ _ _ IV c) as X. unfold pcinv in X. rewrite HP in X.
  destruct X as (F & HF & HK & [X|(HS & HI)]); [congruence|].
  exists F. repeat split; try assumption.
  destruct (tinv_state _ _ _ (Inv_task _ _ _ _ IV HF)) as [(_ & _ & Hn)|(v & X & _)]; [|congruence].
  unfold step, task_step. rewrite HF. destruct (f_tpc F); try congruence; eauto.
Qed.

(* a parked caller on a completed future always has its wake-up token *)
Theorem no_waiter_on_completed cf t0 progs s c k f F v : reachable cf t0 progs s ->
  c_pc (callers s c) = CPark k f -> futs s f = Some F -> f_state F = Complete v ->
  c_token (callers s c) = true.
Proof.
  intros R HP HF HS. destruct (c_token (callers s c)) eqn:E; [reflexivity|].
  destruct (no_waiter_left _ _ _ _ _ _ _ R HP E) as (F' & HF' & _ & HS' & _). congruence.
Qed.

(* quiescence = everybody finished: no reachable state in which nobody can move has a caller
   still inside a call or with calls left *)
Theorem no_deadlock cf t0 progs s : reachable cf t0 progs s ->
  (forall t, step cf s t false = None) ->
  forall c, c_pc (callers s c) = CIdle /\ c_prog (callers s c) = [].
Proof.
  intros R Q c. pose proof (Inv_reachable _ _ _ _ R) as IV.
  pose proof (Q (Caller c)) as Qc. unfold step, caller_step in Qc.
  destruct (c_pc (callers s c)) as [|k r rs|k f|k f] eqn:Epc.
  - destruct (c_prog (callers s c)); [auto|discriminate].
  - destruct (pending s k); discriminate.
  - pose proof (I_call _ _ _ IV c) as RF. unfold pcinv in RF. rewrite Epc in RF. destruct RF as (F & HF & _).
    rewrite HF in Qc. destruct (f_state F); discriminate.
  - destruct (c_token (callers s c)) eqn:Et; [discriminate|].
    destruct (no_waiter_left _ _ _ _ _ _ _ R Epc Et) as (_ & _ & _ & _ & _ & s' & Hs').
    rewrite (Q (Task f)) in Hs'. discriminate.
Qed.

(* (b) every caller that joined a future returns the value the loader produced for it, which is
   the value the task wrote to the map together with its cost *)
Theorem joined_return_loaded cf t0 progs s r f : reachable cf t0 progs s ->
  In r (rets s) -> r_via r = Some f ->
  exists F c, futs s f = Some F /\ f_key F = r_key r /\ f_state F = Complete (r_val r)
              /\ f_loaded F = Some (r_val r, c) /\ In (mkwr f (r_key r) (r_val r) c) (writes s).
Proof.
  intros R Hi Hv. pose proof (Inv_reachable _ _ _ _ R) as IV.
  destruct (I_ret _ _ _ IV _ _ Hi Hv) as (F & HF & HK & HS).
  destruct (tinv_state _ _ _ (Inv_task _ _ _ _ IV HF)) as [(X & _)|(v & X & _ & (c & HL & HW) & _)]; [congruence|].
  rewrite HS in X. injection X as <-.
  exists F, c. rewrite <- HK. repeat split; assumption.
Qed.

Theorem same_future_same_value cf t0 progs s r1 r2 f : reachable cf t0 progs s ->
  In r1 (rets s) -> In r2 (rets s) -> r_via r1 = Some f -> r_via r2 = Some f ->
  r_val r1 = r_val r2 /\ r_key r1 = r_key r2.
Proof.
  intros R H1 H2 V1 V2.
  destruct (joined_return_loaded _ _ _ _ _ _ R H1 V1) as (F & c & HF & HK & HS & _).
  destruct (joined_return_loaded _ _ _ _ _ _ R H2 V2) as (F' & c' & HF' & HK' & HS' & _).
  rewrite HF in HF'. injection HF' as <-. split; congruence.
Qed.

(* (b) the task's map-write section makes the loaded value resident with its cost (and fresh) *)
Theorem write_makes_resident cf s f F v c b : futs s f = Some F -> f_tpc F = TWrite v c ->
  exists s', step cf s (Task f) b = Some s'
    /\ map s' (f_key F) = Some (new_entry cf (clock s) v c None) /\ clock s' = clock s
    /\ (c_ttl cf <> Some 0 -> is_fresh (clock s') (map s' (f_key F)) = true).
Proof.
  intros HF Ht. unfold step, task_step. rewrite HF, Ht. eexists. split; [reflexivity|]. red_st.
  rewrite updN_eq. repeat split. intros H0. now apply new_entry_fresh.
Qed.

(* (c) the loader closure runs outside every lock: its step touches no shared cache state *)
Theorem loader_outside_locks cf s f F b s' : futs s f = Some F -> f_tpc F = TLoad ->
  step cf s (Task f) b = Some s' ->
  map s' = map s /\ pending s' = pending s /\ callers s' = callers s /\ clock s' = clock s
  /\ timers s' = timers s /\ nfut s' = nfut s /\ (forall f', f' <> f -> futs s' f' = futs s f')
  /\ runs s' (f_key F) = S (runs s (f_key F)).
Proof.
  intros HF Ht. unfold step, task_step. rewrite HF, Ht. intros [= <-]. red_st.
  repeat split. - intros f' Hn. now apply updn_neq. - now rewrite updN_eq.
Qed.

(* (c) futures are per key: whatever a caller of key k waits on, and whatever marker sits under k,
   is a future created for k *)
Theorem futures_are_per_key cf t0 progs s : reachable cf t0 progs s ->
  (forall k f, pending s k = Some f -> exists F, futs s f = Some F /\ f_key F = k)
  /\ (forall c k f, c_pc (callers s c) = CWait k f \/ c_pc (callers s c) = CPark k f ->
        exists F, futs s f = Some F /\ f_key F = k).
Proof.
  intros R. pose proof (Inv_reachable _ _ _ _ R) as IV. split.
  - exact (I_pend _ _ _ IV).
  - intros c k f [H|H]; pose proof (I_call _ _ _ IV c) as X; unfold pcinv in X; rewrite H in X;
      [exact X | destruct X as (F & HF & HK & _); eauto].
Qed.

(* (d) two loads of one key never overlap: the earlier one wrote the map and removed its marker
   before the later one's marker was inserted; and the later one exists only because its creator
   read the map before the earlier value was written (late arrival, F-22) or after an
   invalidation / expiry-capable event that followed the write *)
Theorem single_flight_except_late_arrival cf t0 progs s f1 f2 F1 F2 :
  c_ttl cf <> Some 0 -> reachable cf t0 progs s ->
  (f1 < f2)%nat -> futs s f1 = Some F1 -> futs s f2 = Some F2 -> f_key F1 = f_key F2 ->
  exists w u, f_written F1 = Some w /\ f_unmarked F1 = Some u /\ (u < f_created F2)%nat
    /\ ((f_read_at F2 <= w)%nat \/ (w < f_reset_seen F2)%nat).
Proof.
  intros Ht R Hlt HF1 HF2 HK. pose proof (Inv_reachable _ _ _ _ R) as IV.
  destruct (I_seq _ _ _ IV _ _ _ _ Hlt HF1 HF2 HK) as (u & Hu & Hc).
  destruct (f_written F1) as [w|] eqn:Hw;
    [|apply (tinv_stamps _ _ _ (Inv_task _ _ _ _ IV HF1)) in Hw; congruence].
  exists w, u. repeat split; try assumption.
  destruct (Nat.le_gt_cases (f_read_at F2) w) as [L|G]; [left; assumption|right].
  assert (Hne : f1 <> f2) by lia.
  exact (I_lateF _ _ _ IV Ht _ _ _ _ _ Hne HF1 HF2 HK Hw G).
Qed.

Theorem loads_never_overlap cf t0 progs s f1 f2 F1 F2 : reachable cf t0 progs s ->
  (f1 < f2)%nat -> futs s f1 = Some F1 -> futs s f2 = Some F2 -> f_key F1 = f_key F2 ->
  exists u, f_unmarked F1 = Some u /\ (u < f_created F2)%nat.
Proof. intros R. exact (I_seq _ _ _ (Inv_reachable _ _ _ _ R) f1 f2 F1 F2). Qed.

(* (d) the full single-flight statement, and its refutation by the late-arrival schedule (F-22) *)
Definition single_flight_full : Prop :=
  forall cf t0 progs sch k, (runs_since (run cf (init t0 progs) sch) k <= 1)%nat.

Definition f22_cfg : config := {| c_ttl := None; c_grace := None; c_wheel := 1 |}.
Definition f22_progs : nat -> list op :=
  fun c => match c with 0%nat | 1%nat => [OFetch 7] | _ => [] end.
(* A and B miss in the map; A becomes leader; A's task loads, writes, removes the marker;
   B reaches the stripe, finds no marker, becomes leader of a second load *)
Definition f22_sched : sched :=
  [(Caller 0, false); (Caller 1, false); (Caller 0, false);
   (Task 0, false); (Task 0, false); (Task 0, false);
   (Caller 1, false); (Task 1, false)].

Theorem single_flight_refuted_F22 : ~ single_flight_full.
Proof.
  intros H. specialize (H f22_cfg 1 f22_progs f22_sched 7). vm_compute in H. lia.
Qed.

(* C12: stale-while-revalidate *)
(* a value is served from the map only if fresh, or stale inside [expires_at, expires_at+grace);
   in the stale case a load is pending afterwards unless the stripe try_lock failed *)
Theorem stale_only_in_grace cf s c k rest b s' :
  c_pc (callers s c) = CIdle -> c_prog (callers s c) = OFetch k :: rest ->
  step cf s (Caller c) b = Some s' ->
  match map s k with
  | None => rets s' = rets s /\ exists r rs, c_pc (callers s' c) = CStripe k r rs
  | Some e =>
      if is_fresh (clock s) (Some e)
      then rets s' = {| r_caller := c; r_key := k; r_via := None; r_val := e_val e |} :: rets s
           /\ pending s' = pending s
      else match c_grace cf with
           | Some g =>
               if clock s <? e_exp e + g
               then rets s' = {| r_caller := c; r_key := k; r_via := None; r_val := e_val e |} :: rets s
                    /\ e_exp e <= clock s
                    /\ (b = false -> exists f, pending s' k = Some f)
               else rets s' = rets s /\ exists r rs, c_pc (callers s' c) = CStripe k r rs
           | None => rets s' = rets s /\ exists r rs, c_pc (callers s' c) = CStripe k r rs
           end
  end.
Proof.
  intros Hpc Hpr. unfold step, caller_step. rewrite Hpc, Hpr. intros [= <-].
  unfold start_op, classify, is_fresh. destruct (map s k) as [e|].
  - destruct (N.eqb_spec (e_exp e) 0) as [E0|E0]; cbn [orb].
    + red_st. split; reflexivity.
    + destruct (N.ltb_spec (clock s) (e_exp e)) as [L|L].
      * red_st. split; reflexivity.
      * destruct (c_grace cf) as [g|].
        -- destruct (clock s <? e_exp e + g).
           ++ destruct b.
              ** red_st. repeat split; [assumption|discriminate].
              ** destruct (pending s k) as [fq|] eqn:Ep; red_st.
                 --- repeat split; [assumption|]. intros _. eauto.
                 --- repeat split; [assumption|]. intros _. rewrite updN_eq. eauto.
           ++ red_st. rewrite updn_eq. red_st. split; [reflexivity|eauto].
        -- red_st. rewrite updn_eq. red_st. split; [reflexivity|eauto].
  - red_st. rewrite updn_eq. red_st. split; [reflexivity|eauto].
Qed.

(* a future that is still registered as the in-flight load of k (marker present) has not been
   completed: the task removes the marker BEFORE complete().  Hence whoever finds a marker in its
   stripe section joins a load whose completion is still in the future. *)
Theorem no_join_after_completion cf t0 progs s k f : reachable cf t0 progs s ->
  pending s k = Some f ->
  exists F, futs s f = Some F /\ f_key F = k /\ f_state F = Computing /\ f_ncomplete F = 0%nat
            /\ premark (f_tpc F) = true.
Proof.
  intros R HP. pose proof (Inv_reachable _ _ _ _ R) as IV.
  destruct (I_pend _ _ _ IV _ _ HP) as (F & HF & HK).
  assert (PM : premark (f_tpc F) = true) by (apply (fi_mark _ _ _ _ _ (I_fut _ _ _ IV _ _ HF)); congruence).
  destruct (tinv_state _ _ _ (Inv_task _ _ _ _ IV HF)) as [(HS & HN & _)|(v & _ & _ & _ & Hd)]; [eauto 6|].
  rewrite Hd in PM. discriminate.
Qed.

(* the stripe section of a missing caller always leaves it on a future that is still Computing
   (joined or freshly created): the value it will return is produced by a completion that
   happens after its miss, hence after any invalidation that preceded the miss *)
Theorem stripe_joins_only_uncompleted cf t0 progs s c k r rs b s' : reachable cf t0 progs s ->
  c_pc (callers s c) = CStripe k r rs -> step cf s (Caller c) b = Some s' ->
  exists f F, c_pc (callers s' c) = CWait k f /\ futs s' f = Some F /\ f_key F = k
              /\ f_state F = Computing /\ f_ncomplete F = 0%nat.
Proof.
  intros R Hpc. unfold step, caller_step. rewrite Hpc.
  destruct (pending s k) as [f|] eqn:HP; intros [= <-].
  - destruct (no_join_after_completion _ _ _ _ _ _ R HP) as (F & HF & HK & HS & HN & _).
    exists f, F. red_st. rewrite updn_eq. red_st. repeat split; assumption.
  - exists (nfut s). eexists. red_st. rewrite !updn_eq. red_st. repeat split.
Qed.

(* the property sentence: once every load of k has completed (the loader returned and its waiters
   were released), a later miss on k -- e.g. after invalidate/remove/expiry -- starts a NEW load;
   it can never be handed an earlier load's value *)
Theorem miss_after_completion_starts_new_load cf t0 progs s c k r rs b s' :
  reachable cf t0 progs s ->
  c_pc (callers s c) = CStripe k r rs ->
  (forall f F, futs s f = Some F -> f_key F = k -> f_state F <> Computing) ->
  step cf s (Caller c) b = Some s' ->
  nfut s' = S (nfut s) /\ c_pc (callers s' c) = CWait k (nfut s)
  /\ exists F, futs s' (nfut s) = Some F /\ f_key F = k /\ f_tpc F = TLoad /\ f_state F = Computing
               /\ pending s' k = Some (nfut s).
Proof.
  intros R Hpc Hall. unfold step, caller_step. rewrite Hpc.
  destruct (pending s k) as [f|] eqn:HP.
  - destruct (no_join_after_completion _ _ _ _ _ _ R HP) as (F & HF & HK & HS & _).
    exfalso. exact (Hall _ _ HF HK HS).
  - intros [= <-]. red_st. rewrite !updn_eq, updN_eq. red_st. repeat split.
    eexists. repeat split.
Qed.
