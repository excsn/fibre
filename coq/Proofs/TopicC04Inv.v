(* Proofs/TopicC04Inv.v — invariant relating the topic model to the C04 reference (Chan/TopicSpec04.v):
   handle flags, the receiver count, and "a disconnected mailbox means no open sender". *)
From Fibre Require Import Common.Base Chan.TopicOps Chan.TopicSpec Chan.TopicSpec04 Proofs.TopicLemmas Proofs.TopicInv
     Proofs.TopicInvSub Proofs.TopicInvRx Proofs.TopicInvPub Proofs.TopicInvTx.

Definition tx_open_m (t : txh) : bool := t_live t && negb (t_closed t).
Definition rx_open_m (x : rxh) : bool := r_live x && negb (r_closed x).
Definition quiet (ts : list txh) : Prop := forall t, In t ts -> tx_open_m t = false.
Definition cls_of (c : cfg) (ts : list txh) : bool := fix04 c || Nat.eqb (length ts) 1.

Record rel4_tx (c : cfg) (x : txh) (y : tx4) : Prop := {
  q_id : t_id x = b_id y;
  q_live : t_live x = b_live y;
  q_self : t_live x = true -> b_self y = true -> t_closed x = true;
  q_cl : t_live x = true -> t_closed x = true -> b_closed y = true;
  q_cl4 : t_live x = true -> fix04 c = true -> t_closed x = b_closed y
}.
Arguments q_id {c x y}. Arguments q_live {c x y}. Arguments q_self {c x y}. Arguments q_cl {c x y}. Arguments q_cl4 {c x y}.

(* [kc]: the history is one made by channel() (sync) without receiver conversions, where the receiver count is
   right even without fix07; [da]: the dispatcher is alive; [qt]: no sender handle of the model is open
   ([quiet (txs s)]); [cl]: the clause "no value after Disconnected" is claimed ([cls_of]: fix04, or one sender). *)
Record rel4_rx (c : cfg) (kc da : bool) (qt : Prop) (cl : bool) (x : rxh) (y : rx4) : Prop := {
  p_id : r_id x = a_id y;
  p_live : r_live x = a_live y;
  p_cl1 : r_live x = true -> a_closed y = true -> fix07 c || kc = true -> r_closed x = true;
  p_cl2 : r_live x = true -> da = true -> r_closed x = true -> a_closed y = true;
  p_sync : kc = true -> r_async x = false;
  p_disc : r_live x = true -> a_sawdisc y = true -> cl = true -> m_buf (r_mb x) = [] /\ qt
}.
Arguments p_id {c kc da qt cl x y}. Arguments p_live {c kc da qt cl x y}. Arguments p_cl1 {c kc da qt cl x y}.
Arguments p_cl2 {c kc da qt cl x y}. Arguments p_sync {c kc da qt cl x y}. Arguments p_disc {c kc da qt cl x y}.

Record Inv4 (c : cfg) (kc : bool) (s : state) (sp : spec4) : Prop := {
  j_tx : Forall2 (rel4_tx c) (txs s) (s4_tx sp);
  j_rx : Forall2 (rel4_rx c kc (disp_alive s) (quiet (txs s)) (cls_of c (txs s))) (rxs s) (s4_rx sp);
  j_futs : futs s = s4_futs sp;
  j_cnt : fix07 c || kc = true -> disp_alive s = true -> rcount s = Z.of_nat (length (filter rx_open_m (rxs s)));
  j_quiet : cls_of c (txs s) = true -> forall x, In x (rxs s) -> r_live x = true -> m_disc (r_mb x) = true -> quiet (txs s)
}.

Arguments j_tx {c kc s sp}. Arguments j_rx {c kc s sp}. Arguments j_futs {c kc s sp}. Arguments j_cnt {c kc s sp}.
Arguments j_quiet {c kc s sp}.

Definition v4_ok (c : cfg) (kc : bool) (s : state) (v : clause4) : Prop :=
  match v with
  | V4ValueAfterDisc _ => cls_of c (txs s) = false
  | V4SendAfterLastRx _ | V4ClosedWithLiveRx _ | V4DoubleCloseRx _ => fix07 c || kc = false
  | V4ClosedTxAccepts _ | V4DoubleCloseTx _ => False
  | V4ClosedRxAccepts _ => True
  end.
Definition vs4_ok (c : cfg) (kc : bool) (s : state) (vs : list clause4) : Prop := forall v, In v vs -> v4_ok c kc s v.

Lemma vs4_ok_nil c kc s : vs4_ok c kc s [].
Proof. intros v []. Qed.

Lemma inv4_init c kc a cap : (kc = true -> a = false) -> Inv4 c kc (init a cap) s4_init.
Proof.
  intros Hk. constructor; cbn.
  - constructor; [|constructor]. constructor; cbn; auto; intros; discriminate.
  - constructor; [|constructor]. constructor; cbn; auto; intros; discriminate.
  - reflexivity.
  - intros _ _. reflexivity.
  - intros _ x [<-|[]] _ H. cbn in H. discriminate.
Qed.

(* with the sender count of the patch, scount counts the open sender handles of the model: Inv says so of the
   reference's, and under fix04 the two agree handle by handle *)
Lemma inv_sc c s sp : Inv c s sp -> fix04 c = true -> scount s = Z.of_nat (length (filter tx_open_m (txs s))).
Proof.
  intros I F4. rewrite (i_cnt _ _ _ I F4). f_equal. symmetry.
  apply (Forall2_filter_length _ _ _ _ _ (i_tx _ _ _ I)). intros x y HR.
  unfold tx_open_m, x_open. rewrite <- (rt_live _ _ _ HR). destruct (t_live x) eqn:L; [|reflexivity].
  rewrite (rt_cl2 _ _ _ HR L F4). reflexivity.
Qed.

Lemma inv4_scount c kc s sp k : Inv4 c kc s sp -> Inv4 c kc (st_set_scount s k) sp.
Proof. intros J. constructor; apply J. Qed.

Lemma inv4_futs c kc s sp l : Inv4 c kc s sp -> Inv4 c kc (st_set_futs s l) (s4_set_futs sp l).
Proof. intros J. constructor; cbn; try apply J. reflexivity. Qed.

Lemma inv4_set_rxs c kc s sp rs' as' rc' :
  Inv4 c kc s sp ->
  Forall2 (rel4_rx c kc (disp_alive s) (quiet (txs s)) (cls_of c (txs s))) rs' as' ->
  (fix07 c || kc = true -> disp_alive s = true -> rc' = Z.of_nat (length (filter rx_open_m rs'))) ->
  (cls_of c (txs s) = true -> forall x, In x rs' -> r_live x = true -> m_disc (r_mb x) = true -> quiet (txs s)) ->
  Inv4 c kc (st_set_rcount (st_set_rxs s rs') rc') (s4_set_rx sp as').
Proof. intros J HF Hc Hq. constructor; try assumption; apply J. Qed.

Lemma rel4_rx_weaken c kc da da' (qt qt' : Prop) cl cl' x y :
  rel4_rx c kc da qt cl x y -> (da' = true -> da = true) -> (cl' = true -> cl = true /\ (qt -> qt')) ->
  rel4_rx c kc da' qt' cl' x y.
Proof.
  intros [P1 P2 P3 P4 P5 P6] Hda Hcl. constructor; auto.
  intros A B C. destruct (Hcl C) as [C0 Hq]. destruct (P6 A B C0) as [D1 D2]. auto.
Qed.

(* new sender records: the dispatcher may have died, open handles may have gone; where the clause about
   Disconnected is still claimed it was claimed before *)
Lemma inv4_set_txs c kc s sp ts' bs' :
  Inv4 c kc s sp -> Forall2 (rel4_tx c) ts' bs' ->
  (existsb t_live ts' = true -> disp_alive s = true) ->
  (cls_of c ts' = true -> cls_of c (txs s) = true /\ (quiet (txs s) -> quiet ts')) ->
  Inv4 c kc (st_set_txs s ts') (s4_set_tx sp bs').
Proof.
  intros J HF Hda Hcl. constructor; cbn [txs rxs futs rcount st_set_txs s4_rx s4_tx s4_futs s4_set_tx].
  - exact HF.
  - eapply Forall2_impl2; [apply (j_rx J)|]. intros x y _ _ HR. exact (rel4_rx_weaken _ _ _ _ _ _ _ _ _ _ HR Hda Hcl).
  - apply (j_futs J).
  - intros A B. exact (j_cnt J A (Hda B)).
  - intros A x Hx Hl Hd. destruct (Hcl A) as [A0 Hq]. apply Hq. exact (j_quiet J A0 x Hx Hl Hd).
Qed.

Lemma s4_set_rx_same sp : s4_set_rx sp (s4_rx sp) = sp.
Proof. destruct sp; reflexivity. Qed.

Lemma filter_map_inv {A} (P : A -> bool) (f : A -> A) l :
  (forall x, P (f x) = P x) -> length (filter P (map f l)) = length (filter P l).
Proof.
  intros H. induction l as [|a l IH]; cbn [map filter]; [reflexivity|].
  rewrite H. destruct (P a); cbn [length]; rewrite IH; reflexivity.
Qed.

(* apply to every receiver record a function that keeps the handle flags, fills no mailbox that a quiet channel
   left empty, and disconnects only when no sender is open *)
Lemma inv4_map_rx c kc s sp (F : rxh -> rxh) :
  Inv4 c kc s sp ->
  (forall x, r_id (F x) = r_id x /\ r_live (F x) = r_live x /\ r_closed (F x) = r_closed x /\ r_async (F x) = r_async x) ->
  (forall x, In x (rxs s) -> m_buf (r_mb x) = [] -> quiet (txs s) -> m_buf (r_mb (F x)) = []) ->
  (cls_of c (txs s) = true -> forall x, In x (rxs s) -> r_live x = true -> m_disc (r_mb (F x)) = true ->
     m_disc (r_mb x) = true \/ quiet (txs s)) ->
  Inv4 c kc (st_set_rxs s (map F (rxs s))) sp.
Proof.
  intros J HF Hb Hd. rewrite <- (s4_set_rx_same sp).
  apply (inv4_set_rxs c kc s sp (map F (rxs s)) (s4_rx sp) (rcount s) J).
  - apply Forall2_map_l; [apply (j_rx J)|].
    intros x y Hx [P1 P2 P3 P4 P5 P6]. destruct (HF x) as [F1 [F2 [F3 F4]]].
    constructor; rewrite ?F1, ?F2, ?F3, ?F4; auto.
    intros A B C. destruct (P6 A B C) as [D1 D2]. split; [apply Hb; assumption | exact D2].
  - intros A B. rewrite (j_cnt J A B). f_equal. symmetry. apply filter_map_inv.
    intros x. destruct (HF x) as [F1 [F2 [F3 F4]]]. unfold rx_open_m. rewrite F2, F3. reflexivity.
  - intros A x' Hx' Hl Hd'. apply in_map_iff in Hx'. destruct Hx' as [x [<- Hx]].
    destruct (HF x) as [F1 [F2 [F3 F4]]]. rewrite F2 in Hl.
    destruct (Hd A x Hx Hl Hd') as [D|Q]; [exact (j_quiet J A x Hx Hl D) | exact Q].
Qed.

(** Inv4 looks at the core of a receiver record only *)
Lemma rel4_rx_core c kc da qt cl x' x y : rx_core x' = rx_core x -> rel4_rx c kc da qt cl x y -> rel4_rx c kc da qt cl x' y.
Proof.
  unfold rx_core. intros E HR. injection E as E1 E2 E3 E4 E5. destruct HR.
  constructor; rewrite ?E1, ?E2, ?E3, ?E4, ?E5; auto.
Qed.

(* a step that leaves senders, counts, futures and the cores of all receiver records alone *)
Lemma inv4_frame c kc s s' sp : Inv4 c kc s sp -> subs_frame s s' -> Inv4 c kc s' sp.
Proof.
  intros J [Et [Er [_ [Ef Ec]]]]. apply map_eq_Forall2 in Ec.
  assert (Eda : disp_alive s' = disp_alive s) by (unfold disp_alive; rewrite Et; reflexivity).
  constructor; rewrite ?Et, ?Er, ?Ef, ?Eda.
  - apply (j_tx J).
  - apply (Forall2_compose _ _ _ _ _ _ (rel4_rx_core _ _ _ _ _) Ec (j_rx J)).
  - apply (j_futs J).
  - intros A B. rewrite (j_cnt J A B). f_equal. symmetry.
    apply (Forall2_filter_length _ _ _ _ _ Ec). unfold rx_core, rx_open_m. intros x' x E. congruence.
  - intros A x' Hx' Hl Hd. destruct (Forall2_In_l _ _ _ _ Ec Hx') as [x [Hx E]]. unfold rx_core in E.
    apply (j_quiet J A x Hx); congruence.
Qed.

Section Gen.
  Context {A : Type} (ida : A -> N).
  Definition gfind (r : N) (l : list A) : option A := find (fun x => N.eqb (ida x) r) l.

  Lemma gfind_In r l x : gfind r l = Some x -> In x l /\ ida x = r.
  Proof. exact (find_id_In ida r l x). Qed.
End Gen.

Lemma da_false_quiet s : disp_alive s = false -> quiet (txs s).
Proof.
  unfold disp_alive, quiet. intros H t Ht. unfold tx_open_m.
  destruct (t_live t) eqn:L; [|reflexivity].
  exfalso. assert (existsb t_live (txs s) = true) by (apply existsb_exists; exists t; auto). congruence.
Qed.

Lemma quiet_count ts : quiet ts <-> length (filter tx_open_m ts) = 0%nat.
Proof.
  unfold quiet. induction ts as [|a l IH]; cbn [filter]; [split; [reflexivity | intros _ t []]|].
  destruct (tx_open_m a) eqn:E; cbn [length].
  - split; [intros H; specialize (H a (or_introl eq_refl)); congruence | discriminate].
  - rewrite <- IH. split; [intros H t Ht; apply H; right; exact Ht | intros H t [<-|Ht]; auto].
Qed.
