(* Proofs/MpmcK3Queue.v — the ring (InvQ: queue_len = ring length <= capacity, FIFO, a scan runs
   only while there is room and the Full answer is exact) and the accepted ids (InvA: fresh, no
   duplicates, per-producer increasing). *)
From Coq Require Import List NArith Arith Bool Lia Sorted.
From Fibre Require Import Common.Lists Common.Conc Chan.MpmcK3 Proofs.MpmcK3Base.
Import ListNotations.

(* what InvQ says about one thread's pc: a scan for a receiver runs only while there is room, and
   the Full answer is exact *)
Definition q_ok (cap n : nat) (p : pc) : Prop :=
  match p with SScan _ _ => n <> cap | SUnlock _ SFull => n = cap | _ => True end.

Record InvQ (cap : nat) (s : st) : Prop := {
  Q_len : qlen s = length (q s);
  Q_cap : length (q s) <= cap;
  Q_fifo : map snd (popped s) ++ q s = accepted s;
  Q_pc : forall u, q_ok cap (qlen s) (pcs s u) }.

Lemma q_ok_free cap n p : in_sec p = false -> q_ok cap n p.
Proof. destruct p; try discriminate; intros _; exact I. Qed.

(* a step leaves the ring and its ghosts alone, or is a push or pop by the thread that holds the
   lock (or has just taken it) *)
Lemma InvQ_move cap s s' t p' :
  InvL s -> InvQ cap s -> pcs s' = upd (pcs s) t p' ->
  qlen s' = length (q s') -> length (q s') <= cap -> map snd (popped s') ++ q s' = accepted s' ->
  q_ok cap (qlen s') p' -> qlen s' = qlen s \/ lk s = Some t \/ lk s = None -> InvQ cap s'.
Proof.
  intros HL HQ Hp Q1 Q2 Q3 Hok Hk. constructor; try assumption.
  apply (sec_pcs (fun x _ => q_ok cap (qlen x)) _ HL (fun _ => q_ok_free _ _) (Q_pc _ _ HQ) Hp Hok).
  destruct Hk as [->|Hk]; [left; auto|right; exact Hk].
Qed.

Lemma InvQ_step cap cf s t s' : InvL s -> InvQ cap s -> Step cap cf s t s' -> InvQ cap s'.
Proof.
  intros HL HQ HS.
  pose proof (Q_pc _ _ HQ t) as Qt. pose proof (proj1 HL t) as Lt. pose proof (Q_len _ _ HQ) as Q1.
  pose proof (Q_cap _ _ HQ) as Q2. pose proof (Q_fifo _ _ HQ) as Q3.
  destruct HS; rewrite Epc in *; cbn [q_ok in_sec] in *.
  (* all but eight steps leave the queue fields alone and end at a pc InvQ says nothing about; SLock
     starts the scan or answers Full, SScan goes on; Full after a scan is excluded *)
  all: try solve [ eapply InvQ_move; [eassumption|eassumption|st_simpl; reflexivity|assumption..| |left; reflexivity];
                   try open_move; case_pc; first [exact I|exact Eq|exact Qt|cbn; lia]
                 | exfalso; lia ].
  (* pushes and the pop, by the lock holder *)
  all: try rewrite Eq in *; cbn [length] in *.
  all: eapply InvQ_move; [exact HL|exact HQ|st_simpl; reflexivity|st_simpl..|case_pc; exact I
                         |right; first [right; exact Elk|left; exact (Lt eq_refl)]];
       rewrite ?app_length, ?map_app, <- ?Q1; cbn [length]; try lia.
  all: first [rewrite app_assoc, Q3; reflexivity|rewrite <- app_assoc; exact Q3].
Qed.

Definition unpushed (p : pc) : bool :=
  match p with
  | SLock _ | SScan _ _ | SUnlock _ SFull | SUnlock _ SClosed | SRegLock | SRegUnlock _
  | SWLoad | SWNext | SFinal | SUnlLock _ | SUnlUnlock _ => true
  | _ => false
  end.

Definition res_ids (r : res) : list id := res_failed r ++ res_ok r.

Record InvA (s : st) : Prop := {
  A_le : forall p n, In (p, n) (accepted s) -> n <= pseq s p;
  A_fresh : forall p, unpushed (pcs s p) = true -> ~ In (p, pseq s p) (accepted s);
  A_nodup : NoDup (accepted s);
  A_sorted : forall p, StronglySorted lt (map snd (from_prod p (accepted s))) }.


Lemma sorted_push p t n l :
  StronglySorted lt (map snd (from_prod p l)) ->
  (forall m, In (t, m) l -> m < n) ->
  StronglySorted lt (map snd (from_prod p (l ++ [(t, n)]))).
Proof.
  intros Hs Hn. rewrite from_prod_app.
  destruct (Nat.eq_dec t p) as [->|N].
  - rewrite from_prod_one_eq, map_app. cbn [map snd]. apply sorted_snoc; [exact Hs|].
    intros y Hy. apply in_map_iff in Hy. destruct Hy as [[a b] [E Hin]]. cbn in E. subst b.
    unfold from_prod in Hin. apply filter_In in Hin. destruct Hin as [Hin Hf]. cbn in Hf.
    apply Nat.eqb_eq in Hf. subst a. apply Hn. exact Hin.
  - rewrite from_prod_one_neq by exact N. rewrite app_nil_r. exact Hs.
Qed.

(* a step that does not push: the sender's sequence number stays and it does not go back to a pc at
   which its current id counts as not yet pushed, or the number goes up (the next send gets a
   fresh id) *)
Lemma InvA_keep s s' t p' :
  InvA s -> pcs s' = upd (pcs s) t p' -> accepted s' = accepted s ->
  (pseq s' = pseq s /\ (unpushed p' = true -> unpushed (pcs s t) = true)) \/
  pseq s' = upd (pseq s) t (S (pseq s t)) -> InvA s'.
Proof.
  intros [A1 A2 A3 A4] Hp Ea Hs. constructor; rewrite ?Ea; try assumption.
  - intros p n Hin. apply A1 in Hin. destruct Hs as [[-> _] | ->]; [exact Hin|]. unfold upd. destruct (Nat.eqb_spec p t) as [->|N]; lia.
  - intros p. rewrite Hp. unfold upd at 1. destruct (Nat.eqb_spec p t) as [->|N].
    + destruct Hs as [[-> Hu] | ->]; [intros X; apply A2, Hu, X|]. rewrite upd_eq. intros _ Hin. apply A1 in Hin. lia.
    + destruct Hs as [[-> _] | ->]; [|rewrite upd_neq by exact N]; apply A2.
Qed.

(* the current id is pushed *)
Lemma InvA_push s s' t p' :
  InvA s -> unpushed (pcs s t) = true -> pcs s' = upd (pcs s) t p' -> unpushed p' = false ->
  accepted s' = accepted s ++ [(t, pseq s t)] -> pseq s' = pseq s -> InvA s'.
Proof.
  intros [A1 A2 A3 A4] Ut Hp Up Ea Es. constructor; rewrite ?Ea, ?Es.
  - intros p n Hin. apply in_app_iff in Hin. destruct Hin as [Hin|[[= <- <-]|[]]]; [apply A1; exact Hin|lia].
  - intros p. rewrite Hp. unfold upd. destruct (Nat.eqb_spec p t) as [->|N]; [congruence|].
    intros U Hin. apply in_app_iff in Hin. destruct Hin as [Hin|[[= E _]|[]]]; [exact (A2 _ U Hin)|congruence].
  - apply NoDup_snoc; [exact A3|apply A2; exact Ut].
  - intros p. apply sorted_push; [apply A4|].
    intros m Hm. pose proof (A1 _ _ Hm) as Hle. destruct (Nat.eq_dec m (pseq s t)) as [->|]; [|lia].
    exfalso. exact (A2 t Ut Hm).
Qed.

Lemma InvA_step cap cf s t s' : InvA s -> Step cap cf s t s' -> InvA s'.
Proof.
  intros HA HS. destruct HS.
  all: try solve [ by_frame InvA_keep; left; split; [reflexivity|]; try open_move; rewrite Epc; case_pc; cbn [unpushed]; auto ].
  (* a new send (on an open or a closed handle); the three pushes *)
  all: try solve [by_frame InvA_keep; right; reflexivity].
  all: eapply InvA_push; [eassumption|rewrite Epc; reflexivity|st_simpl; reflexivity|reflexivity..].
Qed.
