(* Proofs/TopicOpsProofs.v — main theorems about the topic K2 model (all histories, all fix switches). *)
From Fibre Require Import Common.Base Chan.TopicOps Chan.TopicSpec Proofs.TopicLemmas Proofs.TopicInv
     Proofs.TopicInvRecv Proofs.TopicInvSub Proofs.TopicInvRx Proofs.TopicInvPub Proofs.TopicInvTx.

Theorem step_ok c o : step_ok_for c o.
Proof.
  destruct o; try (apply ok_recv; exact Logic.I); try (apply ok_observers; exact Logic.I).
  - apply ok_Publish.
  - apply ok_CloneS.
  - apply ok_CloseS.
  - apply ok_DropS.
  - apply ok_ConvS.
  - apply ok_Subscribe.
  - apply ok_Unsubscribe.
  - apply ok_CloneR.
  - apply ok_CloseR.
  - apply ok_DropR.
  - apply ok_ConvR.
  - apply ok_MkRecv.
  - apply ok_DropF.
Qed.

(* state of the model after a history *)
Definition state_from (c : cfg) (s : state) (h : list op) : state := fst (run_from c s h).

Lemma state_from_cons c s o h :
  state_from c s (o :: h) = state_from c (fst (step c s o)) h.
Proof.
  unfold state_from. cbn [run_from]. destruct (step c s o) as [s1 x]. cbn [fst].
  destruct (run_from c s1 h). reflexivity.
Qed.

Lemma spec_from_cons c s sp o h :
  spec_from c s sp (o :: h) =
  spec_from c (fst (step c s o)) (fst (sp_step sp o (fst (snd (step c s o))))) h.
Proof. cbn [spec_from]. destruct (step c s o) as [s1 [rs w]]. reflexivity. Qed.

(* every complaint of the reference is raised in a state that satisfies the invariant, and is of a kind
   that the invariant allows there *)
Lemma check_from_sound c : forall h s sp, Inv c s sp -> forall v, In v (check_from c s sp h) ->
  exists h1 h2, h = h1 ++ h2 /\ Inv c (state_from c s h1) (spec_from c s sp h1) /\ v_ok c (spec_from c s sp h1) v.
Proof.
  induction h as [|o h IH]; intros s sp I v Hv; [destruct Hv|].
  cbn [check_from] in Hv. destruct (step c s o) as [s1 [rs w]] eqn:Es.
  destruct (sp_step sp o rs) as [sp1 vs] eqn:Ep.
  destruct (step_ok c o s sp s1 rs w sp1 vs I Es Ep) as [I1 Hvs].
  apply in_app_or in Hv. destruct Hv as [Hv|Hv].
  - exists [], (o :: h). split; [reflexivity|]. split; [exact I | apply Hvs; exact Hv].
  - destruct (IH s1 sp1 I1 v Hv) as [h1 [h2 [E [I2 Hok]]]].
    exists (o :: h1), h2. split; [rewrite E; reflexivity|].
    rewrite state_from_cons, spec_from_cons, Es. cbn [fst snd]. rewrite Ep. cbn [fst]. auto.
Qed.

Lemma inv_after c a cap h : Inv c (state_from c (init a cap) h) (spec_after c a cap h).
Proof.
  unfold spec_after. generalize (inv_init c a cap). generalize (init a cap), (sp_init cap).
  induction h as [|o h IH]; intros s sp I; [exact I|].
  rewrite state_from_cons, spec_from_cons.
  destruct (step c s o) as [s1 [rs w]] eqn:Es. cbn [fst snd].
  destruct (sp_step sp o rs) as [sp1 vs] eqn:Ep. cbn [fst].
  apply IH. eapply step_ok; eauto.
Qed.

(** C08, routing *)
Theorem routing_postfix c : fix14 c = true ->
  forall a cap h r, ~ In (VRouting r) (violations c a cap h).
Proof.
  intros F14 a cap h r Hin. unfold violations in Hin.
  destruct (check_from_sound c h _ _ (inv_init c a cap) _ Hin) as [h1 [h2 [_ [_ Hok]]]].
  cbn in Hok. destruct Hok as [y [_ Hg]]. unfold good in Hg. rewrite F14 in Hg. discriminate.
Qed.

Theorem routing_except_F14 c a cap h r :
  In (VRouting r) (violations c a cap h) ->
  fix14 c = false /\
  exists h1 h2 y, h = h1 ++ h2 /\ find_srx r (sp_rx (spec_after c a cap h1)) = Some y /\ s_closed y = true.
Proof.
  intros Hin. unfold violations in Hin.
  destruct (check_from_sound c h _ _ (inv_init c a cap) _ Hin) as [h1 [h2 [E [_ Hok]]]].
  cbn in Hok. destruct Hok as [y [Hy Hg]]. unfold good in Hg. apply orb_false_iff in Hg. destruct Hg as [G1 G2].
  split; [exact G1|]. exists h1, h2, y. split; [exact E|]. split; [exact Hy|].
  apply negb_false_iff in G2. exact G2.
Qed.

(** C08, Disconnected only after every sender handle is gone *)
Theorem disc_sound_postfix c : fix04 c = true ->
  forall a cap h r, ~ In (VDiscLive r) (violations c a cap h).
Proof.
  intros F4 a cap h r Hin. unfold violations in Hin.
  destruct (check_from_sound c h _ _ (inv_init c a cap) _ Hin) as [h1 [h2 [_ [_ Hok]]]].
  cbn in Hok. unfold sg in Hok. rewrite F4 in Hok. discriminate.
Qed.

Definition not_clone_s (o : op) : Prop := match o with CloneS _ _ => False | _ => True end.

Lemma sp_recv_tx sp r rs : sp_tx (fst (sp_recv sp r rs)) = sp_tx sp.
Proof.
  unfold sp_recv. destruct (find_srx r (sp_rx sp)); [|reflexivity].
  destruct rs; try reflexivity.
  - destruct (s_q s); [reflexivity|]. destruct (msg_eqb m (t, v)); reflexivity.
  - destruct (s_q s); [|reflexivity]. destruct (negb (s_closed s) && negb (any_open sp)); reflexivity.
  - destruct (s_q s); [|reflexivity]. destruct (negb (s_closed s) && negb (any_open sp)); reflexivity.
  - destruct (s_q s); [|reflexivity]. destruct (negb (s_closed s) && negb (any_open sp)); reflexivity.
  - destruct (s_closed s); [reflexivity|]. destruct (s_q s); [|reflexivity]. destruct (any_open sp); reflexivity.
Qed.

Lemma after_sender_gone_tx sp : sp_tx (after_sender_gone sp) = sp_tx sp.
Proof. unfold after_sender_gone. destruct (any_open sp); reflexivity. Qed.

(* only a sender clone adds a sender record to the reference *)
Lemma sp_step_single sp o rs : not_clone_s o -> length (sp_tx (fst (sp_step sp o rs))) = length (sp_tx sp).
Proof.
  intros Hn. destruct o; try contradiction; cbn [sp_step]; rewrite ?sp_recv_tx; try (destruct rs; reflexivity).
  - (* CloseS *) destruct rs; try reflexivity. cbn [fst]. rewrite after_sender_gone_tx. apply map_length.
  - (* DropS *) destruct rs; try reflexivity. cbn [fst].
    destruct (match find_stx s (sp_tx sp) with Some x => x_open x | None => false end);
      rewrite ?after_sender_gone_tx; apply map_length.
  - (* CloneR *) destruct rs; try reflexivity.
    destruct (find_srx r (sp_rx sp)); [|reflexivity]. destruct (find_srx r' (sp_rx sp)); reflexivity.
  - (* Poll *) destruct (find (fun p => N.eqb (fst p) f) (sp_futs sp)) as [[f' r]|]; [rewrite sp_recv_tx|]; reflexivity.
Qed.

Lemma spec_from_single c : forall h s sp, Forall not_clone_s h ->
  length (sp_tx (spec_from c s sp h)) = length (sp_tx sp).
Proof.
  induction h as [|o h IH]; intros s sp Hf; [reflexivity|].
  inversion Hf as [|? ? Ho Hh]; subst. rewrite spec_from_cons, IH by exact Hh. apply sp_step_single. exact Ho.
Qed.

Theorem disc_sound_except_F04 c a cap h :
  Forall not_clone_s h -> forall r, ~ In (VDiscLive r) (violations c a cap h).
Proof.
  intros Hf r Hin. unfold violations in Hin.
  destruct (check_from_sound c h _ _ (inv_init c a cap) _ Hin) as [h1 [h2 [E [_ Hok]]]].
  cbn in Hok. unfold sg, single in Hok. apply orb_false_iff in Hok. destruct Hok as [_ Hok].
  rewrite spec_from_single in Hok; [cbn in Hok; discriminate|].
  rewrite E in Hf. apply Forall_app in Hf. tauto.
Qed.

(** C08, Disconnected is observed once every sender handle is gone and the mailbox is drained *)
Theorem disc_complete_postfix c : fix04 c = true -> fix05 c = true ->
  forall a cap h r, ~ In (VNoDisc r) (violations c a cap h).
Proof.
  intros F4 F5 a cap h r Hin. unfold violations in Hin.
  destruct (check_from_sound c h _ _ (inv_init c a cap) _ Hin) as [h1 [h2 [_ [_ Hok]]]].
  cbn in Hok. rewrite F4, F5 in Hok. destruct Hok as [Hok _]. discriminate.
Qed.

Theorem disc_complete_except_F05 c a cap h r :
  In (VNoDisc r) (violations c a cap h) ->
  fix04 c && fix05 c = false /\
  exists h1 h2 y, h = h1 ++ h2 /\ find_srx r (sp_rx (spec_after c a cap h1)) = Some y /\ s_reach y = false.
Proof.
  intros Hin. unfold violations in Hin.
  destruct (check_from_sound c h _ _ (inv_init c a cap) _ Hin) as [h1 [h2 [E [_ Hok]]]].
  cbn in Hok. destruct Hok as [G1 [y [Hy Hr]]]. split; [exact G1|]. exists h1, h2, y. auto.
Qed.

(** the full statement *)
Definition C08_full (c : cfg) : Prop := forall a cap h, violations c a cap h = [].

Theorem full_postfix c : fix04 c = true -> fix05 c = true -> fix14 c = true -> C08_full c.
Proof.
  intros F4 F5 F14 a cap h. destruct (violations c a cap h) as [|v l] eqn:E; [reflexivity|].
  exfalso. assert (Hin : In v (violations c a cap h)) by (rewrite E; left; reflexivity).
  destruct v.
  - eapply routing_postfix; eauto.
  - eapply disc_sound_postfix; eauto.
  - eapply disc_complete_postfix; eauto.
Qed.

Definition w_F04 : list op := [Subscribe 0 1; CloneS 0 1; Publish 0 1 7; DropS 1; TryRecv 0; TryRecv 0].
Definition w_F05 : list op := [DropS 0; TryRecv 0].
Definition w_F14 : list op := [CloneR 0 1; Subscribe 0 1; CloseR 0; Publish 0 1 7; TryRecv 0].

Lemma refuted_F04 : ~ C08_full pre_fix.
Proof. intros H. specialize (H false 4 w_F04). vm_compute in H. discriminate. Qed.
Lemma refuted_F05 : ~ C08_full pre_fix.
Proof. intros H. specialize (H false 4 w_F05). vm_compute in H. discriminate. Qed.
Lemma refuted_F14 : ~ C08_full pre_fix.
Proof. intros H. specialize (H false 4 w_F14). vm_compute in H. discriminate. Qed.

Lemma witness_F04 : violations pre_fix false 4 w_F04 = [VDiscLive 0].
Proof. vm_compute. reflexivity. Qed.
Lemma witness_F05 : violations pre_fix false 4 w_F05 = [VNoDisc 0].
Proof. vm_compute. reflexivity. Qed.
Lemma witness_F14 : violations pre_fix false 4 w_F14 = [VRouting 0].
Proof. vm_compute. reflexivity. Qed.

(* each patch removes its complaint on its witness *)
Lemma witnesses_postfix :
  violations post_fix false 4 w_F04 = [] /\ violations post_fix false 4 w_F05 = [] /\ violations post_fix false 4 w_F14 = [].
Proof. vm_compute. auto. Qed.

(** the model's mailbox is the reference's ideal mailbox (for handles in the class) *)
Theorem mailbox_is_reference c a cap h r x y :
  find_rx r (rxs (state_from c (init a cap) h)) = Some x ->
  find_srx r (sp_rx (spec_after c a cap h)) = Some y ->
  r_live x = true -> good c y = true ->
  m_buf (r_mb x) = s_q y /\ m_dropped (r_mb x) = s_full y.
Proof.
  intros Hx Hy Hl Hg. pose proof (inv_after c a cap h) as I.
  destruct (pair_rx _ _ _ _ _ I Hx) as [y' [Hy' [_ [_ HR]]]].
  assert (y' = y) by congruence. subst y'. apply (rr_buf _ _ _ _ _ _ _ HR Hl Hg).
Qed.

(** publishing is a single total step: it returns Ok/Closed (or the harness-level NoHandle) and leaves senders,
    dispatcher lists, receiver count and futures as they were (only receiver records, i.e. mailboxes, may change) *)
Theorem publish_nonblocking c s h t v :
  exists s' rs w, step c s (Publish h t v) = (s', (rs, w)) /\ (rs = ROk \/ rs = RClosed \/ rs = RNoHandle) /\
    txs s' = txs s /\ lists s' = lists s /\ rcount s' = rcount s /\ futs s' = futs s.
Proof.
  cbn [step]. destruct (live_tx h s); [|eauto 12].
  destruct (t_closed t0 || Z.eqb (rcount s) 0); [eauto 12|].
  destruct (get_list t (lists s)); [|eauto 12].
  destruct (deliver_list l (t, v) (rxs s)) as [rs' w]. eauto 12.
Qed.
