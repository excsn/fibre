(* Every step of the bounded-MPMC K2 model preserves the invariant. *)
From Fibre Require Import Common.Base Chan.MpmcB Proofs.MpmcBBase Proofs.MpmcBInv.
From Coq Require Import ZifyBool ZifyNat ZifyN.

Definition reset (s : st) : st := with_bad false (with_dk [] (with_wk [] s)).

Lemma Inv_reset s : Inv s -> Inv (reset s).
Proof. apply InvH_ext. reflexivity. Qed.

Lemma InvH_nil_hand s : InvH [] s -> Inv s.
Proof. auto. Qed.

(* every step first clears the event log; the proofs continue from the cleared state *)
Ltac step_intro H0 s1 :=
  apply Inv_reset in H0; unfold step;
  match goal with |- context [with_bad false (with_dk [] (with_wk [] ?s))] =>
    fold (reset s); set (s1 := reset s) in *; clearbody s1
  end.

Lemma getH_canon h1 a b c d s : getH h1 (with_freed d (with_hs a (with_sc b (with_rc c s)))) = aget h1 a.
Proof. reflexivity. Qed.

Lemma any_live_true s h x : InvW s -> getH h s = Some x -> h_live x = true -> any_live s = true.
Proof.
  intros HW Hg Hl. unfold any_live. apply (live_exists (hs s) (w_hnd s HW)). exists h, x. auto.
Qed.

Lemma add_handle hand s s' h2 y :
  InvH hand s -> getH h2 s = None -> h_live y = true ->
  (exists h x, getH h s = Some x /\ h_live x = true) ->
  hs s' = aset h2 y (hs s) -> dview s' = dview s ->
  (fx s', asq s', arq s', tn s', freed s') = (fx s, asq s, arq s, tn s, freed s) ->
  (sc s' = 0 -> sc s = 0) -> (rc s' = 0 -> rc s = 0) ->
  (t07 (tn s) = false ->
     sc s' = sc s + N.of_nat (b2n (open_tx y)) /\ rc s' = rc s + N.of_nat (b2n (open_rx y))) ->
  InvH hand s'.
Proof.
  intros H Hn Hl (h & x & Hg & Hlx) Ehs Ed E Hsc Hrc Hc. injection E as Efx Easq Earq Etn Efr.
  pose proof (proj1 (proj2 H)) as HW.
  apply (InvH_setH hand h2 y s); try assumption.
  - congruence.
  - intros f z Hz Hlz E. destruct (w_fh s HW f z Hz Hlz) as (u & Hu & _). congruence.
  - intros E. apply (w_sc0 s HW). auto.
  - intros E. apply (w_rc0 s HW). auto.
  - rewrite Efr, (w_freed s HW), (any_live_true s h x HW Hg Hlx). unfold any_live. rewrite Ehs.
    symmetry. apply (f_equal negb). apply (live_exists _ (NoDup_aset h2 y (hs s) (w_hnd s HW))).
    exists h2, y. split; [apply aget_aset_same | exact Hl].
  - intros T. rewrite Hn. cbn [bo]. destruct (Hc T) as [A B]. clear - A B. lia.
Qed.

Lemma step_clone s h h2 : Inv s -> Inv (fst (step s (Clone h h2))).
Proof.
  intros H0. step_intro H0 s1.
  destruct (getH h s1) as [x|] eqn:Hg; [|exact H0].
  destruct (h_live x) eqn:Hl; cbn [negb]; [|exact H0].
  destruct (getH h2 s1) eqn:Hg2; [exact H0|].
  cbn [ret fst].
  destruct (h_closed x && fx33 (fx s1)) eqn:Ec.
  - (* repaired clone of a closed handle: closed, not counted *)
    apply (add_handle [] s1 _ h2 (mkH (h_tx x) (h_async x) true true)); try reflexivity; eauto.
    intros _. unfold open_tx, open_rx. cbn. lia.
  - assert (Ht : InvH [] (taint set_t33 (h_closed x) s1)).
    { apply InvH_taint; [exact H0 | apply tle_set_t33 |].
      intros E. apply ok_set_t33; [apply (w_taint s1 (proj1 (proj2 H0)))|].
      rewrite E in Ec. exact Ec. }
    set (s2 := taint set_t33 (h_closed x) s1) in *.
    assert (E2 : hs s2 = hs s1) by (subst s2; unfold taint; destruct (h_closed x); reflexivity).
    unfold getH in Hg, Hg2. rewrite <- E2 in Hg, Hg2. clearbody s2.
    assert (Hex : exists h x, getH h s2 = Some x /\ h_live x = true) by eauto.
    destruct (h_tx x); cbn [ret fst].
    + apply (add_handle [] s2 _ h2 (mkH true (h_async x) false true) Ht Hg2 eq_refl Hex); try reflexivity.
      * st_simpl. lia.
      * auto.
      * intros _. unfold open_tx, open_rx. cbn. lia.
    + apply (add_handle [] s2 _ h2 (mkH false (h_async x) false true) Ht Hg2 eq_refl Hex); try reflexivity.
      * auto.
      * st_simpl. lia.
      * intros _. unfold open_tx, open_rx. cbn. lia.
Qed.

Lemma no_open_tx s :
  Inv s -> t07 (tn s) = false -> sc s = 0 ->
  forall h x, getH h s = Some x -> h_live x = true -> h_tx x = true -> h_closed x = true.
Proof.
  intros [_ [HW HK]] T Hsc h x Hg Hl Htx. destruct (k_cnt s HK T) as [A _].
  assert (Hz : cnt open_tx (hs s) = 0%nat) by (rewrite Hsc in A; lia).
  pose proof (proj1 (cnt_zero open_tx (hs s)) Hz h x (aget_In h x (hs s) Hg)) as Ho.
  unfold open_tx in Ho. rewrite Hl, Htx in Ho. destruct (h_closed x); [reflexivity | discriminate].
Qed.

Lemma no_open_rx s :
  Inv s -> t07 (tn s) = false -> rc s = 0 ->
  forall h x, getH h s = Some x -> h_live x = true -> h_tx x = false -> h_closed x = true.
Proof.
  intros [_ [HW HK]] T Hrc h x Hg Hl Htx. destruct (k_cnt s HK T) as [_ A].
  assert (Hz : cnt open_rx (hs s) = 0%nat) by (rewrite Hrc in A; lia).
  pose proof (proj1 (cnt_zero open_rx (hs s)) Hz h x (aget_In h x (hs s) Hg)) as Ho.
  unfold open_rx in Ho. rewrite Hl, Htx in Ho. destruct (h_closed x); [reflexivity | discriminate].
Qed.

(* while another handle of the side is open the count is not 0 (closing/dropping a clone disconnects nothing) *)
Lemma open_tx_alive s h x :
  Inv s -> t07 (tn s) = false -> getH h s = Some x -> h_live x = true -> h_tx x = true -> h_closed x = false ->
  sc s <> 0.
Proof.
  intros H T Hg Hl Htx Hc E. pose proof (no_open_tx s H T E h x Hg Hl Htx). congruence.
Qed.

Lemma open_rx_alive s h x :
  Inv s -> t07 (tn s) = false -> getH h s = Some x -> h_live x = true -> h_tx x = false -> h_closed x = false ->
  rc s <> 0.
Proof.
  intros H T Hg Hl Htx Hc E. pose proof (no_open_rx s H T E h x Hg Hl Htx). congruence.
Qed.

(* the marking loop reads and writes the futures and the event log only *)
Lemma mark_all_comm new l : forall s a b c,
  mark_all new l (with_sc b (with_rc c (with_hs a s))) = with_sc b (with_rc c (with_hs a (mark_all new l s))).
Proof.
  induction l as [|[f w] t IH]; intros s a b c; cbn [mark_all]; [reflexivity|].
  change (getF f (with_sc b (with_rc c (with_hs a s)))) with (getF f s).
  destruct (getF f s) as [x|]; [|apply IH].
  destruct (is_waiting (f_state x)); [|apply IH].
  rewrite <- IH. f_equal. destruct (negb (f_live x)); reflexivity.
Qed.

(* a state byte is not what [borrowed] looks at *)
Lemma borrowed_set_state h f x w s :
  NoDup (akeys (fs s)) -> getF f s = Some x -> borrowed h (setF f (set_state w x) s) = borrowed h s.
Proof. intros Hnd Hg. apply (existsb_aset (fun y => f_live y && (f_h y =? h)) f x); auto. Qed.

Lemma borrowed_mark_all h new l : forall s,
  NoDup (akeys (fs s)) -> borrowed h (mark_all new l s) = borrowed h s.
Proof.
  induction l as [|[f w] t IH]; intros s Hnd; cbn [mark_all]; [reflexivity|].
  destruct (getF f s) as [x|] eqn:Hg; [|apply IH; exact Hnd].
  destruct (is_waiting (f_state x)); [|apply IH; exact Hnd].
  rewrite IH; [|destruct (negb (f_live x)); apply NoDup_aset; exact Hnd].
  rewrite <- (borrowed_set_state h f x new s Hnd Hg). destruct (negb (f_live x)); reflexivity.
Qed.

(* the handle-table update of close(): flag set, the side's count decremented *)
Lemma close_update hand s s' h x :
  InvH hand s -> getH h s = Some x -> h_live x = true -> h_closed x = false ->
  hs s' = aset h (set_closed true x) (hs s) -> dview s' = dview s ->
  (fx s', asq s', arq s', tn s', freed s') = (fx s, asq s, arq s, tn s, freed s) ->
  (sc s' = 0 -> forall f w y, In (f, w) (arq s) -> getF f s = Some y -> is_waiting (f_state y) = false) ->
  (rc s' = 0 -> forall f w y, In (f, w) (asq s) -> getF f s = Some y -> is_waiting (f_state y) = false) ->
  (t07 (tn s) = false -> sc s' + N.of_nat (b2n (h_tx x)) = sc s /\ rc s' + N.of_nat (b2n (negb (h_tx x))) = rc s) ->
  InvH hand s'.
Proof.
  intros H Hg Hl Hc Ehs Ed E Hsc Hrc Hcnt. injection E as Efx Easq Earq Etn Efr.
  pose proof (proj1 (proj2 H)) as HW.
  apply (InvH_setH hand h (set_closed true x) s); try assumption.
  - congruence.
  - intros f z Hz Hlz E. destruct (w_fh s HW f z Hz Hlz) as (u & Hu & Hok). rewrite E, Hg in Hu. injection Hu as <-. exact Hok.
  - rewrite Efr, (w_freed s HW). apply (f_equal negb). unfold any_live. rewrite Ehs. symmetry.
    apply existsb_aset with x; [apply (w_hnd s HW) | exact Hg | reflexivity].
  - intros T. rewrite Hg. destruct (Hcnt T) as [A B]. unfold bo, open_tx, open_rx. cbn [h_live h_closed h_tx set_closed].
    rewrite Hl, Hc. cbn [negb andb]. clear - A B. destruct (h_tx x); cbn [negb b2n] in *; lia.
Qed.

Definition close_post (h : N) (s s' : st) : Prop :=
  borrowed h s' = borrowed h s /\ exists y, getH h s' = Some y /\ h_live y = true /\ h_closed y = true.

Lemma close_post_hs h x s s' :
  h_live x = true -> borrowed h s' = borrowed h s -> hs s' = aset h (set_closed true x) (hs s) -> close_post h s s'.
Proof.
  intros Hl Hb E. split; [exact Hb|]. exists (set_closed true x). unfold getH. rewrite E, aget_aset_same. auto.
Qed.

Lemma do_close_inv h x s :
  Inv s -> getH h s = Some x -> h_live x = true ->
  Inv (fst (do_close h x s)) /\ close_post h s (fst (do_close h x s)).
Proof.
  intros H Hg Hl. unfold do_close.
  pose proof (proj1 (proj2 H)) as HW. pose proof (proj2 (proj2 H)) as HK. pose proof (w_fnd s HW) as Hnd.
  destruct (h_closed x) eqn:Hc; cbn [fst].
  { split; [exact H|]. split; [reflexivity | eauto]. }
  set (xc := set_closed true x).
  (* without a disconnection: only the handle entry and a count change *)
  assert (Hplain : forall s', hs s' = aset h xc (hs s) -> dview s' = dview s ->
            (fx s', asq s', arq s', tn s', freed s') = (fx s, asq s, arq s, tn s, freed s) ->
            (sc s' = 0 -> sc s = 0) -> (rc s' = 0 -> rc s = 0) ->
            (t07 (tn s) = false -> sc s' + N.of_nat (b2n (h_tx x)) = sc s /\ rc s' + N.of_nat (b2n (negb (h_tx x))) = rc s) ->
            Inv s' /\ close_post h s s').
  { intros s' Ehs Ed E Hsc Hrc Hcnt. split.
    - apply (close_update [] s s' h x); try assumption.
      + intros E0. apply (w_sc0 s HW). auto.
      + intros E0. apply (w_rc0 s HW). auto.
    - apply (close_post_hs h x); [exact Hl | | exact Ehs]. unfold borrowed. unfold dview in Ed. congruence. }
  (* the last handle of a side: the other side's parked waiters are CLOSED-woken *)
  assert (Hlast : forall l b c,
            (b = 0 -> l = arq s \/ sc s = 0) -> (c = 0 -> l = asq s \/ rc s = 0) ->
            (t07 (tn s) = false -> b + N.of_nat (b2n (h_tx x)) = sc s /\ c + N.of_nat (b2n (negb (h_tx x))) = rc s) ->
            let s' := with_sc b (with_rc c (with_hs (aset h xc (hs s)) (mark_all WClosed l s))) in
            Inv s' /\ close_post h s s').
  { intros l b c Hsc Hrc Hcnt s'.
    destruct (mark_all_spec [] l s H) as (A & B & C & D). cbv zeta in *.
    set (sm := mark_all WClosed l s) in *.
    unfold frameM, rest in B. injection B as _ _ _ _ _ _ _ _ F4 F5 F8 _ F15 F7 F6.
    assert (Hkeep : forall (l0 : list (N * N)) f w y, (forall f w y, In (f, w) l0 -> getF f s = Some y -> is_waiting (f_state y) = false) ->
              In (f, w) l0 -> getF f sm = Some y -> is_waiting (f_state y) = false).
    { intros l0 f w y Hn Hi Hy. destruct (C f y Hy) as (y0 & Hy0 & Hsame).
      destruct (is_waiting (f_state y)) eqn:Ew; [|reflexivity]. rewrite (Hsame eq_refl), (Hn f w y0 Hi Hy0) in Ew. discriminate. }
    split.
    - apply (close_update [] sm s' h x A); try assumption; try reflexivity; subst s'; st_simpl.
      + unfold getH. rewrite F8. exact Hg.
      + rewrite F8. reflexivity.
      + rewrite F7. intros E0 f w y. destruct (Hsc E0) as [->|Hs]; [apply D | apply (Hkeep (arq s)), (w_sc0 s HW Hs)].
      + rewrite F6. intros E0 f w y. destruct (Hrc E0) as [->|Hr]; [apply D | apply (Hkeep (asq s)), (w_rc0 s HW Hr)].
      + rewrite F15, F4, F5. exact Hcnt.
    - apply (close_post_hs h x); [exact Hl | | reflexivity].
      apply (borrowed_mark_all h WClosed l s Hnd). }
  destruct (h_tx x) eqn:Htx.
  - (* a sender handle *)
    unfold close_tx. change (sc (setH h xc s)) with (sc s).
    destruct (N.eqb_spec (sc s) 0) as [E0|E0]; cbn [fst].
    + (* count underflow: only possible after the F-07 event *)
      apply Hplain; try reflexivity; auto. intros T. destruct (open_tx_alive s h x H T Hg Hl Htx Hc E0).
    + change (sc (with_sc (sc s - 1) (setH h xc s))) with (sc s - 1).
      change (arq (with_sc (sc s - 1) (setH h xc s))) with (arq s).
      destruct (N.eqb_spec (sc s - 1) 0) as [E1|E1].
      * change (with_sc (sc s - 1) (setH h xc s)) with (with_sc (sc s - 1) (with_rc (rc s) (with_hs (aset h xc (hs s)) s))).
        rewrite mark_all_comm. apply (Hlast (arq s) (sc s - 1) (rc s)); auto.
        intros _. cbn [b2n negb]. clear - E0. lia.
      * apply Hplain; try reflexivity; st_simpl; auto; [contradiction|]. intros _. cbn [b2n negb]. clear - E0. lia.
  - (* a receiver handle *)
    unfold close_rx. change (rc (setH h xc s)) with (rc s).
    destruct (N.eqb_spec (rc s) 0) as [E0|E0]; cbn [fst].
    + apply Hplain; try reflexivity; auto. intros T. destruct (open_rx_alive s h x H T Hg Hl Htx Hc E0).
    + change (rc (with_rc (rc s - 1) (setH h xc s))) with (rc s - 1).
      change (asq (with_rc (rc s - 1) (setH h xc s))) with (asq s).
      assert (Hdec : t07 (tn s) = false -> sc s + N.of_nat (b2n false) = sc s /\ rc s - 1 + N.of_nat (b2n (negb false)) = rc s)
        by (intros _; cbn [b2n negb]; clear - E0; lia).
      destruct (N.eqb_spec (rc s - 1) 0) as [E1|E1].
      * change (with_rc (rc s - 1) (setH h xc s)) with (with_sc (sc s) (with_rc (rc s - 1) (with_hs (aset h xc (hs s)) s))).
        rewrite mark_all_comm. apply (Hlast (asq s) (sc s) (rc s - 1)); auto.
      * (* not the last receiver: nudge the front parked sender *)
        set (s2 := with_rc (rc s - 1) (setH h xc s)).
        destruct (Hplain s2) as [H2 P2]; try reflexivity; subst s2; st_simpl; auto; [contradiction|].
        destruct (asq s) as [|[f w] t] eqn:Ea; [auto|].
        change (getF f (with_rc (rc s - 1) (setH h xc s))) with (getF f s).
        destruct (getF f s) as [y|] eqn:Hy; [|auto]. destruct (is_waiting (f_state y)) eqn:Ew; [|auto].
        set (s2 := with_rc (rc s - 1) (setH h xc s)) in *.
        assert (Hi2 : In (f, w) (asq s2)) by (change (asq s2) with (asq s); rewrite Ea; left; reflexivity).
        destruct H2 as (D2 & W2 & K2).
        destruct (woken_spec false true [] f w y s2 D2 W2 Hi2 Hy Ew eq_refl) as (D3 & W3 & E3).
        split.
        -- apply InvH_mark_bad. split; [exact D3 | split; [exact W3|]].
           apply (proj1 (InvK_eff_s s2 (woken false true f w y s2) K2 eq_refl E3)).
        -- destruct P2 as [B2 Y2]. split.
           ++ rewrite <- B2. destruct (negb (f_live y)); apply (borrowed_set_state h f y Success s2 (w_fnd s2 W2) Hy).
           ++ destruct (negb (f_live y)); exact Y2.
Qed.

Lemma step_close s h : Inv s -> Inv (fst (step s (Close h))).
Proof.
  intros H0. step_intro H0 s1.
  destruct (getH h s1) as [x|] eqn:Hg; [|exact H0].
  destruct (h_live x) eqn:Hl; cbn [negb]; [|exact H0].
  pose proof (do_close_inv h x s1 H0 Hg Hl) as [A _].
  destruct (do_close h x s1) as [s2 r]. exact A.
Qed.

Lemma kill_handle hand s h y :
  InvH hand s -> getH h s = Some y -> h_closed y = true -> borrowed h s = false ->
  InvH hand (maybe_free (setH h (set_hdead y) s)).
Proof.
  intros H Hg Hc Hb. pose proof (proj1 (proj2 H)) as HW.
  set (s1 := setH h (set_hdead y) s). set (s' := maybe_free s1).
  assert (E : hs s' = hs s1 /\ dview s' = dview s /\ (fx s', asq s', arq s', tn s') = (fx s, asq s, arq s, tn s)
              /\ sc s' = sc s /\ rc s' = rc s)
    by (subst s'; unfold maybe_free; destruct (any_live s1); repeat split).
  destruct E as (Ehs & Ed & E & Esc & Erc).
  apply (InvH_setH hand h (set_hdead y) s); try assumption.
  - intros f z Hz Hl E0. destruct (not_borrowed h s Hb f z Hz Hl E0).
  - rewrite Esc. apply (w_sc0 s HW).
  - rewrite Erc. apply (w_rc0 s HW).
  - subst s'. unfold maybe_free. destruct (any_live s1) eqn:El; [|unfold any_live in *; st_simpl; rewrite El; reflexivity].
    rewrite El. change (freed s1) with (freed s). rewrite (w_freed s HW). apply (f_equal negb).
    apply (live_exists (hs s1) (NoDup_aset h (set_hdead y) (hs s) (w_hnd s HW))) in El.
    destruct El as (h1 & u & Hu & Hlu). subst s1. st_simpl. rewrite aget_aset in Hu.
    destruct (N.eqb_spec h1 h); [injection Hu as <-; discriminate|]. apply (any_live_true s h1 u HW Hu Hlu).
  - intros _. rewrite Hg, Esc, Erc. unfold bo, open_tx, open_rx. cbn [h_live h_closed set_hdead]. rewrite Hc.
    cbn [andb negb]. rewrite !andb_false_r. split; reflexivity.
Qed.

Lemma step_drop s h : Inv s -> Inv (fst (step s (DropH h))).
Proof.
  intros H0. step_intro H0 s1.
  destruct (getH h s1) as [x|] eqn:Hg; [|exact H0].
  destruct (h_live x) eqn:Hl; cbn [negb]; [|exact H0].
  destruct (borrowed h s1) eqn:Hb; [exact H0|].
  pose proof (do_close_inv h x s1 H0 Hg Hl) as (A & Hb2 & y & Hy & Hly & Hcy).
  destruct (do_close h x s1) as [s2 r]. cbn [fst] in *. rewrite Hy.
  cbn [ret fst]. apply kill_handle; [exact A | exact Hy | exact Hcy | congruence].
Qed.

Lemma step_convert s h h2 : Inv s -> Inv (fst (step s (Convert h h2))).
Proof.
  intros H0. step_intro H0 s1.
  destruct (getH h s1) as [x|] eqn:Hg; [|exact H0].
  destruct (h_live x) eqn:Hl; cbn [negb]; [|exact H0].
  destruct (getH h2 s1) eqn:Hg2; [exact H0|].
  destruct (borrowed h s1) eqn:Hb; [exact H0|].
  cbn [ret fst].
  set (b := h_closed x && negb (fx07 (fx s1))).
  assert (Ht : InvH [] (taint set_t07 b s1)).
  { apply InvH_taint; [exact H0 | apply tle_set_t07 |].
    intros E. apply ok_set_t07; [apply (w_taint s1 (proj1 (proj2 H0)))|]. subst b. apply andb_prop in E. destruct E as [_ E].
    destruct (fx07 (fx s1)); [discriminate | reflexivity]. }
  set (s2 := taint set_t07 b s1) in *.
  assert (E2 : (hs s2, fs s2, fx s2) = (hs s1, fs s1, fx s1) /\ (t07 (tn s2) = false -> b = false))
    by (subst s2; unfold taint; destruct b; split; (reflexivity || discriminate)).
  destruct E2 as (E2 & Eb). injection E2 as Eh Ef Efx.
  unfold getH in Hg, Hg2. unfold borrowed in Hb. rewrite <- Eh in Hg, Hg2. rewrite <- Ef in Hb. clearbody s2.
  pose proof (proj1 (proj2 Ht)) as HW. pose proof (w_hnd s2 HW) as Hnd.
  set (xn := mkH (h_tx x) (negb (h_async x)) (h_closed x && fx07 (fx s1)) true).
  assert (Hne : h2 <> h) by (intros E; subst; congruence).
  assert (Hn2 : aget h2 (aset h (set_hdead x) (hs s2)) = None) by (rewrite aget_aset_other by exact Hne; exact Hg2).
  apply (InvH_handles [] s2); try reflexivity; try assumption; st_simpl.
  - apply NoDup_aset, NoDup_aset, Hnd.
  - intros f z Hz Hlz. destruct (w_fh s2 HW f z Hz Hlz) as (u & Hu & Hok). exists u. split; [|exact Hok].
    unfold getH in *. st_simpl. rewrite aget_aset_other by congruence.
    rewrite aget_aset_other by apply (not_borrowed h s2 Hb f z Hz Hlz). exact Hu.
  - apply (w_sc0 s2 HW).
  - apply (w_rc0 s2 HW).
  - rewrite (w_freed s2 HW), (any_live_true s2 h x HW Hg Hl). unfold any_live. st_simpl. symmetry. apply (f_equal negb).
    apply live_exists; [apply NoDup_aset, NoDup_aset, Hnd|]. exists h2, xn. split; [apply aget_aset_same | reflexivity].
  - intros T. destruct (k_cnt s2 (proj2 (proj2 Ht)) T) as [A B]. specialize (Eb T).
    rewrite (cnt_aset_new open_tx h2 xn _ Hn2), (cnt_aset_new open_rx h2 xn _ Hn2).
    pose proof (cnt_aset open_tx h x (set_hdead x) (hs s2) Hnd Hg) as P1.
    pose proof (cnt_aset open_rx h x (set_hdead x) (hs s2) Hnd Hg) as P2.
    (* the new handle is open exactly if the old one was: otherwise the F-07 event has just been recorded *)
    assert (Eo : open_tx xn = open_tx x /\ open_rx xn = open_rx x).
    { subst xn b. unfold open_tx, open_rx. cbn [h_live h_closed h_tx]. rewrite Hl.
      destruct (h_closed x), (fx07 (fx s1)); cbn in *; try discriminate; auto. }
    destruct Eo as [-> ->]. change (open_tx (set_hdead x)) with false in P1. change (open_rx (set_hdead x)) with false in P2.
    unfold b2n in *. clear - A B P1 P2. lia.
Qed.

Lemma step_observe s h : Inv s -> Inv (fst (step s (Observe h))).
Proof.
  intros H0. step_intro H0 s1.
  destruct (getH h s1) as [x|]; [|exact H0]. destruct (h_live x); exact H0.
Qed.

Lemma step_try_send s h : Inv s -> Inv (fst (step s (TrySend h))).
Proof.
  intros H0. step_intro H0 s1.
  destruct (getH h s1) as [x|]; [|exact H0].
  destruct (h_live x); cbn [negb]; [|exact H0].
  destruct (h_tx x); cbn [negb]; [|exact H0].
  pose proof (InvH_fresh s1 H0) as Hf. unfold fresh. set (s2 := with_next (next s1 + 1) s1) in *.
  destruct (h_closed x); [apply (InvH_give_back [next s1]), Hf|].
  pose proof (try_send_core_inv (next s1) s2 Hf) as Hs.
  destruct (try_send_core (next s1) s2) as [s3 [| |]]; cbn [ret fst]; [exact Hs | subst s3 ..];
    apply (InvH_give_back [next s1]), Hf.
Qed.

Lemma step_send s h : Inv s -> Inv (fst (step s (Send h))).
Proof.
  intros H0. step_intro H0 s1.
  destruct (getH h s1) as [x|]; [|exact H0].
  destruct (h_live x); cbn [negb]; [|exact H0].
  destruct (negb (h_tx x) || h_async x); [exact H0|].
  destruct (negb (rc s1 =? 0) && is_full s1); [exact H0|].
  pose proof (InvH_fresh s1 H0) as Hf. unfold fresh. set (s2 := with_next (next s1 + 1) s1) in *.
  destruct (h_closed x); [apply InvH_destroy, Hf|].
  pose proof (try_send_core_inv (next s1) s2 Hf) as Hs.
  destruct (try_send_core (next s1) s2) as [s3 [| |]]; cbn [ret fst]; [exact Hs | subst s3 ..];
    apply InvH_destroy, Hf.
Qed.

(* the common tail of the three receive forms *)
Lemma recv_tail s r1 r2 r3 : Inv s ->
  Inv (fst (match try_recv_core s with
            | (s', TrVal v) => ret s' (r1 v) | (s', TrEmpty) => ret s' r2 | (s', TrDisc) => ret s' r3
            end)).
Proof.
  intros H. pose proof (try_recv_core_inv [] s H) as Hs.
  destruct (try_recv_core s) as [s' [v| |]]; cbn [ret fst]; [exact Hs | subst s'; exact H ..].
Qed.

Lemma step_try_recv s h : Inv s -> Inv (fst (step s (TryRecv h))).
Proof.
  intros H0. step_intro H0 s1.
  destruct (getH h s1) as [x|]; [|exact H0].
  destruct (h_live x); cbn [negb]; [|exact H0].
  destruct (h_tx x); [exact H0|].
  destruct (h_closed x); [exact H0|].
  apply recv_tail, H0.
Qed.

Lemma step_recv s h : Inv s -> Inv (fst (step s (Recv h))).
Proof.
  intros H0. step_intro H0 s1.
  destruct (getH h s1) as [x|]; [|exact H0].
  destruct (h_live x); cbn [negb]; [|exact H0].
  destruct (h_tx x || h_async x); [exact H0|].
  match goal with |- context [if ?c then ret s1 RWouldBlock else _] => destruct c end; [exact H0|].
  destruct (h_closed x); [exact H0|].
  apply recv_tail, H0.
Qed.

Lemma Inv_taint_t03 b s : Inv s -> b && fx03 (fx s) = false -> Inv (taint set_t03 b s).
Proof.
  intros H Ec. apply InvH_taint; [exact H | apply tle_set_t03 |].
  intros E. apply ok_set_t03; [apply (w_taint s (proj1 (proj2 H)))|]. rewrite E in Ec. exact Ec.
Qed.

Lemma step_recv_timeout s h : Inv s -> Inv (fst (step s (RecvTimeout h))).
Proof.
  intros H0. step_intro H0 s1.
  destruct (getH h s1) as [x|]; [|exact H0].
  destruct (h_live x); cbn [negb]; [|exact H0].
  destruct (h_tx x || h_async x); [exact H0|].
  destruct (h_closed x && fx03 (fx s1)) eqn:Ec; [exact H0|].
  apply recv_tail, Inv_taint_t03; assumption.
Qed.

Lemma InvH_newF hand hand' f x s :
  InvH hand s -> getF f s = None -> f_reg x = false ->
  (forall v, (b2n (cellp v x) + occ v hand' = occ v hand)%nat) ->
  (f_live x = true -> exists h, getH (f_h x) s = Some h /\ hok (f_recv x) h) ->
  InvH hand' (setF f x s).
Proof.
  intros (HD & HW & HK) Hn Hr Hi Hh.
  assert (G : forall f1, getF f1 (setF f x s) = if N.eqb f1 f then Some x else getF f1 s) by (intros; apply getF_setF).
  assert (Hq : forall f1 y, getF f1 s = Some y -> (if N.eqb f1 f then Some x else getF f1 s) = Some y).
  { intros f1 y Hy. destruct (N.eqb_spec f1 f) as [->|]; [congruence | exact Hy]. }
  destruct (preds_unreg x Hr) as (A1&A2&A3&A4). split; [|split].
  - destruct HD as [A B C]. constructor; [exact A | exact B |].
    intros u. specialize (C u). unfold tot, cells in *. change (fs (setF f x s)) with (aset f x (fs s)).
    rewrite (cnt_aset_new (cellp u) f x (fs s) Hn). specialize (Hi u). st_simpl. clear - C Hi. lia.
  - constructor; try apply HW.
    + apply NoDup_aset, (w_fnd s HW).
    + intros f1 w1 Hi1. rewrite G. destruct (w_arq_k s HW f1 w1 Hi1) as (y & Hy & Hry). exists y. auto.
    + intros f1 w1 Hi1. rewrite G. destruct (w_asq_k s HW f1 w1 Hi1) as (y & Hy & Hry). exists y. auto.
    + intros f1 y Hy. rewrite G in Hy. destruct (N.eqb_spec f1 f); [injection Hy as <-; congruence | apply (w_reg s HW f1 y Hy)].
    + intros f1 y Hy. rewrite G in Hy. destruct (N.eqb_spec f1 f); [injection Hy as <-; congruence | apply (w_wq s HW f1 y Hy)].
    + intros f1 y Hy. rewrite G in Hy. destruct (N.eqb_spec f1 f); [injection Hy as <-; exact Hh | apply (w_fh s HW f1 y Hy)].
    + intros Hsc f1 w1 y Hi1 Hy. rewrite G in Hy. destruct (w_arq_k s HW f1 w1 Hi1) as (z & Hz & _).
      destruct (N.eqb_spec f1 f); [congruence | apply (w_sc0 s HW Hsc f1 w1 y Hi1 Hy)].
    + intros Hrc f1 w1 y Hi1 Hy. rewrite G in Hy. destruct (w_asq_k s HW f1 w1 Hi1) as (z & Hz & _).
      destruct (N.eqb_spec f1 f); [congruence | apply (w_rc0 s HW Hrc f1 w1 y Hi1 Hy)].
    + intros T f1 w1 Hi1. rewrite G. destruct (w_arq_reg s HW T f1 w1 Hi1) as (y & Hy & Hry). exists y. auto.
    + intros f1 y Hy. rewrite G in Hy. destruct (N.eqb_spec f1 f); [injection Hy as <-; congruence | apply (w_item s HW f1 y Hy)].
    + intros f1 w1 y Hi1 Hy. rewrite G in Hy. destruct (w_arq_k s HW f1 w1 Hi1) as (z & Hz & _).
      destruct (N.eqb_spec f1 f); [congruence | apply (w_arq_st s HW f1 w1 y Hi1 Hy)].
  - apply (InvK_shift s (setF f x s) HK eq_refl); change (fs (setF f x s)) with (aset f x (fs s));
      rewrite !(cnt_aset_new _ f x (fs s) Hn), ?A1, ?A2, ?A3, ?A4; cbn [b2n]; rewrite !Nat.add_0_r; auto.
Qed.

Lemma step_mksend s f h : Inv s -> Inv (fst (step s (MkSend f h))).
Proof.
  intros H0. step_intro H0 s1.
  destruct (getH h s1) as [x|] eqn:Hg; [|exact H0].
  destruct (h_live x) eqn:Hl; cbn [negb]; [|exact H0].
  destruct (h_tx x && h_async x) eqn:Eta; cbn [negb]; [|exact H0].
  apply andb_prop in Eta. destruct Eta as [Etx Easy].
  destruct (getF f s1) eqn:Hf; [exact H0|].
  unfold fresh. cbn [ret fst]. apply (InvH_newF [next s1] []); try reflexivity.
  - apply InvH_fresh, H0.
  - exact Hf.
  - intros _. exists x. split; [exact Hg|]. unfold hok. cbn. auto.
Qed.

Lemma step_mkrecv s f h : Inv s -> Inv (fst (step s (MkRecv f h))).
Proof.
  intros H0. step_intro H0 s1.
  destruct (getH h s1) as [x|] eqn:Hg; [|exact H0].
  destruct (h_live x) eqn:Hl; cbn [negb]; [|exact H0].
  destruct (negb (h_tx x) && h_async x) eqn:Eta; cbn [negb]; [|exact H0].
  apply andb_prop in Eta. destruct Eta as [Etx Easy]. apply negb_true_iff in Etx.
  destruct (getF f s1) eqn:Hf; [exact H0|].
  cbn [ret fst]. apply (InvH_newF [] []); try reflexivity; try assumption.
  intros _. exists x. split; [exact Hg|]. unfold hok. cbn. auto.
Qed.

(* the unlink-and-unregister part *)
Definition unreg (x : fut) : fut :=
  set_reg false (if is_waiting (f_state x) then set_state Cancelled x else x).

Lemma unreg_fields x :
  f_recv (unreg x) = f_recv x /\ f_h (unreg x) = f_h x /\ f_live (unreg x) = f_live x /\
  f_item (unreg x) = f_item x /\ f_done (unreg x) = f_done x /\ f_reg (unreg x) = false.
Proof. unfold unreg. destruct (is_waiting (f_state x)); repeat split. Qed.

Definition cancel_post (f : N) (x : fut) (s' : st) : Prop :=
  exists x', getF f s' = Some x' /\ f_reg x' = false /\ f_live x' = f_live x /\ f_item x' = f_item x
             /\ f_recv x' = f_recv x /\ f_h x' = f_h x /\ f_done x' = f_done x.

Lemma not_unlinked f l : ~ In f (akeys (unlink f l)).
Proof. intros Hi. apply unlink_keys in Hi. tauto. Qed.

(* In both lemmas sb is the state with f unregistered and unlinked.  If f had consumed a wake (SUCCESS) the
   accounting at sb is one short: the wake is passed on (repaired), or the F-12 event is recorded. *)
Lemma cancel_reg_recv f x s :
  Inv s -> getF f s = Some x -> f_reg x = true -> f_recv x = true ->
  Inv (cancel_reg f x s) /\ cancel_post f x (cancel_reg f x s).
Proof.
  intros (HD & HW & HK) Hg Hreg Hrecv. unfold cancel_reg. rewrite Hreg, Hrecv. fold (unreg x).
  set (sb := with_arq (unlink f (arq (setF f (unreg x) s))) (setF f (unreg x) s)).
  destruct (unreg_fields x) as (U1 & U2 & U3 & U4 & U5 & U6).
  assert (Hnq : ~ In f (akeys (arq sb))) by apply not_unlinked.
  destruct (Inv_unreg [] [] f x (unreg x) s sb HD HW Hg) as [HDb HWb]; try reflexivity; try assumption.
  { rewrite U3. auto. }
  { apply cell_same; assumption. }
  { rewrite Hrecv. split; [apply qupd_unlink, (w_arq_nd s HW) | reflexivity]. }
  { intros _ Hi. destruct (Hnq Hi). }
  { congruence. }
  assert (Pb : cancel_post f x sb) by (exists (unreg x); repeat split; auto; apply aget_aset_same).
  destruct (cnt4 f x (unreg x) s sb (w_fnd s HW) Hg eq_refl) as (C1 & C2 & C3 & C4).
  ev_preds C1. ev_preds C2. ev_preds C3. ev_preds C4.
  destruct (is_success (f_state x)) eqn:Es; cbn [b2n] in C1, C2.
  - rewrite (success_not_waiting _ Es) in C1. cbn [b2n] in C1. change (fx sb) with (fx s).
    destruct (fx12 (fx s)) eqn:E12.
    + change (q sb) with (q s). destruct (q s) as [|v0 t0] eqn:Eq.
      * split; [|exact Pb]. split; [exact HDb | split; [exact HWb|]]. apply (InvK_shift s sb HK eq_refl).
        -- intros _ _ _. right. unfold nq. change (q sb) with (q s). rewrite Eq. apply Nat.le_0_l.
        -- rewrite C3, C4. auto.
      * rewrite wake_one_recv_is.
        destruct (wake_one_spec true [] sb HDb HWb) as (D2 & W2 & _ & _ & b & Hb & R1 & R2 & R3).
        pose proof (wake_one_frame true sb) as F.
        split; [|destruct Pb as (x' & G & P); exists x'; rewrite (wake_one_getF true sb f Hnq); auto].
        split; [exact D2 | split; [exact W2|]].
        destruct F as (F1&_&F3&F4&F5&_&F7&_&_&_&_&_&_&F14&_).
        apply (InvK_shift s _ HK); [rewrite F1, F4, F5, F7, F14; reflexivity | |].
        -- intros T1 _ K2. unfold nq. rewrite F3. change (length (q sb)) with (nq s). change (tn sb) with (tn s) in R3.
           clear - K2 C1 C2 Hb R1 R2 R3 T1. destruct b as [|[|b]]; [specialize (R3 eq_refl T1) | |]; lia.
        -- destruct (wake_one_spec true [] sb HDb HWb) as (_ & _ & S1 & S2 & _).
           unfold nq. rewrite F3, S1, S2, C3, C4. change (length (q sb)) with (nq s). auto.
    + (* the wake is not passed on: the F-12 event *)
      split; [|exact Pb]. unfold taint. split; [revert HDb; apply InvD_ext; reflexivity|]. split.
      * apply InvW_with_tn; [exact HWb | apply tle_set_t12 | apply ok_set_t12; [apply (w_taint s HW) | exact E12]].
      * destruct HK as [K1 _ _]. apply InvK_intro; [exact K1 | discriminate..].
  - split; [|exact Pb]. split; [exact HDb | split; [exact HWb|]]. apply (InvK_shift s sb HK eq_refl).
    + intros _ _ K2. change (nq sb) with (nq s). clear - K2 C1 C2. lia.
    + rewrite C3, C4. auto.
Qed.

Lemma cancel_reg_send f x s :
  Inv s -> getF f s = Some x -> f_reg x = true -> f_recv x = false ->
  Inv (cancel_reg f x s) /\ cancel_post f x (cancel_reg f x s).
Proof.
  intros (HD & HW & HK) Hg Hreg Hrecv. unfold cancel_reg. rewrite Hreg, Hrecv. fold (unreg x).
  set (sb := with_asq (unlink f (asq (setF f (unreg x) s))) (setF f (unreg x) s)).
  destruct (unreg_fields x) as (U1 & U2 & U3 & U4 & U5 & U6).
  assert (Hnq : ~ In f (akeys (asq sb))) by apply not_unlinked.
  destruct (Inv_unreg [] [] f x (unreg x) s sb HD HW Hg) as [HDb HWb]; try reflexivity; try assumption.
  { rewrite U3. auto. }
  { apply cell_same; assumption. }
  { rewrite Hrecv. split; [apply qupd_unlink, (w_asq_nd s HW) | reflexivity]. }
  { congruence. }
  { intros _. exact Hnq. }
  assert (Pb : cancel_post f x sb) by (exists (unreg x); repeat split; auto; apply aget_aset_same).
  destruct (cnt4 f x (unreg x) s sb (w_fnd s HW) Hg eq_refl) as (C1 & C2 & C3 & C4).
  ev_preds C1. ev_preds C2. ev_preds C3. ev_preds C4.
  pose proof (d_cap _ _ HD) as Hcap.
  destruct (is_success (f_state x)) eqn:Es; cbn [b2n] in C3, C4.
  - rewrite (success_not_waiting _ Es) in C3. cbn [b2n] in C3. change (fx sb) with (fx s).
    destruct (fx12 (fx s)) eqn:E12.
    + destruct (is_full sb) eqn:Ef.
      * assert (Efull : nq s = ncap s) by (apply (is_full_spec s Hcap); exact Ef).
        split; [|exact Pb]. split; [exact HDb | split; [exact HWb|]]. apply (InvK_shift s sb HK eq_refl).
        -- rewrite C1, C2. auto.
        -- intros _ _. right. change (nq sb) with (nq s). clear - Efull. lia.
      * rewrite wake_one_send_is.
        destruct (wake_one_spec false [] sb HDb HWb) as (D2 & W2 & S1 & S2 & b & Hb & R1 & R2 & R3).
        pose proof (wake_one_frame false sb) as F.
        split; [|destruct Pb as (x' & G & P); exists x'; rewrite (wake_one_getF false sb f Hnq); auto].
        split; [exact D2 | split; [exact W2|]].
        destruct F as (F1&_&F3&F4&F5&_&F7&_&_&_&_&_&_&F14&_).
        apply (InvK_shift s _ HK); [rewrite F1, F4, F5, F7, F14; reflexivity | |].
        -- unfold nq. rewrite F3, S1, S2, C1, C2. change (length (q sb)) with (nq s). auto.
        -- intros _ K3. unfold nq. rewrite F3. change (length (q sb)) with (nq s).
           clear - K3 C3 C4 Hb R1 R2 R3. destruct b as [|[|b]]; [specialize (R3 eq_refl) | |]; lia.
    + split; [|exact Pb]. unfold taint. split; [revert HDb; apply InvD_ext; reflexivity|]. split.
      * apply InvW_with_tn; [exact HWb | apply tle_set_t12 | apply ok_set_t12; [apply (w_taint s HW) | exact E12]].
      * destruct HK as [K1 _ _]. apply InvK_intro; [exact K1 | discriminate..].
  - split; [|exact Pb]. split; [exact HDb | split; [exact HWb|]]. apply (InvK_shift s sb HK eq_refl).
    + rewrite C1, C2. auto.
    + intros _ K3. change (nq sb) with (nq s). clear - K3 C3 C4. lia.
Qed.

Lemma cancel_reg_inv f x s :
  Inv s -> getF f s = Some x ->
  Inv (cancel_reg f x s) /\ cancel_post f x (cancel_reg f x s).
Proof.
  intros H Hg. destruct (f_reg x) eqn:Hreg.
  - destruct (f_recv x) eqn:Hrecv; [apply cancel_reg_recv | apply cancel_reg_send]; assumption.
  - unfold cancel_reg. rewrite Hreg. split; [exact H|]. exists x. auto 10.
Qed.

Lemma step_dropf s f : Inv s -> Inv (fst (step s (DropF f))).
Proof.
  intros H0. step_intro H0 s1.
  destruct (getF f s1) as [x|] eqn:Hg; [|exact H0].
  destruct (f_live x) eqn:Hl; cbn [negb]; [|exact H0].
  destruct (cancel_reg_inv f x s1 H0 Hg) as [H2 (x2 & G2 & R2 & L2 & I2 & Rv2 & Hh2 & D2)].
  set (s2 := cancel_reg f x s1) in *. rewrite G2. cbn [ret fst].
  (* the item, if any, leaves the future's cell and is destroyed *)
  destruct (f_item x) as [v|] eqn:Ei.
  - apply InvH_destroy. apply (InvH_rewrite [] [v] f x2 (set_dead x2) s2 H2 G2 R2); try reflexivity; auto; [discriminate|].
    intros u. unfold cellp. cbn [f_live f_item set_dead andb occ b2n]. rewrite L2, I2, Hl. cbn [andb].
    destruct (u =? v); reflexivity.
  - apply (InvH_rewrite [] [] f x2 (set_dead x2) s2 H2 G2 R2); try reflexivity; auto; [discriminate|].
    intros u. unfold cellp. cbn [f_live f_item set_dead andb]. rewrite I2, andb_false_r. reflexivity.
Qed.

Lemma not_in_arq_send s f x : InvW s -> getF f s = Some x -> f_recv x = false -> ~ In f (akeys (arq s)).
Proof. intros HW Hg Hr Hi. apply akeys_In in Hi. destruct Hi as [w Hi]. destruct (w_arq_k s HW f w Hi) as (z & Hz & Hrz). congruence. Qed.

Lemma not_in_asq_recv s f x : InvW s -> getF f s = Some x -> f_recv x = true -> ~ In f (akeys (asq s)).
Proof. intros HW Hg Hr Hi. apply akeys_In in Hi. destruct Hi as [w Hi]. destruct (w_asq_k s HW f w Hi) as (z & Hz & Hrz & _). congruence. Qed.

(* x0 is unregistered, or was woken with SUCCESS_SPACE and its entry is already unlinked.  In the second case the
   wake x0 had consumed is not counted any more once the item is taken: the accounting is one short until
   the item is pushed, the buffer is seen full, or the channel is seen closed. *)
Lemma send_try_inv f w x0 s :
  Inv s -> getF f s = Some x0 -> f_recv x0 = false -> f_live x0 = true -> f_done x0 = false ->
  (f_reg x0 = true -> is_success (f_state x0) = true) ->
  ~ In f (akeys (asq s)) ->
  Inv (fst (send_try f w (set_reg false x0) s)).
Proof.
  intros H Hg Hrv Hl Hd Hsucc Hnq. pose proof H as (HD & HW & HK).
  set (x := set_reg false x0). unfold send_try. change (f_item x) with (f_item x0).
  destruct (f_item x0) as [v|] eqn:Ei.
  2:{ (* no item: only an unregistered future can be in that state *)
      assert (Hr0 : f_reg x0 = false).
      { destruct (f_reg x0) eqn:E; [|reflexivity]. destruct (w_item s HW f x0 Hg Hrv E Ei). }
      apply (InvH_rewrite [] [] f x0 (set_done x) s H Hg Hr0); try reflexivity; auto. }
  set (x1 := set_item None x). set (s0 := setF f x1 s).
  destruct (Inv_unreg [] [v] f x0 x1 s s0 HD HW Hg) as [HD0 HW0]; try reflexivity; auto.
  { intros u. unfold cellp. cbn [f_live f_item x1 x set_item set_reg]. rewrite Hl, Ei, andb_false_r. cbn.
    destruct (u =? v); reflexivity. }
  { rewrite Hrv. split; [apply qupd_same, (w_asq_nd s HW) | reflexivity]. }
  { congruence. }
  assert (G0 : getF f s0 = Some x1) by apply aget_aset_same.
  destruct (cnt4 f x0 x1 s s0 (w_fnd s HW) Hg eq_refl) as (C1 & C2 & C3 & C4).
  assert (Hnw : is_waiting (f_state x0) = false \/ f_reg x0 = false).
  { destruct (f_reg x0); [left; apply success_not_waiting, Hsucc; reflexivity | right; reflexivity]. }
  assert (Q3 : pw_s x0 = false) by (unfold pw_s; destruct Hnw as [-> | ->]; rewrite ?andb_false_r; reflexivity).
  ev_preds C1. ev_preds C2. rewrite Q3 in C3. ev_preds C3. ev_preds C4.
  pose proof (try_send_core_spec v s0 HD0 HW0) as Hs.
  destruct (try_send_core v s0) as [s1 [| |]]; cbn [fst].
  - (* accepted *)
    destruct Hs as (HD1 & HW1 & Hrc & Hlt & Hq1 & _ & _ & Fr & _ & (Es1 & Es2 & b & Hb & Er1 & Er2 & Er3) & Hkeep).
    destruct Fr as (Fcap & _ & Fsc & Frc & Fhs & _ & _ & _ & _ & Ftn & _).
    assert (H1 : Inv s1).
    { split; [exact HD1 | split; [exact HW1|]]. apply (InvK_shift s s1 HK); [rewrite Fcap, Fsc, Frc, Fhs, Ftn; reflexivity | |]; unfold nq; rewrite Hq1, app_length; cbn [length].
      - intros T1 _ K2. change (tn s0) with (tn s) in Er3. change (q s0) with (q s).
        clear - K2 C1 C2 Hb Er1 Er2 Er3 T1. destruct b as [|[|b]]; [specialize (Er3 eq_refl T1) | |]; lia.
      - intros _ K3. change (q s0) with (q s). clear - K3 C3 C4 Es1 Es2.
        destruct (f_reg x0 && is_success (f_state x0)); cbn [b2n] in C4; lia. }
    apply (InvH_rewrite [] [] f x1 _ s1 H1); try reflexivity; auto.
    rewrite Hkeep; [exact G0 | apply (not_in_arq_send s0 f x1 HW0 G0 Hrv)].
  - (* full: put the item back and park *)
    destruct Hs as (-> & Hrc & Hfull). change (nq s0) with (nq s) in Hfull. change (ncap s0) with (ncap s) in Hfull.
    set (xw := set_reg true (set_state Waiting x)). set (s2 := with_asq (asq s0 ++ [(f, w)]) (setF f xw s0)).
    split; [|split].
    + apply (InvD_upd [v] [] f x1 xw s0 s2 HD0 (w_fnd s0 HW0) G0); try reflexivity.
      intros u. unfold cellp. cbn [f_live f_item xw x1 x set_item set_reg set_state]. rewrite Hl, Ei, andb_false_r. cbn.
      destruct (u =? v); reflexivity.
    + apply (InvW_upd f x1 xw s0 s2 HW0 G0); try reflexivity.
      * cbn. auto.
      * cbn. rewrite Ei. repeat split; auto. discriminate.
      * change (f_recv x1) with (f_recv x0). rewrite Hrv. split; [|reflexivity]. apply qupd_push; [apply (w_asq_nd s0 HW0) | exact Hnq].
      * intros _ _. change (f_recv x1) with (f_recv x0). rewrite Hrv. subst s2. st_simpl. rewrite akeys_app. apply in_or_app. right. left. reflexivity.
      * change (f_recv x1) with (f_recv x0). congruence.
      * intros _ _. split; [reflexivity|]. intros E. destruct (Hrc E).
    + destruct (cnt4 f x1 xw s0 s2 (w_fnd s0 HW0) G0 eq_refl) as (E1 & E2 & E3 & E4).
      unfold xw, x1, x in E1, E2, E3, E4. ev_preds E1. ev_preds E2. ev_preds E3. ev_preds E4.
      apply (InvK_shift s s2 HK eq_refl); change (nq s2) with (nq s).
      * intros _ _ K2. clear - K2 C1 C2 E1 E2. lia.
      * intros _ _. right. clear - Hfull. lia.
  - (* all receivers gone: put the item back, fail *)
    destruct Hs as (-> & Hrc).
    assert (H1 : InvH [v] s0).
    { split; [exact HD0 | split; [exact HW0|]]. apply (InvK_shift s s0 HK eq_refl); change (nq s0) with (nq s).
      - rewrite C1, C2. auto.
      - intros _ _. left. apply (no_waiting false); [exact HW0 | apply (w_rc0 s0 HW0 Hrc)]. }
    apply (InvH_rewrite [v] [] f x1 _ s0 H1 G0); try reflexivity; auto.
    intros u. unfold cellp. cbn [f_live f_item x1 x set_item set_reg set_done]. rewrite Hl, Ei, andb_false_r. cbn.
    destruct (u =? v); reflexivity.
Qed.

Lemma set_reg_same x : f_reg x = false -> set_reg false x = x.
Proof. destruct x. cbn. intros ->. reflexivity. Qed.

Lemma poll_send_inv f w x s :
  Inv s -> getF f s = Some x -> f_recv x = false -> f_live x = true -> f_done x = false ->
  Inv (fst (poll_send f w x s)).
Proof.
  intros H Hg Hrv Hl Hd. unfold poll_send. pose proof H as (HD & HW & HK).
  destruct (f_reg x) eqn:Hreg.
  2:{ rewrite <- (set_reg_same x Hreg). apply send_try_inv; try assumption; [congruence|].
      intros Hi. apply akeys_In in Hi. destruct Hi as [w1 Hi]. destruct (w_asq_k s HW f w1 Hi) as (z & Hz & _ & Hrz). congruence. }
  rewrite (remove_first_unlink f (asq s) (w_asq_nd s HW)).
  (* still parked (CANCELLED is never seen by a live future; the code treats it like WAITING): refresh the waker *)
  assert (Hpark : Inv (fst (if queued f (asq s) then (with_asq (set_waker f w (asq s)) s, RPending) else (wake w s, RPending)))).
  { destruct (queued f (asq s)); cbn [fst]; [|apply InvH_wake, H].
    apply (InvH_queues [] s); try reflexivity; st_simpl; try apply HW; auto; rewrite set_waker_keys; auto. apply (w_asq_nd s HW). }
  destruct (f_state x) eqn:Est; try exact Hpark.
  - (* CLOSED-woken *)
    cbn [fst]. set (xd := set_done (set_reg false x)). set (s2 := with_asq (unlink f (asq s)) (setF f xd s)).
    destruct (Inv_unreg [] [] f x xd s s2 HD HW Hg) as [D2 W2]; try reflexivity; auto.
    { rewrite Hrv. split; [apply qupd_unlink, (w_asq_nd s HW) | reflexivity]. }
    { congruence. }
    { intros _. apply not_unlinked. }
    split; [exact D2 | split; [exact W2|]].
    destruct (cnt4_same f x xd s s2 (w_fnd s HW) Hg eq_refl) as (E1 & E2 & E3 & E4).
    { unfold pw_r, pi_r, pw_s, pi_s, xd. cbn [f_recv f_reg f_state set_done set_reg]. rewrite Est, Hrv, Hreg. reflexivity. }
    apply (InvK_shift s s2 HK eq_refl); change (nq s2) with (nq s); rewrite ?E1, ?E2, ?E3, ?E4; auto.
  - (* woken with SUCCESS_SPACE: unlink (the non-last-receiver nudge leaves the entry), then retry *)
    apply send_try_inv; try assumption; [ | rewrite Est; reflexivity | apply not_unlinked].
    apply (InvH_queues [] s); try reflexivity; st_simpl; try apply HW; auto.
    + apply unlink_NoDup, (w_asq_nd s HW).
    + intros f1 Hi. apply unlink_keys in Hi. tauto.
    + intros f1 Hi. destruct (N.eq_dec f1 f) as [->|Hne]; [right | left; apply unlink_keys; auto].
      intros y Hy. rewrite Hg in Hy. injection Hy as <-. rewrite Est. reflexivity.
Qed.

(* The completion step of recv_try (its local [finish]), from the state s1 the core call left: f's record there
   is still x0.  s is the state before the core call; if x0 had consumed a wake, either the buffer is empty or the
   call popped the item that wake stood for. *)
Lemma recv_finish f x0 (wq : bool) s s1 :
  InvK s -> InvD [] s1 -> InvW s1 -> getF f s1 = Some x0 -> f_recv x0 = true ->
  (if wq then is_success (f_state x0) = false else ~ In f (akeys (arq s1))) ->
  (cap s1, sc s1, rc s1, hs s1, tn s1) = (cap s, sc s, rc s, hs s, tn s) ->
  cnt pw_r (fs s1) = cnt pw_r (fs s) -> cnt pi_r (fs s1) = cnt pi_r (fs s) ->
  (t12 (tn s) = false -> cnt pw_s (fs s1) = 0%nat \/ (ncap s <= nq s1 + cnt pi_s (fs s1))%nat) ->
  ((nq s1 + b2n (f_reg x0 && is_success (f_state x0)) <= nq s)%nat \/ nq s1 = 0%nat) ->
  Inv (let s2 := setF f (set_done (set_reg false x0)) s1 in
       if wq then if fx06 (fx s2) then with_arq (unlink f (arq s2)) s2 else taint set_t06 (queued f (arq s2)) s2
       else s2).
Proof.
  intros HK HD1 HW1 G1 Hrv Hwq E Er Ei Hks Hlen. cbv zeta.
  set (xd := set_done (set_reg false x0)).
  (* the counters after the record change, whatever the queue and the taints become *)
  assert (HKf : forall s2, fs s2 = aset f xd (fs s1) -> (cap s2, q s2, sc s2, rc s2, hs s2) = (cap s1, q s1, sc s1, rc s1, hs s1) ->
            tn s2 = tn s1 \/ (tn s2 = set_t06 (tn s1)) -> InvK s2).
  { intros s2 Ef E2 Et. injection E2 as Ec Eq Esc Erc Ehs. injection E as Ec1 Esc1 Erc1 Ehs1 Etn1.
    destruct (cnt4 f x0 xd s1 s2 (w_fnd s1 HW1) G1 Ef) as (C1 & C2 & C3 & C4).
    unfold xd in C1, C2, C3, C4. ev_preds C1. ev_preds C2. ev_preds C3. ev_preds C4.
    assert (En : nq s2 = nq s1) by (unfold nq; rewrite Eq; reflexivity).
    pose proof HK as [K1 K2 K3]. fold (nq s) in K2.
    apply InvK_intro; unfold ncap; rewrite ?En, ?Ec, ?Ec1, ?Ehs, ?Ehs1, ?Esc, ?Esc1, ?Erc, ?Erc1, ?C3, ?C4; fold (ncap s).
    - destruct Et as [-> | ->]; rewrite ?Etn1; exact K1.
    - destruct Et as [-> | ->]; [|discriminate]. rewrite Etn1. intros T1 T2. specialize (K2 T1 T2).
      clear - K2 C1 C2 Er Ei Hlen. destruct (f_reg x0 && is_waiting (f_state x0)), (f_reg x0 && is_success (f_state x0)); cbn [b2n] in *; lia.
    - destruct Et as [-> | ->]; rewrite ?Etn1; exact Hks. }
  assert (Hunq : ~ In f (akeys (arq s1)) -> Inv (setF f xd s1)).
  { intros Hnq. destruct (Inv_unreg [] [] f x0 xd s1 (setF f xd s1) HD1 HW1 G1) as [D2 W2]; try reflexivity; auto.
    - rewrite Hrv. split; [apply qupd_same, (w_arq_nd s1 HW1) | reflexivity].
    - intros _ Hi. destruct (Hnq Hi).
    - congruence.
    - split; [exact D2 | split; [exact W2 | apply HKf; auto]]. }
  destruct wq; [|exact (Hunq Hwq)]. change (fx (setF f xd s1)) with (fx s1). change (arq (setF f xd s1)) with (arq s1).
  destruct (fx06 (fx s1)) eqn:E6.
  - (* repaired: the entry is unlinked with the completion *)
    destruct (Inv_unreg [] [] f x0 xd s1 (with_arq (unlink f (arq s1)) (setF f xd s1)) HD1 HW1 G1) as [D2 W2]; try reflexivity; auto.
    + rewrite Hrv. split; [apply qupd_unlink, (w_arq_nd s1 HW1) | reflexivity].
    + intros _ Hi. destruct (not_unlinked f _ Hi).
    + congruence.
    + split; [exact D2 | split; [exact W2 | apply HKf; auto]].
  - destruct (queued f (arq s1)) eqn:Eq; [|apply Hunq, queued_false, Eq].
    (* the entry stays behind: the F-06 event *)
    unfold taint. set (s' := with_tn (set_t06 (tn s1)) s1).
    assert (HW' : InvW s').
    { apply InvW_with_tn; [exact HW1 | apply tle_set_t06 | apply ok_set_t06; [apply (w_taint s1 HW1) | exact E6]]. }
    destruct (Inv_unreg [] [] f x0 xd s' (with_tn (set_t06 (tn s1)) (setF f xd s1)) (InvD_ext [] s1 s' eq_refl HD1) HW' G1) as [D2 W2];
      try reflexivity; auto.
    + rewrite Hrv. split; [apply qupd_same, (w_arq_nd s1 HW1) | reflexivity].
    + intros _ Hi. split; [exact Hi|]. repeat split. discriminate.
    + congruence.
    + split; [exact D2 | split; [exact W2 | apply HKf; auto]].
Qed.

(* registering the waiter (f, w): poll_recv_internal's `push_back`; the buffer is empty *)
Lemma recv_park f w x0 xw s :
  Inv s -> getF f s = Some x0 -> f_recv x0 = true -> f_live x0 = true -> f_done x0 = false ->
  ~ In f (akeys (arq s)) -> sc s <> 0 -> q s = [] ->
  xw = set_reg true (set_state Waiting x0) ->
  Inv (with_arq (arq s ++ [(f, w)]) (setF f xw s)).
Proof.
  intros (HD & HW & HK) Hg Hrv Hl Hd Hnq Hsc Hq ->. set (xw := set_reg true (set_state Waiting x0)).
  set (s2 := with_arq (arq s ++ [(f, w)]) (setF f xw s)). split; [|split].
  - apply (InvD_upd [] [] f x0 xw s s2 HD (w_fnd s HW) Hg); reflexivity.
  - apply (InvW_upd f x0 xw s s2 HW Hg); try reflexivity.
    + cbn. auto.
    + cbn. repeat split; auto. congruence.
    + rewrite Hrv. split; [apply qupd_push; [apply (w_arq_nd s HW) | exact Hnq] | reflexivity].
    + intros _ _. rewrite Hrv. subst s2. st_simpl. rewrite akeys_app. apply in_or_app. right. left. reflexivity.
    + intros _ _. cbn. repeat split; auto. intros E. destruct (Hsc E).
    + congruence.
  - destruct (cnt4 f x0 xw s s2 (w_fnd s HW) Hg eq_refl) as (_ & _ & C3 & C4).
    unfold xw in C3, C4. ev_preds C3. ev_preds C4.
    apply (InvK_shift s s2 HK eq_refl); change (nq s2) with (nq s).
    + intros _ _ _. right. unfold nq. rewrite Hq. apply Nat.le_0_l.
    + rewrite C3, C4. auto.
Qed.

(* recv_try on the stored record x0: either its entry may still be queued ([wq], x0 registered and not
   SUCCESS), or it has none (fresh, woken, or CLOSED-woken and unlinked) and the record is passed unregistered *)
Lemma recv_try_inv f w (wq : bool) x0 s :
  Inv s -> getF f s = Some x0 -> f_recv x0 = true -> f_live x0 = true -> f_done x0 = false ->
  (if wq then f_reg x0 = true /\ is_success (f_state x0) = false
   else (f_reg x0 = true -> is_waiting (f_state x0) = false) /\ ~ In f (akeys (arq s))) ->
  Inv (fst (recv_try f w wq (if wq then x0 else set_reg false x0) s)).
Proof.
  intros H Hg Hrv Hl Hd Hwq. pose proof H as (HD & HW & HK).
  set (x := if wq then x0 else set_reg false x0).
  assert (Ex : set_done (set_reg false x) = set_done (set_reg false x0) /\
               set_reg true (set_state Waiting x) = set_reg true (set_state Waiting x0)) by (subst x; destruct wq; auto).
  destruct Ex as [Exd Exw].
  unfold recv_try. rewrite Exd, Exw.
  pose proof (try_recv_core_spec [] s HD HW) as Hs.
  destruct (try_recv_core s) as [s1 [v| |]]; cbn [fst].
  - destruct Hs as (HD1 & HW1 & Hq & _ & Fr & Harq & _ & (Er1 & Er2 & Es) & Hkeep).
    destruct Fr as (Fcap & _ & Fsc & Frc & Fhs & _ & _ & _ & _ & Ftn & _).
    assert (Hlen : nq s = (nq s1 + 1)%nat) by (unfold nq; rewrite Hq; cbn [length]; lia).
    apply (recv_finish f x0 wq s s1 HK HD1 HW1); try assumption.
    + rewrite Hkeep; [exact Hg | apply (not_in_asq_recv s f x0 HW Hg Hrv)].
    + destruct wq; [apply Hwq | rewrite Harq; apply Hwq].
    + congruence.
    + intros T. pose proof (InvK_pop s s1 HK) as K1. destruct K1 as [_ _ K3]; [congruence | exact (conj Er1 (conj Er2 Es)) | exact Hlen |].
      unfold ncap in *. rewrite Ftn, Fcap in K3. exact (K3 T).
    + left. rewrite Hlen. destruct (f_reg x0 && is_success (f_state x0)); cbn [b2n]; lia.
  - destruct Hs as (-> & Hq & Hsc).
    destruct (queued f (arq s)) eqn:Eq; cbn [fst].
    + (* still parked: refresh the waker *)
      destruct wq; [|apply queued_In in Eq; destruct (proj2 Hwq Eq)]. destruct Hwq as [Hreg Hns]. apply queued_In in Eq.
      set (xw := set_reg true x). set (s2 := with_arq (set_waker f w (arq s)) (setF f xw s)).
      destruct (akeys_In _ _ Eq) as [w0 Hi0]. destruct (w_arq_st s HW f w0 x0 Hi0 Hg) as [A B].
      split; [|split].
      * apply (InvD_upd [] [] f x0 xw s s2 HD (w_fnd s HW) Hg); reflexivity.
      * apply (InvW_upd f x0 xw s s2 HW Hg); try reflexivity.
        -- cbn. auto.
        -- cbn. repeat split; auto. congruence.
        -- rewrite Hrv. split; [apply qupd_set_waker, (w_arq_nd s HW) | reflexivity].
        -- intros _ _. rewrite Hrv. subst s2. st_simpl. rewrite set_waker_keys. exact Eq.
        -- intros _ _. cbn. repeat split; auto. intros Hs0. apply (w_sc0 s HW Hs0 f w0 x0 Hi0 Hg).
        -- congruence.
      * destruct (cnt4_same f x0 xw s s2 (w_fnd s HW) Hg eq_refl) as (E1 & E2 & E3 & E4).
        { unfold pw_r, pi_r, pw_s, pi_s, xw, x. cbn [f_recv f_reg f_state set_reg]. rewrite Hreg. reflexivity. }
        apply (InvK_shift s s2 HK eq_refl); change (nq s2) with (nq s); rewrite ?E1, ?E2, ?E3, ?E4; auto.
    + apply (recv_park f w x0 _ s H Hg Hrv Hl Hd); auto. apply queued_false, Eq.
  - destruct Hs as (-> & Hq & Hsc).
    apply (recv_finish f x0 wq s s HK HD HW Hg Hrv); try reflexivity.
    + destruct wq; apply Hwq.
    + intros T. apply (k_s s HK T).
    + right. unfold nq. rewrite Hq. reflexivity.
Qed.

Lemma poll_recv_inv f w x s :
  Inv s -> getF f s = Some x -> f_recv x = true -> f_live x = true -> f_done x = false ->
  Inv (fst (poll_recv f w x s)).
Proof.
  intros H Hg Hrv Hl Hd. unfold poll_recv. pose proof H as (HD & HW & HK).
  assert (Hst : forall w1, In (f, w1) (arq s) -> is_success (f_state x) = false /\ f_reg x = true)
    by (intros w1 Hi; destruct (w_arq_st s HW f w1 x Hi Hg); auto).
  destruct (f_reg x) eqn:Hreg.
  2:{ rewrite <- (set_reg_same x Hreg). apply (recv_try_inv f w false); try assumption. split; [congruence|].
      intros Hi. apply akeys_In in Hi. destruct Hi as [w1 Hi]. destruct (Hst w1 Hi). discriminate. }
  destruct (f_state x) eqn:Est.
  - apply (recv_try_inv f w true); try assumption. rewrite Est. auto.
  - (* CLOSED-woken: unlink, then (repaired) re-drain or (as is) report Disconnected *)
    set (s1 := with_arq (unlink f (arq s)) s).
    assert (H1 : Inv s1).
    { apply (InvH_queues [] s); try reflexivity; subst s1; st_simpl; try apply HW; auto.
      + apply unlink_NoDup, (w_arq_nd s HW).
      + intros f1 Hi. apply unlink_keys in Hi. tauto.
      + intros f1 Hi. destruct (N.eq_dec f1 f) as [->|Hne]; [right | left; apply unlink_keys; auto].
        intros y Hy. rewrite Hg in Hy. injection Hy as <-. rewrite Est. reflexivity. }
    assert (Hnq1 : ~ In f (akeys (arq s1))) by apply not_unlinked.
    destruct (fx08 (fx s1)) eqn:E8.
    + apply (recv_try_inv f w false); try assumption. split; [rewrite Est; reflexivity | exact Hnq1].
    + cbn [fst]. set (b := negb (lenq s1 =? 0)).
      assert (H2 : Inv (taint set_t08 b s1)).
      { apply InvH_taint; [exact H1 | apply tle_set_t08 |].
        intros _. apply ok_set_t08; [apply (w_taint s1 (proj1 (proj2 H1))) | exact E8]. }
      set (s2 := taint set_t08 b s1) in *.
      assert (E2 : fs s2 = fs s1 /\ arq s2 = arq s1) by (subst s2; unfold taint; destruct b; auto).
      destruct E2 as [Ef Ea]. destruct H2 as (HD2 & HW2 & HK2).
      apply (recv_finish f x false s2 s2 HK2 HD2 HW2); try reflexivity; auto.
      * unfold getF. rewrite Ef. exact Hg.
      * rewrite Ea. exact Hnq1.
      * intros T. apply (k_s s2 HK2 T).
      * left. rewrite Hreg, Est. cbn. apply Nat.eq_le_incl, Nat.add_0_r.
  - (* woken: the waiter entry was removed by the waker *)
    apply (recv_try_inv f w false); try assumption. split; [rewrite Est; reflexivity|].
    intros Hi. apply akeys_In in Hi. destruct Hi as [w1 Hi]. destruct (Hst w1 Hi) as [A _]. discriminate A.
  - apply (recv_try_inv f w true); try assumption. rewrite Est. auto.
Qed.

Lemma step_poll s f w : Inv s -> Inv (fst (step s (Poll f w))).
Proof.
  intros H0. step_intro H0 s1.
  destruct (getF f s1) as [x|] eqn:Hg; [|exact H0].
  destruct (f_live x) eqn:Hl; cbn [negb]; [|exact H0].
  destruct (f_done x) eqn:Hd; [exact H0|].
  destruct (handle_closed (f_h x) s1 && fx03f (fx s1)) eqn:Ec.
  - (* repaired: a poll on a closed handle fails, cancelling the registration as Drop does *)
    destruct (cancel_reg_inv f x s1 H0 Hg) as [H2 (x2 & G2 & R2 & _)].
    rewrite G2. cbn [ret fst]. apply (InvH_rewrite [] [] f x2 (set_done x2) _ H2 G2 R2); auto.
  - assert (Ht : Inv (taint set_t03f (handle_closed (f_h x) s1) s1)).
    { apply InvH_taint; [exact H0 | apply tle_set_t03f |].
      intros E. apply ok_set_t03f; [apply (w_taint s1 (proj1 (proj2 H0)))|]. rewrite E in Ec. exact Ec. }
    set (s2 := taint set_t03f (handle_closed (f_h x) s1) s1) in *.
    assert (G2 : getF f s2 = Some x) by (subst s2; unfold taint; destruct (handle_closed (f_h x) s1); exact Hg).
    destruct (f_recv x) eqn:Hrv.
    + pose proof (poll_recv_inv f w x s2 Ht G2 Hrv Hl Hd) as A.
      destruct (poll_recv f w x s2) as [s3 r]. exact A.
    + pose proof (poll_send_inv f w x s2 Ht G2 Hrv Hl Hd) as A.
      destruct (poll_send f w x s2) as [s3 r]. exact A.
Qed.

Lemma skip_nw_keys g l f : In f (akeys (skip_nw g l)) -> In f (akeys l).
Proof.
  unfold akeys. induction l as [|[f1 w] t IH]; cbn [skip_nw map fst In]; intros H; [exact H|].
  destruct (g f1) as [x|]; [destruct (is_waiting (f_state x)); [exact H|]|]; right; apply IH; exact H.
Qed.

Lemma skip_nw_NoDup g l : NoDup (akeys l) -> NoDup (akeys (skip_nw g l)).
Proof.
  unfold akeys. induction l as [|[f w] t IH]; cbn [skip_nw map fst]; intros H; [constructor|].
  inversion H as [|? ? Hni Hnd]; subst.
  destruct (g f) as [x|]; [destruct (is_waiting (f_state x)); [exact H|]|]; apply IH; exact Hnd.
Qed.

Lemma skip_nw_keeps g l f :
  In f (akeys l) -> In f (akeys (skip_nw g l)) \/ forall x, g f = Some x -> is_waiting (f_state x) = false.
Proof.
  unfold akeys. induction l as [|[f1 w] t IH]; cbn [skip_nw map fst In]; intros H; [contradiction|].
  destruct (g f1) as [x|] eqn:E.
  - destruct (is_waiting (f_state x)) eqn:Ew; [left; exact H|].
    destruct H as [<-|H]; [right; intros y Hy; congruence | apply IH; exact H].
  - destruct H as [<-|H]; [right; intros y Hy; congruence | apply IH; exact H].
Qed.

Lemma InvH_hand_one_recv hand s :
  InvH hand s ->
  InvH hand (hand_one_recv s)
  /\ (t06 (tn s) = false -> t12 (tn s) = false ->
      cnt pw_r (fs (hand_one_recv s)) = 0%nat \/ (nq s + 1 <= cnt pi_r (fs (hand_one_recv s)))%nat)
  /\ frame true s (hand_one_recv s).
Proof.
  intros H. unfold hand_one_recv. pose proof (proj1 (proj2 H)) as HW.
  set (s1 := with_arq (skip_nw (fun f => getF f s) (arq s)) s).
  assert (H1 : InvH hand s1).
  { apply (InvH_queues hand s); try reflexivity; subst s1; st_simpl; try apply HW; auto.
    - apply skip_nw_NoDup, (w_arq_nd s HW).
    - apply skip_nw_keys.
    - apply (skip_nw_keeps (fun f => getF f s)). }
  destruct (InvH_wake_one_recv hand s1 H1) as [A B]. split; [exact A|]. split; [exact B | exact (wake_one_frame true s1)].
Qed.

(* the loop of try_send_batch_core *)
Definition loop_post (vs : list N) (s s' : st) (un : list N) : Prop :=
  exists sent, vs = sent ++ un /\ q s' = q s ++ sent /\ acc s' = acc s ++ sent /\ recvd s' = recvd s
               /\ frame0 s s' /\ asq s' = asq s /\ (un <> [] -> nq s' = ncap s').

Lemma send_loop_inv vs : forall s,
  InvH vs s -> InvH (snd (send_loop vs s)) (fst (send_loop vs s)) /\ loop_post vs s (fst (send_loop vs s)) (snd (send_loop vs s)).
Proof.
  induction vs as [|v r IH]; intros s H; cbn [send_loop].
  - cbn [fst snd]. split; [exact H|]. exists []. unfold frame0. repeat split; try reflexivity; try (rewrite app_nil_r; reflexivity).
    intros E; contradiction.
  - pose proof (d_cap _ _ (proj1 H)) as Hcap.
    destruct (is_full s) eqn:Ef.
    + cbn [fst snd]. split; [exact H|]. exists []. unfold frame0. repeat split; try reflexivity; try (rewrite app_nil_r; reflexivity).
      intros _. apply (is_full_spec s Hcap). exact Ef.
    + pose proof (is_full_false s Hcap Ef) as Hlt.
      destruct (InvH_hand_one_recv (v :: r) s H) as (A & B & Fr).
      destruct Fr as (Fcap & Ffx & Fq & Fsc & Frc & Fasq & Fhs & Fnext & Facc & Frecvd & Fback & Fdropped & Ffreed & Ftn & Fdk).
      cbn [wq negb] in Fasq.
      set (h1 := hand_one_recv s) in *.
      assert (H2 : InvH r (push v h1)).
      { apply InvH_push; [exact A | unfold nq, ncap in *; congruence |].
        unfold nq in *. rewrite Ftn, Fq. exact B. }
      destruct (IH _ H2) as [I1 (sent & E1 & E2 & E3 & E4 & E5 & E6 & E7)].
      split; [exact I1|]. exists (v :: sent).
      destruct E5 as (G1&G2&G3&G4&G5&G6&G7&G8&G9&G10&G11). unfold push in *. st_simpl.
      split; [cbn [app]; f_equal; exact E1|].
      split; [rewrite E2, Fq, <- app_assoc; reflexivity|].
      split; [rewrite E3, Facc, <- app_assoc; reflexivity|].
      split; [rewrite E4; exact Frecvd|].
      split; [unfold frame0; repeat split; congruence|].
      split; [congruence | exact E7].
Qed.

Lemma step_try_send_batch s b h n : Inv s -> Inv (fst (step s (TrySendBatch b h n))).
Proof.
  intros H0. step_intro H0 s1.
  destruct (getH h s1) as [x|]; [|exact H0].
  destruct (h_live x); cbn [negb]; [|exact H0].
  destruct (h_tx x); cbn [negb]; [|exact H0].
  pose proof (InvH_fresh_n (N.to_nat n) s1 H0) as Hf. rewrite N2Nat.id in Hf.
  set (vs := seqN (next s1) (N.to_nat n)) in *. set (s2 := with_next (next s1 + n) s1) in *.
  assert (Hfail : forall cl sent un s3, InvH un s3 ->
            Inv (fst (let s4 := with_back (back s3 ++ un) s3 in
                      if b then (if cl && (sent =? 0) then ret s4 (RMClosed un) else ret s4 (RMOk sent un))
                      else ret s4 (RBErr sent cl un)))).
  { intros cl sent un s3 H3. cbv zeta. destruct b; [destruct (cl && (sent =? 0))|]; cbn [ret fst]; apply InvH_give_back; exact H3. }
  destruct (n =? 0) eqn:En.
  - cbn [ret fst]. apply N.eqb_eq in En. subst n. cbn in Hf. exact Hf.
  - destruct (h_closed x); [apply Hfail; exact Hf|].
    change (rc s2) with (rc s1). destruct (rc s1 =? 0); [apply Hfail; exact Hf|].
    destruct (send_loop_inv vs s2 Hf) as [A _].
    destruct (send_loop vs s2) as [s3 un]. cbn [fst snd] in A.
    destruct un as [|u un']; [destruct b; cbn [ret fst]; exact A|].
    apply Hfail. exact A.
Qed.

(* after up to n wakes: b senders went from parked-unwoken to woken, and fewer than n only if nobody is left parked *)
Lemma wake_senders_spec hand n : forall s,
  InvD hand s -> InvW s ->
  let s' := wake_senders n s in
  InvD hand s' /\ InvW s' /\ frame false s s' /\
  cnt pw_r (fs s') = cnt pw_r (fs s) /\ cnt pi_r (fs s') = cnt pi_r (fs s) /\
  exists b : nat, (b <= n)%nat /\ (cnt pw_s (fs s') + b = cnt pw_s (fs s))%nat
                  /\ (cnt pi_s (fs s') = cnt pi_s (fs s) + b)%nat
                  /\ ((b < n)%nat -> cnt pw_s (fs s') = 0%nat).
Proof.
  induction n as [|n IH]; intros s HD HW; cbn [wake_senders]; cbv zeta.
  - split; [exact HD|]. split; [exact HW|]. split; [unfold frame; repeat split|].
    split; [reflexivity|]. split; [reflexivity|]. exists 0%nat. repeat split; lia.
  - rewrite wake_one_send_is.
    destruct (wake_one_spec false hand s HD HW) as (A & B & E1 & E2 & b1 & Hb1 & E3 & E4 & E5).
    destruct (IH (wake_one false s) A B) as (A2 & B2 & F2 & R1 & R2 & b2 & Hb2 & S1 & S2 & S3). cbv zeta in *.
    split; [exact A2|]. split; [exact B2|].
    split.
    { destruct (wake_one_frame false s) as (G1&G2&G3&G4&G5&G6&G7&G8&G9&G10&G11&G12&G13&G14&G15).
      destruct F2 as (K1&K2&K3&K4&K5&K6&K7&K8&K9&K10&K11&K12&K13&K14&K15).
      unfold frame. repeat split; congruence. }
    split; [congruence|]. split; [congruence|].
    exists (b1 + b2)%nat. split; [lia|]. split; [lia|]. split; [lia|].
    intros Hlt. destruct b1 as [|b1].
    + (* the first attempt found nobody: nobody is waiting, and nobody will be *)
      specialize (E5 eq_refl). lia.
    + apply S3. lia.
Qed.

Lemma occ_firstn_skipn v k (l : list N) : (occ v (firstn k l) + occ v (skipn k l) = occ v l)%nat.
Proof. rewrite <- occ_app. rewrite firstn_skipn. reflexivity. Qed.

Lemma drain_spec hand k s :
  InvD hand s -> InvW s -> InvD hand (drain k s) /\ InvW (drain k s).
Proof.
  intros HD HW. unfold drain. split; [|revert HW; apply InvW_ext; reflexivity].
  destruct HD as [A B C]. constructor; unfold nq, ncap, tot, cells in *; st_simpl.
  - rewrite skipn_length. lia.
  - rewrite B. rewrite <- app_assoc. rewrite firstn_skipn. reflexivity.
  - intros u. specialize (C u). rewrite occ_app. pose proof (occ_firstn_skipn u k (q s)). lia.
Qed.

Lemma step_try_recv_batch s b h m : Inv s -> Inv (fst (step s (TryRecvBatch b h m))).
Proof.
  intros H0. step_intro H0 s1.
  destruct (getH h s1) as [x|]; [|exact H0].
  destruct (h_live x); cbn [negb]; [|exact H0].
  destruct (h_tx x); [exact H0|].
  destruct (m =? 0); [destruct b; exact H0|].
  destruct (h_closed x); [exact H0|].
  destruct (Nat.min (N.to_nat m) (length (q s1))) as [|k'] eqn:Ek; [destruct (sc s1 =? 0); exact H0|].
  set (k := S k') in *. cbn [ret fst]. cbv zeta.
  destruct H0 as (HD & HW & HK).
  destruct (drain_spec [] k s1 HD HW) as [HD1 HW1].
  destruct (wake_senders_spec [] (N.to_nat m) (drain k s1) HD1 HW1) as (HD2 & HW2 & Fr & R1 & R2 & bb & Hb & S1 & S2 & S3).
  cbv zeta in *. set (s3 := wake_senders (N.to_nat m) (drain k s1)) in *.
  destruct Fr as (Fcap & _ & Fq & Fsc & Frc & _ & Fhs & _ & _ & _ & _ & _ & _ & Ftn & _).
  split; [exact HD2 | split; [exact HW2|]].
  assert (Hk : (k <= N.to_nat m)%nat /\ (k <= nq s1)%nat) by (unfold nq; subst k; clear - Ek; lia).
  assert (Hq3 : nq s3 = (nq s1 - k)%nat) by (unfold nq; rewrite Fq; apply skipn_length).
  change (fs (drain k s1)) with (fs s1) in R1, R2, S1, S2.
  apply (InvK_shift s1 s3 HK); [rewrite Fcap, Fsc, Frc, Fhs, Ftn; reflexivity | |]; rewrite Hq3.
  - intros _ _ K2. rewrite R1, R2. clear - K2. lia.
  - (* each drained slot is covered by a wake, unless the senders ran out *)
    intros _ K3. destruct (Nat.lt_ge_cases bb (N.to_nat m)) as [Hlt|Hge]; [left; apply S3; exact Hlt|].
    clear - K3 S1 S2 Hge Hk. lia.
Qed.

Theorem Inv_step s o : Inv s -> Inv (fst (step s o)).
Proof.
  destruct o.
  - apply step_try_send.
  - apply step_try_recv.
  - apply step_send.
  - apply step_recv.
  - apply step_recv_timeout.
  - apply step_clone.
  - apply step_close.
  - apply step_drop.
  - apply step_convert.
  - apply step_observe.
  - apply step_mksend.
  - apply step_mkrecv.
  - apply step_poll.
  - apply step_dropf.
  - apply step_try_send_batch.
  - apply step_try_recv_batch.
Qed.

Lemma Inv_init c a f : Inv (init c a f).
Proof.
  unfold init. split; [|split].
  - constructor; unfold nq, ncap, tot, cells; st_simpl.
    + cbn. lia.
    + reflexivity.
    + intros v. cbn. destruct (v <? 0) eqn:E; [apply N.ltb_lt in E; lia | reflexivity].
  - constructor; unfold getF, getH, any_live; st_simpl; cbn; try (intros; contradiction); try discriminate.
    + repeat constructor; cbn; intuition discriminate.
    + constructor.
    + constructor.
    + constructor.
    + reflexivity.
    + unfold taint_ok. cbn. repeat split; reflexivity.
  - constructor; unfold nq, ncap; st_simpl; cbn.
    + intros _. split; reflexivity.
    + intros _ _. left. reflexivity.
    + intros _. left. reflexivity.
Qed.

Theorem Inv_run os : forall s, Inv s -> Inv (fst (run s os)).
Proof.
  induction os as [|o r IH]; intros s H; cbn [run]; [exact H|].
  pose proof (Inv_step s o H) as H1. destruct (step s o) as [s1 x]. cbn [fst] in H1.
  specialize (IH s1 H1). destruct (run s1 r) as [s2 xs]. exact IH.
Qed.

Theorem Inv_reachable c a f os : Inv (state_after c a f os).
Proof. unfold state_after. apply Inv_run. apply Inv_init. Qed.
