(* Proofs/PolicyTinyLfuProofs.v — the full C14 contract for TinyLfuP, for every
   frequency sketch, capacity and call sequence. *)
From Fibre Require Import Common.Base Cache.PolicySpec Cache.PolicyLru Cache.PolicySlru
     Cache.PolicyTinyLfu Proofs.PolicyCommon Proofs.PolicyLruProofs Proofs.PolicySlruProofs.

(** lifting facts about the main segment under a disjoint window prefix *)
Lemma lookup_prefix_none k W M : ~ In k (keys W) -> lookup k (W ++ M) = lookup k M.
Proof.
  intros H. rewrite lookup_app. apply lookup_None in H. rewrite H. reflexivity.
Qed.

Lemma access_update_lift W M M' k c :
  ~ In k (keys W) -> access_update M M' k c -> access_update (W ++ M) (W ++ M') k c.
Proof.
  unfold access_update. intros Hw. rewrite (lookup_prefix_none k W M Hw).
  destruct (lookup k M); intros P.
  - eapply Permutation_trans; [apply Permutation_app_head; exact P|].
    apply perm_touch_right. exact Hw.
  - apply Permutation_app_head. exact P.
Qed.

Lemma evict_core_lift W M M' vs f :
  NoDup (keys (W ++ M)) -> evict_core M M' vs f -> evict_core (W ++ M) (W ++ M') vs f.
Proof.
  intros Hnd [Hv [Hin [Hc HP]]].
  assert (Hdis : forall x, In x vs -> ~ In x (keys W)).
  { intros x Hx. eapply seg_not_left; [exact Hnd | apply Hin; exact Hx]. }
  repeat split.
  - exact Hv.
  - intros x Hx. apply In_keys_app. right. apply Hin. exact Hx.
  - rewrite Hc. f_equal. apply map_ext_in. intros x Hx. unfold cost_of.
    rewrite (lookup_prefix_none x W M (Hdis x Hx)). reflexivity.
  - rewrite without_app. rewrite (without_none vs W).
    + apply Permutation_app_head. exact HP.
    + intros x Hx Hv'. exact (Hdis x Hv' Hx).
Qed.

Lemma slru_admit_internal_fresh k c m :
  ~ In k (keys (slru_tr m)) -> slru_tr (slru_admit_internal k c m) = (k, c) :: slru_tr m.
Proof.
  rewrite slru_tr_In. intros H. unfold slru_admit_internal, slru_tr.
  destruct (ll_hasP k (sl_prot m)) as [Hpt|Hpt]; [tauto|].
  destruct (ll_hasP k (sl_prob m)) as [Hpb|Hpb]; [tauto|]. cbn [negb andb sl_prob sl_prot].
  unfold ll_push_front. rewrite (rm_id k _ Hpb). reflexivity.
Qed.

Arguments tl_win {sk} _.
Arguments tl_main {sk} _.
Arguments tl_sk {sk} _.
Arguments mkTlfu {sk} _ _ _.

Section TinyLfuProofs.
  Variable sk : Type.
  Variable sk_incr : sk -> N -> sk.
  Variable sk_est : sk -> N -> N.
  Variable sk_clear : sk -> sk.
  Variable sk0 : sk.

  Notation tlfu := (tlfu sk).
  Notation tl_tr := (tl_tr sk).
  Notation tl_window_loop := (tl_window_loop sk sk_est).

  (** the window loop only moves candidates into main or rejects them: what was
      tracked is what is tracked afterwards plus the rejected candidates R *)
  Lemma tl_window_loop_spec fuel wt s : forall win m rej win' m' rj,
    NoDup (keys (win ++ slru_tr m)) ->
    tl_window_loop fuel wt s win m rej = (win', m', rj) ->
    exists R, rj = rev rej ++ keys R
      /\ Permutation (win ++ slru_tr m) (R ++ win' ++ slru_tr m').
  Proof.
    assert (Hstop : forall (win : lru_list) m (rej : list N), exists R : list kc,
              rev rej = rev rej ++ keys R
              /\ Permutation (win ++ slru_tr m) (R ++ win ++ slru_tr m)).
    { intros. exists []. cbn [keys map app]. rewrite app_nil_r.
      split; [reflexivity | apply Permutation_refl]. }
    induction fuel as [|f IH]; intros win m rej win' m' rj Hnd H; cbn [PolicyTinyLfu.tl_window_loop] in H.
    - inversion H; subst. apply Hstop.
    - destruct (N.ltb wt (total win)); [|inversion H; subst; apply Hstop].
      destruct (ll_pop_back win) as [[[ck cc] w']|] eqn:E; [|inversion H; subst; apply Hstop].
      apply ll_pop_back_some in E. subst win.
      rewrite <- app_assoc in Hnd |- *. cbn [app] in Hnd |- *.
      assert (HPm : Permutation (w' ++ (ck, cc) :: slru_tr m) ((ck, cc) :: w' ++ slru_tr m)).
      { apply Permutation_sym, Permutation_middle. }
      pose proof (NoDup_keys_perm _ _ HPm Hnd) as Hnd2.
      cbn [keys map fst] in Hnd2. inversion Hnd2 as [|? ? Hni Hnd3]; subst.
      fold (keys (w' ++ slru_tr m)) in Hni, Hnd3.
      destruct (match slru_peek_lru m with
                | Some v => N.leb (sk_est s v) (sk_est s ck)
                | None => true
                end).
      + (* candidate admitted to main *)
        assert (Hm1 : slru_tr (slru_admit_internal ck cc m) = (ck, cc) :: slru_tr m).
        { apply slru_admit_internal_fresh. intros Hi. apply Hni, In_keys_app. right. exact Hi. }
        destruct (IH _ _ _ _ _ _ (ltac:(rewrite Hm1; exact Hnd)) H) as [R HR].
        rewrite Hm1 in HR. exists R. exact HR.
      + (* candidate rejected *)
        destruct (IH _ _ _ _ _ _ Hnd3 H) as [R [Hrj HP]].
        exists ((ck, cc) :: R). split.
        * rewrite Hrj. cbn [rev keys map fst]. rewrite <- app_assoc. reflexivity.
        * eapply Permutation_trans; [exact HPm|]. cbn [app]. constructor. exact HP.
  Qed.

  (** the fuel supplied ([length window]) suffices: on return the loop condition is false *)
  Lemma tl_window_loop_done fuel wt s : forall win m rej win' m' rj,
    (length win <= fuel)%nat ->
    tl_window_loop fuel wt s win m rej = (win', m', rj) ->
    total win' <= wt \/ win' = [].
  Proof.
    induction fuel as [|f IH]; intros win m rej win' m' rj Hlen H; cbn [PolicyTinyLfu.tl_window_loop] in H.
    - inversion H; subst. right. destruct win'; [reflexivity | cbn [length] in Hlen; lia].
    - destruct (N.ltb_spec wt (total win)) as [Hlt|Hge]; [|inversion H; subst; left; exact Hge].
      destruct (ll_pop_back win) as [[[ck cc] w']|] eqn:E.
      + apply ll_pop_back_some in E. subst win. rewrite app_length in Hlen. cbn [length] in Hlen.
        destruct (match slru_peek_lru m with
                  | Some v => N.leb (sk_est s v) (sk_est s ck)
                  | None => true
                  end); (eapply IH; [|exact H]; lia).
      + inversion H; subst. right. apply ll_pop_back_none. exact E.
  Qed.

  Lemma tl_main_nodup (s : tlfu) : NoDup (keys (tl_tr s)) -> NoDup (keys (slru_tr (tl_main s))).
  Proof. unfold PolicyTinyLfu.tl_tr. rewrite keys_app. apply NoDup_app_r. Qed.

  Lemma tl_access_ok cap k c (s : tlfu) : NoDup (keys (tl_tr s)) ->
    access_update (tl_tr s) (tl_tr (tl_access sk sk_incr cap k c s)) k c.
  Proof.
    intros HI. unfold tl_access, PolicyTinyLfu.tl_tr.
    destruct (ll_hasP k (tl_win s)) as [Ew|Ew]; cbn [tl_win tl_main].
    - apply access_update_in; [apply In_keys_app; left; exact Ew|].
      unfold ll_push_front. rewrite rm_app.
      rewrite (rm_id k (slru_tr (tl_main s))) by (eapply seg_not_right; eauto).
      apply Permutation_refl.
    - apply access_update_lift; [exact Ew|].
      apply slru_access_ok. apply tl_main_nodup. exact HI.
  Qed.

  Lemma tl_remove_ok k (s : tlfu) : NoDup (keys (tl_tr s)) ->
    Permutation (tl_tr (tl_remove sk k s)) (rm k (tl_tr s)).
  Proof.
    intros HI. unfold tl_remove, PolicyTinyLfu.tl_tr. rewrite rm_app.
    destruct (ll_hasP k (tl_win s)) as [Ew|Ew]; cbn [tl_win tl_main].
    - unfold ll_remove.
      rewrite (rm_id k (slru_tr (tl_main s))) by (eapply seg_not_right; eauto).
      apply Permutation_refl.
    - rewrite (rm_id k (tl_win s) Ew).
      apply Permutation_app_head. apply slru_remove_ok. apply tl_main_nodup. exact HI.
  Qed.

  Lemma tl_evict_ok cap n (s s' : tlfu) vs f : NoDup (keys (tl_tr s)) ->
    tl_evict sk cap n s = (s', vs, f) ->
    evict_ok (tl_tr s) (tl_tr s') n vs f.
  Proof.
    intros HI. unfold tl_evict. destruct (N.eqb_spec n 0) as [->|Hn0].
    - intros H. inversion H; subst.
      apply (evict_ok_split _ _ [] 0 0 HI (Permutation_refl _) eq_refl). left. lia.
    - destruct (slru_evict (tl_main_prot_capacity cap) n (tl_main s)) as [[m' vs1] f1] eqn:E.
      destruct (pop_while n f1 (rev (tl_win s))) as [[vs2 f2] rest] eqn:E2.
      intros H. inversion H; subst s' vs f. clear H.
      destruct (slru_evict_split _ _ _ _ _ _ (tl_main_nodup s HI) E) as [Vm [Hv1 [Hf1 [HPm Hsm]]]].
      destruct (pop_while_rev _ _ _ _ _ _ E2) as [Vw [Hw [Hv2 [Hf2 [Hs2 _]]]]].
      subst vs1 vs2. rewrite <- keys_app.
      unfold PolicyTinyLfu.tl_tr. cbn [tl_win tl_main].
      apply evict_ok_split.
      + exact HI.
      + (* main is drained first, so its victims come first *)
        eapply Permutation_trans.
        * apply (perm_split_app _ _ Vw Vm (rev rest) (slru_tr m')); [|exact HPm].
          rewrite Hw. apply perm_back_split.
        * apply Permutation_app_tail, Permutation_app_comm.
      + rewrite total_app. lia.
      + destruct Hs2 as [Hs2|Hs2]; [left; exact Hs2|].
        destruct Hsm as [Hsm|Hsm]; [left; lia|]. right. rewrite Hs2, Hsm. reflexivity.
  Qed.

  Lemma tl_admit_ok cap k c (s : tlfu) : NoDup (keys (tl_tr s)) ->
    let '(s', o) := tl_admit sk sk_incr sk_est cap k c s in
    step_okG access_update admit_full evict_ok (tl_tr s) (Admit k c) o (tl_tr s').
  Proof.
    intros HI. unfold tl_admit.
    destruct (slru_hasP k (tl_main s)) as [Hm|Hm].
    - (* already in main: an access that stores the new cost *)
      cbn [step_okG]. unfold admit_full, PolicyTinyLfu.tl_tr. cbn [tl_win tl_main].
      apply access_update_inv_in; [apply In_keys_app; right; exact Hm|].
      apply access_update_lift; [eapply seg_not_left; eauto|].
      apply slru_access_ok. apply tl_main_nodup. exact HI.
    - (* new or in the window: push into the window, then shrink the window *)
      set (win1 := ll_push_front k c (tl_win s)).
      set (T1 := (k, c) :: rm k (tl_tr s)).
      assert (HT1 : win1 ++ slru_tr (tl_main s) = T1).
      { unfold win1, T1, ll_push_front, PolicyTinyLfu.tl_tr. rewrite rm_app, (rm_id k _ Hm). reflexivity. }
      assert (Hnd1 : NoDup (keys T1)) by (apply NoDup_cons_rm; exact HI).
      destruct (tl_window_loop (length win1) (tl_window_target cap) (sk_incr (tl_sk s) k)
                  win1 (tl_main s) []) as [[win2 m2] rj] eqn:E.
      destruct (tl_window_loop_spec _ _ _ _ _ _ _ _ _ (ltac:(rewrite HT1; exact Hnd1)) E)
        as [R [Hrj HP]].
      cbn [rev app] in Hrj. rewrite HT1 in HP.
      (* the rejected candidates are victims of an eviction from T1 that asks for nothing *)
      pose proof (evict_ok_split T1 (win2 ++ slru_tr m2) R 0 (total R) Hnd1 HP eq_refl
                    (or_introl (N.le_0_l _))) as [Hv [Hin [_ [HW _]]]].
      change (PolicyTinyLfu.tl_tr sk (mkTlfu win2 m2 (sk_incr (tl_sk s) k))) with (win2 ++ slru_tr m2).
      destruct rj as [|r0 rt]; cbn [step_okG].
      + destruct R; [|discriminate]. cbn [keys map] in HW. rewrite without_nil in HW. exact HW.
      + unfold admit_evict_full. rewrite Hrj. repeat split.
        * exact Hv.
        * intros x Hx. specialize (Hin x Hx). unfold T1 in Hin. cbn [keys map fst] in Hin.
          destruct Hin as [He|Hi]; [left; exact He | right].
          apply rm_keys_subset in Hi. tauto.
        * exact HW.
  Qed.

  Lemma tl_step_ok cap (s : tlfu) cl : NoDup (keys (tl_tr s)) ->
    let '(s', o) := tl_step sk sk_incr sk_est sk_clear cap s cl in
    step_okG access_update admit_full evict_ok (tl_tr s) cl o (tl_tr s').
  Proof.
    intros H. destruct cl as [k c|k c|k|n|]; cbn [tl_step].
    - cbn [step_okG]. apply tl_access_ok. exact H.
    - apply tl_admit_ok. exact H.
    - cbn [step_okG]. apply tl_remove_ok. exact H.
    - destruct (tl_evict sk cap n s) as [[s' vs] f] eqn:E.
      cbn [step_okG]. eapply tl_evict_ok; eauto.
    - reflexivity.
  Qed.

  Theorem tinylfu_contract cap :
    contractG access_update admit_full evict_ok
              (TinyLfuP sk sk_incr sk_est sk_clear sk0 cap).
  Proof.
    apply contractG_lift_nodup.
    - exact access_update_NoDup.
    - exact admit_full_NoDup.
    - constructor.
    - exact (tl_step_ok cap).
  Qed.
End TinyLfuProofs.

(* the replay instance used by the D1 driver is one of the instances quantified over *)
Corollary tinylfu_replay_contract rejects cap :
  contractG access_update admit_full evict_ok (TinyLfuReplayP rejects cap).
Proof. apply tinylfu_contract. Qed.
