(* Proofs/HRwWake.v — HybridRwLock: wake invariants RInvF1 / RInvF2 (a WOKEN node whose owner is parked has
   its token or its handle is in a wake list still to be fired). *)
From Coq Require Import List NArith Arith Bool Lia.
From Fibre Require Import Common.Conc Sync.HMutex Sync.HRwLock Proofs.HMutexBase Proofs.HRwBase Proofs.HRwGuard Proofs.HRwQueue Proofs.HRwNode.
Import ListNotations.

(* ---- wakes in flight: the handles collected by wake_waiters and not yet fired *)
Definition pendT (p : rpc) (h : nat) : Prop :=
  match p with
  | RWSweep ws | RFix1 (RFW ws) | RFix2 (RFW ws) | RWUnl ws => In (WThread, h) ws
  | RWWake h' rest => h' = h \/ In (WThread, h) rest
  | _ => False
  end.

Definition pendB (p : rpc) (h : nat) : Prop :=
  match p with
  | RWSweep ws | RFix1 (RFW ws) | RFix2 (RFW ws) | RWUnl ws => In (WBlock, h) ws
  | RWWake _ rest => In (WBlock, h) rest
  | _ => False
  end.

Definition RInvF1 s :=
  forall h k, rpcs s h = RPark k -> rnwk s h = true -> rtoken s h = true \/ exists w, pendT (rpcs s w) h.

Definition RInvF2 s :=
  forall h, rpcs s h = RBPark -> rnwk s h = true ->
    (exists w, pendB (rpcs s w) h)
    \/ (rbwoken s h = true /\ (rtoken s h = true \/ exists w r, rpcs s w = RWWake h r)).

Lemma rflush_bwoken_mono s t ws u : rbwoken s u = true -> rbwoken (rflush s t ws) u = true.
Proof.
  revert s. induction ws as [|[k h] r IH]; intros s H; cbn [rflush]; [exact H|].
  destruct k; try (apply IH; exact H); cbn; [exact H|].
  unfold upd. destruct (Nat.eqb u h); [reflexivity|exact H].
Qed.

Lemma flushT s t ws h : In (WThread, h) ws -> pendT (rpcs (rflush s t ws) t) h.
Proof.
  revert s. induction ws as [|[k h'] r IH]; intros s H; [destruct H|]. cbn [rflush].
  destruct k.
  - cbn. rewrite upd_eq. cbn. destruct H as [X|X]; [injection X as ->; left; reflexivity|right; exact X].
  - cbn. rewrite upd_eq. cbn. destruct H as [X|X]; [discriminate X|right; exact X].
  - apply IH. destruct H as [X|X]; [discriminate X|exact X].
Qed.

Lemma flushB s t ws h : In (WBlock, h) ws ->
  pendB (rpcs (rflush s t ws) t) h \/ (rbwoken (rflush s t ws) h = true /\ exists r, rpcs (rflush s t ws) t = RWWake h r).
Proof.
  revert s. induction ws as [|[k h'] r IH]; intros s H; [destruct H|]. cbn [rflush].
  destruct k.
  - cbn. rewrite upd_eq. cbn. destruct H as [X|X]; [discriminate X|left; exact X].
  - destruct H as [X|X].
    + injection X as ->. right. cbn. rewrite !upd_eq. split; [reflexivity|eexists; reflexivity].
    + left. cbn. rewrite upd_eq. cbn. exact X.
  - apply IH. destruct H as [X|X]; [discriminate X|exact X].
Qed.

Lemma F1_frame s s' t :
  (forall u, u <> t -> rpcs s' u = rpcs s u) ->
  (forall u, u <> t -> rtoken s u = true -> rtoken s' u = true) ->
  (forall h, h <> t -> pendT (rpcs s t) h -> pendT (rpcs s' t) h \/ rtoken s' h = true) ->
  (forall h k, h <> t -> rpcs s h = RPark k -> rnwk s' h = true -> rnwk s h = true \/ pendT (rpcs s' t) h) ->
  (forall k, rpcs s' t = RPark k -> rnwk s' t = true -> False) ->
  RInvF1 s -> RInvF1 s'.
Proof.
  intros HP HT HW HN HS F h k Hp Hn.
  destruct (Nat.eq_dec h t) as [->|Hne]; [exfalso; eapply HS; eassumption|].
  rewrite (HP h Hne) in Hp. destruct (HN h k Hne Hp Hn) as [Hn'|X]; [|right; exists t; exact X].
  destruct (F h k Hp Hn') as [T|[w W]]; [left; apply HT; assumption|].
  destruct (Nat.eq_dec w t) as [->|Hw].
  - destruct (HW h Hne W) as [X|X]; [right; exists t; exact X|left; exact X].
  - right. exists w. rewrite (HP w Hw). exact W.
Qed.

Ltac rtok_goal := rewrite ?rflush_token; rsimpl_goal; rewrite ?upd_neq by assumption; unfold upd; repeat (destruct (Nat.eqb _ _)); auto.

(* the owner of the node that wake_waiters marks is linked *)
Ltac marked_in n :=
  first [ match goal with E : first_writer _ = Some _ |- _ => exists true; exact (first_writer_In _ _ E) end
        | match goal with E : rqueue _ = (_, ?b1) :: _ |- _ => exists b1; rewrite E; left; reflexivity end ].

Ltac others_pcs := intros u Hu; rsimpl_goal; first [ apply upd_neq; assumption | rewrite rflush_pcs by assumption; reflexivity ].

Lemma RInvF1_step s t c s' e :
  RInvP s -> RInvE s -> RInvF1 s -> rwstep s t c = Some (s', e) -> RInvF1 s'.
Proof.
  intros P [E1 E2] F H.
  rstep_cases H; (apply (F1_frame s _ t); [others_pcs|intros u Hu T; rtok_goal| | | |exact F]); rsimpl_goal.
  (* 5: the stepping thread is not parked-and-woken afterwards *)
  all: try solve [ intros kk X; rewrite ?upd_eq in X; try discriminate X; intros Hn; congruence ].
  all: try solve [ intros kk X;
                   match type of X with context [rflush ?s0 ?tt ?ws] =>
                     destruct (rflush_pc_cases s0 tt ws) as [Y|[hh [rr Y]]]; rewrite Y in X; discriminate X end ].
  (* 3: wakes held by the stepping thread *)
  all: try solve [ intros hh Hh W; rewrite Epc in W; cbn [pendT] in W; try contradiction;
                   try (match goal with f : rfixk |- _ => destruct f; try contradiction end);
                   first [ left; rewrite upd_eq; cbn [pendT]; first [ exact W | apply in_or_app; left; exact W ]
                         | left; apply flushT; exact W
                         | destruct W as [W|W]; [ right; subst; rewrite rflush_token; rsimpl_goal; apply upd_eq | left; apply flushT; exact W ] ] ].
  (* 4: node states of parked threads *)
  all: try solve [ rewrite ?rflush_nwk; rsimpl_goal; intros hh kk Hh Hp Hn; try rewrite upd_neq in Hn by assumption; left; exact Hn ].
  (* mark / sweep of a parked sync waiter: its thread handle goes to the wake list *)
  all: intros hh kk Hh Hp Hn; destruct (Nat.eq_dec hh n) as [->|Hne];
       [ | rewrite upd_neq in Hn by assumption; left; exact Hn ];
       assert (Hin : exists b0, In (n, b0) (rqueue s)) by marked_in n;
       destruct Hin as [b0 Hin];
       destruct (rnarm s n) as [k'|] eqn:EN;
       [ right; rewrite upd_eq; cbn [pendT]; apply in_or_app; right; unfold wake_of; rewrite EN;
         pose proof (E2 n b0 k' Hin EN) as K; pose proof (P n) as Pn; rewrite Hp in K, Pn; cbn [rfutok] in Pn;
         destruct k'; cbn [rkindok] in K; [ left; reflexivity | destruct K; congruence | destruct K; congruence ]
       | left; exact (E1 n b0 Hin EN) ].
Qed.

Lemma F2_frame s s' t :
  (forall u, u <> t -> rpcs s' u = rpcs s u) ->
  (forall u, u <> t -> rtoken s u = true -> rtoken s' u = true) ->
  (forall u, u <> t -> rbwoken s u = true -> rbwoken s' u = true) ->
  (forall h, h <> t -> pendB (rpcs s t) h ->
     pendB (rpcs s' t) h \/ (rbwoken s' h = true /\ exists r, rpcs s' t = RWWake h r)) ->
  (forall h r, h <> t -> rpcs s t = RWWake h r -> rtoken s' h = true \/ exists r', rpcs s' t = RWWake h r') ->
  (forall h, h <> t -> rpcs s h = RBPark -> rnwk s' h = true -> rnwk s h = true \/ pendB (rpcs s' t) h) ->
  (rpcs s' t = RBPark -> rnwk s' t = true -> exists w, w <> t /\ pendB (rpcs s w) t) ->
  RInvF2 s -> RInvF2 s'.
Proof.
  intros HP HT HB HW HK HN HS F h Hp Hn.
  destruct (Nat.eq_dec h t) as [->|Hne].
  { destruct (HS Hp Hn) as [w [Hw W]]. left. exists w. rewrite (HP w Hw). exact W. }
  rewrite (HP h Hne) in Hp. destruct (HN h Hne Hp Hn) as [Hn'|X]; [|left; exists t; exact X].
  destruct (F h Hp Hn') as [[w W]|[Bw [T|[w [r W]]]]].
  - destruct (Nat.eq_dec w t) as [->|Hw].
    + destruct (HW h Hne W) as [X|[X [r Y]]]; [left; exists t; exact X|].
      right. split; [exact X|]. right. exists t, r. exact Y.
    + left. exists w. rewrite (HP w Hw). exact W.
  - right. split; [apply HB; assumption|]. left. apply HT; assumption.
  - right. split; [apply HB; assumption|].
    destruct (Nat.eq_dec w t) as [->|Hw].
    + destruct (HK h r Hne W) as [X|[r' X]]; [left; exact X|right; exists t, r'; exact X].
    + right. exists w, r. rewrite (HP w Hw). exact W.
Qed.

Lemma RInvF2_step s t c s' e :
  RInvP s -> RInvN s -> RInvE s -> RInvF2 s -> rwstep s t c = Some (s', e) -> RInvF2 s'.
Proof.
  intros P N [E1 E2] F H.
  pose proof (N t) as Nt.
  rstep_cases H; rewrite Epc in Nt; cbn [rarmed_sec] in Nt;
    (apply (F2_frame s _ t);
     [ others_pcs | intros u Hu T; rtok_goal
     | intros u Hu T; first [ apply rflush_bwoken_mono; rsimpl_goal | rsimpl_goal ]; rewrite ?upd_neq by assumption;
       unfold upd; repeat (destruct (Nat.eqb _ _)); auto
     | | | | | exact F ]); rsimpl_goal.
  (* own BPark afterwards *)
  all: try solve [ intros X; rewrite ?upd_eq in X; discriminate X ].
  all: try solve [ intros X;
                   match type of X with context [rflush ?s0 ?tt ?ws] =>
                     destruct (rflush_pc_cases s0 tt ws) as [Y|[hh [rr Y]]]; rewrite Y in X; discriminate X end ].
  (* wakes held by the stepping thread *)
  all: try solve [ intros hh Hh W; rewrite Epc in W; cbn [pendB] in W; try contradiction;
                   try (match goal with f : rfixk |- _ => destruct f; try contradiction end);
                   first [ left; rewrite upd_eq; cbn [pendB]; first [ exact W | apply in_or_app; left; exact W ]
                         | apply flushB; exact W ] ].
  all: try solve [ intros hh rr Hh W; rewrite Epc in W; try discriminate W;
                   injection W as -> ->; left; rewrite rflush_token; rsimpl_goal; apply upd_eq ].
  all: try solve [ rewrite ?rflush_nwk; rsimpl_goal; intros hh Hh Hp Hn; try rewrite upd_neq in Hn by assumption; left; exact Hn ].
  1: { intros _ X. rewrite (Nt eq_refl) in X. discriminate X. }
  1: { intros _ Hn. rewrite ?upd_eq in Hn. destruct (F t Epc Hn) as [[w W]|[Bw _]]; [|congruence].
       exists w. split; [|exact W]. intros ->. rewrite Epc in W. exact W. }
  all: intros hh Hh Hp Hn; destruct (Nat.eq_dec hh n) as [->|Hne];
       [ | rewrite upd_neq in Hn by assumption; left; exact Hn ];
       assert (Hin : exists b0, In (n, b0) (rqueue s)) by marked_in n;
       destruct Hin as [b0 Hin];
       destruct (rnarm s n) as [k'|] eqn:EN;
       [ right; rewrite upd_eq; cbn [pendB]; apply in_or_app; right; unfold wake_of; rewrite EN;
         pose proof (E2 n b0 k' Hin EN) as K; pose proof (P n) as Pn; rewrite Hp in K, Pn; cbn [rfutok] in Pn;
         destruct Pn as [kx Pn];
         destruct k'; cbn [rkindok rinsync] in K; [ discriminate K | left; reflexivity | destruct K; congruence ]
       | left; exact (E1 n b0 Hin EN) ].
Qed.
