(* Proofs/MpmcK3Life.v — handle lifecycle.  InvT: program counters are typed by role and
   sender_count / receiver_count = number of threads whose handle has not yet given its count back
   (for every thread count).  InvD and C04: a receiver is told Disconnected only from a critical
   section that saw the ring empty and sender_count = 0 (the F-08 repair, `redrain_on_close`),
   after which the channel stays empty for ever. *)
From Coq Require Import List NArith Arith Bool Lia Sorted.
From Fibre Require Import Common.Conc Chan.MpmcK3 Proofs.MpmcK3Base.
Import ListNotations.

Definition cnt (f : nat -> bool) (n : nat) : nat := length (filter f (seq 0 n)).
Definition b2n (b : bool) : nat := if b then 1 else 0.

Lemma cnt_ext f g n : (forall u, u < n -> f u = g u) -> cnt f n = cnt g n.
Proof.
  intros H. unfold cnt. f_equal. apply filter_ext_in. intros a Ha. apply in_seq in Ha. apply H. lia.
Qed.

Lemma filter_len_ext (f g : nat -> bool) l : (forall u, In u l -> f u = g u) -> length (filter f l) = length (filter g l).
Proof. intros H. f_equal. apply filter_ext_in. exact H. Qed.

Lemma cnt_upd f g n t :
  t < n -> (forall u, u <> t -> f u = g u) -> cnt f n + b2n (g t) = cnt g n + b2n (f t).
Proof.
  intros Ht H. unfold cnt.
  assert (E : seq 0 n = seq 0 t ++ t :: seq (S t) (n - S t)).
  { replace n with (t + (S (n - S t))) at 1 by lia. rewrite seq_app. cbn [seq plus]. reflexivity. }
  rewrite E. rewrite !filter_app, !app_length. cbn [filter].
  pose proof (filter_len_ext f g (seq 0 t)) as E1.
  pose proof (filter_len_ext f g (seq (S t) (n - S t))) as E2.
  rewrite E1 by (intros u Hu; apply in_seq in Hu; apply H; lia).
  destruct (f t), (g t); cbn [length b2n]; rewrite E2 by (intros u Hu; apply in_seq in Hu; apply H; lia); lia.
Qed.

Lemma cnt_zero f n : cnt f n = 0 -> forall u, u < n -> f u = false.
Proof.
  unfold cnt. intros H u Hu. destruct (f u) eqn:E; [|reflexivity].
  assert (X : In u (filter f (seq 0 n))) by (apply filter_In; split; [apply in_seq; lia|exact E]).
  destruct (filter f (seq 0 n)); [destruct X|discriminate].
Qed.

Lemma cnt_pos f n : cnt f n <> 0 -> exists u, u < n /\ f u = true.
Proof.
  unfold cnt. intros H. destruct (filter f (seq 0 n)) as [|a l] eqn:E; [exfalso; apply H; reflexivity|].
  assert (X : In a (filter f (seq 0 n))) by (rewrite E; left; reflexivity).
  apply filter_In in X. destruct X as [X1 X2]. apply in_seq in X1. exists a. split; [lia|exact X2].
Qed.

Lemma cnt_nth (f : tprog -> bool) l d k :
  length (filter f l) = length (filter (fun u => f (nth (u - k) l d)) (seq k (length l))).
Proof.
  revert k. induction l as [|a l IH]; intros k; [reflexivity|].
  cbn [length seq]. cbn [filter]. rewrite Nat.sub_diag. cbn [nth].
  destruct (f a); cbn [length]; [f_equal|]; rewrite (IH (S k)); apply filter_len_ext; intros u Hu;
    apply in_seq in Hu; replace (u - k) with (S (u - S k)) by lia; reflexivity.
Qed.

Definition s_pc (p : pc) : bool :=
  match p with
  | SLock _ | SScan _ _ | SUnpark _ _ | SUnlock _ _ | SRegLock | SRegUnlock _ | SWLoad | SWNext | SFinal
  | SUnlLock _ | SUnlUnlock _ => true
  | _ => false
  end.
Definition r_pc (p : pc) : bool :=
  match p with
  | RLock _ | RScan _ _ _ | RUnpark _ _ _ | RUnlock _ _ | RRegLock _ | RRegUnlock _ _ | RWLoad | RWNext | RFinal
  | TWLoad | TWNext | TFinal | TCancelLock | TCancelUnlock | RUnlLock _ | RUnlUnlock _ | TDeafNext | TDeafLoad
  | Panicked => true
  | _ => false
  end.
(* the handle's count has been given back *)
Definition decd (p : pc) : bool :=
  match p with DScan _ _ _ | DUnlock _ | DUnpark _ | Done => true | _ => false end.

Definition alive_p (s : st) (u : nat) : bool := is_prod (prog s u) && negb (decd (pcs s u)).
Definition alive_c (s : st) (u : nat) : bool := negb (is_prod (prog s u)) && negb (decd (pcs s u)).

Record InvT (n : nat) (s : st) : Prop := {
  T_s : forall u, s_pc (pcs s u) = true -> is_prod (prog s u) = true;
  T_r : forall u, r_pc (pcs s u) = true -> is_prod (prog s u) = false;
  T_abs : forall u, n <= u -> pcs s u = Done;
  T_scnt : scnt s = cnt (alive_p s) n;
  T_rcnt : rcnt s = cnt (alive_c s) n;
  T_hcl : forall u, hcl s u = true -> pcs s u = DLock \/ decd (pcs s u) = true }.

Lemma next_prog_role p r : is_prod (next_prog p r) = is_prod p.
Proof. destruct p as [l|l]; [reflexivity|]. cbn. destruct l as [|[] l]; try reflexivity. destruct r; reflexivity. Qed.

(* a return leaves every thread's role as it was *)
Lemma fin_role s t r u : is_prod (upd (prog s) t (next_prog (prog s t) r) u) = is_prod (prog s u).
Proof. unfold upd. destruct (Nat.eqb_spec u t) as [->|]; [apply next_prog_role|reflexivity]. Qed.

(* pc moves that keep a thread's role: a sender (receiver) pc is entered only from one, or from Idle
   by a thread whose program says so (b); a handle whose count is given back stays so; a closed
   handle goes on to give its count back *)
Definition t_keep (b : bool) (p p' : pc) : bool :=
  implb (s_pc p') (s_pc p || b) && implb (r_pc p') (r_pc p || negb b) && implb (decd p) (decd p')
  && match p, p' with DLock, DLock => true | DLock, _ => decd p' | Done, _ => false | _, _ => true end.

(* the counts go down by the handles that stop being alive (only the mover's can) *)
Lemma InvT_move n s s' t p' :
  InvT n s -> pcs s' = upd (pcs s) t p' -> (forall u, is_prod (prog s' u) = is_prod (prog s u)) ->
  scnt s' = scnt s - (b2n (alive_p s t) - b2n (is_prod (prog s t) && negb (decd p'))) ->
  rcnt s' = rcnt s - (b2n (alive_c s t) - b2n (negb (is_prod (prog s t)) && negb (decd p'))) ->
  hcl s' = hcl s \/ (hcl s' = upd (hcl s) t true /\ p' = DLock) ->
  t_keep (is_prod (prog s t)) (pcs s t) p' = true -> InvT n s'.
Proof.
  intros [T1 T2 T3 T4 T5 T6] Hp Hr Es Er Hh Hk.
  unfold t_keep in Hk. apply andb_prop in Hk. destruct Hk as [Hk K4]. apply andb_prop in Hk. destruct Hk as [Hk K3].
  apply andb_prop in Hk. destruct Hk as [K1 K2].
  assert (Htn : t < n).
  { destruct (Nat.lt_ge_cases t n) as [X|X]; [exact X|]. rewrite (T3 t X) in K4. discriminate K4. }
  constructor.
  - intros u. rewrite Hp, Hr. unfold upd. destruct (Nat.eqb_spec u t) as [->|N]; [|apply T1].
    intros X. rewrite X in K1. specialize (T1 t). destruct (s_pc (pcs s t)); [auto|exact K1].
  - intros u. rewrite Hp, Hr. unfold upd. destruct (Nat.eqb_spec u t) as [->|N]; [|apply T2].
    intros X. rewrite X in K2. specialize (T2 t). destruct (r_pc (pcs s t)); [auto|].
    apply negb_true_iff. exact K2.
  - intros u Hu. rewrite Hp. unfold upd. destruct (Nat.eqb_spec u t) as [->|N]; [lia|apply T3; exact Hu].
  - pose proof (cnt_upd (alive_p s) (alive_p s') n t Htn) as CU. rewrite Es, T4.
    assert (E : alive_p s' t = is_prod (prog s t) && negb (decd p')) by (unfold alive_p; rewrite Hp, Hr, upd_eq; reflexivity).
    assert (Hm : b2n (is_prod (prog s t) && negb (decd p')) <= b2n (alive_p s t)).
    { unfold alive_p. destruct (is_prod (prog s t)), (decd (pcs s t)), (decd p'); cbn in *; lia. }
    rewrite <- E in Hm |- *. lapply CU; [lia|]. intros u N. unfold alive_p. rewrite Hp, Hr, upd_neq by exact N. reflexivity.
  - pose proof (cnt_upd (alive_c s) (alive_c s') n t Htn) as CU. rewrite Er, T5.
    assert (E : alive_c s' t = negb (is_prod (prog s t)) && negb (decd p')) by (unfold alive_c; rewrite Hp, Hr, upd_eq; reflexivity).
    assert (Hm : b2n (negb (is_prod (prog s t)) && negb (decd p')) <= b2n (alive_c s t)).
    { unfold alive_c. destruct (is_prod (prog s t)), (decd (pcs s t)), (decd p'); cbn in *; lia. }
    rewrite <- E in Hm |- *. lapply CU; [lia|]. intros u N. unfold alive_c. rewrite Hp, Hr, upd_neq by exact N. reflexivity.
  - intros u. rewrite Hp. unfold upd. destruct (Nat.eqb_spec u t) as [->|N].
    + destruct Hh as [->|[-> ->]]; [|left; reflexivity]. intros X. destruct (T6 t X) as [Y|Y].
      * rewrite Y in K4. destruct p'; try (right; exact K4). left. reflexivity.
      * right. rewrite Y in K3. exact K3.
    + destruct Hh as [->|[-> _]]; [|rewrite upd_neq by exact N]; apply T6.
Qed.

Lemma sub_same x a : x = x - (a - a).
Proof. lia. Qed.

Lemma InvT_step n cap cf s t s' : InvT n s -> Step cap cf s t s' -> InvT n s'.
Proof.
  intros HT HS.
  assert (Hh : pcs s t = Idle -> hcl s t = false).
  { intros E. destruct (hcl s t) eqn:X; [|reflexivity]. destruct (T_hcl _ _ HT t X) as [Y|Y]; rewrite E in Y; discriminate Y. }
  destruct HS.
  (* a handle found closed at Idle has been dropped already *)
  all: try (rewrite (Hh Epc) in Eh; discriminate Eh).
  all: by_frame InvT_move; try exact (fin_role s t _); try solve [left; reflexivity|right; split; reflexivity];
       try open_move; st_simpl; unfold alive_p, alive_c; rewrite ?Ep, ?Epc; case_pc;
       cbn [decd negb andb b2n]; first [reflexivity|apply sub_same|lia].
Qed.

(* what InvD says about one thread's pc *)
Definition d_ok (l : list id) (n : nat) (p : pc) : Prop :=
  match p with RUnlock _ RDisc | RRegUnlock _ GoClosed => l = [] /\ n = 0 | _ => True end.

Record InvD (s : st) : Prop := {
  D_pc : forall u, d_ok (q s) (scnt s) (pcs s u);
  D_ok : discbad s = false }.

Lemma d_ok_free l n p : in_sec p = false -> d_ok l n p.
Proof. destruct p; try discriminate; intros _; exact I. Qed.

Lemma InvD_move s s' t p' :
  InvL s -> InvD s -> pcs s' = upd (pcs s) t p' -> discbad s' = discbad s -> d_ok (q s') (scnt s') p' ->
  (q s' = q s /\ scnt s' = scnt s) \/ lk s = Some t \/ lk s = None -> InvD s'.
Proof.
  intros HL [Dp Dk] Hp Ed Hok Hk. constructor; [|rewrite Ed; exact Dk].
  apply (sec_pcs (fun x _ => d_ok (q x) (scnt x)) _ HL (fun _ => d_ok_free _ _) Dp Hp Hok).
  destruct Hk as [[-> ->]|Hk]; [left; auto|right; exact Hk].
Qed.

Lemma InvD_step cap cf s t s' :
  redrain_on_close cf = true -> InvL s -> InvD s -> Step cap cf s t s' -> InvD s'.
Proof.
  intros Hcf HL HD HS. pose proof (D_pc _ HD t) as Dt. pose proof (proj1 HL t) as Lt.
  destruct HS.
  all: try solve [ eapply InvD_move; [eassumption..|st_simpl; reflexivity|reflexivity| |left; split; reflexivity];
                   try open_move; case_pc; first [exact I|split; assumption] ].
  (* Disconnected is returned from a section that found the ring empty and no sender *)
  all: try match goal with M : unlock_disc _ _ |- _ =>
         apply (InvD_move s _ t Idle HL HD); [reflexivity| |exact I|left; split; reflexivity];
         st_simpl; rewrite (D_ok _ HD); destruct M; rewrite Epc in Dt; [destruct Dt as [-> ->]; reflexivity..|congruence] end.
  (* RLock: the ring is empty *)
  all: try match goal with Eq : q _ = [] |- _ =>
         eapply InvD_move; [eassumption..|st_simpl; reflexivity|reflexivity| |left; split; reflexivity];
         st_simpl; destruct (Nat.eqb_spec (scnt s) 0); [split; assumption|exact I] end.
  (* pushes, the pop and the last sender's close: by the lock holder, who is not at a pc InvD speaks of *)
  all: eapply InvD_move; [eassumption..|st_simpl; reflexivity|reflexivity|case_pc; exact I
                         |right; first [right; exact Elk|left; apply Lt; rewrite Epc; reflexivity]].
Qed.

Lemma InvT_init th : InvT (length th) (init th).
Proof.
  constructor; cbn [init pcs prog scnt rcnt hcl].
  - intros u X. destruct (Nat.ltb u (length th)); discriminate.
  - intros u X. destruct (Nat.ltb u (length th)); discriminate.
  - intros u Hu. destruct (Nat.ltb_spec u (length th)); [lia|reflexivity].
  - unfold count_prod. rewrite (cnt_nth is_prod th (TCons []) 0). apply filter_len_ext.
    intros u Hu. apply in_seq in Hu. unfold alive_p. cbn [init pcs prog].
    destruct (Nat.ltb_spec u (length th)); [|lia]. rewrite Nat.sub_0_r. cbn [decd negb]. rewrite andb_true_r. reflexivity.
  - unfold count_cons. rewrite (cnt_nth (fun p => negb (is_prod p)) th (TCons []) 0). apply filter_len_ext.
    intros u Hu. apply in_seq in Hu. unfold alive_c. cbn [init pcs prog].
    destruct (Nat.ltb_spec u (length th)); [|lia]. rewrite Nat.sub_0_r. cbn [decd negb]. rewrite andb_true_r. reflexivity.
  - intros u X. discriminate.
Qed.

Lemma InvD_init th : InvD (init th).
Proof.
  constructor; cbn [init pcs discbad]; [|reflexivity].
  intros u. destruct (Nat.ltb u (length th)); exact I.
Qed.

Definition Inv2 (n : nat) (s : st) : Prop := InvL s /\ InvT n s /\ InvD s.

Lemma Inv2_reachable cap cf th s :
  redrain_on_close cf = true -> reachable (sys cap cf th) s -> Inv2 (length th) s.
Proof.
  intros Hcf. apply (invariant_lift (sys cap cf th) (Inv2 (length th))).
  - split; [apply InvL_init|split; [apply InvT_init|apply InvD_init]].
  - intros s0 t c s' e (HL & HT & HD) H. apply step_inv in H. split; [|split].
    + eapply InvL_step; eassumption.
    + eapply InvT_step; eassumption.
    + eapply InvD_step; eassumption.
Qed.

Lemma InvT_reachable cap cf th s : reachable (sys cap cf th) s -> InvL s /\ InvT (length th) s.
Proof.
  apply (invariant_lift (sys cap cf th) (fun s => InvL s /\ InvT (length th) s)).
  - split; [apply InvL_init|apply InvT_init].
  - intros s0 t c s' e (HL & HT) H. apply step_inv in H. split.
    + eapply InvL_step; eassumption.
    + eapply InvT_step; eassumption.
Qed.

Lemma s_pc_not_decd p : s_pc p = true -> decd p = false.
Proof. destruct p; cbn; congruence. Qed.

Lemma final_step n cap cf s t s' :
  InvT n s -> q s = [] -> scnt s = 0 -> Step cap cf s t s' -> q s' = [] /\ scnt s' = 0.
Proof.
  intros HT Hq Hs HS.
  (* no sender is left to push *)
  assert (Hna : s_pc (pcs s t) = true -> False).
  { intros X. pose proof (T_s _ _ HT t X) as P. pose proof (s_pc_not_decd _ X) as D.
    assert (Htn : t < n).
    { destruct (Nat.lt_ge_cases t n) as [Y|Y]; [exact Y|]. apply (T_abs _ _ HT) in Y. rewrite Y in X. discriminate X. }
    pose proof (T_scnt _ _ HT) as C. rewrite Hs in C. symmetry in C.
    pose proof (cnt_zero _ _ C t Htn) as Z. unfold alive_p in Z. rewrite P, D in Z. discriminate Z. }
  destruct HS; st_simpl; try (split; [assumption|lia]).
  all: try (exfalso; apply Hna; rewrite Epc; reflexivity).
  congruence.
Qed.

Section Theorems.
  Variables (cap : nat) (cf : cfg) (th : list tprog) (s : st).
  Hypothesis Hr : reachable (sys cap cf th) s.

  (* sender_count / receiver_count are exactly the numbers of producer / consumer threads whose
     handle has not yet been closed under the lock *)
  Theorem counts :
    scnt s = cnt (alive_p s) (length th) /\ rcnt s = cnt (alive_c s) (length th).
  Proof. destruct (InvT_reachable cap cf th s Hr) as [_ HT]. split; [apply (T_scnt _ _ HT)|apply (T_rcnt _ _ HT)]. Qed.

  (* C04 (the F-08 repair): with the re-drain after a close wake-up, every Disconnected answer is
     given from a critical section in which the ring was empty and sender_count = 0 *)
  Theorem disconnected_is_justified :
    redrain_on_close cf = true ->
    discbad s = false /\
    (forall u k, pcs s u = RUnlock k RDisc -> lk s = Some u /\ q s = [] /\ scnt s = 0) /\
    (forall u tm, pcs s u = RRegUnlock tm GoClosed -> lk s = Some u /\ q s = [] /\ scnt s = 0).
  Proof.
    intros Hcf. destruct (Inv2_reachable cap cf th s Hcf Hr) as (HL & HT & HD). split; [apply (D_ok _ HD)|split].
    - intros u k X. split; [apply (proj1 HL); rewrite X; reflexivity|]. pose proof (D_pc _ HD u) as Y. rewrite X in Y. exact Y.
    - intros u tm X. split; [apply (proj1 HL); rewrite X; reflexivity|]. pose proof (D_pc _ HD u) as Y. rewrite X in Y. exact Y.
  Qed.

  (* ... and that state is final: once the ring is empty with no sender left, no schedule ever
     puts a value into it again (so nobody obtains a value after a justified Disconnected) *)
  Theorem disconnected_is_final :
    q s = [] -> scnt s = 0 -> forall sch, let s' := fst (run (sys cap cf th) s sch) in q s' = [] /\ scnt s' = 0.
  Proof.
    intros Hq Hs sch. cbn zeta.
    assert (G : forall sch s0, (InvL s0 /\ InvT (length th) s0) -> q s0 = [] -> scnt s0 = 0 ->
                  q (fst (run (sys cap cf th) s0 sch)) = [] /\ scnt (fst (run (sys cap cf th) s0 sch)) = 0).
    { induction sch0 as [|[t c] r IH]; intros s0 HI Hq0 Hs0; cbn [run fst]; [split; assumption|].
      change (Conc.step (sys cap cf th) s0 t c) with (step cap cf s0 t c).
      destruct (step cap cf s0 t c) as [[s1 e1]|] eqn:E.
      - apply step_inv in E. destruct HI as [HL HT]. destruct (final_step _ _ _ _ _ _ HT Hq0 Hs0 E) as [Hq1 Hs1].
        assert (HI1 : InvL s1 /\ InvT (length th) s1).
        { split; [eapply InvL_step; eassumption|eapply InvT_step; eassumption]. }
        specialize (IH s1 HI1 Hq1 Hs1). destruct (run (sys cap cf th) s1 r). exact IH.
      - apply IH; assumption. }
    apply G; [apply (InvT_reachable cap cf th s Hr)|assumption|assumption].
  Qed.
End Theorems.
