(* Proofs/MpmcK3Examples.v — non-vacuity witnesses and regression witnesses for the theorems about the
   bounded-MPMC atomic-step model: concrete programs and schedules evaluated with vm_compute. *)
From Coq Require Import List NArith Arith Bool.
From Fibre Require Import Common.Conc Chan.MpmcK3.
Import ListNotations.

Fixpoint rep (n : nat) (t : nat) : list (nat * choice) :=
  match n with O => [] | S m => (t, CGo) :: rep m t end.

(* ---- cap 1, one producer (thread 0), two consumers (1, 2): both consumers register and park;
   the first send signals consumer 1 (CAS WAITING -> SUCCESS_SPACE under the lock, unpark), the
   second send finds the ring full, the producer registers and parks; consumer 1 pops, signals the
   producer; ... everything terminates, the last close wakes nobody *)
Definition ex_th := [TProd [Send; Send; TrySend]; TCons [Recv; Drain]; TCons [RecvT; TryRecv]].
Definition ex_sys := sys 1 cfg_fixed ex_th.
Definition ex_s1 := fst (run ex_sys (init ex_th) (rep 40 1 ++ rep 40 2)).
Definition ex_s2 := fst (run ex_sys ex_s1 (rep 60 0)).
Definition ex_s3 := fst (run ex_sys ex_s2 (rep 60 1 ++ rep 60 0 ++ rep 60 1 ++ rep 60 2 ++ rep 60 0 ++ rep 60 1 ++ rep 60 2)).

Lemma ex_both_parked :
  parked ex_s1 1 /\ parked ex_s1 2 /\ wr ex_s1 = [(1, 1); (2, 1)] /\ lk ex_s1 = None.
Proof. vm_compute. repeat split; (left; reflexivity) || (right; left; reflexivity) || (right; right; left; reflexivity) || reflexivity. Qed.

Lemma ex_signalled_then_full :
  flag ex_s2 1 = FSuccess /\ tok ex_s2 1 = true /\ wr ex_s2 = [(2, 1)] /\ q ex_s2 = [(0, 1)] /\
  parked ex_s2 0 /\ ws ex_s2 = [(0, 1)] /\ owedR ex_s2 = [1].
Proof. vm_compute. repeat split; try reflexivity. left. reflexivity. Qed.

Lemma ex_completes :
  (forall t, pcs ex_s3 t = Done) /\ q ex_s3 = [] /\ bad ex_s3 = false /\ discbad ex_s3 = false /\
  accepted ex_s3 = [(0, 1); (0, 2)] /\ map snd (popped ex_s3) = [(0, 1); (0, 2)] /\ scnt ex_s3 = 0 /\ rcnt ex_s3 = 0.
Proof.
  split; [|vm_compute; repeat split; reflexivity].
  intros t. destruct t as [|[|[|t]]]; vm_compute; reflexivity.
Qed.

Definition ex_results := results ex_s3.

(* ---- F-08 regression witness: without the re-drain after a close wake-up a receiver is told
   Disconnected while a value is still buffered (handed to the other, not yet scheduled receiver) *)
Definition w08_th := [TProd [Send]; TCons [Recv]; TCons [Recv]].
Definition w08_sch := rep 40 1 ++ rep 40 2 ++ rep 60 0 ++ rep 40 2.
Definition w08 (cf : cfg) := fst (run (sys 1 cf w08_th) (init w08_th) w08_sch).

Lemma w08_without_redrain : discbad (w08 (mkCfg true false)) = true /\ q (w08 (mkCfg true false)) = [(0, 1)].
Proof. vm_compute. split; reflexivity. Qed.
Lemma w08_with_redrain : discbad (w08 cfg_fixed) = false.
Proof. vm_compute. reflexivity. Qed.

(* ---- F-02 regression witness: without re-arming, a timed receiver that was signalled but lost the
   item to a try_recv stays parked without a linked record: the next send wakes nobody (lost wakeup:
   quiescent state, parked receiver, non-empty ring); if instead the deadline fires while the ring
   is empty the old code hits unreachable!() *)
Definition w02_th := [TProd [Send; Send]; TCons [RecvT]; TCons [TryRecv]].
Definition w02_sch := rep 40 1 ++ rep 12 0 ++ rep 40 2 ++ rep 40 1 ++ rep 80 0.
Definition w02 (cf : cfg) := fst (run (sys 1 cf w02_th) (init w02_th) w02_sch).

Lemma w02_without_rearm :
  let s := w02 (mkCfg false true) in
  quiescent_go 1 (mkCfg false true) s /\ parked s 1 /\ q s = [(0, 2)] /\ scnt s = 0.
Proof.
  split; [|vm_compute; repeat split; try reflexivity; right; right; right; reflexivity].
  intros t. destruct t as [|[|[|t]]]; vm_compute; reflexivity.
Qed.

Lemma w02_with_rearm :
  let s := w02 cfg_fixed in
  gen s 1 = 2 /\ q s = [(0, 2)] /\ flag s 1 = FSuccess /\ tok s 1 = true /\ owedR s = [1] /\ ~ parked s 1.
Proof. vm_compute. repeat split; try reflexivity. intros [_ X]. discriminate X. Qed.

Definition w02p_th := w02_th.
Definition w02p_sch := rep 40 1 ++ rep 12 0 ++ rep 40 2 ++ rep 40 1 ++ [(1, CTimeout)] ++ rep 10 1.
Definition w02p (cf : cfg) := fst (run (sys 1 cf w02p_th) (init w02p_th) w02p_sch).
Lemma w02_panics_without_rearm : bad (w02p (mkCfg false true)) = true /\ pcs (w02p (mkCfg false true)) 1 = Panicked.
Proof. vm_compute. split; reflexivity. Qed.
