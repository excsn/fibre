(* Proofs/TicketK3Base.v — arithmetic of the ticket geometry, function updates, lists over ticket
   ranges, the step inversion tactic, the slot/ticket invariant SInv of the K3 ticket model
   (Chan/TicketK3.v), the lemmas about its tables of physical cells (one cell changes, an entry is
   re-labelled, the cursor advances), what it says about single slots, and its frame lemmas. *)
From Fibre Require Import Common.Base Common.Conc Chan.TicketK3.
From Coq Require Import ZifyBool ZifyNat ZifyN Arith.

Lemma updN_eq {A} (f : N -> A) k v : updN f k v k = v.
Proof. unfold updN. rewrite N.eqb_refl. reflexivity. Qed.
Lemma updN_neq {A} (f : N -> A) k v x : x <> k -> updN f k v x = f x.
Proof. unfold updN. intros H. destruct (N.eqb_spec x k); [contradiction|reflexivity]. Qed.
Lemma updn_eq {A} (f : nat -> A) k v : updn f k v k = v.
Proof. unfold updn. rewrite Nat.eqb_refl. reflexivity. Qed.
Lemma updn_neq {A} (f : nat -> A) k v x : x <> k -> updn f k v x = f x.
Proof. unfold updn. intros H. destruct (Nat.eqb_spec x k); [contradiction|reflexivity]. Qed.

Lemma updn_all {A} (P : A -> Prop) f k v : P v -> (forall x, P (f x)) -> forall x, P (updn f k v x).
Proof. intros Hv Hf x. unfold updn. destruct (Nat.eqb x k); [exact Hv | apply Hf]. Qed.

(* t = cid*cc + idx *)
Section Geo.
Variable cc : N.
Hypothesis Hcc : 0 < cc.

Lemma geo_div c i : i < cc -> (c * cc + i) / cc = c.
Proof. intros Hi. symmetry. apply N.div_unique with i; [exact Hi | lia]. Qed.
Lemma geo_mod c i : i < cc -> (c * cc + i) mod cc = i.
Proof. intros Hi. symmetry. apply N.mod_unique with c; [exact Hi | lia]. Qed.
Lemma geo_split t : t = (t / cc) * cc + t mod cc /\ t mod cc < cc.
Proof.
  split.
  - rewrite N.mul_comm. apply N.div_mod. lia.
  - apply N.mod_lt. lia.
Qed.
Lemma geo_key_inj j i j' i' : i < cc -> i' < cc -> j * cc + i = j' * cc + i' -> j = j' /\ i = i'.
Proof.
  intros Hi Hi' E. split.
  - rewrite <- (geo_div j i Hi), <- (geo_div j' i' Hi'), E. reflexivity.
  - rewrite <- (geo_mod j i Hi), <- (geo_mod j' i' Hi'), E. reflexivity.
Qed.
(* a ticket at or beyond the cursor lives in the cursor's chunk or a later one *)
Lemma geo_ge hc hi t : hc * cc + hi <= t -> hc <= t / cc.
Proof. intros H. apply N.div_le_lower_bound; lia. Qed.
(* every slot of an earlier chunk is before the cursor *)
Lemma geo_lt cur hc hi i : cur < hc -> i < cc -> cur * cc + i < hc * cc + hi.
Proof. intros H Hi. nia. Qed.
(* the next ticket stays in the chunk unless it starts a new one *)
Lemma geo_succ t : (t + 1) mod cc <> 0 -> (t + 1) / cc = t / cc.
Proof.
  intros H. destruct (geo_split t) as [Ht Hm].
  destruct (N.eq_dec (t mod cc + 1) cc) as [E|E].
  - exfalso. apply H. replace (t + 1) with ((t / cc + 1) * cc + 0) by nia. apply geo_mod. lia.
  - replace (t + 1) with (t / cc * cc + (t mod cc + 1)) by lia. apply geo_div. lia.
Qed.
End Geo.

Ltac unf_steps :=
  unfold p_closed_window, p_loop, p_done_batch, p_done, p_done_n, c_done_vals, c_done, c_done_l, p_resident,
    p_lock, c_lock, c_after_pub, c_next, c_miss, set_ppc_at in *.

(* break the step equation [H : ... = Some (s', e)] into its branches *)
Ltac inv_step H :=
  first [ discriminate H
        | match type of H with
          | Some (_, _) = Some _ => injection H as <- <-
          | Some (if ?x then _ else _) = Some _ => destruct x eqn:?; inv_step H
          | Some (match ?x with _ => _ end) = Some _ => destruct x eqn:?; inv_step H
          | (if ?x then _ else _) = Some _ => destruct x eqn:?; inv_step H
          | (match ?x with _ => _ end) = Some _ => destruct x eqn:?; inv_step H
          end ].

(* after inversion the new state may still be an `if` / `match` over the values read *)
Ltac split_goal :=
  repeat match goal with
  | |- context [if ?b then _ else _] => let E := fresh "E" in destruct b eqn:E
  | |- context [match ?x with _ => _ end] => let E := fresh "E" in destruct x eqn:E
  end.

(* the ticket range [own_lo, own_hi) a producer pc owns (claimed by its fetch_add, state not yet stored) *)
Definition own_lo (pc : ppc_t) : N :=
  match pc with
  | PS4 _ t | PC4 _ t _ => t
  | PE1 _ r | PE2 _ r _ | PEs _ r _ | PE3 _ r _ | PW0 _ r | PW1 _ r => rt r + rw r
  | _ => 0
  end.
Definition own_hi (pc : ppc_t) : N :=
  match pc with
  | PS4 _ t => t + 1
  | PC4 _ t m => t + m
  | PE1 _ r | PE2 _ r _ | PEs _ r _ | PE3 _ r _ | PW0 _ r | PW1 _ r => rt r + rm r
  | _ => 0
  end.
Definition owns (pc : ppc_t) (t : N) : Prop := own_lo pc <= t < own_hi pc.
Lemma no_owns pc : own_hi pc = 0 -> forall t, ~ owns pc t.
Proof. unfold owns. intros -> t. lia. Qed.
Lemma owns_none p q : own_hi p = 0 -> own_hi q = 0 -> forall t, owns p t <-> owns q t.
Proof. unfold owns. intros -> -> t. lia. Qed.

(* the payload cell of the ticket being resolved has been written: (ticket, item index) *)
Definition wval_of (pc : ppc_t) : option (N * N) :=
  match pc with
  | PW1 k r => if rset r then Some (rcur r, kitem k + rw r) else None
  | _ => None
  end.
(* the consumer has taken the payload of the ticket at the cursor, the state byte is still SET *)
Definition taken (pc : cpc_t) : bool := match pc with CD5 _ true => true | _ => false end.

Definition code (x : tstat) : N := match x with TSet _ => sSET | TSkip => sSKIP | _ => sEMPTY end.

(* contents of the payload cell of ticket t, as determined by the ghost state *)
Definition dataof (tkf : N -> tstat) (pcf : nat -> ppc_t) (sq : nat -> N) (tak : bool) (hp t : N) : option val :=
  match tkf t with
  | TSet v => if tak && N.eqb t hp then None else Some v
  | TOwn th => match wval_of (pcf th) with
               | Some (t0, i) => if N.eqb t t0 then Some (th, sq th + 1 + i) else None
               | None => None
               end
  | _ => None
  end.

Section Inv.
Variables cap cc n kk : N.

(* what a run in its write phase knows: there is a current ticket; the SET tickets have credit *)
Definition RInv (hp : N) (k : kctx) (r : trun) : Prop :=
  rw r < rm r /\ rv r <= rm r /\ (rv r = 0 \/ rt r + rv r <= hp + cap) /\
  match k with KOne _ => rm r = 1 | KBatch b => bsent b + rm r <= btotal b end.
Definition resident (idf : N -> N) (t : N) : Prop := idf (ent n (cid_of cc t)) = cid_of cc t.

(* what a producer pc knows (the observed values that license its next step) *)
Definition PInv (hp ret : N) (idf : N -> N) (pc : ppc_t) : Prop :=
  match pc with
  | PE1 k r | PE2 k r _ | PEs k r _ => RInv hp k r
  | PE3 k r cur => RInv hp k r /\ cur + 1 <= ret
  | PW0 k r => RInv hp k r /\ rw r < rv r /\ resident idf (rcur r)
  | PW1 k r => RInv hp k r /\ resident idf (rcur r)
  | PN1 k r | PN2 k r | PN3 k r =>
      rw r = rm r /\ rv r <= rm r /\ match k with KOne _ => rm r = 1 | KBatch b => bsent b + rm r <= btotal b end
  | PB1 b | PL1 b | PC0 b | PC1 b | PC2 b _ => bsent b <= btotal b
  | PC3 b m | PC4 b _ m => 0 < m /\ bsent b + m <= btotal b
  | _ => True
  end.

Lemma RInv_mono hp hp' k r : hp <= hp' -> RInv hp k r -> RInv hp' k r.
Proof.
  unfold RInv. intros L [A [B [C D]]]. repeat split; try assumption.
  destruct C as [C|C]; [left; exact C | right; lia].
Qed.
Lemma PInv_mono hp hp' ret ret' idf pc :
  hp <= hp' -> ret <= ret' -> PInv hp ret idf pc -> PInv hp' ret' idf pc.
Proof.
  intros L L'. destruct pc; cbn [PInv]; try exact (fun H => H); try (apply RInv_mono; exact L);
    intros [R X]; (split; [exact (RInv_mono _ _ _ _ L R) | first [exact X | lia]]).
Qed.

(* PInv reads the chunk table only at the tickets the pc owns *)
Lemma PInv_ids hp ret idf idf' pc :
  (forall t, owns pc t -> resident idf t -> resident idf' t) -> PInv hp ret idf pc -> PInv hp ret idf' pc.
Proof.
  intros H. destruct pc; cbn [PInv]; try exact (fun X => X); unfold RInv.
  - intros [R [L X]]. refine (conj R (conj L (H _ _ X))). unfold owns, rcur. cbn [own_lo own_hi]. lia.
  - intros [R X]. refine (conj R (H _ _ X)). unfold owns, rcur. cbn [own_lo own_hi]. lia.
Qed.

Definition CInv (idf : N -> N) (ssf : N -> N) (hc hi : N) (pc : cpc_t) : Prop :=
  match pc with
  | CD2 _ => idf (ent n hc) = hc /\ hi = cc
  | CD3 _ => idf (ent n hc) = hc /\ hi < cc
  | CD4 _ | CD5 _ true => idf (ent n hc) = hc /\ hi < cc /\ ssf (slot_at cc n hc hi) = sSET
  | CD5 _ false => idf (ent n hc) = hc /\ hi < cc /\ ssf (slot_at cc n hc hi) = sSKIP
  | _ => True
  end.

(* a table of cells, one per physical slot: slot (j, i) stands for the ticket idf j * cc + i and holds
   f of it, or e once the cursor hp has passed it *)
Definition cells {A} (hp : N) (idf : N -> N) (cell : N -> A) (e : A) (f : N -> A) : Prop :=
  forall j i, j < n -> i < cc ->
  cell (j * cc + i) = (if N.ltb (idf j * cc + i) hp then e else f (idf j * cc + i)).

Record SInv (s : st) : Prop := {
  (* clause 1: the counters *)
  A_pos : hpos s = hcid s * cc + hidx s;
  A_idx : hidx s <= cc;
  A_ret : retired s = hcid s;
  A_prog : progress s <= hpos s;
  A_drn : drained s <= hpos s;
  A_tail : hpos s <= gtail s;
  (* clause 2: ticket classes *)
  B_free : forall t, tk s t = TFree <-> gtail s <= t;
  B_done : forall t, t < hpos s -> code (tk s t) <> sEMPTY;
  B_own : forall t th, tk s t = TOwn th <-> owns (ppc s th) t;
  P_inv : forall th, PInv (hpos s) (retired s) (ids s) (ppc s th);
  (* clause 3: capacity *)
  D_cap : forall t v, tk s t = TSet v -> hpos s <= t -> t < hpos s + cap;
  (* clause 4: the chunk table and the physical slots *)
  T_ids : forall j, j < n -> ids s j mod n = j;
  E_st : cells (hpos s) (ids s) (sstate s) sEMPTY (fun t => code (tk s t));
  E_dt : cells (hpos s) (ids s) (sdata s) None (dataof (tk s) (ppc s) (pseq s) (taken (cpc s)) (hpos s));
  R_res : forall t, hpos s <= t -> code (tk s t) <> sEMPTY -> ids s (ent n (cid_of cc t)) = cid_of cc t;
  C_inv : CInv (ids s) (sstate s) (hcid s) (hidx s) (cpc s);
  Bad : bad s = false
}.
End Inv.

Lemma nrange_app a k1 k2 : nrange a (k1 + k2) = nrange a k1 ++ nrange (a + N.of_nat k1) k2.
Proof.
  revert a. induction k1 as [|k IH]; intros a; cbn [nrange Nat.add app].
  - rewrite N.add_0_r. reflexivity.
  - rewrite IH. replace (a + 1 + N.of_nat k) with (a + N.of_nat (S k)) by lia. reflexivity.
Qed.

Lemma in_nrange a k t : In t (nrange a k) <-> a <= t < a + N.of_nat k.
Proof.
  revert a. induction k as [|k IH]; intros a; cbn [nrange In].
  - lia.
  - rewrite IH. lia.
Qed.

Lemma vals_in_split s a m b : a <= m -> m <= b -> vals_in s a b = vals_in s a m ++ vals_in s m b.
Proof.
  intros H1 H2. unfold vals_in.
  replace (N.to_nat (b - a)) with (N.to_nat (m - a) + N.to_nat (b - m))%nat by lia.
  rewrite nrange_app, flat_map_app. replace (a + N.of_nat (N.to_nat (m - a))) with m by lia. reflexivity.
Qed.

Lemma vals_in_length s a b : (length (vals_in s a b) <= N.to_nat (b - a))%nat.
Proof.
  unfold vals_in. generalize (N.to_nat (b - a)). intros k. revert a.
  induction k as [|k IH]; intros a; cbn [nrange flat_map length]; [lia|].
  rewrite app_length. specialize (IH (a + 1)). destruct (tk s a); cbn [tk_val length]; lia.
Qed.

Lemma vals_in_nil s a b : (forall t v, a <= t < b -> tk s t <> TSet v) -> vals_in s a b = [].
Proof.
  intros H. unfold vals_in.
  assert (G : forall k a', a <= a' -> a' + N.of_nat k <= N.max a b -> flat_map (fun t => tk_val (tk s t)) (nrange a' k) = []).
  { induction k as [|k IH]; intros a' L1 L2; cbn [nrange flat_map]; [reflexivity|].
    rewrite IH by lia. destruct (tk s a') eqn:Et; cbn [tk_val app]; try reflexivity.
    exfalso. apply (H a' v); [lia | exact Et]. }
  apply G; lia.
Qed.

Lemma in_vals_in s a b v : In v (vals_in s a b) <-> exists t, a <= t < b /\ tk s t = TSet v.
Proof.
  unfold vals_in. rewrite in_flat_map. split.
  - intros [t [Ht Hv]]. apply in_nrange in Ht. exists t. split; [lia|].
    destruct (tk s t); cbn [tk_val In] in Hv; try contradiction. destruct Hv as [->|[]]. reflexivity.
  - intros [t [Ht Hv]]. exists t. split; [apply in_nrange; lia|]. rewrite Hv. left. reflexivity.
Qed.

Lemma claim_cases f t0 m th x :
  (t0 <= x < t0 + m /\ claim f t0 m th x = TOwn th) \/ ((x < t0 \/ t0 + m <= x) /\ claim f t0 m th x = f x).
Proof.
  unfold claim. destruct (N.leb_spec t0 x); destruct (N.ltb_spec x (t0 + m)); cbn [andb]; [left | right ..];
    (split; [lia | reflexivity]).
Qed.
Lemma claim_in f t0 m th x : t0 <= x < t0 + m -> claim f t0 m th x = TOwn th.
Proof. intros H. unfold claim. destruct (N.leb_spec t0 x); destruct (N.ltb_spec x (t0 + m)); try lia. reflexivity. Qed.
Lemma claim_out f t0 m th x : x < t0 \/ t0 + m <= x -> claim f t0 m th x = f x.
Proof. intros H. unfold claim. destruct (N.leb_spec t0 x); destruct (N.ltb_spec x (t0 + m)); try lia; reflexivity. Qed.

(* the fields SInv reads, except the pcs, pseq, and the two published counters (about which SInv
   only says that they are behind the cursor) *)
Record same_core (s s' : st) : Prop := {
  sc_gtail : gtail s' = gtail s;
  sc_retired : retired s' = retired s;
  sc_ids : ids s' = ids s;
  sc_sstate : sstate s' = sstate s;
  sc_sdata : sdata s' = sdata s;
  sc_hcid : hcid s' = hcid s;
  sc_hidx : hidx s' = hidx s;
  sc_hpos : hpos s' = hpos s;
  sc_tk : tk s' = tk s;
  sc_bad : bad s' = bad s
}.

Lemma dataof_updn tkf pcf sq sq' tak hp u p t :
  wval_of p = wval_of (pcf u) ->
  (forall th, th <> u -> sq' th = sq th) ->
  (wval_of p <> None -> sq' u = sq u) ->
  dataof tkf (updn pcf u p) sq' tak hp t = dataof tkf pcf sq tak hp t.
Proof.
  intros Hw Hs Hu. unfold dataof. destruct (tkf t) as [|th|v|]; try reflexivity.
  destruct (Nat.eqb_spec th u) as [->|Hne].
  - rewrite updn_eq, <- Hw. destruct (wval_of p) as [[t0 i]|]; [rewrite Hu by discriminate; reflexivity | reflexivity].
  - rewrite updn_neq by exact Hne. rewrite Hs by exact Hne. reflexivity.
Qed.

(* the pc of u names (in wval_of) no ticket but t0, before and after: the cells of other tickets are as before *)
Lemma dataof_updn_other tkf pcf sq tak hp u p t0 t :
  (forall a i, wval_of p = Some (a, i) -> a = t0) -> (forall a i, wval_of (pcf u) = Some (a, i) -> a = t0) -> t <> t0 ->
  dataof tkf (updn pcf u p) sq tak hp t = dataof tkf pcf sq tak hp t.
Proof.
  intros Hp Hq Hne. unfold dataof. destruct (tkf t) as [|th|v|]; try reflexivity.
  destruct (Nat.eqb_spec th u) as [->|Hth]; [|rewrite updn_neq by exact Hth; reflexivity]. rewrite updn_eq.
  destruct (wval_of p) as [[a i]|]; [rewrite (Hp a i eq_refl)|];
    (destruct (wval_of (pcf u)) as [[a' i']|]; [rewrite (Hq a' i' eq_refl)|]);
    destruct (N.eqb_spec t t0); try contradiction; reflexivity.
Qed.

Section Slots.
Variables cap cc n : N.
Hypothesis Hcc : 0 < cc.
Hypothesis Hn : 0 < n.

Lemma ent_lt c : ent n c < n.
Proof. unfold ent. apply N.mod_lt. lia. Qed.

Lemma slot_of_at c i : i < cc -> slot_of cc n (c * cc + i) = slot_at cc n c i.
Proof. intros Hi. unfold slot_of, cid_of, idx_of. rewrite (geo_div cc Hcc _ _ Hi), (geo_mod cc Hcc _ _ Hi). reflexivity. Qed.

Section Cells.
Context {A : Type} (hp : N) (idf : N -> N) (e : A).
Implicit Types (cell : N -> A) (f : N -> A).

(* the cell of a resident ticket the cursor has not passed *)
Lemma cells_at cell f t :
  cells cc n hp idf cell e f -> hp <= t -> resident cc n idf t -> cell (slot_of cc n t) = f t.
Proof.
  intros C L Hr. destruct (geo_split cc Hcc t) as [Hs Hm]. unfold slot_of, slot_at, idx_of.
  unfold resident in Hr. rewrite (C _ _ (ent_lt _) Hm), Hr. unfold cid_of. rewrite <- Hs.
  destruct (N.ltb_spec t hp); [lia | reflexivity].
Qed.

Lemma cells_ext cell f f' :
  cells cc n hp idf cell e f -> (forall t, hp <= t -> f' t = f t) -> cells cc n hp idf cell e f'.
Proof.
  intros C H j i Hj Hi. rewrite (C j i Hj Hi).
  destruct (N.ltb_spec (idf j * cc + i) hp) as [|L]; [reflexivity | symmetry; apply H; exact L].
Qed.

(* entry j0, whose chunk is drained, is re-labelled c *)
Lemma cells_install cell f j0 c :
  cells cc n hp idf cell e f -> j0 < n -> (forall i, i < cc -> idf j0 * cc + i < hp) ->
  (forall i, i < cc -> hp <= c * cc + i -> f (c * cc + i) = e) -> cells cc n hp (updN idf j0 c) cell e f.
Proof.
  intros C Hj0 Hold Hnew j i Hj Hi.
  destruct (N.eqb_spec j j0) as [->|Hne]; [|rewrite updN_neq by exact Hne; apply C; assumption].
  rewrite updN_eq, (C j0 i Hj Hi). specialize (Hold i Hi). destruct (N.ltb_spec (idf j0 * cc + i) hp); [|lia].
  destruct (N.ltb_spec (c * cc + i) hp); [reflexivity | symmetry; apply Hnew; assumption].
Qed.

Hypothesis Tid : forall j, j < n -> idf j mod n = j.

(* the one slot standing for a resident ticket *)
Lemma key_ticket j i t :
  j < n -> i < cc -> resident cc n idf t -> (j * cc + i = slot_of cc n t <-> idf j * cc + i = t).
Proof.
  intros Hj Hi Hr. split.
  2: { intros <-. rewrite (slot_of_at _ _ Hi). unfold slot_at, ent. rewrite (Tid j Hj). reflexivity. }
  intros Hk. unfold slot_of, slot_at, idx_of in Hk. destruct (geo_split cc Hcc t) as [Ht Hm].
  destruct (geo_key_inj cc Hcc _ _ _ _ Hi Hm Hk) as [-> ->]. rewrite Hr. unfold cid_of. symmetry. exact Ht.
Qed.

(* the cell of the resident ticket t0 and what it should hold change, nothing else does *)
Lemma cells_change cell cell' f f' t0 :
  cells cc n hp idf cell e f -> hp <= t0 -> resident cc n idf t0 ->
  cell' (slot_of cc n t0) = f' t0 -> (forall q, q <> slot_of cc n t0 -> cell' q = cell q) ->
  (forall t, t <> t0 -> f' t = f t) -> cells cc n hp idf cell' e f'.
Proof.
  intros C L Hr H0 Hq Hf j i Hj Hi. pose proof (key_ticket j i t0 Hj Hi Hr) as K.
  destruct (N.eq_dec (j * cc + i) (slot_of cc n t0)) as [Ek|Ek].
  - rewrite Ek, H0, (proj1 K Ek). destruct (N.ltb_spec t0 hp); [lia | reflexivity].
  - rewrite (Hq _ Ek), (C j i Hj Hi), Hf; [reflexivity|]. intros X. apply Ek, K, X.
Qed.

(* the cursor passes hp, whose cell is (made) e *)
Lemma cells_next cell cell' f f' :
  cells cc n hp idf cell e f -> resident cc n idf hp ->
  cell' (slot_of cc n hp) = e -> (forall q, q <> slot_of cc n hp -> cell' q = cell q) ->
  (forall t, hp < t -> f' t = f t) -> cells cc n (hp + 1) idf cell' e f'.
Proof.
  intros C Hr H0 Hq Hf j i Hj Hi. pose proof (key_ticket j i hp Hj Hi Hr) as K.
  destruct (N.eq_dec (j * cc + i) (slot_of cc n hp)) as [Ek|Ek].
  - rewrite Ek, H0, (proj1 K Ek). destruct (N.ltb_spec hp (hp + 1)); [reflexivity | lia].
  - rewrite (Hq _ Ek), (C j i Hj Hi). assert (Hne : idf j * cc + i <> hp) by (intros X; apply Ek, K, X).
    destruct (N.ltb_spec (idf j * cc + i) hp); destruct (N.ltb_spec (idf j * cc + i) (hp + 1)); try lia;
      [reflexivity | symmetry; apply Hf; lia].
Qed.
End Cells.

Lemma own_ge s t th : SInv cap cc n s -> tk s t = TOwn th -> hpos s <= t.
Proof.
  intros I H. destruct (N.lt_ge_cases t (hpos s)) as [L|L]; [|exact L].
  exfalso. apply (B_done _ _ _ _ I t L). rewrite H. reflexivity.
Qed.

Lemma set_below_tail s t v : SInv cap cc n s -> tk s t = TSet v -> t < gtail s.
Proof.
  intros I H. destruct (N.lt_ge_cases t (gtail s)) as [L|L]; [exact L|]. apply (B_free _ _ _ _ I) in L. congruence.
Qed.

(* the slot of an owned, resident ticket: state byte EMPTY; payload cell empty until written *)
Lemma own_slot s u t :
  SInv cap cc n s -> tk s t = TOwn u -> resident cc n (ids s) t ->
  sstate s (slot_of cc n t) = sEMPTY /\
  sdata s (slot_of cc n t) = match wval_of (ppc s u) with
                             | Some (t0, i) => if N.eqb t t0 then Some (u, pseq s u + 1 + i) else None
                             | None => None
                             end.
Proof.
  intros I Ht Hr. pose proof (own_ge _ _ _ I Ht) as Hge.
  rewrite (cells_at _ _ _ _ _ _ (E_st _ _ _ _ I) Hge Hr), (cells_at _ _ _ _ _ _ (E_dt _ _ _ _ I) Hge Hr).
  unfold dataof. rewrite Ht. split; reflexivity.
Qed.

(* the slot under the cursor, when the consumer has found its chunk resident *)
Lemma cursor_resident s :
  SInv cap cc n s -> ids s (ent n (hcid s)) = hcid s -> hidx s < cc ->
  resident cc n (ids s) (hpos s) /\ slot_of cc n (hpos s) = hslot cc n s.
Proof.
  intros I Hr Hi. rewrite (A_pos _ _ _ _ I). split; [|apply slot_of_at; exact Hi].
  unfold resident, cid_of. rewrite (geo_div cc Hcc _ _ Hi). exact Hr.
Qed.

Lemma cursor_slot s :
  SInv cap cc n s -> ids s (ent n (hcid s)) = hcid s -> hidx s < cc ->
  sstate s (hslot cc n s) = code (tk s (hpos s)) /\
  sdata s (hslot cc n s) = dataof (tk s) (ppc s) (pseq s) (taken (cpc s)) (hpos s) (hpos s).
Proof.
  intros I Hr Hi. destruct (cursor_resident s I Hr Hi) as [Hres <-].
  split; [exact (cells_at _ _ _ _ _ _ (E_st _ _ _ _ I) (N.le_refl _) Hres)
         | exact (cells_at _ _ _ _ _ _ (E_dt _ _ _ _ I) (N.le_refl _) Hres)].
Qed.

(* between the payload take and the EMPTY store the ticket under the cursor is a SET one *)
Lemma taken_set s : SInv cap cc n s -> taken (cpc s) = true -> exists v, tk s (hpos s) = TSet v.
Proof.
  intros I Ht. pose proof (C_inv _ _ _ _ I) as C.
  destruct (cpc s); try discriminate Ht. destruct set; [|discriminate Ht]. destruct C as [C1 [C2 C3]].
  destruct (cursor_slot s I C1 C2) as [S1 _]. unfold hslot in S1. rewrite C3 in S1.
  destruct (tk s (hpos s)) as [| |v|]; try discriminate S1. exists v. reflexivity.
Qed.

End Slots.

Section Frame.
Variables cap cc n : N.

(* a producer step that changes only its own pc (and possibly its op counter) *)
Lemma SInv_p_pure s s' u p :
  SInv cap cc n s -> same_core s s' -> progress s' <= hpos s -> drained s' <= hpos s -> cpc s' = cpc s ->
  ppc s' = updn (ppc s) u p ->
  (forall th, th <> u -> pseq s' th = pseq s th) ->
  (wval_of p <> None -> pseq s' u = pseq s u) ->
  (forall t, owns p t <-> owns (ppc s u) t) -> wval_of p = wval_of (ppc s u) ->
  PInv cap cc n (hpos s) (retired s) (ids s) p ->
  SInv cap cc n s'.
Proof.
  intros [A1 A2 A3 A4 A5 A6 B1 B2 B3 P D T Es Ed R C Bd] [e1 e4 e5 e6 e7 e8 e9 e10 e11 e12] Hpr Hdr Ec Ep Hs Hu Ho Hw Hp.
  constructor; rewrite ?e1, ?e4, ?e5, ?e6, ?e7, ?e8, ?e9, ?e10, ?e11, ?e12, ?Ec, ?Ep; try assumption.
  - intros t th. destruct (Nat.eqb_spec th u) as [->|Hne].
    + rewrite updn_eq, Ho. apply B3.
    + rewrite updn_neq by exact Hne. apply B3.
  - apply updn_all; assumption.
  - intros j i Hj Hi. rewrite (dataof_updn _ _ (pseq s) (pseq s')) by assumption. apply Ed; assumption.
Qed.

(* a consumer step that changes only its pc *)
Lemma SInv_c_pure s s' p :
  SInv cap cc n s -> same_core s s' -> progress s' <= hpos s -> drained s' <= hpos s ->
  cpc s' = p -> ppc s' = ppc s -> pseq s' = pseq s ->
  taken p = taken (cpc s) ->
  CInv cc n (ids s) (sstate s) (hcid s) (hidx s) p ->
  SInv cap cc n s'.
Proof.
  intros [A1 A2 A3 A4 A5 A6 B1 B2 B3 P D T Es Ed R C Bd] [e1 e4 e5 e6 e7 e8 e9 e10 e11 e12] Hpr Hdr Ec Ep Es' Ht Hc.
  constructor; rewrite ?e1, ?e4, ?e5, ?e6, ?e7, ?e8, ?e9, ?e10, ?e11, ?e12, ?Ec, ?Ep, ?Es', ?Ht; assumption.
Qed.
End Frame.
