(* Proofs/RendezvousProofs.v — what a step does to the payloads, and what its caller sees of it.
   Conservation (C01, C09): every payload that entered through a send form is, at every point of
   every history, in exactly one place: handed back to its caller, returned to a receiver, destroyed,
   or held in the inline cell of a live future.  The ghost events that state this are determined by
   the outputs ([step_events_out]); a failing operation changes nothing ([rv_failed_no_effect]).
   [run_inv] is the induction over histories that the other invariants reuse. *)
From Fibre Require Import Common.Base Chan.Rendezvous Proofs.RendezvousBase Proofs.RendezvousWF.

Definition cnt (x : N) (l : list N) : nat := count_occ N.eq_dec l x.

Lemma cnt_app x l l' : cnt x (l ++ l') = (cnt x l + cnt x l')%nat.
Proof. unfold cnt. apply count_occ_app. Qed.

Lemma cnt_nil x : cnt x [] = 0%nat.
Proof. reflexivity. Qed.

Definition ocell (o : option N) : list N := match o with Some v => [v] | None => [] end.
Definition cells (F : list (N * fut)) : list N := flat_map (fun p => ocell (f_cell (snd p))) F.

Lemma cells_app F F' : cells (F ++ F') = cells F ++ cells F'.
Proof. unfold cells. apply flat_map_app. Qed.

Lemma cells_aupd_same k g F :
  (forall r, f_cell (g r) = f_cell r) -> cells (aupd k g F) = cells F.
Proof.
  intros Hg. induction F as [|[k0 r] t IH]; cbn [aupd cells flat_map]; [reflexivity|].
  deq k k0; cbn [cells flat_map snd].
  - rewrite Hg. reflexivity.
  - fold (cells (aupd k g t)). fold (cells t). rewrite IH. reflexivity.
Qed.

Lemma cells_aupd k g F r x :
  NoDup (map fst F) -> aget k F = Some r ->
  (cnt x (cells (aupd k g F)) + cnt x (ocell (f_cell r)) =
   cnt x (cells F) + cnt x (ocell (f_cell (g r))))%nat.
Proof.
  induction F as [|[k0 r0] t IH]; cbn [aupd aget map fst]; intros Hn Hg; [discriminate|].
  inversion Hn as [|a l Hnot Hn']; subst.
  deq k k0.
  - inversion Hg; subst r0. cbn [cells flat_map snd]. fold (cells t). rewrite !cnt_app. lia.
  - cbn [cells flat_map snd]. fold (cells (aupd k g t)). fold (cells t). rewrite !cnt_app.
    specialize (IH Hn' Hg). lia.
Qed.

Lemma cells_adel k F r x :
  NoDup (map fst F) -> aget k F = Some r ->
  (cnt x (cells (adel k F)) + cnt x (ocell (f_cell r)) = cnt x (cells F))%nat.
Proof.
  induction F as [|[k0 r0] t IH]; cbn [adel aget map fst]; intros Hn Hg; [discriminate|].
  inversion Hn as [|a l Hnot Hn']; subst.
  deq k k0.
  - inversion Hg; subst r0. cbn [cells flat_map snd]. fold (cells t). rewrite !cnt_app. lia.
  - cbn [cells flat_map snd]. fold (cells (adel k t)). fold (cells t). rewrite !cnt_app.
    specialize (IH Hn' Hg). lia.
Qed.

Lemma cells_disc_all q F : cells (disc_all q F) = cells F.
Proof.
  revert F. induction q as [|[g w] t IH]; intros F; cbn [disc_all]; [reflexivity|].
  rewrite IH. apply cells_aupd_same. reflexivity.
Qed.

Definition ev_intro (e : ev) : list N := match e with EIntro v => [v] | _ => [] end.
Definition ev_back (e : ev) : list N := match e with EBack v => [v] | _ => [] end.
Definition ev_recv (e : ev) : list N := match e with ERecv v => [v] | _ => [] end.
Definition ev_drop (e : ev) : list N :=
  match e with EDropSlot v | EDropDest v | EDropArg v => [v] | _ => [] end.
Definition intro_of (es : list ev) : list N := flat_map ev_intro es.
Definition back_of (es : list ev) : list N := flat_map ev_back es.
Definition recv_of (es : list ev) : list N := flat_map ev_recv es.
Definition drop_of (es : list ev) : list N := flat_map ev_drop es.
Definition evs_of (tr : list titem) : list ev := flat_map (fun t => snd t) tr.

(* one step's books balance *)
Definition bal (F F' : list (N * fut)) (e : list ev) : Prop := forall x,
  (cnt x (intro_of e) + cnt x (cells F) =
   cnt x (back_of e) + cnt x (recv_of e) + cnt x (drop_of e) + cnt x (cells F'))%nat.

Lemma bal_refl F : bal F F [].
Proof. intros x. cbn. lia. Qed.

Lemma wakes_proj q :
  (intro_of (wakes_of q) = [] /\ back_of (wakes_of q) = [] /\ recv_of (wakes_of q) = [])
  /\ drop_of (wakes_of q) = [].
Proof. induction q as [|p t IH]; cbn; [repeat split; reflexivity|exact IH]. Qed.

Lemma bal_wakes F q : bal F F (wakes_of q).
Proof. intros x. destruct (wakes_proj q) as [[-> [-> ->]] ->]. cbn. lia. Qed.

Ltac balsimp :=
  cbn [intro_of back_of recv_of drop_of flat_map ev_intro ev_back ev_recv ev_drop app
       ocell f_cell fut_done fut_unreg fut_sent];
  rewrite ?cnt_nil.

Lemma bal_aupd F k g r e :
  NoDup (map fst F) -> aget k F = Some r ->
  (forall x, (cnt x (intro_of e) + cnt x (ocell (f_cell r)) =
              cnt x (back_of e) + cnt x (recv_of e) + cnt x (drop_of e) + cnt x (ocell (f_cell (g r))))%nat) ->
  bal F (aupd k g F) e.
Proof. intros Hn Hg Hb x. pose proof (cells_aupd k g F r x Hn Hg). specialize (Hb x). lia. Qed.

Lemma closes_bal s sd s' r e : closes s sd s' r e -> bal (fs s) (fs s') e.
Proof.
  intros [ ]; cbn [fs set_scnt set_rcnt]; try apply bal_refl;
    intros x; rewrite cells_disc_all; apply bal_wakes.
Qed.

Lemma drop_cell_bal r x :
  intro_of (drop_cell_ev r) = [] /\ back_of (drop_cell_ev r) = [] /\ recv_of (drop_cell_ev r) = []
  /\ cnt x (drop_of (drop_cell_ev r)) = cnt x (ocell (f_cell r)).
Proof. unfold drop_cell_ev. destruct (f_cell r); [destruct (f_side r)|]; repeat split; reflexivity. Qed.

Theorem step_bal c s o s' r e : WF s -> step c s o = (s', r, e) -> bal (fs s) (fs s') e.
Proof.
  intros W Hs. apply step_inv in Hs. pose proof (wf_fs _ _ _ _ W) as Hn.
  destruct Hs; cbn [fs set_fs set_hs set_rq handoff_to_receiver]; try apply bal_refl;
    (* parking and re-polling leave the cell alone *)
    try (intros x; rewrite cells_aupd_same by reflexivity; balsimp; lia).
  - (* T_send_fail *) intros x. destruct b; balsimp; lia.
  - (* T_handoff *)
    destruct (wf_rq _ _ _ _ W g w) as [rg [Hg [_ [_ [_ Hc]]]]]; [rewrite Hrq; left; reflexivity|].
    apply (bal_aupd _ _ _ rg); auto. intros x. rewrite Hc. balsimp. lia.
  - (* T_take *)
    apply (bal_aupd _ _ _ rg); auto. intros x. rewrite Hc. balsimp. lia.
  - (* T_close *) exact (closes_bal _ _ _ _ _ Hk).
  - (* T_droph *) exact (closes_bal _ _ _ _ _ Hk).
  - (* T_clone_open *) destruct (h_side hd); apply bal_refl.
  - (* T_mksend *) intros x. rewrite cells_app, cnt_app. cbn [cells flat_map snd]. balsimp. lia.
  - (* T_mkrecv *) intros x. rewrite cells_app, cnt_app. cbn [cells flat_map snd]. balsimp. lia.
  - (* T_poll_handoff: the slot is emptied, then the parked receiver's dest is filled *)
    destruct (wf_rq _ _ _ _ W g w') as [rg [Hgg [Hsg [_ [_ Hcg]]]]]; [rewrite Hrq; left; reflexivity|].
    assert (Hne : f <> g) by (intros ->; congruence). intros x.
    pose proof (cells_aupd f fut_sent (fs s) r0 x Hn Hg) as X1.
    pose proof (cells_aupd g (fut_done (Some v)) (aupd f fut_sent (fs s)) rg x) as X2.
    rewrite keys_aupd, aget_aupd_neq in X2 by exact Hne. specialize (X2 Hn Hgg).
    rewrite Hc in X1. rewrite Hcg in X2. revert X1 X2. balsimp. lia.
  - (* T_unreg *) apply (bal_aupd _ _ _ r0); auto.
  - (* T_unreg_ack *) apply (bal_aupd _ _ _ r0); auto.
  - (* T_unreg_val *) apply (bal_aupd _ _ _ r0); auto. intros x. rewrite Hc. balsimp. lia.
  - (* T_dropf *) rewrite (drop_fut_state _ _ _ W Hg). cbn [fs]. intros x.
    destruct (drop_cell_bal r0 x) as [-> [-> [-> ->]]]. pose proof (cells_adel f _ _ x Hn Hg). balsimp. lia.
Qed.

Lemma intro_of_app e e' : intro_of (e ++ e') = intro_of e ++ intro_of e'.
Proof. apply flat_map_app. Qed.
Lemma back_of_app e e' : back_of (e ++ e') = back_of e ++ back_of e'.
Proof. apply flat_map_app. Qed.
Lemma recv_of_app e e' : recv_of (e ++ e') = recv_of e ++ recv_of e'.
Proof. apply flat_map_app. Qed.
Lemma drop_of_app e e' : drop_of (e ++ e') = drop_of e ++ drop_of e'.
Proof. apply flat_map_app. Qed.

Lemma bal_trans F F1 F2 e e' : bal F F1 e -> bal F1 F2 e' -> bal F F2 (e ++ e').
Proof.
  intros A B x. specialize (A x). specialize (B x).
  rewrite intro_of_app, back_of_app, recv_of_app, drop_of_app, !cnt_app. lia.
Qed.

Lemma evs_of_cons (o : op) (r : out) (e : list ev) tr : evs_of ((o, r, e) :: tr) = e ++ evs_of tr.
Proof. reflexivity. Qed.

Lemma run_inv c (P : state -> list ev -> Prop) :
  (forall s o s' r e E, WF s -> P s E -> step c s o = (s', r, e) -> P s' (E ++ e)) ->
  forall ops s s' tr E, WF s -> P s E -> run c s ops = (s', tr) -> P s' (E ++ evs_of tr).
Proof.
  intros Hstep. induction ops as [|o t IH]; intros s s' tr E W H Hr; cbn [run] in Hr.
  - inversion Hr; subst. cbn. rewrite app_nil_r. exact H.
  - destruct (step c s o) as [[s1 r1] e1] eqn:Hs.
    destruct (run c s1 t) as [s2 tr2] eqn:Hr2. inversion Hr; subst.
    rewrite evs_of_cons, app_assoc. eapply IH; [| |exact Hr2]; [eapply step_WF|eapply Hstep]; eauto.
Qed.

(* C01 / C09: conservation.  For every configuration, constructor mode and history: the payloads
   that entered through send forms are exactly (as a multiset) those handed back in errors, those
   returned to receivers, those destroyed, and those sitting in the cells of live futures. *)
Theorem rv_conservation c a ops s tr :
  run c (init a) ops = (s, tr) ->
  Permutation (intro_of (evs_of tr))
              (back_of (evs_of tr) ++ recv_of (evs_of tr) ++ drop_of (evs_of tr) ++ cells (fs s)).
Proof.
  intros Hr. apply (Permutation_count_occ N.eq_dec). intros x.
  assert (X : bal [] (fs s) ([] ++ evs_of tr)).
  { apply (run_inv c (fun s E => bal [] (fs s) E)) with (3 := bal_refl []) (4 := Hr); [|apply WF_init].
    intros s0 o s1 r e E W B Hs. exact (bal_trans _ _ _ _ _ B (step_bal _ _ _ _ _ _ W Hs)). }
  specialize (X x). change (cnt x (cells [])) with 0%nat in X. cbn [app] in X. unfold cnt in X.
  rewrite !count_occ_app. lia.
Qed.

Lemma NoDup_app_inv {A} (l l' : list A) :
  NoDup (l ++ l') -> NoDup l /\ NoDup l' /\ (forall x, In x l -> ~ In x l').
Proof.
  induction l as [|a t IH]; cbn; intros Hn.
  - split; [constructor|]. split; [exact Hn|]. intros x [].
  - inversion Hn as [|y l0 Hnot Hn']; subst. destruct (IH Hn') as [A1 [A2 A3]].
    split; [constructor; [|exact A1]; intros Hi; apply Hnot; apply in_or_app; left; exact Hi|].
    split; [exact A2|]. intros x [->|Hi]; [intros Hi'; apply Hnot; apply in_or_app; right; exact Hi'|].
    apply A3. exact Hi.
Qed.

(* C01: with distinct payload ids nothing is delivered twice, nothing is delivered that was not sent,
   and a payload that was handed back or destroyed is never also delivered. *)
Theorem rv_exactly_once c a ops s tr :
  run c (init a) ops = (s, tr) -> NoDup (intro_of (evs_of tr)) ->
  NoDup (recv_of (evs_of tr))
  /\ incl (recv_of (evs_of tr)) (intro_of (evs_of tr))
  /\ (forall v, In v (recv_of (evs_of tr)) ->
        ~ In v (back_of (evs_of tr)) /\ ~ In v (drop_of (evs_of tr)) /\ ~ In v (cells (fs s))).
Proof.
  intros Hr Hn. pose proof (rv_conservation _ _ _ _ _ Hr) as P.
  pose proof (Permutation_NoDup P Hn) as Hn2.
  destruct (NoDup_app_inv _ _ Hn2) as [B1 [B2 B3]].
  destruct (NoDup_app_inv _ _ B2) as [C1 [C2 C3]].
  destruct (NoDup_app_inv _ _ C2) as [D1 [D2 D3]].
  split; [exact C1|]. split.
  - intros v Hv. eapply Permutation_in; [apply Permutation_sym; exact P|].
    apply in_or_app. right. apply in_or_app. left. exact Hv.
  - intros v Hv. split; [|split].
    + intros Hb. apply (B3 v Hb). apply in_or_app. left. exact Hv.
    + intros Hd. apply (C3 v Hv). apply in_or_app. left. exact Hd.
    + intros Hc. apply (C3 v Hv). apply in_or_app. right. exact Hc.
Qed.

(* C09: once no future is alive every payload has ended in exactly one of: handed back, received,
   destroyed -- whatever the order in which handles and futures were torn down. *)
Theorem rv_dropped_exactly_once c a ops s tr :
  run c (init a) ops = (s, tr) -> fs s = [] ->
  Permutation (intro_of (evs_of tr)) (back_of (evs_of tr) ++ recv_of (evs_of tr) ++ drop_of (evs_of tr))
  /\ (NoDup (intro_of (evs_of tr)) ->
      NoDup (back_of (evs_of tr) ++ recv_of (evs_of tr) ++ drop_of (evs_of tr))).
Proof.
  intros Hr Hf. pose proof (rv_conservation _ _ _ _ _ Hr) as P. rewrite Hf in P.
  cbn [cells flat_map] in P. rewrite app_nil_r in P. split; [exact P|].
  intros Hn. exact (Permutation_NoDup P Hn).
Qed.

(** the history events are determined by what the caller sees *)
Definition out_recv (r : out) : list N := match r with OVal v | OReadyVal v => [v] | _ => [] end.
Definition out_back (r : out) : list N := match r with OFull v | OClosedV v => [v] | _ => [] end.
Definition op_intro (o : op) (r : out) : list N :=
  match r with
  | ONa | OBlock => []
  | _ => match o with TrySend _ v | Send _ v | MkSend _ _ v => [v] | _ => [] end
  end.

Theorem step_events_out c s o s' r e :
  step c s o = (s', r, e) ->
  intro_of e = op_intro o r /\ back_of e = out_back r /\ recv_of e = out_recv r.
Proof.
  intros Hs. apply step_inv in Hs.
  destruct Hs; try (repeat split; reflexivity).
  - (* T_send_fail *) destruct b; [|destruct Ho]; subst r; repeat split; reflexivity.
  - (* T_handoff *) destruct b; repeat split; reflexivity.
  - (* T_recv_fail *) destruct k, Ho; subst r; repeat split; reflexivity.
  - (* T_take *) destruct Ho as [[k [h [-> ->]]]|[f [w' [-> ->]]]]; [destruct k|]; repeat split; reflexivity.
  - (* T_take_panic *) destruct Ho as [[k [h ->]]|[f [w' ->]]]; [destruct k|]; repeat split; reflexivity.
  - (* T_close *) destruct Hk; try (repeat split; reflexivity); apply (proj1 (wakes_proj _)).
  - (* T_droph *) destruct Hk; try (repeat split; reflexivity); apply (proj1 (wakes_proj _)).
  - (* T_poll_same *) destruct Ho as [->|[->| ->]]; repeat split; reflexivity.
  - (* T_unreg *) destruct (f_side r0); repeat split; reflexivity.
  - (* T_dropf *) unfold drop_cell_ev. destruct (f_cell r0); [destruct (f_side r0)|]; repeat split; reflexivity.
Qed.

(** C01: a failed operation has no effect and hands back exactly its input *)
Definition chan_same (s s' : state) : Prop :=
  hs s' = hs s /\ sq s' = sq s /\ rq s' = rq s /\ scnt s' = scnt s /\ rcnt s' = rcnt s.

Theorem rv_failed_no_effect c s o s' r e :
  step c s o = (s', r, e) ->
  match r with
  | OFull x | OClosedV x =>
      s' = s /\ (forall h v, o = TrySend h v -> x = v)
  | OClosed => s' = s /\ (forall h v, o = Send h v -> drop_of e = [v])
  | OEmpty | ODisc | OCloseErr | ONa | OBlock => s' = s
  | OTimeout => s' = set_rq s (if multi_rx c then rq s else [])
  | OReadyClosed | OReadyDisc =>
      chan_same s s' /\ (exists f w, o = Poll f w /\
                          (fs s' = fs s \/ exists r0, aget f (fs s) = Some r0 /\
                                           fs s' = aupd f (fut_unreg (f_cell r0)) (fs s)))
  | _ => True
  end.
Proof.
  intros Hs. apply step_inv in Hs. destruct Hs; try exact I; try reflexivity.
  - (* T_send_fail *)
    destruct b; [|destruct Ho]; subst r; (split; [reflexivity|]); intros h0 v0 X; inversion X; reflexivity.
  - (* T_recv_fail *) destruct Ho; subst r; reflexivity.
  - (* T_take *) destruct Ho as [[k [h [_ ->]]]|[f [w' [_ ->]]]]; exact I.
  - (* T_close *) destruct Hk; exact I.
  - (* T_droph *) destruct Hk; exact I.
  - (* T_poll_same *)
    destruct Ho as [->|[->| ->]]; [exact I|..]; (split; [repeat split; reflexivity|]); exists f, w; auto.
  - (* T_unreg *)
    destruct (f_side r0); (split; [repeat split; reflexivity|]); exists f, w; split; [reflexivity| |reflexivity|];
      right; exists r0; auto.
Qed.
