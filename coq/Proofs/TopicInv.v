(* The invariant relating the topic model (Chan/TopicOps.v) to the reference
   (Chan/TopicSpec.v), for every choice of the fix switches. *)
From Fibre Require Import Common.Base Chan.TopicOps Chan.TopicSpec Proofs.TopicLemmas.

Definition single (sp : spec) : bool := Nat.eqb (length (sp_tx sp)) 1.
(* disconnect-soundness is available when senders are counted (fix04) or never cloned *)
Definition sg (c : cfg) (sp : spec) : bool := fix04 c || single sp.
(* receivers whose mailbox is exactly the ideal one: all of them with fix14, otherwise the never-closed ones *)
Definition good (c : cfg) (y : srx) : bool := fix14 c || negb (s_closed y).

Record rel_tx (c : cfg) (x : txh) (y : stx) : Prop := {
  rt_id : t_id x = x_id y;
  rt_live : t_live x = x_live y;
  rt_cl1 : t_live x = true -> t_closed x = true -> x_closed y = true;
  rt_cl2 : t_live x = true -> fix04 c = true -> t_closed x = x_closed y
}.

(* A receiver record of the model against its record in the reference.  The parameters are global facts the
   clauses depend on: [ls] the dispatcher's lists, [da] = the dispatcher is alive (some sender handle not
   dropped), [ao] = the reference has an open sender, [sgb] = [sg c sp].  "The class" in later comments is the set
   of handles with [good c y = true]: only for them is the mailbox the ideal one (rr_buf) and do the lists say
   nothing beyond the local set (rr_reg2).
   rr_dsound: a disconnected mailbox means no open sender (where that is claimed, [sgb]); rr_dcompl: the converse,
   with both patches; rr_reach: a handle the reference marked as reached by the last close is disconnected;
   rr_cdead: the model's closed flag without a close() seen by the reference is the dead clone made after the
   dispatcher died. *)
Record rel_rx (c : cfg) (ls : list (N * list N)) (da ao sgb : bool) (x : rxh) (y : srx) : Prop := {
  rr_id : r_id x = s_id y;
  rr_live : r_live x = s_live y;
  rr_nd : NoDup (r_subs x);
  rr_subs : r_live x = true -> da = true -> r_subs x = s_subs y /\ m_cap (r_mb x) = s_cap y;
  rr_buf : r_live x = true -> good c y = true -> m_buf (r_mb x) = s_q y /\ m_dropped (r_mb x) = s_full y;
  rr_reg1 : r_live x = true -> da = true -> forall t, In t (r_subs x) ->
            exists l, get_list t ls = Some l /\ In (r_id x) l;
  rr_reg2 : r_live x = true -> da = true -> good c y = true -> forall t l,
            get_list t ls = Some l -> In (r_id x) l -> In t (r_subs x);
  rr_dsound : r_live x = true -> m_disc (r_mb x) = true -> sgb = true -> ao = false;
  rr_dcompl : r_live x = true -> fix04 c = true -> fix05 c = true -> ao = false -> m_disc (r_mb x) = true;
  rr_reach : r_live x = true -> s_reach y = true -> m_disc (r_mb x) = true;
  rr_cdead : r_live x = true -> r_closed x = true -> s_closed y = false -> da = false
}.

Record Inv (c : cfg) (s : state) (sp : spec) : Prop := {
  i_tx : Forall2 (rel_tx c) (txs s) (sp_tx sp);
  i_rx : Forall2 (rel_rx c (lists s) (disp_alive s) (any_open sp) (sg c sp)) (rxs s) (sp_rx sp);
  i_rnd : NoDup (map r_id (rxs s));
  i_tnd : NoDup (map t_id (txs s));
  i_futs : futs s = sp_futs sp;
  i_flive : forall f r, In (f, r) (futs s) -> rx_alive r (rxs s) = true;
  i_lnd : forall t l, get_list t (lists s) = Some l -> NoDup l;
  i_lknown : forall t l m, get_list t (lists s) = Some l -> In m l -> In m (map r_id (rxs s));
  i_cnt : fix04 c = true -> scount s = Z.of_nat (length (filter x_open (sp_tx sp)))
}.

(* what a complaint of the reference may be, given the state it was raised in *)
Definition v_ok (c : cfg) (sp : spec) (v : clause) : Prop :=
  match v with
  | VRouting r => exists y, find_srx r (sp_rx sp) = Some y /\ good c y = false
  | VDiscLive r => sg c sp = false
  | VNoDisc r => fix04 c && fix05 c = false /\ exists y, find_srx r (sp_rx sp) = Some y /\ s_reach y = false
  end.
Definition vs_ok (c : cfg) (sp : spec) (vs : list clause) : Prop := forall v, In v vs -> v_ok c sp v.

Lemma vs_ok_nil c sp : vs_ok c sp [].
Proof. intros v []. Qed.

Lemma inv_init c a cap : Inv c (init a cap) (sp_init cap).
Proof.
  constructor; cbn.
  - constructor; [|constructor]. constructor; cbn; auto; intros; discriminate.
  - constructor; [|constructor]. constructor; cbn; auto; try (intros; discriminate); try (intros; contradiction).
    constructor.
  - constructor; [intros []|constructor].
  - constructor; [intros []|constructor].
  - reflexivity.
  - intros f r [].
  - intros t l H. discriminate.
  - intros t l m H. discriminate.
  - intros _. reflexivity.
Qed.

Lemma tx_live_eq c ts ss : Forall2 (rel_tx c) ts ss -> existsb t_live ts = existsb x_live ss.
Proof.
  induction 1 as [|x y ts ss Hxy HF IH]; cbn [existsb]; [reflexivity|].
  rewrite (rt_live _ _ _ Hxy), IH. reflexivity.
Qed.

Lemma any_open_live sp : any_open sp = true -> existsb x_live (sp_tx sp) = true.
Proof.
  unfold any_open. rewrite !existsb_exists. intros [x [H1 H2]]. exists x. split; [exact H1|].
  unfold x_open in H2. apply andb_true_iff in H2. tauto.
Qed.

Lemma da_false_ao c s sp : Inv c s sp -> disp_alive s = false -> any_open sp = false.
Proof.
  intros I H. destruct (any_open sp) eqn:E; [|reflexivity].
  apply any_open_live in E. unfold disp_alive in H. rewrite (tx_live_eq _ _ _ (i_tx _ _ _ I)) in H. congruence.
Qed.

Lemma live_tx_da s h x : live_tx h s = Some x -> disp_alive s = true.
Proof.
  unfold live_tx, disp_alive. destruct (find_tx h (txs s)) as [y|] eqn:E; [|discriminate].
  destruct (t_live y) eqn:L; [|discriminate]. intros _.
  apply (find_id_In t_id) in E. apply existsb_exists. exists y. tauto.
Qed.

Lemma live_rx_spec s r x : live_rx r s = Some x -> find_rx r (rxs s) = Some x /\ r_live x = true.
Proof.
  unfold live_rx. destruct (find_rx r (rxs s)) as [y|]; [|discriminate].
  destruct (r_live y) eqn:L; [|discriminate]. intros H. inversion H; subst. auto.
Qed.

Lemma live_tx_spec s r x : live_tx r s = Some x -> find_tx r (txs s) = Some x /\ t_live x = true.
Proof.
  unfold live_tx. destruct (find_tx r (txs s)) as [y|]; [|discriminate].
  destruct (t_live y) eqn:L; [|discriminate]. intros H. inversion H; subst. auto.
Qed.

(* the reference has a record for r exactly when the model has one *)
Lemma pair_rx c s sp r x :
  Inv c s sp -> find_rx r (rxs s) = Some x ->
  exists y, find_srx r (sp_rx sp) = Some y /\ In x (rxs s) /\ In y (sp_rx sp) /\
            rel_rx c (lists s) (disp_alive s) (any_open sp) (sg c sp) x y.
Proof. intros I. exact (find_id_pair r_id s_id _ (rr_id _ _ _ _ _) _ _ r x (i_rx _ _ _ I)). Qed.

Lemma pair_tx c s sp r x :
  Inv c s sp -> find_tx r (txs s) = Some x ->
  exists y, find_stx r (sp_tx sp) = Some y /\ In x (txs s) /\ In y (sp_tx sp) /\ rel_tx c x y.
Proof. intros I. exact (find_id_pair t_id x_id _ (rt_id c) _ _ r x (i_tx _ _ _ I)). Qed.

Lemma spec_rx_nodup c s sp : Inv c s sp -> NoDup (map s_id (sp_rx sp)).
Proof. intros I. rewrite <- (ids_eq r_id s_id _ (rr_id _ _ _ _ _) _ _ (i_rx _ _ _ I)). apply (i_rnd _ _ _ I). Qed.

Lemma spec_tx_nodup c s sp : Inv c s sp -> NoDup (map x_id (sp_tx sp)).
Proof. intros I. rewrite <- (ids_eq t_id x_id _ (rt_id c) _ _ (i_tx _ _ _ I)). apply (i_tnd _ _ _ I). Qed.

Lemma unique_pair c s sp r x y x0 y0 :
  Inv c s sp -> find_rx r (rxs s) = Some x -> find_srx r (sp_rx sp) = Some y ->
  In x0 (rxs s) -> In y0 (sp_rx sp) -> r_id x0 = r -> s_id y0 = r -> x0 = x /\ y0 = y.
Proof.
  intros I Hx Hy Hx0 Hy0 E1 E2. split.
  - exact (find_id_unique r_id r _ x x0 (i_rnd _ _ _ I) Hx Hx0 E1).
  - exact (find_id_unique s_id r _ y y0 (spec_rx_nodup _ _ _ I) Hy Hy0 E2).
Qed.

Lemma rx_alive_map F rs m :
  (forall x, r_id (F x) = r_id x) -> (forall x, r_live (F x) = r_live x) ->
  rx_alive m (map F rs) = rx_alive m rs.
Proof.
  intros Hid Hl. unfold rx_alive. rewrite find_rx_map by exact Hid.
  destruct (find_rx m rs); [apply Hl | reflexivity].
Qed.

(* new receiver records and dispatcher lists; senders, futures and counters untouched *)
Lemma inv_set_rx_lists c s sp rs' ls' ss' :
  Inv c s sp ->
  Forall2 (rel_rx c ls' (disp_alive s) (any_open sp) (sg c sp)) rs' ss' ->
  NoDup (map r_id rs') ->
  (forall f r, In (f, r) (futs s) -> rx_alive r rs' = true) ->
  (forall t l, get_list t ls' = Some l -> NoDup l) ->
  (forall t l m, get_list t ls' = Some l -> In m l -> In m (map r_id rs')) ->
  Inv c (st_set_lists (st_set_rxs s rs') ls') (sp_set_rx sp ss').
Proof. intros I HF Hnd Hfl Hlnd Hlk. constructor; try assumption; apply I. Qed.

Lemma inv_set_rxs c s sp rs' ss' :
  Inv c s sp ->
  Forall2 (rel_rx c (lists s) (disp_alive s) (any_open sp) (sg c sp)) rs' ss' ->
  NoDup (map r_id rs') ->
  (forall f r, In (f, r) (futs s) -> rx_alive r rs' = true) ->
  (forall m, In m (map r_id (rxs s)) -> In m (map r_id rs')) ->
  Inv c (st_set_rxs s rs') (sp_set_rx sp ss').
Proof.
  intros I HF Hnd Hfl Hids.
  apply (inv_set_rx_lists c s sp rs' (lists s) ss' I HF Hnd Hfl (i_lnd _ _ _ I)).
  intros t l m H1 H2. apply Hids. exact (i_lknown _ _ _ I t l m H1 H2).
Qed.

Lemma inv_map_rx c s sp (F : rxh -> rxh) (G : srx -> srx) :
  Inv c s sp ->
  (forall x, r_id (F x) = r_id x) -> (forall x, r_live (F x) = r_live x) ->
  (forall x y, In x (rxs s) -> In y (sp_rx sp) ->
     rel_rx c (lists s) (disp_alive s) (any_open sp) (sg c sp) x y ->
     rel_rx c (lists s) (disp_alive s) (any_open sp) (sg c sp) (F x) (G y)) ->
  Inv c (st_set_rxs s (map F (rxs s))) (sp_set_rx sp (map G (sp_rx sp))).
Proof.
  intros I Hid Hlive HF.
  assert (Hids : map r_id (map F (rxs s)) = map r_id (rxs s)) by (rewrite map_map; apply map_ext; exact Hid).
  apply inv_set_rxs; [exact I | | | |]; rewrite ?Hids.
  - eapply Forall2_map2; [apply (i_rx _ _ _ I) | exact HF].
  - apply (i_rnd _ _ _ I).
  - intros f r Hin. rewrite rx_alive_map by assumption. exact (i_flive _ _ _ I f r Hin).
  - auto.
Qed.

(* change the record of receiver r only (handle flags / mailbox), dispatcher and senders untouched *)
Lemma inv_upd_rx c s sp r x y f g :
  Inv c s sp -> find_rx r (rxs s) = Some x -> find_srx r (sp_rx sp) = Some y ->
  (forall x0, r_id (f x0) = r_id x0) -> (forall x0, r_live (f x0) = r_live x0) ->
  rel_rx c (lists s) (disp_alive s) (any_open sp) (sg c sp) (f x) (g y) ->
  Inv c (st_set_rxs s (upd_rx r f (rxs s))) (sp_set_rx sp (upd_srx r g (sp_rx sp))).
Proof.
  intros I Hx Hy Hid Hlive Hrel. apply inv_map_rx; [exact I | | |].
  - intros x0. destruct (N.eqb (r_id x0) r); [apply Hid | reflexivity].
  - intros x0. destruct (N.eqb (r_id x0) r); [apply Hlive | reflexivity].
  - intros x0 y0 Hx0 Hy0 HR. rewrite <- (rr_id _ _ _ _ _ _ _ HR).
    destruct (N.eqb_spec (r_id x0) r) as [E|E]; [|exact HR].
    assert (E2 : s_id y0 = r) by (rewrite <- (rr_id _ _ _ _ _ _ _ HR); exact E).
    destruct (unique_pair _ _ _ _ _ _ _ _ I Hx Hy Hx0 Hy0 E E2) as [-> ->]. exact Hrel.
Qed.

Lemma inv_model_only c s sp r x y f :
  Inv c s sp -> find_rx r (rxs s) = Some x -> find_srx r (sp_rx sp) = Some y ->
  (forall x0, r_id (f x0) = r_id x0) -> (forall x0, r_live (f x0) = r_live x0) ->
  rel_rx c (lists s) (disp_alive s) (any_open sp) (sg c sp) (f x) y ->
  Inv c (st_set_rxs s (upd_rx r f (rxs s))) sp.
Proof.
  intros I Hx Hy H1 H2 HR. replace sp with (sp_set_rx sp (upd_srx r (fun y => y) (sp_rx sp))).
  - apply (inv_upd_rx _ _ _ _ x y); auto.
  - rewrite (upd_id_same s_id). destruct sp; reflexivity.
Qed.

Lemma inv_spec_only c s sp r x y g :
  Inv c s sp -> find_rx r (rxs s) = Some x -> find_srx r (sp_rx sp) = Some y ->
  rel_rx c (lists s) (disp_alive s) (any_open sp) (sg c sp) x (g y) ->
  Inv c s (sp_set_rx sp (upd_srx r g (sp_rx sp))).
Proof.
  intros I Hx Hy HR. replace s with (st_set_rxs s (upd_rx r (fun x => x) (rxs s))) at 1.
  - apply (inv_upd_rx _ _ _ _ x y); auto.
  - rewrite (upd_id_same r_id). destruct s; reflexivity.
Qed.

Definition step_ok_for (c : cfg) (o : op) : Prop :=
  forall s sp s1 rs w sp1 vs, Inv c s sp -> step c s o = (s1, (rs, w)) -> sp_step sp o rs = (sp1, vs) ->
  Inv c s1 sp1 /\ vs_ok c sp vs.

(* results that are no outcome of a receive leave the reference alone *)
Lemma sp_recv_inert sp r rs :
  match rs with RVal _ _ | REmpty | RTimeout | RPending | RDisc => False | _ => True end ->
  sp_recv sp r rs = (sp, []).
Proof.
  intros H. unfold sp_recv. destruct (find_srx r (sp_rx sp)); [|reflexivity].
  destruct rs; try reflexivity; contradiction.
Qed.

(* Closes a branch of an operation in which the model state does not change and the reference at hand (this one, or
   the C04 one, whose like lemma joins the rewrite set) neither moves nor complains; [I] is the invariant to keep. *)
#[export] Hint Rewrite sp_recv_inert using exact Logic.I : topic_inert.
Ltac same Hs Hsp I :=
  injection Hs as <- <- <-; autorewrite with topic_inert in Hsp; injection Hsp as <- <-;
  split; [exact I | intros ? []].
