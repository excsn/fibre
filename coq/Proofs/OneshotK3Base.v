(* Basics for the K3 oneshot proofs: upd / counting lemmas, classification of
   program counters, and the step functions `sstep` / `rstep` as relations (one case per branch, the new
   state written out), which is how every invariant proof looks at a step. *)
From Coq Require Import List Arith Bool Lia.
From Fibre Require Import Common.Conc Chan.OneshotK3.
Import ListNotations.


Lemma upd_eq A (f : nat -> A) t v : upd f t v t = v.
Proof. unfold upd. rewrite Nat.eqb_refl. reflexivity. Qed.

Lemma upd_neq A (f : nat -> A) t v u : u <> t -> upd f t v u = f u.
Proof. intros H. unfold upd. destruct (Nat.eqb_spec u t); [contradiction|reflexivity]. Qed.

(* number of t in [1..n] with f t = true *)
Fixpoint cntf (f : nat -> bool) (n : nat) : nat :=
  match n with
  | 0 => 0
  | S k => (if f (S k) then 1 else 0) + cntf f k
  end.

Lemma cntf_ext f g n : (forall t, 1 <= t <= n -> f t = g t) -> cntf f n = cntf g n.
Proof.
  induction n as [|k IH]; intros H; cbn [cntf]; [reflexivity|].
  rewrite (H (S k)) by lia. rewrite IH; [reflexivity|]. intros t Ht. apply H. lia.
Qed.

Lemma cntf_zero f n : cntf f n = 0 -> forall t, 1 <= t <= n -> f t = false.
Proof.
  induction n as [|k IH]; intros H t Ht; [lia|]. cbn [cntf] in H.
  destruct (Nat.eq_dec t (S k)) as [->|N].
  - destruct (f (S k)); [cbn in H; lia|reflexivity].
  - apply IH; [|lia]. destruct (f (S k)); cbn in H; lia.
Qed.

Lemma cntf_pos f n t : 1 <= t <= n -> f t = true -> 1 <= cntf f n.
Proof.
  intros Ht Hf. destruct (cntf f n) eqn:E; [|lia].
  rewrite (cntf_zero f n E t Ht) in Hf. discriminate.
Qed.

Lemma cntf_ex f n : 1 <= cntf f n -> exists t, 1 <= t <= n /\ f t = true.
Proof.
  induction n as [|k IH]; cbn [cntf]; intros H; [lia|].
  destruct (f (S k)) eqn:E.
  - exists (S k). split; [lia|exact E].
  - destruct (IH ltac:(cbn in H; lia)) as [t [Ht Hf]]. exists t. split; [lia|exact Hf].
Qed.

Lemma cntf_upd_same A (F : A -> bool) (f : nat -> A) t v n :
  F v = F (f t) -> cntf (fun u => F (upd f t v u)) n = cntf (fun u => F (f u)) n.
Proof.
  intros H. apply cntf_ext. intros u _. unfold upd. destruct (Nat.eqb_spec u t) as [->|]; [exact H|reflexivity].
Qed.

Lemma cntf_upd_dec A (F : A -> bool) (f : nat -> A) t v n :
  1 <= t <= n -> F (f t) = true -> F v = false ->
  cntf (fun u => F (upd f t v u)) n = cntf (fun u => F (f u)) n - 1.
Proof.
  intros Ht H1 H2. induction n as [|k IH]; [lia|]. cbn [cntf]. destruct (Nat.eq_dec t (S k)) as [->|N].
  - rewrite upd_eq, H1, H2. rewrite (cntf_ext (fun u => F (upd f (S k) v u)) (fun u => F (f u)) k).
    + cbn. symmetry. apply Nat.sub_0_r.
    + intros u Hu. rewrite upd_neq by lia. reflexivity.
  - rewrite upd_neq, IH by lia. pose proof (cntf_pos (fun u => F (f u)) k t ltac:(lia) H1).
    destruct (F (f (S k))); lia.
Qed.

Definition pre_fsub (p : spc_t) : bool :=
  match p with
  | SIdle | SRd | SLoad | SCas | SRd2 | SBack | SLock | SSwap | SUnlock | WTake WSend | WUnpark WSend | DFsub => true
  | _ => false
  end.
Definition writer (p : spc_t) : bool := match p with SRd2 | SBack | SLock | SSwap => true | _ => false end.
Definition srel (p : spc_t) : bool := match p with SShLoad | SDone => true | _ => false end.
Definition rrel (p : rpc_t) : bool := match p with RShLoad | RDone => true | _ => false end.
Definition prewrite (p : spc_t) : bool :=
  match p with SIdle | SRd | SLoad | SCas | SRd2 | SBack | SLock => true | _ => false end.
Definition okzone (p : spc_t) : bool :=
  match p with SSwap | WTake WSend | WUnpark WSend | SUnlock => true | _ => false end.
Definition lastz (p : spc_t) : bool :=
  match p with
  | DCas | DLoad | DRd | DCas2 | DLock | DUnlock | DLoadR
  | WTake WClosed | WTake WLate | WUnpark WClosed | WUnpark WLate => true
  | _ => false
  end.
Definition rtaker (p : rpc_t) : bool := match p with TLock _ | CLock _ => true | _ => false end.
Definition rtakz (p : rpc_t) : bool := match p with TLock _ | CLock _ | TNone _ => true | _ => false end.
Definition rcl (p : rpc_t) : bool :=
  match p with CStore false | CCas1 false | CCas2 false | CLock false | CUnlock false => true | _ => false end.
Definition rfin (p : rpc_t) : bool :=
  match p with CStore true | CCas1 true | CCas2 true | CLock true | CUnlock true | RArc | RShLoad | RDone => true | _ => false end.
Definition ropen (p : rpc_t) : bool :=
  match p with
  | TLoad _ | TCas _ | TLock _ | TNone _ | TUnlock _ _ | TFLoad _ | TFCnt _ | TCnt _ | TClose _
  | PLoad | PCntA | PCntB | PClose | PReg | PCntC | BChk | BPark => true
  | _ => false
  end.

Definition is_local (r : rres) : bool := match r with RDiscL | RFDiscL | RCloseErr => true | _ => false end.

(* results of calls on a closed handle: neither Disconnected on the open handle nor a value *)
Lemma local_nodisc l : forallb is_local l = true -> existsb is_disc l = false.
Proof.
  induction l as [|r t IH]; [reflexivity|]. cbn. intros H. apply andb_prop in H. destruct H as [H1 H2].
  rewrite (IH H2). destruct r; try discriminate H1; reflexivity.
Qed.

Lemma local_noval l : forallb is_local l = true -> flat_map rres_val l = [].
Proof.
  induction l as [|r t IH]; [reflexivity|]. cbn. intros H. apply andb_prop in H. destruct H as [H1 H2].
  rewrite (IH H2). destruct r; try discriminate H1; reflexivity.
Qed.

Lemma rdispatch_closed C s p x :
  rclosed s = true -> rdispatch C s p = Some x ->
  exists l, forallb is_local l = true /\ do_arc_r (set_rprog (set_rlog s (rlog s ++ l)) []) = Some x.
Proof.
  revert s. induction p as [|o r IH]; intros s R H; cbn [rdispatch] in H; rewrite R in H.
  - exists []. split; [reflexivity|]. rewrite app_nil_r. destruct s; exact H.
  - destruct o; (apply IH in H; [|destruct s; exact R]); destruct H as [l [Hl H]]; cbn [rlogv rlog set_rlog] in H;
      [exists (RDiscL :: l)|exists (RFDiscL :: l)|exists (RCloseErr :: l)]; (split; [exact Hl|]);
      rewrite <- app_assoc in H; destruct s; exact H.
Qed.

Lemma cst_eqb_spec a b : reflect (a = b) (cst_eqb a b).
Proof. destruct a, b; constructor; first [reflexivity | discriminate]. Qed.

(* one case per outcome of the first guard in H: for the inversion lemmas and the lemmas on disabled steps *)
Ltac split_guard H :=
  match type of H with
  | context [cst_eqb ?a ?b] => destruct (cst_eqb_spec a b)
  | context [Nat.eqb ?a ?b] => tryif is_var a then fail else destruct (Nat.eqb_spec a b)
  | context [Nat.leb ?a ?b] => destruct (Nat.leb_spec a b)
  | context [match ?x with _ => _ end] => lazymatch x with Nat.eqb _ _ => fail | _ => destruct x eqn:? end
  end; cbn [orb] in H.

Section StepSpec.
  Variable C : cfg.
  Variable sprog : nat -> sop.

  Inductive SrdStep (s : st) (t : nat) : st -> Prop :=
  | S_rd_closed : rd s = true -> SrdStep s t (s_fail s t SClosedE)
  | S_rd_open : rd s = false -> SrdStep s t (set_spc_at s t SLoad).

  Inductive FsubStep (s : st) (t : nat) : st -> Prop :=
  | S_fsub_last : cnt s = 1 -> FsubStep s t (set_spc_at (set_cnt s (cnt s - 1)) t DCas)
  | S_fsub : cnt s <> 1 -> FsubStep s t (dec_done sprog (set_cnt s (cnt s - 1)) t).

  (* sender thread t at pc p (third argument) moves to the state in the last argument *)
  Inductive SStep (s : st) (t : nat) : spc_t -> st -> Prop :=
  | S_lock_busy : SStep s t SLock s
  | S_dlock_busy : SStep s t DLock s
  | S_idle_send s' : sprog t = SSend -> SrdStep s t s' -> SStep s t SIdle s'
  | S_idle_drop s' : FsubStep s t s' -> SStep s t SIdle s'
  | S_rd s' : SrdStep s t s' -> SStep s t SRd s'
  | S_dfsub s' : FsubStep s t s' -> SStep s t DFsub s'
  | S_load_late : 2 <= code (cs s) -> SStep s t SLoad (s_fail s t SSentE)
  | S_load : code (cs s) < 2 -> SStep s t SLoad (set_spc_at s t SCas)
  | S_cas : cs s = Empty -> SStep s t SCas (set_spc_at (set_cs s Writing) t SRd2)
  | S_cas_lost : cs s <> Empty -> SStep s t SCas (s_fail s t SSentE)
  | S_rd2_closed : rd s = true -> SStep s t SRd2 (set_spc_at s t SBack)
  | S_rd2_open : rd s = false -> SStep s t SRd2 (set_spc_at s t SLock)
  | S_back : SStep s t SBack (s_fail (set_cs s Empty) t SClosedE)
  | S_lock : SStep s t SLock (set_spc_at (set_wrote (set_slot (set_mlock s (Some t)) (Some t)) (wrote s ++ [t])) t SSwap)
  | S_swap : SStep s t SSwap (set_spc_at (set_cs s Sent) t (WTake WSend))
  | S_take w g : wk s = Some g ->
      SStep s t (WTake w) (set_spc_at (set_woken (set_wk s None) (if Nat.eqb g (gen s) then true else woken s)) t (WUnpark w))
  | S_take_none w : wk s = None -> SStep s t (WTake w) (after_wake sprog s t w)
  | S_unpark w : SStep s t (WUnpark w) (after_wake sprog (set_token s true) t w)
  | S_unlock : SStep s t SUnlock (set_spc_at (set_oks (slogv (set_mlock s None) t SOk) (oks s ++ [t])) t DFsub)
  | S_dcas : cs s = Empty -> SStep s t DCas (set_spc_at (set_cs s Closed) t (WTake WClosed))
  | S_dcas_lost : cs s <> Empty -> SStep s t DCas (set_spc_at s t DLoad)
  | S_dload_sent : cs s = Sent -> SStep s t DLoad (set_spc_at s t DRd)
  | S_dload : cs s <> Sent -> SStep s t DLoad (set_spc_at s t DLoadR)
  | S_drd_closed : rd s = true -> SStep s t DRd (set_spc_at s t DCas2)
  | S_drd_open : rd s = false -> SStep s t DRd (set_spc_at s t DLoadR)
  | S_dcas2 : cs s = Sent -> SStep s t DCas2 (set_spc_at (set_cs s Taken) t DLock)
  | S_dcas2_lost : cs s <> Sent -> SStep s t DCas2 (dec_done sprog s t)
  | S_dlock v : slot s = Some v ->
      SStep s t DLock (set_spc_at (set_drops (set_slot (set_mlock s (Some t)) None) (drops s ++ [(v, BySender)])) t DUnlock)
  | S_dlock_none : slot s = None -> SStep s t DLock (set_spc_at (set_mlock s (Some t)) t DUnlock)
  | S_dunlock : SStep s t DUnlock (dec_done sprog (set_mlock s None) t)
  | S_dloadr_sent : cs s = Sent -> SStep s t DLoadR (dec_done sprog s t)
  | S_dloadr : cs s <> Sent -> SStep s t DLoadR (set_spc_at s t (WTake WLate))
  | S_arc_last : arc s = 1 -> SStep s t SArc (set_spc_at (set_arc s (arc s - 1)) t SShLoad)
  | S_arc : arc s <> 1 -> SStep s t SArc (set_spc_at (set_arc s (arc s - 1)) t SDone)
  | S_shdrop v : cs s = Sent -> slot s = Some v ->
      SStep s t SShLoad (set_spc_at (set_drops (set_slot s None) (drops s ++ [(v, ByShared)])) t SDone)
  | S_shload : cs s <> Sent \/ slot s = None -> SStep s t SShLoad (set_spc_at s t SDone).

  (* only the thread that runs Drop for OneShotShared still steps after releasing its handle *)
  Lemma SStep_rel s t p s' : SStep s t p s' -> srel p = true -> p = SShLoad.
  Proof. destruct 1; intros X; first [reflexivity | discriminate X]. Qed.

  Lemma sstep_inv s t s' e : sstep sprog s t = Some (s', e) -> SStep s t (spc s t) s'.
  Proof.
    unfold sstep, do_srd, do_fsub, sret, sh_drop. intros H.
    destruct (spc s t); repeat split_guard H; try discriminate H; injection H as <- _;
      first [ solve [eauto using SrdStep, FsubStep, SStep] | apply S_shload; left; congruence ].
  Qed.

  (* do_tload on the prepared state s0; k is the state word it loads *)
  Inductive TLoadStep (k : cst) (s0 : st) (c : tctx) : st -> Prop :=
  | TL_sent : k = Sent -> TLoadStep k s0 c (set_rpc s0 (TCas c))
  | TL_busy : k = Taken \/ k = Writing -> TLoadStep k s0 c (t_done C s0 c TEmpty)
  | TL_closed : k = Closed -> TLoadStep k s0 c (t_done C s0 c TDisc)
  | TL_empty : k = Empty -> TLoadStep k s0 c (set_rpc s0 (TCnt c)).

  (* do_arc_r on s0 with reference count a *)
  Inductive ArcStep (a : nat) (s0 : st) : st -> Prop :=
  | A_last : a = 1 -> ArcStep a s0 (set_rpc (set_arc s0 (a - 1)) RShLoad)
  | A_more : a <> 1 -> ArcStep a s0 (set_rpc (set_arc s0 (a - 1)) RDone).

  (* the CAS EMPTY->CLOSED after sender_count = 0 was read, in try_recv (context c) and in poll_recv (as CP1) *)
  Inductive CloseStep (s : st) (c : tctx) : st -> Prop :=
  | CL_won : cs s = Empty -> CloseStep s c (t_done C (set_cs s Closed) c TDisc)
  | CL_lost : cs s <> Empty -> fixA C = false \/ cs s = Closed -> CloseStep s c (t_done C s c TDisc)
  | CL_retry : fixA C = true -> cs s <> Empty -> cs s <> Closed -> CloseStep s c (set_rpc s (TLoad c)).

  Inductive RStep (s : st) : rpc_t -> st -> Prop :=
  | R_tlock_busy c : RStep s (TLock c) s
  | R_clock_busy fin : RStep s (CLock fin) s
  | R_gone l s' : rclosed s = true -> forallb is_local l = true ->
      ArcStep (arc s) (set_rprog (set_rlog s (rlog s ++ l)) []) s' -> RStep s RIdle s'
  | R_drop : rclosed s = false -> rprog s = [] -> RStep s RIdle (set_rpc (set_rd (set_rprog s []) true) (CCas1 true))
  | R_close r : rclosed s = false -> rprog s = RClose :: r ->
      RStep s RIdle (set_rpc (set_rd (set_rclosed (set_rprog s r) true) true) (CCas1 false))
  | R_try r s' : rclosed s = false -> rprog s = RTry :: r -> TLoadStep (cs s) (set_rprog s r) CT s' -> RStep s RIdle s'
  | R_recv r s' : rclosed s = false -> rprog s = RRecv :: r ->
      TLoadStep (cs s) (set_woken (set_gen (set_rprog s r) (S (gen s))) false) CP1 s' -> RStep s RIdle s'
  | R_tload c s' : TLoadStep (cs s) s c s' -> RStep s (TLoad c) s'
  | R_tcas c : cs s = Sent -> RStep s (TCas c) (set_rpc (set_cs s Taken) (TLock c))
  | R_tlock c v : slot s = Some v ->
      RStep s (TLock c) (set_rpc (set_got (set_slot (set_mlock s (Some 0)) None) (got s ++ [v])) (TUnlock c (Some v)))
  | R_tlock_none c : slot s = None -> RStep s (TLock c) (set_rpc (set_mlock s (Some 0)) (TNone c))
  | R_tnone c : RStep s (TNone c) (set_rpc (set_cs s Closed) (TUnlock c None))
  | R_tunlock c v : RStep s (TUnlock c (Some v)) (t_done C (set_mlock s None) c (TVal v))
  | R_tunlock_none c : RStep s (TUnlock c None) (t_done C (set_mlock s None) c TDisc)
  | R_tcnt0 c : cnt s = 0 -> RStep s (TCnt c) (set_rpc s (TClose c))
  | R_tcnt c : cnt s <> 0 -> RStep s (TCnt c) (t_done C s c TEmpty)
  | R_tclose c s' : CloseStep s c s' -> RStep s (TClose c) s'
  | R_pload_a : cs s = Taken \/ cs s = Closed -> RStep s PLoad (set_rpc s PCntA)
  | R_pload_b : cs s = Empty -> RStep s PLoad (set_rpc s PCntB)
  | R_pload : cs s = Writing \/ cs s = Sent -> RStep s PLoad (set_rpc s PReg)
  | R_pcnta0 : cnt s = 0 -> RStep s PCntA (set_rpc (rlogv s RFDisc) RIdle)
  | R_pcnta : cnt s <> 0 -> RStep s PCntA (set_rpc s PReg)
  | R_pcntb0 : cnt s = 0 -> RStep s PCntB (set_rpc s PClose)
  | R_pcntb : cnt s <> 0 -> RStep s PCntB (set_rpc s PReg)
  | R_pclose s' : CloseStep s CP1 s' -> RStep s PClose s'
  | R_preg : RStep s PReg (set_rpc (set_wk s (Some (gen s))) (TLoad CP2))
  | R_pcntc0 : cnt s = 0 -> RStep s PCntC (set_rpc s (TLoad CP1))
  | R_pcntc : cnt s <> 0 -> RStep s PCntC (set_rpc s BChk)
  | R_bchk_woken : woken s = true -> RStep s BChk (set_rpc (set_woken s false) (TLoad CP1))
  | R_bchk : woken s = false -> RStep s BChk (set_rpc s BPark)
  | R_bpark : token s = true -> RStep s BPark (set_rpc (set_token s false) BChk)
  | R_cstore fin : RStep s (CStore fin) (set_rpc (set_rd s true) (CCas1 fin))
  | R_ccas1 fin : cs s = Empty -> RStep s (CCas1 fin) (set_rpc (set_cs s Closed) (CCas2 fin))
  | R_ccas1_lost fin : cs s <> Empty -> RStep s (CCas1 fin) (set_rpc s (CCas2 fin))
  | R_ccas2 fin : cs s = Sent -> RStep s (CCas2 fin) (set_rpc (set_cs s Taken) (CLock fin))
  | R_ccas2_lost fin : cs s <> Sent -> RStep s (CCas2 fin) (c_done s fin)
  | R_clock fin v : slot s = Some v ->
      RStep s (CLock fin) (set_rpc (set_drops (set_slot (set_mlock s (Some 0)) None) (drops s ++ [(v, ByRx)])) (CUnlock fin))
  | R_clock_none fin : slot s = None -> RStep s (CLock fin) (set_rpc (set_mlock s (Some 0)) (CUnlock fin))
  | R_cunlock fin : RStep s (CUnlock fin) (c_done (set_mlock s None) fin)
  | R_arc s' : ArcStep (arc s) s s' -> RStep s RArc s'
  | R_shdrop v : cs s = Sent -> slot s = Some v ->
      RStep s RShLoad (set_rpc (set_drops (set_slot s None) (drops s ++ [(v, ByShared)])) RDone)
  | R_shload : cs s <> Sent \/ slot s = None -> RStep s RShLoad (set_rpc s RDone).

  Lemma RStep_rel s p s' : RStep s p s' -> rrel p = true -> p = RShLoad.
  Proof. destruct 1; intros X; first [reflexivity | discriminate X]. Qed.

  (* The CAS SENT->TAKEN of try_recv never fails (the receiver is the only taker while its handle is
     open), so TFLoad and TFCnt are never entered: the relation leaves these steps out. *)
  Lemma rstep_inv s s' e :
    (forall c, rpc s = TCas c -> cs s = Sent) -> (forall c, rpc s <> TFLoad c /\ rpc s <> TFCnt c) ->
    rstep C s = Some (s', e) -> RStep s (rpc s) s'.
  Proof.
    intros Tc Un.
    assert (TL : forall s0 c s1 e1, do_tload C s0 c = Some (s1, e1) -> TLoadStep (cs s0) s0 c s1).
    { unfold do_tload. intros s0 c s1 e1 [= <- _]. destruct (cs s0) eqn:E; constructor; auto. }
    assert (AR : forall s0 s1 e1, do_arc_r s0 = Some (s1, e1) -> ArcStep (arc s0) s0 s1).
    { unfold do_arc_r, rret. intros s0 s1 e1 [= <- _]. destruct (Nat.eqb_spec (arc s0) 1); constructor; assumption. }
    unfold rstep, rret, do_cstore, sh_drop. intros H. destruct (rpc s) eqn:Epc.
    1: { destruct (rclosed s) eqn:Rc.
         - destruct (rdispatch_closed _ _ _ _ Rc H) as [l [Hl H']]. exact (R_gone _ _ _ Rc Hl (AR _ _ _ H')).
         - destruct (rprog s) as [|[] r] eqn:P; cbn [rdispatch] in H; rewrite Rc in H.
           + injection H as <- _. constructor; assumption.
           + exact (R_try _ _ _ Rc P (TL _ _ _ _ H)).
           + exact (R_recv _ _ _ Rc P (TL _ _ _ _ H)).
           + injection H as <- _. constructor; assumption. }
    1: exact (R_tload _ _ _ (TL _ _ _ _ H)).
    1: { rewrite (Tc c eq_refl) in H. injection H as <- _. constructor. exact (Tc c eq_refl). }
    all: try destruct (proj1 (Un c) eq_refl); try destruct (proj2 (Un c) eq_refl).
    all: try solve [eauto using RStep].
    all: repeat split_guard H; try discriminate H; injection H as <- _.
    all: first [ solve [eauto using CloseStep, RStep] | apply R_shload; left; congruence
               | apply R_pclose; first [apply CL_won | apply CL_lost | apply CL_retry]; auto ].
  Qed.
End StepSpec.


(* an invariant relative to an established one (J), a case per kind of thread *)
Lemma lift_over C n sprog rp (J I : st -> Prop) :
  (forall s, reachable (sys C n sprog rp) s -> J s) -> I (init n rp) ->
  (forall s s' e, J s -> I s -> rstep C s = Some (s', e) -> I s') ->
  (forall s t s' e, 1 <= t <= n -> J s -> I s -> sstep sprog s t = Some (s', e) -> I s') ->
  forall s, reachable (sys C n sprog rp) s -> I s.
Proof.
  intros HJ Hi Hr Hs s R. apply (invariant_lift (sys C n sprog rp) (fun s => reachable (sys C n sprog rp) s /\ I s)); [| |exact R].
  - split; [exists []; reflexivity|exact Hi].
  - clear s R. intros s t c s' e [[sch R] Is] H. cbn [Conc.step sys] in H. split.
    + exists (sch ++ [(t, c)]). rewrite run_app, R. cbn [run Conc.step sys]. rewrite H. reflexivity.
    + assert (Js := HJ s (ex_intro _ sch R)). unfold step in H.
      destruct t as [|k]; [exact (Hr _ _ _ Js Is H)|].
      destruct (Nat.leb_spec (S k) n); [|discriminate H]. apply (Hs s (S k) s' e); [lia|assumption..].
Qed.

Ltac scbn :=
  cbn [cs slot mlock rd cnt arc wk gen woken token rclosed rprog rpc spc wrote oks back got drops rlog slog
       set_cs set_slot set_mlock set_rd set_cnt set_arc set_wk set_gen set_woken set_token set_rclosed
       set_rprog set_rpc set_spc set_wrote set_oks set_back set_got set_drops set_rlog set_slog
       set_spc_at rlogv slogv s_fail t_done c_done after_wake].

(* the static case distinctions of a step's continuation: wake site, sender program, try_recv context *)
Ltac open_done :=
  repeat match goal with
         | w : wsite |- _ => destruct w; cbn [after_wake]
         | |- context [dec_done ?sp _ ?t] => unfold dec_done; destruct (sp t) eqn:?
         | |- context [t_done _ _ ?c _] => is_var c; destruct c
         | fin : bool |- _ => destruct fin
         end;
  cbn [t_done c_done after_wake];
  try match goal with |- context [if fixB ?C then _ else _] => destruct (fixB C) eqn:? end.

(* How the step lemma of an invariant reads.  H : SStep .. / RStep .. comes from the inversion, the old
   pc is remembered as p (Epc : p = spc s t, resp. rpc s), and facts of the old state about that pc are
   posed with p in them, so that they compute once p is known.  `constructor` gives a goal per clause.
   In a clause, `scases H` / `rcases H` gives a goal per case of the step, the clause stated over the
   fields of the old state; `try exact (the clause of the old state)` closes the cases that leave the
   fields it reads alone, and the `first [..]` after it lists the reasons for the others. *)
Ltac scases H :=
  destruct H;
  try match goal with X : SrdStep _ _ _ |- _ => destruct X end;
  try match goal with X : FsubStep _ _ _ _ |- _ => destruct X end;
  open_done; scbn.

Ltac rcases H :=
  destruct H;
  try match goal with X : TLoadStep _ _ _ _ _ |- _ => destruct X end;
  try match goal with X : CloseStep _ _ _ _ |- _ => destruct X end;
  try match goal with X : ArcStep _ _ _ |- _ => destruct X end;
  open_done; scbn.

(* Dd : what `rstep_dead` (Slot) says about the old pc: the cases that cannot occur are closed *)
Ltac rcasesV H Dd := rcases H; try (exfalso; first [exact Dd | apply Dd; assumption]).

Ltac thr u t N := destruct (Nat.eq_dec u t) as [->|N]; [rewrite ?upd_eq | rewrite ?upd_neq by exact N].

(* at most one thread in a zone, after a step of thread t: if t is in the zone afterwards, only t was in it *)
Lemma uniq_upd (Q : spc_t -> Prop) f t v :
  (forall u w, Q (f u) -> Q (f w) -> u = w) -> (Q v -> forall u, Q (f u) -> u = t) ->
  forall u w, Q (upd f t v u) -> Q (upd f t v w) -> u = w.
Proof.
  intros U K u w. unfold upd. destruct (Nat.eqb_spec u t) as [->|Nu], (Nat.eqb_spec w t) as [->|Nw]; intros X Y.
  - reflexivity.
  - symmetry. exact (K X w Y).
  - exact (K Y u X).
  - exact (U u w X Y).
Qed.

(* a witness among the threads survives a step of thread t if t stays in the zone when it was in it *)
Lemma ex_upd (Q : nat -> spc_t -> Prop) f t v :
  (exists x, Q x (f x)) -> (Q t (f t) -> Q t v) -> exists x, Q x (upd f t v x).
Proof.
  intros [x Qx] K. exists x. unfold upd. destruct (Nat.eqb_spec x t) as [->|]; [exact (K Qx)|exact Qx].
Qed.
