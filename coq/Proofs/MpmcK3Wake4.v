(* Proofs/MpmcK3Wake4.v — wake accounting (InvAcc), unpark lists and CANCELLED flags (InvS), the
   combined invariant Inv3 for the repaired configuration, and the C05 / C09 theorems: no lost
   wakeup (safety form), deadlock freedom, no access to a dead waiter record. *)
From Coq Require Import List NArith Arith Bool Lia Sorted.
From Fibre Require Import Common.Conc Chan.MpmcK3 Proofs.MpmcK3Base Proofs.MpmcK3Queue Proofs.MpmcK3Res Proofs.MpmcK3Proofs
  Proofs.MpmcK3Life Proofs.MpmcK3Wake1 Proofs.MpmcK3Wake2 Proofs.MpmcK3Wake3.
Import ListNotations.

Lemma remove1_length t l : length l <= S (length (remove1 t l)).
Proof. induction l as [|a l IH]; cbn; [lia|]. destruct (Nat.eqb a t); cbn; lia. Qed.

(* the receiver holding the lock has popped a value and is still looking for a sender to tell *)
Definition rscan_of (l : option nat) (p : nat -> pc) : nat :=
  match l with
  | Some h => match p h with RScan _ _ _ => 1 | _ => 0 end
  | None => 0
  end.

Lemma rscan_frame s t p' :
  InvL s -> in_sec (pcs s t) = false -> rscan_of (lk s) (upd (pcs s) t p') = rscan_of (lk s) (pcs s).
Proof.
  intros [L1 L2] X. unfold rscan_of. destruct (lk s) as [h|] eqn:Lk; [|reflexivity].
  assert (N : h <> t) by (intros ->; specialize (L2 t eq_refl); congruence).
  rewrite upd_neq by exact N. reflexivity.
Qed.

(* wake accounting: while some receiver is linked and WAITING, every buffered value is matched by
   a signalled receiver that still owes its try_recv_core; while some sender is linked and WAITING,
   every free slot is matched by a signalled sender that still owes its retry (or by the
   receiver that has just popped and is still scanning for a sender to signal) *)
Record InvAcc (cap : nat) (s : st) : Prop := {
  W_r : has_w (flag s) (wr s) -> length (q s) <= length (owedR s);
  W_s : has_w (flag s) (ws s) -> cap - length (q s) <= length (owedS s) + rscan_of (lk s) (pcs s) }.

(* a step that leaves flags, queues, ring and owed lists alone, and does not leave a popping
   receiver's scan *)
Lemma InvAcc_same cap s s' :
  InvAcc cap s -> flag s' = flag s -> wr s' = wr s -> ws s' = ws s -> q s' = q s ->
  owedR s' = owedR s -> owedS s' = owedS s -> rscan_of (lk s') (pcs s') = rscan_of (lk s) (pcs s) -> InvAcc cap s'.
Proof. intros [Wr Ws] Ef Er Es Eq Eor Eos Ek. constructor; rewrite Ef, ?Er, ?Es, Eq, ?Eor, ?Eos, ?Ek; assumption. Qed.

Lemma InvAcc_step cap cf s t s' :
  InvL s -> InvQ cap s -> InvE s -> InvP s -> InvC s -> InvAcc cap s ->
  Step cap cf s t s' -> InvAcc cap s'.
Proof.
  intros HL HQ HE HP HC HA HS.
  pose proof (Q_len _ _ HQ) as Q1. pose proof (Q_cap _ _ HQ) as Q2. pose proof (HP t) as Pt.
  pose proof (proj1 HL t) as Lt. pose proof (rscan_frame s t) as RF.
  pose proof (remove1_length t (owedS s)) as Ls. pose proof (remove1_length t (owedR s)) as Lr.
  destruct (not_linked t HE) as [Nlr Nls].
  destruct HS; try open_move; rewrite Epc in Pt, Lt, RF, Nlr, Nls; cbn [p_ok in_sec r_link s_link] in Pt, Lt, RF, Nlr, Nls;
    try match type of Pt with scan_at _ _ _ => destruct Pt as [_ Pt] end.
  all: try solve [ eapply InvAcc_same; [eassumption|reflexivity..|]; st_simpl;
                   first [ apply RF; [exact HL|reflexivity]
                         | try rewrite (Lt eq_refl); rewrite ?Elk; unfold rscan_of; rewrite ?upd_eq, ?Epc; case_pc; reflexivity ] ].
  all: destruct HA as [Wr Ws]; unfold rscan_of in Ws; try rewrite (Lt eq_refl) in Ws; rewrite ?Elk, ?Epc in Ws.
  all: constructor; st_simpl; try rewrite (RF _ HL eq_refl); unfold rscan_of; try rewrite (Lt eq_refl);
       rewrite ?Elk, ?upd_eq, ?Epc.
  all: repeat match goal with |- context [if ?b then _ else _] => let E := fresh "Eb" in destruct b eqn:E end; intros W.
  all: rewrite ?app_length; try (rewrite Eq in * ); cbn [length] in *; try lia.
  (* an old WAITING record: the old balance, and both sides moved together *)
  all: try solve [ w_old W; first [pose proof (Wr W)|pose proof (Ws W)]; lia ].
  all: try solve [ apply has_w_upd_notin in W; [first [pose proof (Wr W)|pose proof (Ws W)]; lia|auto] ].
  (* Closed answer of try_send_core: a WAITING sender after the last receiver's close means a closer
     inside the section, but the lock was free *)
  - exfalso. destruct (HC false Er W) as (h & j & w & Hp & _).
    pose proof (proj1 HL h) as X. rewrite Hp in X. specialize (X eq_refl). congruence.
  (* push without a wake: nobody linked, or the scan is complete and every CAS failed *)
  - exfalso. rewrite Ewr in W. exact (has_w_nil _ W).
  - exfalso. revert W. eapply scanned_all; [exact Pt|exact En|eapply (cas_failed t i HE); [|exact Ec]; auto|apply Nat.ltb_ge; exact Ei].
  (* pop: no sender linked; the scan for a sender to signal is complete *)
  - exfalso. apply isnil_true in Eb. rewrite Eb in W. exact (has_w_nil _ W).
  - exfalso. revert W. eapply scanned_all; [exact Pt|exact En|eapply (cas_failed t i HE); [|exact Ec]; auto|exact Eb].
Qed.

(* an unparking closer has somebody left to unpark; a CANCELLED flag belongs to a thread that has
   left its wait loop *)
Record InvS (s : st) : Prop := {
  S_u : forall h, pcs s h <> DUnpark [];
  S_c : forall u, flag s u = FCancelled -> r_wait (pcs s u) = false /\ s_wait (pcs s u) = false }.

Lemma InvS_step cap cf s t s' : InvS s -> Step cap cf s t s' -> InvS s'.
Proof.
  intros [Su Sc] HS. pose proof (Sc t) as Sct.
  destruct HS; try open_move; try destruct a; rewrite Epc in Sct; cbn [r_wait s_wait] in Sct.
  all: constructor.
  (* nobody to unpark *)
  all: try solve [ intros h; st_simpl; unfold upd; destruct (Nat.eqb h t); [case_pc; discriminate|apply Su] ].
  (* CANCELLED flags *)
  all: try solve [ intros uu; st_simpl; intros X; split_thr uu t;
         [ cbn [r_wait s_wait]; case_pc; first [ split; reflexivity | discriminate X | exact (Sct X) ]
         | first [ exact (Sc _ X)
                 | unfold upd in X; match type of X with (if ?b then _ else _) = _ => destruct b end;
                   [ discriminate X | exact (Sc _ X) ] ] ] ].
Qed.

Record Inv3 (cap n : nat) (s : st) : Prop := {
  I_l : InvL s; I_q : InvQ cap s; I_t : InvT n s; I_e : InvE s; I_k : InvK s; I_tk : InvTk s;
  I_p : InvP s; I_c : InvC s; I_o : InvO s; I_acc : InvAcc cap s; I_s : InvS s }.

Ltac init_pc th u := destruct (init_pcs th u) as [?E|?E]; rewrite E in *; try discriminate.

Lemma Inv3_init cap th : Inv3 cap (length th) (init th).
Proof.
  destruct (Inv1_init cap th) as (HL & HQ & _).
  constructor; try assumption.
  - apply InvT_init.
  - constructor; cbn [init wr ws bad]; try (intros; contradiction); try constructor.
    + intros u. init_pc th u; reflexivity.
    + intros u i w X. init_pc th u.
  - constructor; intros u X; init_pc th u.
  - intros u X. init_pc th u.
  - intros h. init_pc th h; exact I.
  - intros [|] _ W; exfalso; exact (has_w_nil _ W).
  - constructor; cbn [init owedR owedS]; try (intros; contradiction); try constructor.
    intros u X. init_pc th u.
  - constructor; cbn [init wr ws flag]; intros W; exfalso; exact (has_w_nil _ W).
  - constructor.
    + intros h X. init_pc th h.
    + intros u X. cbn [init flag] in X. discriminate X.
Qed.

Lemma Inv3_step cap n cf s t c s' e :
  rearm_after_steal cf = true -> redrain_on_close cf = true ->
  Inv3 cap n s -> step cap cf s t c = Some (s', e) -> Inv3 cap n s'.
Proof.
  intros H1 H2 [HL HQ HT HE HK HTk HP HC HO HA HS] H. apply step_inv in H. constructor.
  - eapply InvL_step; eassumption.
  - eapply InvQ_step; eassumption.
  - eapply InvT_step; eassumption.
  - eapply InvE_step; eassumption.
  - eapply InvK_step; eassumption.
  - eapply InvTk_step; eassumption.
  - eapply InvP_step; eassumption.
  - eapply InvC_step; eassumption.
  - eapply InvO_step; eassumption.
  - eapply InvAcc_step; eassumption.
  - eapply InvS_step; eassumption.
Qed.

Lemma Inv3_reachable cap cf th s :
  rearm_after_steal cf = true -> redrain_on_close cf = true ->
  reachable (sys cap cf th) s -> Inv3 cap (length th) s.
Proof.
  intros H1 H2. apply (invariant_lift (sys cap cf th) (Inv3 cap (length th))).
  - apply Inv3_init.
  - intros s0 t c s' e HI H. change (step cap cf s0 t c = Some (s', e)) in H. eapply Inv3_step; eassumption.
Qed.

Definition wait_next (p : pc) : bool := match p with SWNext | RWNext | TWNext | TDeafNext => true | _ => false end.
Definition lockpc (p : pc) : bool :=
  match p with
  | SLock _ | SRegLock | SUnlLock _ | RLock _ | RRegLock _ | TCancelLock | RUnlLock _ | DLock => true
  | _ => false
  end.

Ltac break_match H :=
  match type of H with
  | context [match ?x with _ => _ end] =>
      lazymatch x with
      | context [match _ with _ => _ end] => fail
      | _ => let E := fresh "E" in destruct x eqn:E
      end
  end.

(* why a thread cannot take a normal step *)
Lemma stuck_inv cap cf s t :
  step cap cf s t CGo = None ->
  pcs s t = Done \/ pcs s t = Panicked \/ (wait_next (pcs s t) = true /\ tok s t = false) \/
  (lockpc (pcs s t) = true /\ lk s <> None) \/
  ~ p_ok (flag s) (wr s) (ws s) (is_prod (prog s t)) (pcs s t) \/ pcs s t = DUnpark [].
Proof.
  intros H. unfold step in H. destruct (pcs s t) eqn:Epc; cbn [wait_next lockpc].
  all: try solve [ left; reflexivity | right; left; reflexivity ].
  all: try solve [ right; right; right; left; split; [reflexivity|]; destruct (lk s); [discriminate|discriminate H] ].
  all: try solve [ right; right; left; split; [reflexivity|]; destruct (tok s t); [discriminate H|reflexivity] ].
  all: try solve [ exfalso; unfold ret, fin, fin_disc in H; repeat break_match H; discriminate H ].
  (* the scans: the index is outside the list *)
  1-3: right; right; right; right; left; cbn [p_ok]; intros [Y _]; apply nth_error_Some in Y;
       match type of H with context [nth_error ?l ?i] => destruct (nth_error l i) as [[u g]|] end; [|congruence];
       unfold cas_entry, ret in H; repeat break_match H; discriminate H.
  (* DUnpark *)
  destruct w; [right; right; right; right; right; reflexivity|]. exfalso.
  unfold ret in H; repeat break_match H; discriminate H.
Qed.

Lemma park_wait p : park_pc p = true -> r_wait p = true \/ s_wait p = true.
Proof. destruct p; cbn; try discriminate; auto. Qed.

Section Final.
  Variables (cap : nat) (cf : cfg) (th : list tprog) (s : st).
  Hypothesis Hcap : 0 < cap.
  Hypothesis Hcf1 : rearm_after_steal cf = true.
  Hypothesis Hcf2 : redrain_on_close cf = true.
  Hypothesis Hr : reachable (sys cap cf th) s.

  Let HI := Inv3_reachable cap cf th s Hcf1 Hcf2 Hr.

  (* ---- C09: no access to a dead waiter record, no unreachable!() *)
  Theorem no_bad : bad s = false.
  Proof. apply (E_bad (I_e _ _ _ HI)). Qed.

  (* a linked record is the current done_flag of a thread whose frame is alive *)
  Theorem linked_records_live :
    (forall u g, In (u, g) (wr s) -> g = gen s u /\ in_frame (pcs s u) = true) /\
    (forall u g, In (u, g) (ws s) -> g = gen s u /\ in_frame (pcs s u) = true) /\
    NoDup (map fst (wr s)) /\ NoDup (map fst (ws s)).
  Proof.
    pose proof (I_e _ _ _ HI) as HE. split; [|split; [|split]].
    - intros u g X. destruct (E_r HE _ _ X) as (A & B & _). split; [exact A|apply r_link_frame; exact B].
    - intros u g X. destruct (E_s HE _ _ X) as (A & B). split; [exact A|apply s_link_frame; exact B].
    - apply (E_ndr HE).
    - apply (E_nds HE).
  Qed.

  (* ---- C05 *)
  Hypothesis Hq : quiescent_go cap cf s.

  Lemma lock_free : lk s = None.
  Proof.
    destruct (lk s) as [h|] eqn:Lk; [exfalso|reflexivity].
    pose proof (proj2 (I_l _ _ _ HI) h Lk) as X.
    pose proof (I_s _ _ _ HI) as HS.
    destruct (stuck_inv _ _ _ _ (Hq h)) as [A|[A|[[A _]|[[A _]|[A|A]]]]].
    - rewrite A in X. discriminate.
    - rewrite A in X. discriminate.
    - destruct (pcs s h); discriminate.
    - destruct (pcs s h); discriminate.
    - exact (A (I_p _ _ _ HI h)).
    - exact (S_u _ HS _ A).
  Qed.

  Lemma stuck_thread t : pcs s t = Done \/ (park_pc (pcs s t) = true /\ tok s t = false).
  Proof.
    pose proof (I_s _ _ _ HI) as HS. pose proof (E_deaf (I_e _ _ _ HI) t) as Dt.
    destruct (stuck_inv _ _ _ _ (Hq t)) as [A|[A|[[A B]|[[_ A]|[A|A]]]]].
    - left. exact A.
    - rewrite A in Dt. discriminate.
    - right. split; [|exact B]. destruct (pcs s t); try discriminate; reflexivity.
    - exfalso. apply A. apply lock_free.
    - exfalso. exact (A (I_p _ _ _ HI t)).
    - exfalso. exact (S_u _ HS _ A).
  Qed.

  Lemma nobody_pending h : pend (pcs s h) = [].
  Proof. destruct (stuck_thread h) as [A|[A _]]; [rewrite A; reflexivity|]. destruct (pcs s h); try discriminate; reflexivity. Qed.

  Lemma parked_waiting u : park_pc (pcs s u) = true -> tok s u = false -> flag s u = FWaiting.
  Proof.
    intros P T. destruct (f_fin (flag s u)) eqn:F.
    - exfalso. destruct (I_tk _ _ _ HI u P F) as [X|[h X]]; [congruence|]. rewrite nobody_pending in X. destruct X.
    - destruct (flag s u) eqn:Fl; try discriminate F; [reflexivity|]. exfalso.
      destruct (S_c _ (I_s _ _ _ HI) u Fl) as [A B]. destruct (park_wait _ P); congruence.
  Qed.

  Lemma owedR_nil : owedR s = [].
  Proof.
    destruct (owedR s) as [|x l] eqn:E; [reflexivity|exfalso].
    pose proof (O_r _ (I_o _ _ _ HI) x) as A. rewrite E in A. specialize (A (or_introl eq_refl)).
    destruct (stuck_thread x) as [D|[P T]].
    - rewrite D in A. discriminate.
    - pose proof (parked_waiting x P T) as W. rewrite W in A. destruct (pcs s x); discriminate.
  Qed.

  Lemma owedS_nil : owedS s = [].
  Proof.
    destruct (owedS s) as [|x l] eqn:E; [reflexivity|exfalso].
    pose proof (O_s _ (I_o _ _ _ HI) x) as A. rewrite E in A. specialize (A (or_introl eq_refl)).
    destruct (stuck_thread x) as [D|[P T]].
    - rewrite D in A. discriminate.
    - pose proof (parked_waiting x P T) as W. rewrite W in A. destruct (pcs s x); discriminate.
  Qed.

  Lemma no_closer h a i w : pcs s h <> DScan a i w.
  Proof. intros X. destruct (stuck_thread h) as [D|[P _]]; rewrite X in *; discriminate. Qed.

  (* no lost wakeup, receivers: a receiver parked in a quiescent state faces an empty ring and a live sender *)
  Theorem parked_receiver u :
    pcs s u = RWNext \/ pcs s u = TWNext -> tok s u = false -> q s = [] /\ scnt s <> 0.
  Proof.
    intros P T.
    assert (Pp : park_pc (pcs s u) = true) by (destruct P as [P|P]; rewrite P; reflexivity).
    assert (Rw : r_wait (pcs s u) = true) by (destruct P as [P|P]; rewrite P; reflexivity).
    pose proof (parked_waiting u Pp T) as W.
    pose proof (K_r (I_k _ _ _ HI) u Rw W) as L.
    assert (HW : has_w (flag s) (wr s)) by (exists u, (gen s u); split; assumption).
    split.
    - pose proof (W_r _ _ (I_acc _ _ _ HI) HW) as A. rewrite owedR_nil in A. destruct (q s); [reflexivity|cbn in A; lia].
    - intros Z. destruct (I_c _ _ _ HI true Z HW) as (h & i & w & X & _). exact (no_closer _ _ _ _ X).
  Qed.

  (* no lost wakeup, senders: a sender parked in a quiescent state faces a full ring and a live receiver *)
  Theorem parked_sender u :
    pcs s u = SWNext -> tok s u = false -> length (q s) = cap /\ rcnt s <> 0.
  Proof.
    intros P T.
    assert (Pp : park_pc (pcs s u) = true) by (rewrite P; reflexivity).
    assert (Sw : s_wait (pcs s u) = true) by (rewrite P; reflexivity).
    pose proof (parked_waiting u Pp T) as W.
    pose proof (K_s (I_k _ _ _ HI) u Sw W) as L.
    assert (HW : has_w (flag s) (ws s)) by (exists u, (gen s u); split; assumption).
    split.
    - pose proof (W_s _ _ (I_acc _ _ _ HI) HW) as A. rewrite owedS_nil, lock_free in A. cbn in A.
      pose proof (Q_cap _ _ (I_q _ _ _ HI)). lia.
    - intros Z. destruct (I_c _ _ _ HI false Z HW) as (h & i & w & X & _). exact (no_closer _ _ _ _ X).
  Qed.

  (* consequently nobody is parked in a quiescent state: the only states of any schedule in which no
     thread can take a normal step are the final ones *)
  Theorem deadlock_free : forall t, pcs s t = Done.
  Proof.
    pose proof (I_t _ _ _ HI) as HT.
    assert (NoR : forall u, pcs s u = RWNext \/ pcs s u = TWNext -> tok s u = false -> False).
    { intros u P T. destruct (parked_receiver u P T) as [Qe Sn].
      rewrite (T_scnt _ _ HT) in Sn. destruct (cnt_pos _ _ Sn) as (p & _ & Ap).
      unfold alive_p in Ap. apply andb_prop in Ap. destruct Ap as [Pp Dp]. apply negb_true_iff in Dp.
      destruct (stuck_thread p) as [D|[Pk Tk]]; [rewrite D in Dp; discriminate|].
      destruct (pcs s p) eqn:Ep; try discriminate Pk.
      - destruct (parked_sender p Ep Tk) as [L _]. rewrite Qe in L. cbn in L. lia.
      - pose proof (T_r _ _ HT p) as X. rewrite Ep in X. specialize (X eq_refl). congruence.
      - pose proof (T_r _ _ HT p) as X. rewrite Ep in X. specialize (X eq_refl). congruence. }
    assert (NoS : forall u, pcs s u = SWNext -> tok s u = false -> False).
    { intros u P T. destruct (parked_sender u P T) as [Qf Rn].
      rewrite (T_rcnt _ _ HT) in Rn. destruct (cnt_pos _ _ Rn) as (p & _ & Ap).
      unfold alive_c in Ap. apply andb_prop in Ap. destruct Ap as [Pp Dp]. apply negb_true_iff in Pp. apply negb_true_iff in Dp.
      destruct (stuck_thread p) as [D|[Pk Tk]]; [rewrite D in Dp; discriminate|].
      destruct (pcs s p) eqn:Ep; try discriminate Pk.
      - pose proof (T_s _ _ HT p) as X. rewrite Ep in X. specialize (X eq_refl). congruence.
      - destruct (parked_receiver p (or_introl Ep) Tk) as [Qe _]. rewrite Qe in Qf. cbn in Qf. lia.
      - destruct (parked_receiver p (or_intror Ep) Tk) as [Qe _]. rewrite Qe in Qf. cbn in Qf. lia. }
    intros t. destruct (stuck_thread t) as [D|[Pk Tk]]; [exact D|exfalso].
    destruct (pcs s t) eqn:Ep; try discriminate Pk.
    - apply (NoS t); [exact Ep|exact Tk].
    - apply (NoR t); [left; exact Ep|exact Tk].
    - apply (NoR t); [right; exact Ep|exact Tk].
  Qed.
End Final.
