(* Proofs/TopicLemmas.v — list / lookup lemmas used by the topic proofs.
   The handle tables of the model and of the three references are lists of records that are looked up and
   updated through an id field; [find_id] / [upd_id] are the common form of find_rx / upd_rx, find_tx / upd_tx,
   find_srx / upd_srx, find_rx4, ... (each of those unfolds to an instance), so a lemma proved here about
   [find_id id] applies to all of them. *)
From Fibre Require Import Common.Base Chan.TopicOps Chan.TopicSpec.

Lemma Forall2_map2 {A B A' B'} (R : A -> B -> Prop) (R' : A' -> B' -> Prop) (f : A -> A') (g : B -> B') l1 l2 :
  Forall2 R l1 l2 ->
  (forall x y, In x l1 -> In y l2 -> R x y -> R' (f x) (g y)) ->
  Forall2 R' (map f l1) (map g l2).
Proof.
  induction 1 as [|x y l1 l2 Hxy HF IH]; intros H; cbn [map]; constructor.
  - apply H; [left; reflexivity | left; reflexivity | exact Hxy].
  - apply IH. intros a b Ha Hb. apply H; right; assumption.
Qed.

Lemma Forall2_impl2 {A B} (R R' : A -> B -> Prop) l1 l2 :
  Forall2 R l1 l2 ->
  (forall x y, In x l1 -> In y l2 -> R x y -> R' x y) ->
  Forall2 R' l1 l2.
Proof. intros HF H. rewrite <- (map_id l1), <- (map_id l2). exact (Forall2_map2 R R' _ _ l1 l2 HF H). Qed.

Lemma Forall2_map_l {A B} (R : A -> B -> Prop) (F : A -> A) l ss :
  Forall2 R l ss -> (forall x y, In x l -> R x y -> R (F x) y) -> Forall2 R (map F l) ss.
Proof. intros HF H. rewrite <- (map_id ss). apply (Forall2_map2 R R F _ l ss HF). auto. Qed.

Lemma Forall2_snoc {A B} (R : A -> B -> Prop) l1 l2 x y :
  Forall2 R l1 l2 -> R x y -> Forall2 R (l1 ++ [x]) (l2 ++ [y]).
Proof. intros H1 H2. apply Forall2_app; [exact H1 | constructor; [exact H2 | constructor]]. Qed.

Lemma Forall2_In_l {A B} (R : A -> B -> Prop) l1 l2 x :
  Forall2 R l1 l2 -> In x l1 -> exists y, In y l2 /\ R x y.
Proof.
  induction 1 as [|a b l1 l2 Hab HF IH]; intros Hin; [contradiction|].
  destruct Hin as [->|Hin].
  - exists b. split; [left; reflexivity | exact Hab].
  - destruct (IH Hin) as [y [Hy HR]]. exists y. split; [right; exact Hy | exact HR].
Qed.

Lemma Forall2_len {A B} (R : A -> B -> Prop) l1 l2 : Forall2 R l1 l2 -> length l1 = length l2.
Proof. induction 1; cbn; congruence. Qed.

Lemma Forall2_compose {A B C} (P : A -> B -> Prop) (Q : B -> C -> Prop) (R : A -> C -> Prop) l1 l2 l3 :
  (forall a b c, P a b -> Q b c -> R a c) -> Forall2 P l1 l2 -> Forall2 Q l2 l3 -> Forall2 R l1 l3.
Proof.
  intros H H1. revert l3. induction H1 as [|a b l1 l2 Hab H1 IH]; intros l3 H2; inversion H2; subst; constructor; eauto.
Qed.

Lemma map_eq_Forall2 {A B} (f : A -> B) l' l : map f l' = map f l -> Forall2 (fun a' a => f a' = f a) l' l.
Proof.
  revert l. induction l' as [|a' l' IH]; intros [|a l] E; try discriminate; constructor.
  - exact (f_equal (hd (f a)) E).
  - apply IH. exact (f_equal (@tl B) E).
Qed.

Lemma Forall2_filter_length {A B} (R : A -> B -> Prop) (f : A -> bool) (g : B -> bool) l1 l2 :
  Forall2 R l1 l2 -> (forall a b, R a b -> f a = g b) -> length (filter f l1) = length (filter g l2).
Proof.
  intros HF H. induction HF as [|a b l1 l2 Hab HF IH]; cbn [filter]; [reflexivity|].
  rewrite (H a b Hab). destruct (g b); cbn [length]; rewrite IH; reflexivity.
Qed.

Lemma existsb_filter_length {A} (f : A -> bool) l : existsb f l = negb (Nat.eqb (length (filter f l)) 0).
Proof. induction l as [|a l IH]; cbn [existsb filter]; [reflexivity|]. destruct (f a); cbn; [reflexivity | exact IH]. Qed.

Section ById.
  Context {A : Type} (id : A -> N).

  Definition find_id (r : N) (l : list A) : option A := find (fun x => N.eqb (id x) r) l.
  Definition upd_id (r : N) (f : A -> A) (l : list A) : list A :=
    map (fun x => if N.eqb (id x) r then f x else x) l.

  Lemma find_id_In r l x : find_id r l = Some x -> In x l /\ id x = r.
  Proof. intros H. apply find_some in H. destruct H as [H1 H2]. apply N.eqb_eq in H2. auto. Qed.

  Lemma find_id_None r l : find_id r l = None <-> ~ In r (map id l).
  Proof.
    unfold find_id. induction l as [|a l IH]; cbn [map find In].
    - split; auto.
    - destruct (N.eqb_spec (id a) r) as [E|E].
      + split; [discriminate | intros H; exfalso; apply H; left; exact E].
      + rewrite IH. split; [intros H [H1|H1]; auto | intros H H1; apply H; right; exact H1].
  Qed.

  Lemma find_id_NoDup r l x : NoDup (map id l) -> In x l -> id x = r -> find_id r l = Some x.
  Proof.
    unfold find_id. induction l as [|a l IH]; cbn [map find]; intros Hnd Hin Hid; [contradiction|].
    inversion Hnd as [|? ? Hni Hnd']; subst.
    destruct Hin as [->|Hin].
    - rewrite N.eqb_refl. reflexivity.
    - destruct (N.eqb_spec (id a) (id x)) as [E|E].
      + exfalso. apply Hni. rewrite E. apply in_map. exact Hin.
      + apply IH; auto.
  Qed.

  Lemma find_id_unique r l x x' : NoDup (map id l) -> find_id r l = Some x -> In x' l -> id x' = r -> x' = x.
  Proof. intros Hnd Hf Hin Hid. pose proof (find_id_NoDup _ _ _ Hnd Hin Hid). congruence. Qed.

  Lemma find_id_upd r r' f l :
    (forall x, id (f x) = id x) ->
    find_id r (upd_id r' f l) =
    match find_id r l with
    | Some x => Some (if N.eqb r r' then f x else x)
    | None => None
    end.
  Proof.
    intros Hf. unfold find_id, upd_id. induction l as [|a l IH]; cbn [map find]; [reflexivity|].
    destruct (N.eqb_spec (id a) r') as [E|E].
    - rewrite Hf. destruct (N.eqb_spec (id a) r) as [E2|E2].
      + subst. rewrite N.eqb_refl. reflexivity.
      + exact IH.
    - destruct (N.eqb_spec (id a) r) as [E2|E2].
      + subst. destruct (N.eqb_spec (id a) r'); [contradiction | reflexivity].
      + exact IH.
  Qed.

  Lemma find_id_app r l x :
    find_id r (l ++ [x]) =
    match find_id r l with
    | Some y => Some y
    | None => if N.eqb (id x) r then Some x else None
    end.
  Proof.
    unfold find_id. induction l as [|a l IH]; cbn [app find]; [reflexivity|].
    destruct (N.eqb (id a) r); [reflexivity | exact IH].
  Qed.

  Lemma find_id_map r F l : (forall x, id (F x) = id x) ->
    find_id r (map F l) = match find_id r l with Some x => Some (F x) | None => None end.
  Proof.
    intros Hid. unfold find_id. induction l as [|a l IH]; cbn [map find]; [reflexivity|].
    rewrite Hid. destruct (N.eqb (id a) r); [reflexivity | exact IH].
  Qed.

  Lemma map_id_upd r f l : (forall x, id (f x) = id x) -> map id (upd_id r f l) = map id l.
  Proof.
    intros Hf. unfold upd_id. rewrite map_map. apply map_ext. intros a.
    destruct (N.eqb (id a) r); [apply Hf | reflexivity].
  Qed.

  Lemma In_upd_id r f l x' : In x' (upd_id r f l) -> exists x, In x l /\ x' = (if N.eqb (id x) r then f x else x).
  Proof. intros H. apply in_map_iff in H. destruct H as [x [H1 H2]]. exists x. auto. Qed.

  Lemma upd_id_ext_in r f f' l : (forall z, In z l -> id z = r -> f z = f' z) -> upd_id r f l = upd_id r f' l.
  Proof.
    intros H. apply map_ext_in. intros a Ha.
    destruct (N.eqb_spec (id a) r); [apply H; assumption | reflexivity].
  Qed.

  Lemma upd_id_same r l : upd_id r (fun x => x) l = l.
  Proof.
    unfold upd_id. rewrite <- (map_id l) at 2. apply map_ext. intros a. destruct (N.eqb (id a) r); reflexivity.
  Qed.

  Lemma upd_id_notin r f l : ~ In r (map id l) -> upd_id r f l = l.
  Proof.
    intros H. rewrite <- (upd_id_same r l) at 2. apply upd_id_ext_in. intros z Hz E.
    exfalso. apply H. rewrite <- E. apply in_map. exact Hz.
  Qed.

  Lemma upd_id_comp r f1 f2 l :
    (forall z, id (f1 z) = id z) -> upd_id r f2 (upd_id r f1 l) = upd_id r (fun z => f2 (f1 z)) l.
  Proof.
    intros Hid. unfold upd_id. rewrite map_map. apply map_ext. intros a.
    destruct (N.eqb_spec (id a) r) as [E|E].
    - rewrite Hid. destruct (N.eqb_spec (id a) r); [reflexivity | contradiction].
    - destruct (N.eqb_spec (id a) r); [contradiction | reflexivity].
  Qed.

  Lemma count_upd_id (P : A -> bool) r f l x :
    NoDup (map id l) -> find_id r l = Some x -> (forall z, id (f z) = id z) ->
    (length (filter P (upd_id r f l)) + Nat.b2n (P x) = length (filter P l) + Nat.b2n (P (f x)))%nat.
  Proof.
    unfold find_id. induction l as [|a l IH]; cbn [map find]; intros Hnd Hf Hid; [discriminate|].
    inversion Hnd as [|? ? Hni Hnd']; subst. cbn [upd_id map].
    destruct (N.eqb_spec (id a) r) as [E|E].
    - injection Hf as <-. subst r. fold (upd_id (id a) f l). rewrite upd_id_notin by exact Hni.
      cbn [filter]. destruct (P (f a)), (P a); cbn [length Nat.b2n]; lia.
    - fold (upd_id r f l). cbn [filter]. specialize (IH Hnd' Hf Hid).
      destruct (P a); cbn [length]; lia.
  Qed.
End ById.

Section ById2.
  Context {A B : Type} (ida : A -> N) (idb : B -> N) (R : A -> B -> Prop).
  Hypothesis Rid : forall x y, R x y -> ida x = idb y.

  Lemma ids_eq l1 l2 : Forall2 R l1 l2 -> map ida l1 = map idb l2.
  Proof. induction 1 as [|x y l1 l2 Hxy HF IH]; cbn [map]; [reflexivity|]. rewrite (Rid _ _ Hxy), IH. reflexivity. Qed.

  Lemma find_id_pair l1 l2 r x :
    Forall2 R l1 l2 -> find_id ida r l1 = Some x ->
    exists y, find_id idb r l2 = Some y /\ In x l1 /\ In y l2 /\ R x y.
  Proof.
    unfold find_id. induction 1 as [|a b l1 l2 Hab HF IH]; cbn [find]; intros H; [discriminate|].
    rewrite <- (Rid _ _ Hab). destruct (N.eqb (ida a) r).
    - injection H as <-. exists b. auto using in_eq.
    - destruct (IH H) as [y [H1 [H2 [H3 H4]]]]. exists y. auto using in_cons.
  Qed.

  Lemma find_id_pair_None l1 l2 r : Forall2 R l1 l2 -> find_id ida r l1 = None -> find_id idb r l2 = None.
  Proof. intros HF H. apply find_id_None. rewrite <- (ids_eq _ _ HF). apply find_id_None. exact H. Qed.

  Lemma upd_id_pair (R' : A -> B -> Prop) r f g l1 l2 :
    Forall2 R l1 l2 ->
    (forall x y, In x l1 -> In y l2 -> R x y -> ida x = r -> R' (f x) (g y)) ->
    (forall x y, In x l1 -> In y l2 -> R x y -> ida x <> r -> R' x y) ->
    Forall2 R' (upd_id ida r f l1) (upd_id idb r g l2).
  Proof.
    intros HF H1 H2. unfold upd_id. eapply Forall2_map2; [exact HF|].
    intros x y Hx Hy HR. rewrite <- (Rid _ _ HR).
    destruct (N.eqb_spec (ida x) r) as [E|E]; [apply H1 | apply H2]; assumption.
  Qed.
End ById2.

(* the instances that are used for rewriting *)
Lemma find_rx_upd r r' f rs :
  (forall x, r_id (f x) = r_id x) ->
  find_rx r (upd_rx r' f rs) =
  match find_rx r rs with
  | Some x => Some (if N.eqb r r' then f x else x)
  | None => None
  end.
Proof. exact (find_id_upd r_id r r' f rs). Qed.

Lemma find_rx_app r rs x :
  find_rx r (rs ++ [x]) =
  match find_rx r rs with
  | Some y => Some y
  | None => if N.eqb (r_id x) r then Some x else None
  end.
Proof. exact (find_id_app r_id r rs x). Qed.

Lemma find_rx_map r F rs : (forall x, r_id (F x) = r_id x) ->
  find_rx r (map F rs) = match find_rx r rs with Some x => Some (F x) | None => None end.
Proof. exact (find_id_map r_id r F rs). Qed.

(* two receiver tables with the same image under a projection that shows the ids: a record found in one has a
   twin in the other *)
Lemma find_rx_proj {B} (p : rxh -> B) r l' l x :
  (forall a a', p a = p a' -> r_id a = r_id a') -> map p l' = map p l -> find_rx r l = Some x ->
  exists x', find_rx r l' = Some x' /\ p x = p x'.
Proof.
  intros Hp E H.
  destruct (find_id_pair r_id r_id _ Hp l l' r x (map_eq_Forall2 p l l' (eq_sym E)) H) as [x' [H1 [_ [_ H2]]]]. eauto.
Qed.

Lemma map_r_id_upd r f rs : (forall x, r_id (f x) = r_id x) -> map r_id (upd_rx r f rs) = map r_id rs.
Proof. exact (map_id_upd r_id r f rs). Qed.

Lemma find_srx_upd r r' g ss :
  (forall x, s_id (g x) = s_id x) ->
  find_srx r (upd_srx r' g ss) =
  match find_srx r ss with
  | Some x => Some (if N.eqb r r' then g x else x)
  | None => None
  end.
Proof. exact (find_id_upd s_id r r' g ss). Qed.

Lemma upd_srx_ext_in r g g' ss :
  (forall z, In z ss -> s_id z = r -> g z = g' z) -> upd_srx r g ss = upd_srx r g' ss.
Proof. exact (upd_id_ext_in s_id r g g' ss). Qed.

Lemma upd_srx_comp r g1 g2 ss :
  (forall z, s_id (g1 z) = s_id z) ->
  upd_srx r g2 (upd_srx r g1 ss) = upd_srx r (fun z => g2 (g1 z)) ss.
Proof. exact (upd_id_comp s_id r g1 g2 ss). Qed.

Lemma get_set_eq t l ls : get_list t (set_list t l ls) = Some l.
Proof.
  induction ls as [|[t' l'] ls IH]; cbn [set_list get_list].
  - rewrite N.eqb_refl. reflexivity.
  - destruct (N.eqb_spec t' t) as [E|E]; cbn [get_list].
    + subst. rewrite N.eqb_refl. reflexivity.
    + destruct (N.eqb_spec t' t); [contradiction | exact IH].
Qed.

Lemma get_set_neq t u l ls : u <> t -> get_list u (set_list t l ls) = get_list u ls.
Proof.
  intros Hne. induction ls as [|[t' l'] ls IH]; cbn [set_list get_list].
  - destruct (N.eqb_spec t u); [congruence | reflexivity].
  - destruct (N.eqb_spec t' t) as [E|E]; cbn [get_list].
    + subst. destruct (N.eqb_spec t u); [congruence | reflexivity].
    + destruct (N.eqb_spec t' u); [reflexivity | exact IH].
Qed.

Lemma in_lists_spec m ls : in_lists m ls = true <-> exists t l, In (t, l) ls /\ In m l.
Proof.
  unfold in_lists. rewrite existsb_exists. split.
  - intros [[t l] [H1 H2]]. cbn [snd] in H2. apply mem_In in H2. eauto.
  - intros [t [l [H1 H2]]]. exists (t, l). split; [exact H1 | cbn [snd]; apply mem_In; exact H2].
Qed.

Lemma get_list_In t l ls : get_list t ls = Some l -> In (t, l) ls.
Proof.
  induction ls as [|[t' l'] ls IH]; cbn [get_list]; intros H; [discriminate|].
  destruct (N.eqb_spec t' t) as [E|E].
  - inversion H; subst. left. reflexivity.
  - right. apply IH. exact H.
Qed.


Lemma In_filter_neq t u l : In u (filter (fun v => negb (N.eqb v t)) l) <-> In u l /\ u <> t.
Proof.
  rewrite filter_In. split; intros [A B]; split; auto.
  - intros ->. rewrite N.eqb_refl in B. discriminate.
  - destruct (N.eqb_spec u t); [contradiction | reflexivity].
Qed.

Lemma mem_filter_neq t l : mem t (filter (fun u => negb (N.eqb u t)) l) = false.
Proof. apply mem_false_In. intros H. apply In_filter_neq in H. destruct H as [_ H]. exact (H eq_refl). Qed.
