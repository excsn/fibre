(* Invariant of the K2 oneshot model for ALL op histories, every cfg.
   Every operation is a composition of a few moves (wake the receiver, change the handle table and the sender
   count, hand the fresh id back, accept it, the receiver leaves, take the value, ...).  Each move keeps `OInv`
   for a state variable; two stacks of setters that differ only in order are convertible, so an operation is
   handled by naming the intermediate states in the order in which the invariant survives. *)
From Coq Require Import List Arith ZArith Bool Lia Permutation.
From Fibre Require Import Chan.OneshotOps.
Import ListNotations.
Open Scope nat_scope.

Arguments Nat.ltb : simpl never.

Definition ocnt (x : nat) (l : list nat) : nat := count_occ Nat.eq_dec l x.
Arguments ocnt : simpl never.
Lemma ocnt_nil x : ocnt x [] = 0. Proof. reflexivity. Qed.
Lemma ocnt_cons x y l : ocnt x (y :: l) = (if y =? x then 1 else 0) + ocnt x l.
Proof.
  unfold ocnt. cbn [count_occ]. destruct (Nat.eq_dec y x), (Nat.eqb_spec y x); try reflexivity; contradiction.
Qed.
Lemma ocnt_app x a b : ocnt x (a ++ b) = ocnt x a + ocnt x b.
Proof. unfold ocnt. apply count_occ_app. Qed.
Lemma ltb_succ x n : (if x <? S n then 1 else 0) = (if n =? x then 1 else 0) + (if x <? n then 1 else 0).
Proof. destruct (Nat.ltb_spec x (S n)), (Nat.eqb_spec n x), (Nat.ltb_spec x n); lia. Qed.
Lemma ocnt_seq x n : ocnt x (seq 0 n) = if x <? n then 1 else 0.
Proof.
  induction n as [|n IH]; [destruct (Nat.ltb_spec x 0); [lia|reflexivity]|].
  rewrite seq_S, Nat.add_0_l, ocnt_app, IH, ocnt_cons, ocnt_nil, ltb_succ. lia.
Qed.

Fixpoint opens (l : list (nat * bool)) : nat :=
  match l with [] => 0 | (_, c) :: t => (if c then 0 else 1) + opens t end.
Definition opencnt (l : list (nat * bool)) : Z := Z.of_nat (opens l).
Definition wf_h (n : nat) (l : list (nat * bool)) : Prop := NoDup (map fst l) /\ forall h, In h (map fst l) -> h < n.

Lemma find_h_in h l c : find_h h l = Some c -> In h (map fst l).
Proof.
  induction l as [|[h' c'] t IH]; cbn; [discriminate|].
  destruct (h' =? h) eqn:E; [apply Nat.eqb_eq in E; auto | auto].
Qed.
Lemma find_h_notin h l : ~ In h (map fst l) -> find_h h l = None.
Proof.
  induction l as [|[h' c'] t IH]; cbn; [reflexivity|]. intros H.
  destruct (h' =? h) eqn:E; [apply Nat.eqb_eq in E; subst; exfalso; auto | auto].
Qed.
Lemma notin_h h l : ~ In h (map fst l) -> remove_h h l = l /\ set_closed_h h l = l.
Proof.
  induction l as [|[h' c'] t IH]; cbn; [auto|]. intros H.
  destruct (Nat.eqb_spec h' h) as [E|_]; [destruct (H (or_introl E))|].
  destruct IH as [A B]; [auto|]. rewrite A, B. auto.
Qed.
Lemma remove_h_fst h l x : In x (map fst (remove_h h l)) -> In x (map fst l).
Proof. induction l as [|[h' c'] t IH]; cbn; [auto|]. destruct (h' =? h); cbn; tauto. Qed.
Lemma set_closed_fst h l : map fst (set_closed_h h l) = map fst l.
Proof.
  induction l as [|[h' c'] t IH]; cbn; [reflexivity|].
  destruct (h' =? h); cbn; f_equal; auto.
Qed.
Lemma remove_h_nodup h l : NoDup (map fst l) -> NoDup (map fst (remove_h h l)).
Proof.
  induction l as [|[h' c'] t IH]; cbn; intros H; [constructor|]. inversion H; subst.
  destruct (h' =? h); cbn; auto. constructor; auto. intros Hin. apply remove_h_fst in Hin. auto.
Qed.

Lemma opencnt_upd h l c : NoDup (map fst l) -> find_h h l = Some c ->
  opencnt (remove_h h l) = (opencnt l - (if c then 0 else 1))%Z /\
  opencnt (set_closed_h h l) = (opencnt l - (if c then 0 else 1))%Z.
Proof.
  unfold opencnt. induction l as [|[h' c'] t IH]; cbn; [discriminate|]. intros Hn Hf. inversion Hn; subst.
  destruct (Nat.eqb_spec h' h) as [->|_]; cbn.
  - inversion Hf; subst. destruct (notin_h h t H1) as [-> ->]. destruct c; lia.
  - destruct (IH H2 Hf). lia.
Qed.
Lemma opencnt_app l n : opencnt (l ++ [(n, false)]) = (opencnt l + 1)%Z.
Proof. unfold opencnt. induction l as [|[h c] t IH]; cbn; lia. Qed.
Lemma opencnt_nonneg l : (0 <= opencnt l)%Z.
Proof. unfold opencnt. lia. Qed.
Lemma opencnt_find_open h l : find_h h l = Some false -> (1 <= opencnt l)%Z.
Proof.
  unfold opencnt. induction l as [|[h' c'] t IH]; cbn; [discriminate|].
  destruct (h' =? h) eqn:E.
  - intros H. inversion H; subst. lia.
  - intros H. specialize (IH H). lia.
Qed.

Lemma wf_remove n h l : wf_h n l -> wf_h n (remove_h h l).
Proof.
  intros [A B]. split; [apply remove_h_nodup, A|]. intros x Hx. apply B, (remove_h_fst h l x Hx).
Qed.
Lemma wf_close n h l : wf_h n l -> wf_h n (set_closed_h h l).
Proof. intros [A B]. unfold wf_h. rewrite set_closed_fst. auto. Qed.
Lemma wf_app n l : wf_h n l -> wf_h (S n) (l ++ [(n, false)]).
Proof.
  intros [A B]. unfold wf_h. rewrite map_app. cbn. split.
  - apply (Permutation_NoDup (Permutation_cons_append _ n)). constructor; [|exact A].
    intros Hx. specialize (B _ Hx). lia.
  - intros h Hh. apply in_app_or in Hh. destruct Hh as [Hh|[E|[]]]; [specialize (B _ Hh); lia | subst; lia].
Qed.

Definition rcv_closed (r : orcv) : bool := match r with RcvGone => true | RcvLive c => c end.

(* Value flow: `i_cons` puts every id issued so far in exactly one of received / slot / handed back / dropped.
   Handles: `i_wf`, `i_cnt` say that sender_count is the number of open handles of a duplicate-free table.
   Receiver: `i_rdrop` ties receiver_dropped to the receiver handle; `i_futs`, `i_pend`: futures borrow a live
   receiver, and the registered poll belongs to a live future.
   State: `i_rd_state` (a receiver that left has emptied the slot), `i_zero` (the last open sender leaving an EMPTY
   channel closes it, so count 0 never meets EMPTY; this is what makes the `count = 0` branches of try_recv and poll
   on EMPTY unreachable), `i_acc_len` .. `i_recv` (what was accepted and received in each state), `i_taken` (TAKEN
   with the receiver still there means the receiver took the value; TAKEN after it left may mean the value was
   dropped instead, so nothing is claimed then).
   Wake-up: `i_wake` is C06 for the most recent Pending poll (cfg: F-34).  `i_disc`: Disconnected was only ever
   reported by a closed receiver or in TAKEN / CLOSED, where the slot can never be filled again (C04). *)
Record OInv (cf : ocfg) (s : ost) : Prop := {
  i_cons : forall x, ocnt x (orecv s) + ocnt x (sent_val (ostate s)) + ocnt x (oret s) + ocnt x (odrop s)
                     = if x <? onext s then 1 else 0;
  i_wf : wf_h (nexth s) (snd_h s);
  i_cnt : ocount s = opencnt (snd_h s);
  i_rdrop : rdrop s = rcv_closed (rcv s);
  i_rd_state : rdrop s = true -> ostate s = OTaken \/ ostate s = OClosed;
  i_zero : ocount s = 0%Z -> ostate s <> OEmpty;
  i_acc_len : length (oacc s) <= 1;
  i_empty : ostate s = OEmpty -> oacc s = [];
  i_closed : ostate s = OClosed -> oacc s = [];
  i_sent : forall v, ostate s = OSent v -> oacc s = [v] /\ orecv s = [];
  i_recv : orecv s = [] \/ orecv s = oacc s;
  i_taken : ostate s = OTaken -> rdrop s = false -> orecv s = oacc s;
  i_futs : futs s <> [] -> exists c, rcv s = RcvLive c;
  i_pend : forall f w, o_pend s = Some (f, w) -> mem_f f (futs s) = true;
  i_wake : forall f w, o_pend s = Some (f, w) -> o_woken s = false -> rcv s = RcvLive false ->
           wk s = Some w /\
           ((ostate s = OEmpty /\ ocount s <> 0%Z) \/
            (ostate s = OTaken /\ (fix_taken_wake cf = true -> ocount s <> 0%Z)));
  i_disc : o_disc s = true -> rcv_closed (rcv s) = true \/ ostate s = OTaken \/ ostate s = OClosed
}.
Lemma mem_remove_other f g l : mem_f f (remove_f g l) = true -> mem_f f l = true.
Proof.
  induction l as [|x t IH]; cbn; [auto|]. destruct (x =? g) eqn:E; cbn.
  - intros H. rewrite (IH H). apply orb_true_r.
  - intros H. apply orb_true_iff in H. apply orb_true_iff. destruct H; auto.
Qed.
Lemma mem_remove_neq f g l : f <> g -> mem_f f l = true -> mem_f f (remove_f g l) = true.
Proof.
  intros Hn. induction l as [|x t IH]; cbn; [auto|]. destruct (Nat.eqb_spec x g) as [->|_]; cbn.
  - destruct (Nat.eqb_spec g f); [congruence | exact IH].
  - destruct (x =? f); auto.
Qed.
Lemma mem_app f l g : mem_f f l = true -> mem_f f (l ++ [g]) = true.
Proof. induction l as [|x t IH]; cbn; [discriminate|]. destruct (x =? f); auto. Qed.
Lemma remove_f_nonnil f (l : list nat) : remove_f f l <> [] -> l <> [].
Proof. destruct l; cbn; [auto | discriminate]. Qed.

Arguments opencnt : simpl never.

Lemma oinv_owake cf s : OInv cf s -> OInv cf (owake s).
Proof.
  (* `apply H` finds the clause of H that is the goal: every clause that reads no changed field *)
  intros H. constructor; try apply H. cbn. intros f w Hp Hw Hr.
  apply orb_false_iff in Hw. destruct Hw as [Hw Hk].
  destruct (i_wake _ _ H f w Hp Hw Hr) as [E _]. rewrite E in Hk. discriminate.
Qed.

(* The table and the count move together.  When the count reaches 0 the state must have left EMPTY already, and
   a TAKEN state that is to be woken (cfg) must have lost its waker: `dec_senders` wakes before it gets here. *)
Lemma oinv_handles cf s m l n :
  OInv cf s -> wf_h m l -> n = opencnt l ->
  (n = 0%Z -> ostate s <> OEmpty /\ (ostate s = OTaken -> fix_taken_wake cf = true -> wk s = None)) ->
  OInv cf (set_nexth m (set_snd_h l (set_ocount n s))).
Proof.
  intros H Hwf Hn Hz. constructor; try apply H; cbn.
  - exact Hwf.
  - exact Hn.
  - intros E. apply Hz, E.
  - intros f w Hp Hw Hr. destruct (i_wake _ _ H f w Hp Hw Hr) as [Ek Hst]. split; [exact Ek|].
    destruct Hst as [[Es _]|[Es _]]; [left|right]; (split; [exact Es|]).
    + intros E. apply (proj1 (Hz E)), Es.
    + intros Hfix E. rewrite (proj2 (Hz E) Es Hfix) in Ek. discriminate.
Qed.

Lemma oinv_dec_senders cf s l :
  OInv cf s -> wf_h (nexth s) l -> opencnt l = (opencnt (snd_h s) - 1)%Z ->
  OInv cf (dec_senders cf (set_snd_h l s)).
Proof.
  intros H Hwf Hl. assert (Hn : (ocount s - 1)%Z = opencnt l) by (rewrite Hl, (i_cnt _ _ H); reflexivity).
  pose proof (oinv_owake cf s H) as Hk.
  unfold dec_senders. cbn [ocount ostate rdrop set_snd_h].
  (* in every branch: some t that keeps the invariant (s, woken, or woken and closed), then the new table and count *)
  destruct (Z.eqb_spec (ocount s) 1) as [E1|E1]; [|refine (oinv_handles cf s _ l _ H Hwf Hn _); lia].
  destruct (ostate s) eqn:Es.
  - set (t := owake s) in *. refine (oinv_handles cf (set_ostate OClosed t) _ l _ _ Hwf Hn _); [|split; discriminate].
    constructor; try apply Hk; cbn; try discriminate; auto.
    + intros x. rewrite <- (i_cons _ _ H x), Es. reflexivity.
    + intros _. apply (i_empty _ _ H Es).
    + intros f w Hp Hw Hr. destruct (i_wake _ _ Hk f w Hp Hw Hr) as [E _]. discriminate E.
  - destruct (rdrop s) eqn:Ed; [destruct (i_rd_state _ _ H Ed); congruence|].
    refine (oinv_handles cf s _ l _ H Hwf Hn _). rewrite Es. split; discriminate.
  - destruct (fix_taken_wake cf) eqn:Ef.
    + refine (oinv_handles cf (owake s) _ l _ Hk Hwf Hn _). split; [cbn; rewrite Es; discriminate | reflexivity].
    + refine (oinv_handles cf s _ l _ H Hwf Hn _). rewrite Es, Ef. split; discriminate.
  - refine (oinv_handles cf (owake s) _ l _ Hk Hwf Hn _). cbn. rewrite Es. split; discriminate.
Qed.

(* when the last handle goes the receiver is gone, so the slot is already empty: `Drop for OneShotShared` finds
   nothing to drop *)
Lemma oshared_drop_id cf s : OInv cf s -> oshared_drop_if s = s.
Proof.
  intros H. unfold oshared_drop_if. destruct (snd_h s); [|reflexivity]. destruct (rcv s) eqn:Er; [|reflexivity].
  assert (Hd : rdrop s = true) by (rewrite (i_rdrop _ _ H), Er; reflexivity).
  destruct s. destruct (i_rd_state _ _ H Hd) as [E|E]; cbn in E; subst; unfold odestroy; cbn; rewrite !app_nil_r;
    reflexivity.
Qed.

(* a sender handle leaves (send, drop); only an open one was counted *)
Lemma oinv_leave cf s h c : OInv cf s -> find_h h (snd_h s) = Some c ->
  OInv cf (oshared_drop_if (let t := set_snd_h (remove_h h (snd_h s)) s in if c then t else dec_senders cf t)).
Proof.
  intros H Hf. pose proof (wf_remove _ h _ (i_wf _ _ H)) as Hwf.
  pose proof (proj1 (opencnt_upd h _ c (proj1 (i_wf _ _ H)) Hf)) as Hc.
  assert (X : OInv cf (let t := set_snd_h (remove_h h (snd_h s)) s in if c then t else dec_senders cf t)).
  { destruct c; [|apply oinv_dec_senders; assumption].
    constructor; try apply H; cbn; [exact Hwf | rewrite Hc, Z.sub_0_r; apply H]. }
  rewrite (oshared_drop_id cf _ X). exact X.
Qed.

(* accepting is stated for a receiver that was woken first (`wk s = None`): an unwoken Pending poll would
   otherwise lose the EMPTY state its obligation rests on *)
Lemma oinv_accept cf s : OInv cf s -> ostate s = OEmpty -> rdrop s = false -> wk s = None ->
  OInv cf (set_oacc (oacc s ++ [onext s]) (set_ostate (OSent (onext s)) (set_onext (S (onext s)) s))).
Proof.
  intros H Es Hr Hk. pose proof (i_empty _ _ H Es) as Ea.
  assert (Er : orecv s = []) by (destruct (i_recv _ _ H) as [E|E]; congruence).
  rewrite Ea. constructor; try apply H; cbn; try discriminate; auto; try congruence.
  - intros x. rewrite ocnt_cons, ocnt_nil, ltb_succ, <- (i_cons _ _ H x), Es. cbn [sent_val]. rewrite ocnt_nil. lia.
  - intros v E. injection E as <-. auto.
  - intros f w Hp Hw Hrc. destruct (i_wake _ _ H f w Hp Hw Hrc) as [E _]. congruence.
  - intros Hd. destruct (i_disc _ _ H Hd) as [E|[E|E]]; [rewrite <- (i_rdrop _ _ H) in E|..]; congruence.
Qed.

(* close and drop of the receiver: `r` is its new, closed, form *)
Lemma oinv_rcv_leaves cf s r :
  OInv cf s -> rcv_closed r = true -> (futs s <> [] -> exists c, r = RcvLive c) ->
  OInv cf (set_rcv r (if rdrop s then s else close_int_rcv s)).
Proof.
  intros H Hr Hf.
  assert (Hw : forall c, r = RcvLive c -> c = true) by (intros c E; rewrite E in Hr; exact Hr).
  (* already closed, or one case per state; in each the clauses about the receiver follow from Hr, Hf, Hw alone
     (no obligation to wake is left), and the new state is TAKEN or CLOSED *)
  destruct (rdrop s) eqn:Ed; [|unfold close_int_rcv; destruct (ostate s) eqn:Es];
  (constructor; try apply H; cbn; try discriminate; auto; try congruence;
   try (intros f w _ _ E; discriminate (Hw _ E))).
  - intros x. rewrite <- (i_cons _ _ H x), Es. reflexivity.
  - intros _. apply (i_empty _ _ H Es).
  - intros x. rewrite ocnt_app, ocnt_nil, <- (i_cons _ _ H x), Es. cbn [sent_val]. lia.
Qed.

Lemma close_int_set_rcv r s : close_int_rcv (set_rcv r s) = set_rcv r (close_int_rcv s).
Proof. unfold close_int_rcv. cbn. destruct (ostate s); reflexivity. Qed.

Lemma oinv_take cf s v : OInv cf s -> ostate s = OSent v ->
  OInv cf (set_orecv (orecv s ++ [v]) (set_ostate OTaken s)).
Proof.
  intros H Es. destruct (i_sent _ _ H v Es) as [Ea Er]. rewrite Er.
  constructor; try apply H; cbn; try discriminate; auto.
  - intros x. rewrite <- (i_cons _ _ H x), Es, Er. cbn [sent_val]. lia.
  - intros f w Hp Hw Hr. destruct (i_wake _ _ H f w Hp Hw Hr) as [_ [[E _]|[E _]]]; congruence.
Qed.

Lemma oinv_disc cf s :
  OInv cf s -> rcv_closed (rcv s) = true \/ ostate s = OTaken \/ ostate s = OClosed -> OInv cf (set_o_disc true s).
Proof. intros H Hd. constructor; try apply H. intros _. exact Hd. Qed.

Lemma oinv_fut_done cf f s : OInv cf s -> OInv cf (fut_done f s).
Proof.
  intros H.
  assert (Hp : forall g w, o_pend (fut_done f s) = Some (g, w) -> o_pend s = Some (g, w) /\ g <> f).
  { intros g w. cbn. destruct (o_pend s) as [[f' w']|]; [|discriminate].
    destruct (Nat.eqb_spec f' f); [discriminate|]. intros E. injection E as <- <-. auto. }
  constructor; try apply H.
  - intros Hn. apply (i_futs _ _ H), (remove_f_nonnil f), Hn.
  - intros g w E. destruct (Hp g w E) as [E' Hn]. apply mem_remove_neq; [exact Hn | apply (i_pend _ _ H g w E')].
  - intros g w E. apply (i_wake _ _ H g w), (Hp g w E).
Qed.

Lemma oinv_pending cf s f w :
  OInv cf s -> mem_f f (futs s) = true -> ostate s = OEmpty \/ ostate s = OTaken -> ocount s <> 0%Z ->
  OInv cf (set_o_woken false (set_o_pend (Some (f, w)) (set_wk (Some w) s))).
Proof.
  intros H Hm Hs Hc. constructor; try apply H; cbn.
  - intros g u E. injection E as <- <-. exact Hm.
  - intros g u E _ _. injection E as <- <-. split; [reflexivity|]. destruct Hs as [Hs|Hs]; [left|right]; split; auto.
Qed.

Lemma oinv_exec cf s o : OInv cf s -> OInv cf (fst (oexec cf s o)).
Proof.
  intros H. destruct o; cbn [oexec].
  - (* send: the fresh id is handed back or accepted first; then this handle leaves the table *)
    unfold do_osend. destruct (find_h h (snd_h s)) as [c|] eqn:Hf; [|exact H].
    assert (Hb : OInv cf (oback (onext s) (set_onext (S (onext s)) s))).
    { constructor; try apply H. cbn. intros x.
      rewrite ocnt_app, ocnt_cons, ocnt_nil, ltb_succ, <- (i_cons _ _ H x). lia. }
    set (b := oback _ _) in Hb. cbv zeta. destruct c; [exact (oinv_leave cf b h true Hb Hf)|].
    pose proof (oinv_leave cf b h false Hb Hf) as Hr.
    destruct (rdrop s) eqn:Ed; [exact Hr|]. destruct (ostate s) eqn:Es; try exact Hr.
    exact (oinv_leave cf _ h false (oinv_accept cf (owake s) (oinv_owake cf s H) Es Ed eq_refl) Hf).
  - unfold do_oclose_s. destruct (find_h h (snd_h s)) as [[|]|] eqn:Hf; try exact H.
    apply oinv_dec_senders; [exact H | apply wf_close, H | exact (proj2 (opencnt_upd h _ false (proj1 (i_wf _ _ H)) Hf))].
  - unfold do_oclone. destruct (find_h h (snd_h s)); [|exact H].
    apply oinv_handles; [exact H | apply wf_app, H | rewrite opencnt_app, (i_cnt _ _ H); reflexivity |].
    intros E. pose proof (opencnt_nonneg (snd_h s)). rewrite <- (i_cnt _ _ H) in *. lia.
  - unfold do_odrop_s. destruct (find_h h (snd_h s)) as [c|] eqn:Hf; [exact (oinv_leave cf s h c H Hf) | exact H].
  - unfold do_oobs_s. destruct (find_h h (snd_h s)); exact H.
  - unfold do_otry_recv. destruct (rcv s) as [|[|]] eqn:Er; [exact H| |].
    + apply oinv_disc; [exact H | rewrite Er; auto].
    + unfold core_try_recv. destruct (ostate s) eqn:Es.
      * destruct (Z.eqb_spec (ocount s) 0) as [E|E]; [destruct (i_zero _ _ H E Es) | exact H].
      * apply oinv_take; assumption.
      * exact H.
      * apply oinv_disc; auto.
  - unfold do_oclose_r. destruct (rcv s) as [|[|]] eqn:Er; try exact H.
    cbn [fst]. rewrite close_int_set_rcv.
    pose proof (oinv_rcv_leaves cf s (RcvLive true) H eq_refl) as X. rewrite (i_rdrop _ _ H), Er in X.
    apply X. intros _. exists true. reflexivity.
  - unfold do_odrop_r. destruct (rcv s) as [|c] eqn:Er; [exact H|]. destruct (futs s) eqn:Ef; [|exact H].
    pose proof (oinv_rcv_leaves cf s RcvGone H eq_refl) as X. rewrite (i_rdrop _ _ H), Er, Ef in X.
    assert (Y := X (fun N => match N eq_refl with end)). cbn [fst rcv_closed] in *. rewrite (oshared_drop_id cf _ Y). exact Y.
  - unfold do_oobs_r. destruct (rcv s); exact H.
  - unfold do_omk. destruct (rcv s) eqn:Er; [exact H|]. destruct (mem_f f (futs s)); [exact H|].
    constructor; try apply H; cbn.
    + intros _. exists closed. exact Er.
    + intros g w Hp. apply mem_app, (i_pend _ _ H g w Hp).
  - unfold do_opoll. destruct (mem_f f (futs s)) eqn:Hm; [|exact H].
    destruct (rcv s) as [|[|]] eqn:Er; [exact H| |].
    + apply oinv_fut_done, oinv_disc; [exact H | rewrite Er; auto].
    + cbv zeta. destruct (ostate s) eqn:Es.
      * destruct (Z.eqb_spec (ocount s) 0) as [E|E]; [destruct (i_zero _ _ H E Es)|]. apply oinv_pending; auto.
      * apply oinv_fut_done, oinv_take; assumption.
      * destruct (Z.eqb_spec (ocount s) 0) as [E|E]; [apply oinv_fut_done, oinv_disc | apply oinv_pending]; auto.
      * apply oinv_fut_done, oinv_disc; auto.
  - unfold do_odropfut. destruct (mem_f f (futs s)); [apply oinv_fut_done, H | exact H].
Qed.
