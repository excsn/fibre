(* Proofs/RouteThm.v — the routing code against the property sentence.  Per appender the model's
   rule lookup is the longest matching logger naming it; the winner loop finds the longest match
   overall if that logger names an appender (the F-25 boundary); the two level fast paths never
   reject what process_event delivers.  From these, model_delivers = spec_delivers. *)
From Fibre Require Import Common.Base Log.Route Proofs.RouteProofs.
From Coq Require Import Arith.

Lemma nodup_names_In ls : nodup_names ls = true -> NoDup ls.
Proof.
  induction ls as [|x t IH]; cbn [nodup_names]; intros H; [constructor|].
  apply andb_true_iff in H. destruct H as [H1 H2]. constructor; [|apply IH; exact H2].
  intros Hin. apply negb_true_iff in H1.
  assert (existsb (name_eqb x) t = true) as E
    by (apply existsb_exists; exists x; split; [exact Hin | apply name_eqb_refl]).
  congruence.
Qed.

Lemma NoDup_map_inj {A B} (f : A -> B) l x y :
  NoDup (map f l) -> In x l -> In y l -> f x = f y -> x = y.
Proof.
  induction l as [|a t IH]; cbn [map]; intros Hnd Hx Hy E; [destruct Hx|].
  inversion Hnd as [|? ? Hni Hnd']; subst.
  destruct Hx as [<-|Hx], Hy as [<-|Hy].
  - reflexivity.
  - exfalso. apply Hni. rewrite E. apply in_map. exact Hy.
  - exfalso. apply Hni. rewrite <- E. apply in_map. exact Hx.
  - apply IH; assumption.
Qed.

Lemma wf_names c : wf_cfg c = true -> NoDup (map lname (cloggers c)).
Proof. unfold wf_cfg. intros H. apply andb_true_iff in H. apply nodup_names_In. apply H. Qed.

Lemma wf_apps c l a :
  wf_cfg c = true -> In l (cloggers c) -> In a (lapps l) -> In a (cappenders c).
Proof.
  unfold wf_cfg. intros H Hl Ha. apply andb_true_iff in H. destruct H as [_ H].
  rewrite forallb_forall in H. specialize (H l Hl). rewrite forallb_forall in H.
  apply mem_In. apply H. exact Ha.
Qed.

(* loggers that are candidates for appender a and target t, as the MODEL enumerates them *)
Definition cands (ls : list logger) (a : N) (t : name) : list logger :=
  filter (fun l => target_matches_prefix t (lname l))
         (filter (fun l => negb (is_root l) && mem a (lapps l)) ls).

Lemma fmsr_cands ls a t :
  find_most_specific_rule (build_filter a ls) t
  = option_map rule_of (max_by_key logger_len (cands ls a t)).
Proof.
  unfold find_most_specific_rule, build_filter, cands. cbn [frules].
  rewrite filter_map_comm, max_by_key_map. reflexivity.
Qed.

Lemma In_cands ls a t l :
  In l (cands ls a t) <-> In l ls /\ is_root l = false /\ mp (lname l) t /\ In a (lapps l).
Proof.
  unfold cands. rewrite !filter_In, andb_true_iff, negb_true_iff, target_matches_prefix_mp, mem_In.
  tauto.
Qed.

Lemma In_named_matching c t l :
  In l (named_matching c t) <-> In l (cloggers c) /\ is_root l = false /\ mp (lname l) t.
Proof.
  unfold named_matching. rewrite filter_In, andb_true_iff, negb_true_iff, module_prefix_mp. tauto.
Qed.

Lemma In_spec_cands c t a l :
  In l (filter (fun l => mem a (lapps l)) (named_matching c t)) <-> In l (cands (cloggers c) a t).
Proof. rewrite filter_In, In_named_matching, In_cands, mem_In. tauto. Qed.

Lemma cands_sub c a t l : In l (cands (cloggers c) a t) -> In l (named_matching c t).
Proof. rewrite In_cands, In_named_matching. tauto. Qed.

(* among loggers matching one target, the name length identifies the logger *)
Lemma uniq_matching c t :
  wf_cfg c = true -> uniq_key logger_len (named_matching c t).
Proof.
  intros Hwf x y Hx Hy Hk. apply In_named_matching in Hx, Hy.
  destruct Hx as [Hx [_ Mx]], Hy as [Hy [_ My]].
  apply (NoDup_map_inj lname (cloggers c)); try assumption; [apply wf_names; exact Hwf|].
  apply mp_same_len with t; assumption.
Qed.

Lemma uniq_cands c a t : wf_cfg c = true -> uniq_key logger_len (cands (cloggers c) a t).
Proof.
  intros Hwf x y Hx Hy. apply (uniq_matching c t Hwf); apply cands_sub with a; assumption.
Qed.

(* the model's per-appender lookup IS "the most specific logger naming a and matching t" *)
Lemma model_lookup_is_spec c a t :
  wf_cfg c = true ->
  max_by_key logger_len (cands (cloggers c) a t)
  = longest logger_len (filter (fun l => mem a (lapps l)) (named_matching c t)).
Proof.
  intros Hwf. apply max_by_key_longest; [|apply uniq_cands; exact Hwf].
  intros x. symmetry. apply In_spec_cands.
Qed.

Definition pa (r : rule) : name * bool := (rprefix r, radd r).
Definition flat (rs : list (option rule)) : list rule :=
  flat_map (fun o => match o with Some r => [r] | None => [] end) rs.

Lemma winner_from_Some b rs :
  winner_from (Some (pa b)) rs = Some (pa (longest_from rule_len b (flat rs))).
Proof.
  revert b. induction rs as [|[r|] t IH]; intros b; cbn [winner_from flat flat_map app longest_from].
  - reflexivity.
  - unfold pa at 1. cbn [fst snd]. change (length (rprefix b)) with (rule_len b).
    change (length (rprefix r)) with (rule_len r).
    destruct (Nat.ltb (rule_len b) (rule_len r)); apply IH.
  - apply IH.
Qed.

Lemma winner_from_None rs :
  winner_from None rs = option_map pa (longest rule_len (flat rs)).
Proof.
  induction rs as [|[r|] t IH]; cbn [winner_from flat flat_map app longest option_map].
  - reflexivity.
  - apply (winner_from_Some r t).
  - exact IH.
Qed.

Lemma In_flat rs r : In r (flat rs) <-> In (Some r) rs.
Proof.
  unfold flat. rewrite in_flat_map. split.
  - intros [[x|] [Hin Hr]]; [|destruct Hr]. destruct Hr as [<-|[]]. exact Hin.
  - intros H. exists (Some r). split; [exact H | left; reflexivity].
Qed.

Definition model_rules (c : config) (t : name) : list (option rule) :=
  map (fun af => find_most_specific_rule (snd af) t) (actors c).

Lemma In_model_rules c t o :
  In o (model_rules c t) <->
  exists a, In a (cappenders c)
            /\ o = option_map rule_of (max_by_key logger_len (cands (cloggers c) a t)).
Proof.
  unfold model_rules, actors. rewrite map_map. cbn [snd]. rewrite in_map_iff. split.
  - intros [a [E Ha]]. exists a. split; [exact Ha|]. rewrite <- E. apply fmsr_cands.
  - intros [a [Ha E]]. exists a. split; [|exact Ha]. rewrite E. apply fmsr_cands.
Qed.

(* if the most specific matching logger names an appender, the winner loop finds exactly it: every
   rule the loop sees belongs to a matching logger, that logger's rule is among them, and lengths
   identify matching loggers *)
Lemma winner_is_overall c t :
  wf_cfg c = true -> winner_wired c t = true ->
  winner_from None (model_rules c t)
  = option_map (fun w => (lname w, ladd w)) (longest logger_len (named_matching c t)).
Proof.
  intros Hwf Hw. rewrite winner_from_None. unfold winner_wired in Hw.
  assert (Hsub : forall r, In r (flat (model_rules c t)) ->
                 exists l, In l (named_matching c t) /\ r = rule_of l).
  { intros r Hr. apply In_flat, In_model_rules in Hr. destruct Hr as (a & _ & Er).
    destruct (max_by_key logger_len (cands (cloggers c) a t)) as [l|] eqn:El; [|discriminate].
    injection Er as ->. exists l. split; [|reflexivity].
    apply max_by_key_Some in El. apply (cands_sub c a), El. }
  destruct (longest logger_len (named_matching c t)) as [w|] eqn:EW; cbn [option_map].
  - pose proof (longest_Some _ _ _ _ EW) as [HwIn HwMax].
    rewrite (is_max_longest _ rule_len _ (rule_of w)); [reflexivity| |split].
    + intros r1 r2 H1 H2 E. destruct (Hsub r1 H1) as (l1 & Hl1 & ->), (Hsub r2 H2) as (l2 & Hl2 & ->).
      f_equal. exact (uniq_matching c t Hwf l1 l2 Hl1 Hl2 E).
    + destruct (lapps w) as [|a0 rest] eqn:Eapps; [discriminate|].
      assert (Ha0 : In a0 (lapps w)) by (rewrite Eapps; left; reflexivity).
      apply In_named_matching in HwIn. destruct HwIn as (HwL & HwR & HwM).
      apply In_flat, In_model_rules. exists a0. split; [apply (wf_apps c w); assumption|].
      rewrite (is_max_max_by_key _ logger_len _ w); [reflexivity|apply uniq_cands, Hwf|].
      split; [apply In_cands; tauto|]. intros y Hy. apply HwMax, (cands_sub c a0), Hy.
    + intros r Hr. destruct (Hsub r Hr) as (l & Hl & ->). exact (HwMax l Hl).
  - (* no named logger matches: every per-appender lookup is None *)
    apply longest_None in EW. destruct (longest rule_len _) as [r|] eqn:ER; [|reflexivity].
    apply longest_Some in ER. destruct (Hsub r (proj1 ER)) as (l & Hl & _).
    rewrite EW in Hl. destruct Hl.
Qed.

Definition receives (c : config) (t : name) (lv : level) (a : N) : bool :=
  let f := build_filter a (cloggers c) in
  actor_receives (gate_of (winner_from None (model_rules c t))) f (find_most_specific_rule f t) lv.

Lemma combine_map_self {A B} (g : A -> B) l : combine l (map g l) = map (fun x => (x, g x)) l.
Proof. induction l as [|x t IH]; cbn [map combine]; [reflexivity | rewrite IH; reflexivity]. Qed.

Lemma process_event_filter c t lv :
  process_event c t lv = filter (receives c t lv) (cappenders c).
Proof.
  unfold process_event. fold (model_rules c t).
  unfold model_rules at 2. rewrite combine_map_self.
  unfold actors at 1. rewrite map_map, filter_map_comm, map_map. cbn [fst snd].
  rewrite map_id. reflexivity.
Qed.

Lemma In_process_event c t lv a :
  In a (process_event c t lv) <-> In a (cappenders c) /\ receives c t lv a = true.
Proof. rewrite process_event_filter. apply filter_In. Qed.

Lemma receives_enabled c t lv a :
  receives c t lv a = true -> filter_enabled (build_filter a (cloggers c)) t lv = true.
Proof.
  unfold receives, actor_receives, filter_enabled. intros H. apply andb_true_iff in H. apply H.
Qed.

Lemma filter_enabled_max f t lv :
  filter_enabled f t lv = true -> admits (filter_max_level f) lv = true.
Proof.
  unfold filter_enabled, filter_max_level, find_most_specific_rule.
  destruct (max_by_key rule_len _) as [r|] eqn:E; intros H.
  - apply max_by_key_Some in E. destruct E as [E _]. apply filter_In in E. destruct E as [E _].
    apply admits_mono with (rlevel r); [|exact H].
    apply fold_fmax_ge_in. apply in_map. exact E.
  - apply admits_mono with (fdefault f); [|exact H]. apply fold_fmax_ge_init.
Qed.

Lemma process_event_prefilters c t lv a :
  In a (process_event c t lv) ->
  admits (proc_max_level c) lv = true /\ event_enabled c t lv = true.
Proof.
  intros H. apply In_process_event in H. destruct H as [Ha Hr]. apply receives_enabled in Hr.
  assert (In (a, build_filter a (cloggers c)) (actors c)) as Hact
    by (unfold actors; apply in_map_iff; exists a; split; [reflexivity | exact Ha]).
  split.
  - unfold proc_max_level.
    apply admits_mono with (filter_max_level (build_filter a (cloggers c)));
      [|apply filter_enabled_max with t; exact Hr].
    apply fold_fmax_ge_in. apply in_map_iff. exists (a, build_filter a (cloggers c)).
    split; [reflexivity | exact Hact].
  - unfold event_enabled. apply existsb_exists. exists (a, build_filter a (cloggers c)).
    split; [exact Hact | exact Hr].
Qed.

(* log and tracing entry points select the same appenders: the level hints and
   Layer::enabled never reject an event that process_event would deliver *)
Theorem emit_is_process_event c v t lv : emit c v t lv = process_event c t lv.
Proof.
  assert (forall b : bool, (forall a, In a (process_event c t lv) -> b = true) ->
          (if b then process_event c t lv else []) = process_event c t lv) as K.
  { intros [|] Hb; [reflexivity|]. destruct (process_event c t lv) as [|a r]; [reflexivity|].
    specialize (Hb a (or_introl eq_refl)). discriminate. }
  destruct v; cbn [emit]; apply K; intros a Ha; apply process_event_prefilters in Ha.
  - apply Ha.
  - apply andb_true_iff. exact Ha.
Qed.

Theorem log_eq_tracing c t lv a :
  model_delivers c ViaLog t lv a = model_delivers c ViaTracing t lv a.
Proof. unfold model_delivers. rewrite !emit_is_process_event. reflexivity. Qed.

Theorem emit_NoDup c v t lv : NoDup (cappenders c) -> NoDup (emit c v t lv).
Proof.
  intros H. rewrite emit_is_process_event, process_event_filter. apply NoDup_filter. exact H.
Qed.

Theorem emit_exactly_once c v t lv a :
  NoDup (cappenders c) ->
  count_occ N.eq_dec (emit c v t lv) a = (if model_delivers c v t lv a then 1 else 0)%nat.
Proof.
  intros H. pose proof (emit_NoDup c v t lv H) as Hnd. unfold model_delivers.
  destruct (mem a (emit c v t lv)) eqn:E.
  - apply mem_In in E. apply NoDup_count_occ'; assumption.
  - apply mem_false_In in E. apply count_occ_not_In. exact E.
Qed.

Lemma default_is_root_fallback ls a lv :
  admits (fdefault (build_filter a ls)) lv
  = match (match find_root ls with
           | Some r => if mem a (lapps r) then Some r else None
           | None => None
           end) with
    | Some l => admits (llevel l) lv
    | None => false
    end.
Proof.
  unfold build_filter. cbn [fdefault]. destruct (find_root ls) as [r|]; [|apply admits_OFF].
  destruct (mem a (lapps r)); [reflexivity | apply admits_OFF].
Qed.

(* the rule found for appender a is the winner's exactly when the winning logger names a *)
Lemma rule_is_winner c t a w l :
  wf_cfg c = true ->
  longest logger_len (named_matching c t) = Some w ->
  longest logger_len (filter (fun l => mem a (lapps l)) (named_matching c t)) = Some l ->
  name_eqb (lname l) (lname w) = mem a (lapps w).
Proof.
  intros Hwf EW EL. apply longest_Some in EW, EL. destruct EW as [HwIn HwMax], EL as [HlIn HlMax].
  pose proof (proj1 (filter_In _ _ _) HlIn) as [HlM Hal].
  destruct (mem a (lapps w)) eqn:Emem.
  - (* w is among a's candidates, l is the longest of them, w the longest of all *)
    assert (l = w) as ->; [|apply name_eqb_refl].
    apply (uniq_matching c t Hwf); try assumption.
    specialize (HlMax w (proj2 (filter_In _ _ _) (conj HwIn Emem))). specialize (HwMax l HlM). lia.
  - apply name_eqb_neq. intros E.
    assert (l = w) as -> by (apply In_named_matching in HlM, HwIn;
      apply (NoDup_map_inj lname (cloggers c)); try tauto; apply wf_names, Hwf).
    congruence.
Qed.

Lemma receives_is_spec c t lv a :
  wf_cfg c = true -> winner_wired c t = true ->
  receives c t lv a = spec_delivers c t lv a.
Proof.
  intros Hwf Hw. unfold receives, actor_receives, spec_delivers, spec_logger_for, spec_overall.
  rewrite (winner_is_overall c t Hwf Hw), fmsr_cands, (model_lookup_is_spec c a t Hwf),
    default_is_root_fallback.
  set (Sa := filter (fun l => mem a (lapps l)) (named_matching c t)).
  destruct (longest logger_len (named_matching c t)) as [w|] eqn:EW;
    destruct (longest logger_len Sa) as [l|] eqn:EL; cbn [option_map gate_of rule_of rprefix rlevel].
  - (* appender a has a rule: logger l *)
    destruct (ladd w); cbn [gate_of]; [|rewrite (rule_is_winner c t a w l Hwf EW EL)];
      destruct (admits (llevel l) lv), (mem a (lapps w)); reflexivity.
  - (* appender a has no rule for this target, so the winner does not name it *)
    assert (mem a (lapps w) = false) as ->.
    { destruct (mem a (lapps w)) eqn:E; [|reflexivity]. apply longest_None in EL.
      apply longest_Some in EW. destruct EW as [HwIn _].
      assert (In w Sa) as HwS by (apply filter_In; split; assumption).
      rewrite EL in HwS. destruct HwS. }
    destruct (ladd w); cbn [gate_of andb orb]; rewrite ?andb_true_r, ?andb_false_r; reflexivity.
  - apply longest_None in EW. apply longest_Some in EL. unfold Sa in EL. rewrite EW in EL. destruct EL as [[] _].
  - (* no named logger matches the target: root decides *)
    cbn [andb]. destruct (find_root (cloggers c)) as [r|]; [|reflexivity].
    destruct (mem a (lapps r)); [|reflexivity]. rewrite orb_true_r, andb_true_r. reflexivity.
Qed.

Lemma spec_needs_appender c t lv a :
  wf_cfg c = true -> spec_delivers c t lv a = true -> In a (cappenders c).
Proof.
  intros Hwf H. unfold spec_delivers in H. apply andb_true_iff in H. destruct H as [H _].
  unfold spec_logger_for in H.
  destruct (longest logger_len (filter (fun l => mem a (lapps l)) (named_matching c t))) as [l|] eqn:EL.
  - apply longest_Some in EL. destruct EL as [HlIn _]. apply filter_In in HlIn.
    destruct HlIn as [HlM Hal]. apply In_named_matching in HlM.
    apply (wf_apps c l); [exact Hwf | apply HlM | apply mem_In; exact Hal].
  - destruct (find_root (cloggers c)) as [r|] eqn:ER; [|discriminate].
    destruct (mem a (lapps r)) eqn:Emem; [|discriminate].
    apply find_some in ER. apply (wf_apps c r); [exact Hwf | apply ER | apply mem_In; exact Emem].
Qed.

(* where the most specific matching logger names an appender, the code delivers exactly as the
   property sentence says, through either entry point *)
Theorem route_except_F25_at c v t lv a :
  wf_cfg c = true -> winner_wired c t = true ->
  model_delivers c v t lv a = spec_delivers c t lv a.
Proof.
  intros Hwf Hw. unfold model_delivers. rewrite emit_is_process_event.
  destruct (spec_delivers c t lv a) eqn:ES.
  - apply mem_In, In_process_event. split; [apply (spec_needs_appender c t lv a); assumption|].
    rewrite receives_is_spec; assumption.
  - apply mem_false_In. intros H. apply In_process_event in H. destruct H as [_ H].
    rewrite receives_is_spec in H by assumption. congruence.
Qed.

Lemma all_wired_winner c t : all_wired c = true -> winner_wired c t = true.
Proof.
  unfold all_wired, winner_wired. intros H.
  destruct (longest logger_len (named_matching c t)) as [w|] eqn:EW; [|reflexivity].
  apply longest_Some in EW. destruct EW as [HwIn _]. apply In_named_matching in HwIn.
  rewrite forallb_forall in H. destruct HwIn as [HwL [HwR _]]. specialize (H w HwL).
  rewrite HwR in H. exact H.
Qed.

Theorem route_except_F25 c :
  wf_cfg c = true -> all_wired c = true ->
  forall v t lv a, model_delivers c v t lv a = spec_delivers c t lv a.
Proof.
  intros Hwf Hall v t lv a. apply route_except_F25_at; [exact Hwf | apply all_wired_winner; exact Hall].
Qed.

(* bytes: n=110 o=111 i=105 s=115 y=121 x=120 a=97 p=112 d=100 b=98 q=113 *)
Definition nm_noisy : name := [110; 111; 105; 115; 121].
Definition nm_app : name := [97; 112; 112].
Definition nm_app_db : name := nm_app ++ sep ++ [100; 98].

(* root -> s0 (INFO); "noisy" non-additive, no appenders *)
Definition cfg_F25 : config :=
  mkConfig [0] [mkLogger root_name (UPTO INFO) true [0]; mkLogger nm_noisy (UPTO INFO) false []].

(* root -> s0; "app" non-additive -> s1; "app::db" additive, no appenders *)
Definition cfg_F25b : config :=
  mkConfig [0; 1] [mkLogger root_name (UPTO INFO) true [0];
                   mkLogger nm_app (UPTO INFO) false [1];
                   mkLogger nm_app_db (UPTO INFO) true []].

Lemma F25_witness :
  wf_cfg cfg_F25 = true /\ nonadditive_wired cfg_F25 = false
  /\ model_delivers cfg_F25 ViaLog (nm_noisy ++ sep ++ [120]) INFO 0 = true
  /\ model_delivers cfg_F25 ViaTracing (nm_noisy ++ sep ++ [120]) INFO 0 = true
  /\ spec_delivers cfg_F25 (nm_noisy ++ sep ++ [120]) INFO 0 = false.
Proof. vm_compute. repeat split. Qed.

Lemma F25b_witness :
  wf_cfg cfg_F25b = true /\ nonadditive_wired cfg_F25b = true
  /\ model_delivers cfg_F25b ViaLog (nm_app_db ++ sep ++ [113]) INFO 0 = false
  /\ spec_delivers cfg_F25b (nm_app_db ++ sep ++ [113]) INFO 0 = true.
Proof. vm_compute. repeat split. Qed.

(* the full statement (no wiring hypothesis) is false of the code as written *)
Theorem route_refuted_F25 :
  ~ (forall c v t lv a, wf_cfg c = true -> model_delivers c v t lv a = spec_delivers c t lv a).
Proof.
  intros H. destruct F25_witness as [Hwf [_ [Hm [_ Hs]]]].
  specialize (H cfg_F25 ViaLog (nm_noisy ++ sep ++ [120]) INFO 0 Hwf). congruence.
Qed.

(* excluding only NON-ADDITIVE appender-less loggers is not enough: an additive one hides the
   logger from the winner loop too, and a less specific non-additive logger then gates *)
Theorem route_refuted_F25_additive :
  ~ (forall c v t lv a, wf_cfg c = true -> nonadditive_wired c = true ->
                        model_delivers c v t lv a = spec_delivers c t lv a).
Proof.
  intros H. destruct F25b_witness as [Hwf [Hna [Hm Hs]]].
  specialize (H cfg_F25b ViaLog (nm_app_db ++ sep ++ [113]) INFO 0 Hwf Hna). congruence.
Qed.
