(* Proofs/RendezvousWake.v — C06 for the rendezvous model: a registered future whose next poll would
   not be Pending has been woken since its last poll; a registered record always carries the waker of
   the last poll; removing a record (other than by dropping its own future) wakes it; no record
   points at a dead future.  Exception: the single-slot receiver store of spsc/mpsc silently
   overwrites a parked receive when a second one registers (finding F-33). *)
From Fibre Require Import Common.Base Chan.Rendezvous Proofs.RendezvousBase Proofs.RendezvousWF
     Proofs.RendezvousProofs.

(* The invariant behind no-missed-wake.  A registered future's next poll completes exactly when its
   state has left WAITING or its record has left its queue.  Leaving WAITING always comes with a wake
   (first clause).  A record never leaves silently: for senders that is already in WF; for receivers
   it holds of the deque store only, which is why the second clause asks for [multi_rx] (F-33). *)
Definition MW (c : cfg) (F : list (N * fut)) (RQ : list (N * N)) : Prop :=
  forall f r, aget f F = Some r -> f_reg r = true ->
    (f_st r <> WAITING -> f_woken r = true) /\
    (f_st r = WAITING -> f_side r = Rx -> multi_rx c = true -> qhas f RQ = true).

Lemma MW_same c F RQ : MW c F RQ -> MW c F RQ.
Proof. auto. Qed.

(* one record changes; the other registered receivers keep their place in a deque store *)
Lemma MW_aupd c F RQ RQ' k g :
  MW c F RQ ->
  (forall f, f <> k -> multi_rx c = true -> qhas f RQ = true -> qhas f RQ' = true) ->
  (forall r, aget k F = Some r -> f_reg (g r) = true ->
     (f_st (g r) <> WAITING -> f_woken (g r) = true) /\
     (f_st (g r) = WAITING -> f_side (g r) = Rx -> multi_rx c = true -> qhas k RQ' = true)) ->
  MW c (aupd k g F) RQ'.
Proof.
  intros M Hq Hk f r' Hg Hr. rewrite aget_aupd in Hg. deq k f.
  - destruct (aget f F) as [r|] eqn:E; [|discriminate]. inversion Hg; subst r'. exact (Hk r eq_refl Hr).
  - destruct (M f r' Hg Hr) as [M1 M2]. split; [exact M1|]. intros X Y Z. apply Hq; auto.
Qed.

Lemma MW_disc_receivers c F RQ : MW c F RQ -> MW c (disc_all RQ F) [].
Proof.
  intros M. intros f r' Hg Hr. rewrite aget_disc_all in Hg. destruct (qhas f RQ) eqn:Hq.
  - destruct (aget f F) as [r|]; [|discriminate]. cbn in Hg. inversion Hg; subst r'. cbn.
    split; [reflexivity|discriminate].
  - destruct (M f r' Hg Hr) as [M1 M2]. split; [exact M1|].
    intros X Y Z. rewrite (M2 X Y Z) in Hq. discriminate.
Qed.

Lemma MW_disc_senders c F SQ RQ : MW c F RQ -> MW c (disc_all SQ F) RQ.
Proof.
  revert F. induction SQ as [|[g w] t IH]; intros F M; cbn [disc_all]; [exact M|].
  apply IH, (MW_aupd c F RQ); [exact M|auto|]. intros r _ _. split; [reflexivity|discriminate].
Qed.

Lemma MW_adel c F RQ f : MW c F RQ -> NoDup (map fst F) -> MW c (adel f F) (qdel f RQ).
Proof.
  intros M Hn f' r' Hg Hr. deq f f'; [rewrite aget_adel_eq in Hg by exact Hn; discriminate|].
  rewrite aget_adel_neq in Hg by assumption. destruct (M f' r' Hg Hr) as [M1 M2]. split; [exact M1|].
  intros X Y Z. rewrite qhas_qdel_neq by congruence. auto.
Qed.

Lemma MW_app c F RQ x : MW c F RQ -> f_reg (snd x) = false -> MW c (F ++ [x]) RQ.
Proof.
  intros M Hx f r' Hg Hr. destruct x as [fx rx]. rewrite aget_app in Hg.
  destruct (aget f F) as [r|] eqn:Hg0; [inversion Hg; subst r'; exact (M f r Hg0 Hr)|].
  cbn [aget] in Hg. deq f fx; [|discriminate]. inversion Hg; subst r'. cbn in Hx. congruence.
Qed.

Ltac mwsimp := cbn [hs fs sq rq scnt rcnt set_hs set_fs set_sq set_rq set_scnt set_rcnt handoff_to_receiver] in *.

Lemma closes_MW c s sd s' r e : MW c (fs s) (rq s) -> closes s sd s' r e -> MW c (fs s') (rq s').
Proof.
  intros M [ ]; mwsimp; try exact M; [apply MW_disc_receivers|apply MW_disc_senders]; exact M.
Qed.

Theorem step_MW c s o s' r e :
  WF s -> MW c (fs s) (rq s) -> step c s o = (s', r, e) -> MW c (fs s') (rq s').
Proof.
  intros W M Hs. apply step_inv in Hs. destruct Hs; mwsimp; try exact M;
    (* a completing poll clears [registered] *)
    try (apply (MW_aupd c _ (rq s)); [exact M|auto|discriminate]).
  - (* T_handoff *) rewrite Hrq in M. apply (MW_aupd c _ ((g, w) :: rest)); [exact M| |].
    + intros f Hne _ X. rewrite qhas_cons_neq in X by exact Hne. exact X.
    + intros rk _ _. split; [reflexivity|discriminate].
  - (* T_take *) apply (MW_aupd c _ (rq s)); [exact M|auto|]. intros rk _ _. split; [reflexivity|discriminate].
  - (* T_timeout: the single slot is cleared *)
    destruct (multi_rx c) eqn:Hm; [exact M|].
    intros f r0 Hg Hr. destruct (M f r0 Hg Hr) as [M1 _]. split; [exact M1|]. intros _ _ X. congruence.
  - (* T_close *) exact (closes_MW c (mark_closed s h) _ _ _ _ M Hk).
  - (* T_droph *) exact (closes_MW c (mark_closed s h) _ _ _ _ M Hk).
  - (* T_clone_open *) destruct (h_side hd); exact M.
  - (* T_mksend *) apply MW_app; [exact M|reflexivity].
  - (* T_mkrecv *) apply MW_app; [exact M|reflexivity].
  - (* T_poll_handoff *) rewrite Hrq in M. apply (MW_aupd c _ ((g, w') :: rest)).
    + apply (MW_aupd c _ ((g, w') :: rest)); [exact M|auto|intros rk Hg' Hr'; exact (M f rk Hg' Hr')].
    + intros f' Hne _ X. rewrite qhas_cons_neq in X by exact Hne. exact X.
    + intros rk _ _. split; [reflexivity|discriminate].
  - (* T_park_tx *) apply (MW_aupd c _ (rq s)); [exact M|auto|]. intros rk Hg' _. split; [intros X; destruct (X eq_refl)|].
    intros _ X. cbn in X. congruence.
  - (* T_park_rx *) apply (MW_aupd c _ (rq s)); [exact M| |]; unfold push_receiver.
    + intros f' _ -> X. rewrite qhas_app, X. reflexivity.
    + intros rk _ _. split; [intros X; destruct (X eq_refl)|]. intros _ _ ->. rewrite qhas_app.
      unfold qhas at 2, ahas. cbn [aget]. rewrite N.eqb_refl. apply orb_true_r.
  - (* T_repoll_tx *) apply (MW_aupd c _ (rq s)); [exact M|auto|]. intros rk Hg' Hr'. split; [intros X; cbn in X; congruence|].
    exact (proj2 (M f rk Hg' Hr')).
  - (* T_repoll_rx *) apply (MW_aupd c _ (rq s)); [exact M|intros f' _ _ X; rewrite qhas_qrefresh; exact X|].
    intros rk Hg' Hr'. split; [intros X; cbn in X; congruence|]. rewrite qhas_qrefresh. exact (proj2 (M f rk Hg' Hr')).
  - (* T_dropf *) rewrite (drop_fut_state _ _ _ W Hg). mwsimp. apply MW_adel; [exact M|exact (wf_fs _ _ _ _ W)].
Qed.

Theorem run_MW c ops s s' tr :
  WF s -> MW c (fs s) (rq s) -> run c s ops = (s', tr) -> MW c (fs s') (rq s').
Proof.
  intros W M Hr.
  exact (run_inv c (fun s _ => MW c (fs s) (rq s)) (fun s o s' r e _ W => step_MW c s o s' r e W)
                 ops s s' tr [] W M Hr).
Qed.

(* the operation of future f has become able to complete: the model's own poll would not be Pending *)
Definition would_be_ready (c : cfg) (s : state) (f : N) : Prop :=
  exists w, snd (fst (step c s (Poll f w))) <> OPending.

(* no missed wake: every live future whose last poll returned Pending (= it is registered) and whose
   next poll would complete has been woken since that poll.  For send futures in every flavour; for
   receive futures with the deque store (mpmc). *)
Theorem rv_no_missed_wake c a ops s tr f r :
  run c (init a) ops = (s, tr) ->
  aget f (fs s) = Some r -> f_reg r = true -> (f_side r = Tx \/ multi_rx c = true) ->
  would_be_ready c s f -> f_woken r = true.
Proof.
  intros Hr Hg Hreg Hk [w Hw].
  pose proof (run_WF c ops _ _ _ (WF_init a) Hr) as W.
  assert (M0 : MW c (fs (init a)) (rq (init a))) by (intros f0 r0 X; discriminate).
  pose proof (run_MW c ops _ _ _ (WF_init a) M0 Hr) as M.
  destruct (M f r Hg Hreg) as [M1 M2].
  destruct (f_st r) eqn:Hst; try (apply M1; discriminate).
  exfalso. apply Hw. cbn [step]. rewrite Hg.
  destruct (f_side r) eqn:Hsd.
  - unfold poll_send. rewrite Hreg, Hst.
    destruct (wf_fut _ _ _ _ W f r Hg) as [Hk' _]. rewrite Hsd in Hk'. destruct Hk' as [_ Hq].
    rewrite (Hq Hreg Hst). reflexivity.
  - destruct Hk as [Hk|Hk]; [discriminate|].
    unfold poll_recv. rewrite Hreg, Hst, (M2 eq_refl eq_refl Hk). reflexivity.
Qed.

Definition rv_no_missed_wake_full (c : cfg) : Prop :=
  forall a ops s tr f r, run c (init a) ops = (s, tr) ->
    aget f (fs s) = Some r -> f_reg r = true -> would_be_ready c s f -> f_woken r = true.

Theorem rv_no_missed_wake_multi c : multi_rx c = true -> rv_no_missed_wake_full c.
Proof. intros Hm a ops s tr f r Hr Hg Hreg Hw. eapply rv_no_missed_wake; eauto. Qed.

Definition F33_witness : list op := [MkRecv 10 1; MkRecv 11 1; Poll 10 0; Poll 11 1].

(* single-slot store (spsc, mpsc): the second registration overwrites the first record; the first
   future is never woken and its next poll answers Disconnected *)
Theorem rv_no_missed_wake_refuted_F33 c : multi_rx c = false -> ~ rv_no_missed_wake_full c.
Proof.
  intros Hm H. destruct c as [m t r x ff y]. cbn in Hm. subst m.
  destruct (run (mkCfg false t r x ff y) (init true) F33_witness) as [s tr] eqn:Hr.
  specialize (H true F33_witness s tr 10 (mkF Rx 1 None WAITING true 0 false) Hr).
  destruct ff; vm_compute in Hr; inversion Hr; subst;
    (assert (X : false = true); [apply H; try reflexivity; exists 5; vm_compute; discriminate|discriminate]).
Qed.

(** records: the waker of the last poll is the one stored; a record leaves its queue only with a
    wake of that waker, or because its own future is dropped *)
Definition q_evol (q q' : list (N * N)) (e : list ev) (dropped : option N) : Prop :=
  forall f w, In (f, w) q -> In f (map fst q') \/ In (EWake w) e \/ dropped = Some f.

Lemma q_evol_same q e d : q_evol q q e d.
Proof. intros f w Hi. left. apply (in_map fst) in Hi. exact Hi. Qed.

Lemma q_evol_keys q q' e d : map fst q' = map fst q -> q_evol q q' e d.
Proof. intros Hk f w Hi. left. rewrite Hk. apply (in_map fst) in Hi. exact Hi. Qed.

Lemma q_evol_app q x e d : q_evol q (q ++ x) e d.
Proof. intros f w Hi. left. rewrite map_app. apply in_or_app. left. apply (in_map fst) in Hi. exact Hi. Qed.

Lemma q_evol_pop g w rest e d : In (EWake w) e -> q_evol ((g, w) :: rest) rest e d.
Proof.
  intros He f w' [Hi|Hi].
  - inversion Hi; subst. right. left. exact He.
  - left. apply (in_map fst) in Hi. exact Hi.
Qed.

Lemma q_evol_all q d : q_evol q [] (wakes_of q) d.
Proof.
  intros f w Hi. right. left. unfold wakes_of. apply in_map_iff. exists (f, w). split; [reflexivity|exact Hi].
Qed.

Lemma q_evol_qdel q f e : q_evol q (qdel f q) e (Some f).
Proof.
  intros f' w Hi. deq f f'; [right; right; reflexivity|]. left.
  unfold qdel. apply (in_map fst _ (f', w)). apply In_adel; [exact n|exact Hi].
Qed.

Definition dropped_of (o : op) : option N := match o with DropF f => Some f | _ => None end.

Lemma closes_evol s sd s' r e d : closes s sd s' r e -> q_evol (sq s) (sq s') e d /\ q_evol (rq s) (rq s') e d.
Proof. intros [ ]; cbn [sq rq set_scnt set_rcnt]; split; try apply q_evol_same; apply q_evol_all. Qed.

(* dropping a future removes exactly its own record and keeps everybody else's order *)
Theorem rv_drop_future_queues c s f s' r e :
  step c s (DropF f) = (s', r, e) ->
  (sq s' = sq s \/ sq s' = qdel f (sq s)) /\ (rq s' = rq s \/ rq s' = qdel f (rq s))
  /\ hs s' = hs s /\ scnt s' = scnt s /\ rcnt s' = rcnt s
  /\ (forall w, ~ In (EWake w) e).
Proof.
  intros Hs. cbn [step] in Hs. destruct (aget f (fs s)) as [r0|].
  - unfold drop_fut in Hs. inversion Hs; subst.
    assert (NW : forall w, ~ In (EWake w) (drop_cell_ev r0)).
    { intros w X. unfold drop_cell_ev in X. destruct (f_cell r0); [destruct (f_side r0)|]; cbn in X; intuition discriminate. }
    destruct (f_reg r0 && cancel_cas r0); [unfold cancel_remove; destruct (f_side r0)|];
      cbn [sq rq hs scnt rcnt set_fs set_sq set_rq]; repeat split; auto.
  - inversion Hs; subst. repeat split; auto.
Qed.

Theorem step_queues_evol c s o s' r e :
  step c s o = (s', r, e) ->
  q_evol (sq s) (sq s') e (dropped_of o) /\
  (multi_rx c = true -> q_evol (rq s) (rq s') e (dropped_of o)).
Proof.
  intros Hs. pose proof (step_inv _ _ _ _ _ _ Hs) as T.
  destruct T; cbn [sq rq set_fs set_hs set_rq handoff_to_receiver];
    try (split; [|intros _]; apply q_evol_same).
  - (* T_handoff *) split; [apply q_evol_same|intros _]. rewrite Hrq. apply q_evol_pop. cbn. tauto.
  - (* T_take *) split; [|intros _; apply q_evol_same]. rewrite Hsq. apply q_evol_pop. cbn. tauto.
  - (* T_timeout *) split; [apply q_evol_same|intros ->; apply q_evol_same].
  - (* T_close *) destruct (closes_evol (mark_closed s h) _ _ _ _ None Hk). auto.
  - (* T_droph *) destruct (closes_evol (mark_closed s h) _ _ _ _ None Hk). auto.
  - (* T_clone_open *) destruct (h_side hd); (split; [|intros _]; apply q_evol_same).
  - (* T_poll_handoff *) split; [apply q_evol_same|intros _]. rewrite Hrq. apply q_evol_pop. cbn. tauto.
  - (* T_park_tx *) split; [apply q_evol_app|intros _; apply q_evol_same].
  - (* T_park_rx *) split; [apply q_evol_same|intros Hm]. unfold push_receiver. rewrite Hm. apply q_evol_app.
  - (* T_repoll_tx *) split; [|intros _; apply q_evol_same]. apply q_evol_keys, keys_aupd.
  - (* T_repoll_rx *) split; [apply q_evol_same|intros _]. apply q_evol_keys, keys_aupd.
  - (* T_dropf *)
    destruct (rv_drop_future_queues _ _ _ _ _ _ Hs) as [[-> | ->] [[-> | ->] _]];
      (split; [|intros _]); try apply q_evol_same; apply q_evol_qdel.
Qed.

(* the record stored by a poll that returned Pending carries that poll's waker *)
Theorem rv_pending_registers c s f w s' e :
  step c s (Poll f w) = (s', OPending, e) ->
  exists r', aget f (fs s') = Some r' /\ f_reg r' = true /\ f_woken r' = false /\ f_st r' = WAITING
             /\ match f_side r' with Tx => In (f, w) (sq s') | Rx => In (f, w) (rq s') end.
Proof.
  intros Hs. apply step_inv in Hs.
  assert (Q : forall q, qhas f q = true -> In (f, w) (qrefresh f w q)).
  { intros q. unfold qhas, ahas, qrefresh. induction q as [|[k x] t IH]; cbn [aget aupd]; [discriminate|].
    deq f k; [intros _; left; reflexivity|]. intros X. right. apply IH. exact X. }
  (* of the transitions, only the two parks and the two re-polls are a Poll answering Pending *)
  remember (Poll f w) as o eqn:Eo. remember OPending as r eqn:Er.
  destruct Hs;
    try discriminate;                                (* another operation, or another constant output *)
    try (destruct b; discriminate);                  (* a send form *)
    try (destruct k; discriminate);                  (* a receive form *)
    try (destruct (f_side r0); discriminate);        (* T_unreg answers Closed or Disconnected *)
    try (destruct Ho as [[k [h [-> _]]]|[? [? [_ ->]]]]; [destruct k|]; discriminate);   (* T_take: a value *)
    try (destruct Ho as [->|[->| ->]]; discriminate);                                  (* T_poll_same: Ready *)
    inversion Eo; subst f0 w0; cbn [fs sq rq]; rewrite aget_aupd_eq, Hg.
  - (* T_park_tx: the record is pushed behind the parked senders *)
    exists (fut_park r0). cbn. rewrite Hsd. repeat split. apply in_or_app. right. left. reflexivity.
  - (* T_park_rx *)
    exists (fut_park r0). cbn. rewrite Hsd. repeat split. unfold push_receiver.
    destruct (multi_rx c); [apply in_or_app; right|]; left; reflexivity.
  - (* T_repoll_tx: the record is there and now carries w *)
    exists (fut_repoll r0). cbn. rewrite Hsd. repeat split; auto.
  - (* T_repoll_rx *) exists (fut_repoll r0). cbn. rewrite Hsd. repeat split; auto.
Qed.

(* no dangling registration: every queue record belongs to a live, registered future *)
Theorem rv_no_dangling c a ops s tr f w :
  run c (init a) ops = (s, tr) -> In (f, w) (sq s ++ rq s) ->
  exists r, aget f (fs s) = Some r /\ f_reg r = true /\ f_st r = WAITING.
Proof.
  intros Hr Hi. pose proof (run_WF c ops _ _ _ (WF_init a) Hr) as W. apply in_app_iff in Hi.
  destruct Hi as [Hi|Hi].
  - destruct (wf_sq _ _ _ _ W f w Hi) as [r [A [_ [B [C' _]]]]]. exists r. auto.
  - destruct (wf_rq _ _ _ _ W f w Hi) as [r [A [_ [B [C' _]]]]]. exists r. auto.
Qed.

