(* Proofs/CacheCoreProofs.v — effect lemmas for the primitives of Cache/CacheOps.v:
   what each of them does to the shard maps ([smap]), to the sequence of
   notifications sent ([sent]) and to the scalar fields.  Two shapes: a silent
   step ([ueff], [idle]) and a removal step that lists the entries dropped
   ([mstep]).  Everything else (C11, C12, C13, C16) is derived from these. *)
From Fibre Require Import Common.Base Cache.PolicySpec Cache.AMap Cache.CacheOps Cache.CacheSpec Proofs.AMapProofs.

Section Core.
  Variable P : policy.
  Variable c : cfg.

  Notation state := (state P).
  Notation shard := (shard P).

  Notation smap := (smap P).
  Notation sent := (sent P).

  Lemma find_smap s k : find P c s k = afind k (smap s (shard_of c k)).
  Proof. reflexivity. Qed.

  Lemma take_n_app {A} n (l : list A) : fst (take_n n l) ++ snd (take_n n l) = l.
  Proof.
    revert n. induction l as [|x t IH]; intros n; cbn [take_n]; [reflexivity|].
    destruct (N.eqb n 0); [reflexivity|].
    specialize (IH (n - 1)). destruct (take_n (n - 1) t) as [a b]. cbn [fst snd app] in *. f_equal. exact IH.
  Qed.

  Lemma nseq_aux_In f i x : In x (nseq_aux f i) <-> i <= x < i + N.of_nat f.
  Proof.
    revert i. induction f as [|f IH]; intros i; cbn [nseq_aux In].
    - lia.
    - rewrite IH. lia.
  Qed.

  Lemma nseq_In n x : In x (nseq n) <-> x < n.
  Proof. unfold nseq. rewrite nseq_aux_In. lia. Qed.

  Lemma nseq_aux_NoDup f i : NoDup (nseq_aux f i).
  Proof.
    revert i. induction f as [|f IH]; intros i; cbn [nseq_aux]; constructor; [|apply IH].
    rewrite nseq_aux_In. lia.
  Qed.

  Lemma nseq_NoDup n : NoDup (nseq n).
  Proof. apply nseq_aux_NoDup. Qed.

  Lemma shard_of_lt k : 0 < c_shards c -> shard_of c k < c_shards c.
  Proof. intros H. unfold shard_of. apply N.mod_lt. lia. Qed.

  Lemma subseq_refl {A} (l : list A) : subseq l l.
  Proof. induction l; constructor; assumption. Qed.

  Lemma subseq_nil_l {A} (l : list A) : subseq [] l.
  Proof. induction l; constructor; assumption. Qed.

  Lemma subseq_app {A} (a1 a2 b1 b2 : list A) : subseq a1 b1 -> subseq a2 b2 -> subseq (a1 ++ a2) (b1 ++ b2).
  Proof.
    intros H1 H2. induction H1 as [|x l1 l2 _ IH|x l1 l2 _ IH]; cbn [app].
    - exact H2.
    - apply ss_skip. exact IH.
    - apply ss_keep. exact IH.
  Qed.

  Lemma subseq_incl {A} (a b : list A) : subseq a b -> incl a b.
  Proof.
    induction 1 as [|x l1 l2 _ IH|x l1 l2 _ IH]; intros y Hy.
    - exact Hy.
    - right. apply IH. exact Hy.
    - destruct Hy as [->|Hy]; [left; reflexivity | right; apply IH; exact Hy].
  Qed.

  Lemma subseq_map {A B} (f : A -> B) (a b : list A) : subseq a b -> subseq (map f a) (map f b).
  Proof. induction 1; cbn [map]; constructor; assumption. Qed.

  Lemma subseq_NoDup {A} (a b : list A) : subseq a b -> NoDup b -> NoDup a.
  Proof.
    induction 1 as [|x l1 l2 Hs IH|x l1 l2 Hs IH]; intros Hnd.
    - constructor.
    - inversion Hnd; subst. apply IH. assumption.
    - inversion Hnd as [|? ? Hni Hnd']; subst. constructor; [|apply IH; exact Hnd'].
      intros Hi. apply Hni. eapply subseq_incl; eauto.
  Qed.

  Lemma subseq_length_eq {A} (a b : list A) : subseq a b -> length a = length b -> a = b.
  Proof.
    induction 1 as [|x l1 l2 Hs IH|x l1 l2 Hs IH]; intros Hl.
    - reflexivity.
    - exfalso. assert (length l1 <= length l2)%nat.
      { clear -Hs. induction Hs; cbn [length]; lia. }
      cbn [length] in Hl. lia.
    - f_equal. apply IH. cbn [length] in Hl. lia.
  Qed.

  Lemma subseq_trans {A} (a b d : list A) : subseq a b -> subseq b d -> subseq a d.
  Proof.
    intros Hab Hbd. revert a Hab. induction Hbd as [|x l1 l2 _ IH|x l1 l2 _ IH]; intros a Hab.
    - exact Hab.
    - apply ss_skip. apply IH. exact Hab.
    - inversion Hab; subst; [apply ss_skip | apply ss_keep]; apply IH; assumption.
  Qed.

  Lemma subseq_filter {A} (f : A -> bool) (l : list A) : subseq (filter f l) l.
  Proof. induction l as [|x t IH]; cbn [filter]; [constructor|]. destruct (f x); constructor; exact IH. Qed.

  Lemma subseq_take_n {A} n (l : list A) : subseq (fst (take_n n l)) l.
  Proof.
    revert n. induction l as [|x t IH]; intros n; cbn [take_n]; [constructor|].
    destruct (N.eqb n 0); [apply subseq_nil_l|].
    specialize (IH (n - 1)). destruct (take_n (n - 1) t) as [a b]. apply ss_keep. exact IH.
  Qed.

  Definition adel_all (ks : list N) (m : amap entry) : amap entry := fold_left (fun m k => adel k m) ks m.

  Lemma afind_adel_all k ks m : afind k (adel_all ks m) = if mem k ks then None else afind k m.
  Proof.
    unfold adel_all. revert m. induction ks as [|k' t IH]; intros m; cbn [fold_left mem existsb]; [reflexivity|].
    rewrite IH. fold (mem k t). destruct (mem k t) eqn:Em; [rewrite orb_true_r; reflexivity|].
    rewrite orb_false_r. destruct (N.eqb_spec k k') as [->|Hn].
    - apply afind_adel_same.
    - apply afind_adel_other. exact Hn.
  Qed.

  Lemma adel_all_NoDup ks m : NoDup (akeys m) -> NoDup (akeys (adel_all ks m)).
  Proof.
    unfold adel_all. revert m. induction ks as [|k t IH]; intros m H; cbn [fold_left]; [exact H|].
    apply IH. apply adel_NoDup. exact H.
  Qed.

  Lemma map_cost_cons ke m : map_cost (ke :: m) = (Z.of_N (e_cost (snd ke)) + map_cost m)%Z.
  Proof. reflexivity. Qed.

  Lemma map_cost_adel k e m :
    NoDup (akeys m) -> afind k m = Some e -> map_cost (adel k m) = (map_cost m - Z.of_N (e_cost e))%Z.
  Proof.
    induction m as [|[k' e'] t IH]; cbn [afind adel akeys map fst]; intros Hnd Hf; [discriminate|].
    inversion Hnd as [|? ? Hni Hnd']; subst. rewrite map_cost_cons. cbn [snd].
    destruct (N.eqb_spec k k') as [->|Hn].
    - inversion Hf; subst. rewrite adel_id by (apply afind_None_keys; exact Hni). lia.
    - rewrite map_cost_cons, IH by assumption. cbn [snd]. lia.
  Qed.

  Lemma map_cost_adel_absent k m : afind k m = None -> map_cost (adel k m) = map_cost m.
  Proof. intros H. rewrite adel_id by exact H. reflexivity. Qed.

  Lemma map_cost_aset k e e' m :
    NoDup (akeys m) -> afind k m = Some e ->
    map_cost (aset k e' m) = (map_cost m - Z.of_N (e_cost e) + Z.of_N (e_cost e'))%Z.
  Proof.
    induction m as [|[k' e2] t IH]; cbn [afind aset akeys map fst]; intros Hnd Hf; [discriminate|].
    inversion Hnd as [|? ? Hni Hnd']; subst. rewrite (map_cost_cons (k', e2)). cbn [snd].
    destruct (N.eqb_spec k k') as [->|Hn]; rewrite map_cost_cons; cbn [snd].
    - inversion Hf; subst. rewrite (aset_id k' e' t Hni). lia.
    - rewrite IH by assumption. lia.
  Qed.

  Lemma map_cost_aput k e' m :
    NoDup (akeys m) ->
    map_cost (aput k e' m)
    = (map_cost m - match afind k m with Some e => Z.of_N (e_cost e) | None => 0 end + Z.of_N (e_cost e'))%Z.
  Proof.
    intros Hnd. unfold aput, ahas. destruct (afind k m) as [e|] eqn:E.
    - apply map_cost_aset; assumption.
    - rewrite map_cost_cons. cbn [snd]. lia.
  Qed.

  (** ** silent steps: shard i's map becomes m', current_cost moves by dcc, de incarnations are
      allocated; nothing is notified *)
  Definition ueff (s s' : state) (i : N) (m' : amap entry) (dcc : Z) (de : N) : Prop :=
    (forall j, smap s' j = if N.eqb j i then m' else smap s j)
    /\ st_cc P s' = (st_cc P s + dcc)%Z
    /\ st_now P s' = st_now P s
    /\ st_eid P s' = st_eid P s + de
    /\ sent s' = sent s /\ st_ndrops P s' = st_ndrops P s.

  Ltac ueff_split := unfold ueff; split; [|split; [|split; [|split; [|split]]]].

  Lemma ueff_id s i : ueff s s i (smap s i) 0 0.
  Proof.
    ueff_split; try reflexivity; try lia.
    intros j. destruct (N.eqb_spec j i) as [->|]; reflexivity.
  Qed.

  Lemma ueff_cast s s' i m d d' e e' : ueff s s' i m d e -> d = d' -> e = e' -> ueff s s' i m d' e'.
  Proof. intros H <- <-. exact H. Qed.

  Lemma smap_set_sh s i x j : smap (set_sh P s i x) j = if N.eqb j i then s_map P x else smap s j.
  Proof. unfold smap, set_sh. cbn [st_sh]. destruct (N.eqb j i); reflexivity. Qed.

  (* the elementary setters after a silent step *)
  Lemma ueff_set_sh s s1 i m d e x : ueff s s1 i m d e -> ueff s (set_sh P s1 i x) i (s_map P x) d e.
  Proof.
    intros [M R]. split; [|exact R]. intros j. rewrite smap_set_sh, M. destruct (N.eqb j i); reflexivity.
  Qed.

  Lemma ueff_add_cc s s1 i m d e z : ueff s s1 i m d e -> ueff s (add_cc P s1 z) i m (d + z) e.
  Proof. intros [M [C R]]. split; [exact M|]. split; [|exact R]. cbn [add_cc set_cc st_cc]. rewrite C. lia. Qed.

  Lemma ueff_bump_eid s s1 i m d e : ueff s s1 i m d e -> ueff s (bump_eid P s1) i m d (e + 1).
  Proof.
    intros [M [C [N [E R]]]]. split; [exact M|]. split; [exact C|]. split; [exact N|]. split; [|exact R].
    cbn [bump_eid st_eid]. rewrite E. lia.
  Qed.

  (* nothing of what the theorems observe changes (policy state, queues, timers may) *)
  Definition idle (s s' : state) : Prop :=
    (forall j, smap s' j = smap s j) /\ st_cc P s' = st_cc P s /\ st_now P s' = st_now P s
    /\ st_eid P s' = st_eid P s /\ sent s' = sent s /\ st_ndrops P s' = st_ndrops P s.

  Lemma idle_refl s : idle s s.
  Proof. repeat split. Qed.

  Lemma idle_trans s s1 s2 : idle s s1 -> idle s1 s2 -> idle s s2.
  Proof.
    intros [M1 [C1 [N1 [E1 [S1 D1]]]]] [M2 [C2 [N2 [E2 [S2 D2]]]]].
    split; [intros j; rewrite M2; apply M1 | repeat split; congruence].
  Qed.

  Lemma ueff_idle s s1 s2 i m d e : ueff s s1 i m d e -> idle s1 s2 -> ueff s s2 i m d e.
  Proof.
    intros [M1 [C1 [N1 [E1 [S1 D1]]]]] [M2 [C2 [N2 [E2 [S2 D2]]]]].
    split; [intros j; rewrite M2; apply M1 | repeat split; congruence].
  Qed.

  Lemma idle_ueff s s' i : idle s s' -> ueff s s' i (smap s i) 0 0.
  Proof. apply ueff_idle, ueff_id. Qed.

  Lemma idle_set_sh s i x : s_map P x = smap s i -> idle s (set_sh P s i x).
  Proof.
    intros Hx. split; [|repeat split]. intros j. rewrite smap_set_sh.
    destruct (N.eqb_spec j i) as [->|]; [exact Hx | reflexivity].
  Qed.

  Lemma idle_ev_push s i k x : idle s (ev_push P s i k x).
  Proof. unfold ev_push. destruct (N.ltb _ _); [apply idle_set_sh; reflexivity | repeat split]. Qed.

  Lemma idle_schedule s i k d : idle s (fst (schedule P c s i k d)).
  Proof.
    split; [|repeat split]. intros j. unfold schedule, smap. cbn [fst st_sh set_sh].
    destruct (N.eqb_spec j i) as [->|]; reflexivity.
  Qed.

  Lemma perform_idle i lim ord s : idle s (perform P c i lim ord s).
  Proof.
    unfold perform. destruct (take_n lim (s_evq P (st_sh P s i))) as [w r]. apply idle_set_sh. reflexivity.
  Qed.

  (* the shape shared by Cache::insert, insert_with_ttl, multi_insert items and VacantEntry::insert *)
  Lemma insert_core_ueff s k v cost exp sched :
    exists h,
      (sched = None -> h = None) /\
      let i := shard_of c k in
      let e := mkE v cost exp (match c_tti c with Some _ => st_now P s | None => 0 end) h (st_eid P s) in
      ueff s (insert_core P c s k v cost exp sched) i (aput k e (smap s i))
           (Z.of_N cost - match afind k (smap s i) with Some o => Z.of_N (e_cost o) | None => 0 end) 1.
  Proof.
    unfold insert_core. set (i := shard_of c k).
    (* scheduling the timer changes nothing that is observed *)
    assert (H1 : exists s1 h,
               match sched with
               | Some d => if has_wheel c then let '(s', id) := schedule P c s i k d in (s', Some id) else (s, None)
               | None => (s, None)
               end = (s1, h) /\ (sched = None -> h = None) /\ idle s s1).
    { destruct sched as [d|]; [destruct (has_wheel c)|]; try solve [exists s, None; auto using idle_refl].
      pose proof (idle_schedule s i k d) as H. destruct (schedule P c s i k d) as [s' id].
      exists s', (Some id). split; [reflexivity|]. split; [discriminate | exact H]. }
    destruct H1 as [s1 [h [-> [Hh H1]]]]. exists h. split; [exact Hh|]. cbn zeta.
    change (s_map P (st_sh P s1 i)) with (smap s1 i). replace (smap s1 i) with (smap s i) by (symmetry; apply H1).
    (* from the outside in: the new cost, the Write event, the old entry's cost and timer, the
       incarnation counter, the map *)
    destruct (afind k (smap s i)) as [o|]; (eapply ueff_cast; [|shelve|shelve]); apply ueff_add_cc;
      (eapply ueff_idle; [|apply idle_ev_push]).
    - apply ueff_add_cc. eapply ueff_idle; [|apply idle_set_sh; reflexivity].
      apply ueff_bump_eid. apply (ueff_set_sh s s1 i (smap s i) 0 0). apply idle_ueff, H1.
    - apply ueff_bump_eid. apply (ueff_set_sh s s1 i (smap s i) 0 0). apply idle_ueff, H1.
    Unshelve. all: lia.
  Qed.

  Definition refreshed (s : state) (e : entry) : entry :=
    match c_tti c with
    | Some _ => mkE (e_val e) (e_cost e) (e_exp e) (st_now P s) (e_timer e) (e_id e)
    | None => e
    end.

  Lemma aset_same_id k (e : entry) m : afind k m = Some e -> NoDup (akeys m) -> aset k e m = m.
  Proof.
    induction m as [|[k' e'] t IH]; cbn [afind aset akeys map fst]; intros Hf Hnd; [reflexivity|].
    inversion Hnd as [|? ? Hni Hnd']; subst.
    destruct (N.eqb_spec k k') as [->|Hn].
    - inversion Hf; subst. f_equal. apply aset_id. exact Hni.
    - f_equal. apply IH; assumption.
  Qed.

  Lemma on_hit_ueff s k e :
    let i := shard_of c k in
    ueff s (on_hit P c s k e) i
         (match c_tti c with Some _ => aset k (refreshed s e) (smap s i) | None => smap s i end) 0 0.
  Proof. cbn zeta. unfold on_hit, refreshed. destruct (c_tti c); eapply ueff_set_sh, ueff_id. Qed.

  Lemma on_hit_direct_ueff s k e :
    let i := shard_of c k in
    ueff s (on_hit_direct P c s k e) i
         (match c_tti c with Some _ => aset k (refreshed s e) (smap s i) | None => smap s i end) 0 0.
  Proof. cbn zeta. unfold on_hit_direct, refreshed. destruct (c_tti c); eapply ueff_set_sh, ueff_id. Qed.

  Definition with_val (e : entry) (v : N) : entry := mkE v (e_cost e) (e_exp e) (e_la e) (e_timer e) (e_id e).

  Lemma do_compute_ueff s k f :
    let i := shard_of c k in
    match computable P c s k with
    | Some e => ueff s (fst (do_compute P c s k f)) i (aset k (with_val e (capply f (e_val e))) (smap s i)) 0 0
                /\ snd (do_compute P c s k f) = Some (e_val e) /\ find P c s k = Some e
    | None => do_compute P c s k f = (s, None)
    end.
  Proof.
    cbn zeta. unfold do_compute. destruct (computable P c s k) as [e|] eqn:Ec; [|reflexivity].
    cbn [fst snd]. split; [eapply ueff_set_sh, ueff_id|]. split; [reflexivity|].
    unfold computable in Ec. destruct (find P c s k) as [e'|]; [|discriminate].
    destruct (fix_f33 (c_fix c) && expired c (st_now P s) e'); [discriminate | exact Ec].
  Qed.

  Lemma notify_frame s n :
    st_sh P (notify P c s n) = st_sh P s /\ st_cc P (notify P c s n) = st_cc P s
    /\ st_now P (notify P c s n) = st_now P s /\ st_eid P (notify P c s n) = st_eid P s.
  Proof. unfold notify. destruct (c_listener c); [destruct (N.ltb _ _)|]; repeat split. Qed.

  (* the notifications attempted between two states *)
  Definition emits (s s' : state) (l : list notif) : Prop :=
    st_ndrops P s <= st_ndrops P s' /\
    exists kept, sent s' = sent s ++ kept /\ subseq kept l
                 /\ (c_listener c = true -> st_ndrops P s' = st_ndrops P s -> kept = l)
                 /\ (c_listener c = false -> kept = []).

  Lemma emits_same s s' : sent s' = sent s -> st_ndrops P s' = st_ndrops P s -> emits s s' [].
  Proof.
    intros H1 H2. split; [lia|]. exists []. rewrite app_nil_r. repeat split; auto. constructor.
  Qed.

  Lemma emits_trans s1 s2 s3 l1 l2 : emits s1 s2 l1 -> emits s2 s3 l2 -> emits s1 s3 (l1 ++ l2).
  Proof.
    intros [Hd1 [k1 [E1 [S1 [C1 N1]]]]] [Hd2 [k2 [E2 [S2 [C2 N2]]]]].
    split; [lia|]. exists (k1 ++ k2). repeat split.
    - rewrite E2, E1, app_assoc. reflexivity.
    - apply subseq_app; assumption.
    - intros Hl Hn. rewrite C1, C2; auto; lia.
    - intros Hl. rewrite N1, N2; auto.
  Qed.

  (* notify appends n to [sent], or drops it (counted) *)
  Lemma emits_notify s n : emits s (notify P c s n) [n].
  Proof.
    unfold emits, notify, sent. destruct (c_listener c); [destruct (N.ltb _ _)|]; cbn [st_log st_nq st_ndrops]; (split; [lia|]).
    - exists [n]. split; [apply app_assoc|]. split; [apply subseq_refl|]. split; [auto | discriminate].
    - exists []. split; [symmetry; apply app_nil_r|]. split; [apply subseq_nil_l|]. split; [intros _ Hx; lia | auto].
    - exists []. split; [symmetry; apply app_nil_r|]. split; [apply subseq_nil_l|]. split; [discriminate | auto].
  Qed.

  (** ** removal steps: the common shape of maintenance and of remove() *)
  Record drop := mkDrop { d_sh : N; d_rsn : reason; d_key : N; d_ent : entry }.
  Definition dnote (d : drop) : notif := mkNt (d_key d) (e_val (d_ent d)) (d_rsn d) (e_id (d_ent d)).
  Definition dkeys (j : N) (D : list drop) : list N := map d_key (filter (fun d => N.eqb (d_sh d) j) D).
  Definition dcost (D : list drop) : Z := fold_right (fun d z => Z.of_N (e_cost (d_ent d)) + z)%Z 0%Z D.

  (* s' is s with exactly the entries D removed (each was resident in s), the
     notifications of D attempted in that order, current_cost moved by dcc *)
  Definition mstep (s s' : state) (D : list drop) (dcc : Z) : Prop :=
    (forall j, smap s' j = adel_all (dkeys j D) (smap s j))
    /\ st_cc P s' = (st_cc P s + dcc)%Z
    /\ st_now P s' = st_now P s
    /\ st_eid P s' = st_eid P s
    /\ emits s s' (map dnote D)
    /\ (forall j, NoDup (dkeys j D))
    /\ (forall d, In d D -> afind (d_key d) (smap s (d_sh d)) = Some (d_ent d)).

  Ltac mstep_split := unfold mstep; split; [|split; [|split; [|split; [|split; [|split]]]]].


  Lemma adel_all_app a b m : adel_all (a ++ b) m = adel_all b (adel_all a m).
  Proof. unfold adel_all. apply fold_left_app. Qed.

  Lemma dkeys_app j D1 D2 : dkeys j (D1 ++ D2) = dkeys j D1 ++ dkeys j D2.
  Proof. unfold dkeys. rewrite filter_app, map_app. reflexivity. Qed.

  Lemma dkeys_one j d : dkeys j [d] = if N.eqb j (d_sh d) then [d_key d] else [].
  Proof. unfold dkeys. cbn [filter]. rewrite N.eqb_sym. destruct (N.eqb j (d_sh d)); reflexivity. Qed.

  Lemma In_dkeys j D k : In k (dkeys j D) <-> exists d, In d D /\ d_sh d = j /\ d_key d = k.
  Proof.
    unfold dkeys. rewrite in_map_iff. split.
    - intros [d [Hk Hi]]. apply filter_In in Hi. destruct Hi as [Hi Hs]. apply N.eqb_eq in Hs. eauto.
    - intros [d [Hi [Hs Hk]]]. exists d. split; [exact Hk|]. apply filter_In. split; [exact Hi|].
      apply N.eqb_eq. exact Hs.
  Qed.

  Lemma dcost_cons d D : dcost (d :: D) = (Z.of_N (e_cost (d_ent d)) + dcost D)%Z.
  Proof. reflexivity. Qed.

  Lemma dcost_app a b : dcost (a ++ b) = (dcost a + dcost b)%Z.
  Proof. induction a as [|d t IH]; cbn [app]; rewrite ?dcost_cons; [reflexivity | lia]. Qed.

  Lemma dcost_nonneg D : (0 <= dcost D)%Z.
  Proof. induction D as [|d t IH]; rewrite ?dcost_cons; [reflexivity | lia]. Qed.

  Lemma idle_mstep s s' : idle s s' -> mstep s s' [] 0.
  Proof.
    intros [M [C [N [E [S Dr]]]]]. mstep_split; auto.
    - lia.
    - apply emits_same; assumption.
    - intros j. constructor.
    - intros d [].
  Qed.

  Lemma mstep_trans s s1 s2 D1 D2 d1 d2 :
    mstep s s1 D1 d1 -> mstep s1 s2 D2 d2 -> mstep s s2 (D1 ++ D2) (d1 + d2).
  Proof.
    intros [M1 [C1 [N1 [E1 [X1 [U1 F1]]]]]] [M2 [C2 [N2 [E2 [X2 [U2 F2]]]]]]. mstep_split.
    - intros j. rewrite M2, M1, dkeys_app, adel_all_app. reflexivity.
    - rewrite C2, C1. lia.
    - congruence.
    - congruence.
    - rewrite map_app. eapply emits_trans; eassumption.
    - intros j. rewrite dkeys_app. apply NoDup_app_intro; [apply U1 | apply U2 |].
      intros k H1 H2. apply In_dkeys in H2. destruct H2 as [d [Hd [Hs Hk]]].
      specialize (F2 d Hd). rewrite Hs, Hk, M1, afind_adel_all in F2.
      apply mem_In in H1. rewrite H1 in F2. discriminate.
    - intros d Hd. apply in_app_or in Hd. destruct Hd as [Hd|Hd]; [apply F1; exact Hd|].
      specialize (F2 d Hd). rewrite M1, afind_adel_all in F2.
      destruct (mem (d_key d) (dkeys (d_sh d) D1)); [discriminate | exact F2].
  Qed.

  Lemma mstep_cons s s1 s2 d D d1 d2 dcc :
    mstep s s1 [d] d1 -> mstep s1 s2 D d2 -> dcc = (d1 + d2)%Z -> mstep s s2 (d :: D) dcc.
  Proof. intros H1 H2 ->. exact (mstep_trans _ _ _ _ _ _ _ H1 H2). Qed.

  (* a resident entry leaves its shard silently, then its notification is attempted *)
  Lemma notify_mstep s s1 d dcc :
    ueff s s1 (d_sh d) (adel (d_key d) (smap s (d_sh d))) dcc 0 ->
    afind (d_key d) (smap s (d_sh d)) = Some (d_ent d) ->
    mstep s (notify P c s1 (dnote d)) [d] dcc.
  Proof.
    intros [M [C [N [E [S D]]]]] Hf. destruct (notify_frame s1 (dnote d)) as [Fs [Fc [Fn Fe]]]. mstep_split.
    - intros j. unfold smap at 1. rewrite Fs. fold (smap s1 j). rewrite M, dkeys_one.
      destruct (N.eqb_spec j (d_sh d)) as [->|]; reflexivity.
    - congruence.
    - congruence.
    - rewrite Fe, E. lia.
    - change (map dnote [d]) with ([] ++ [dnote d]). apply (emits_trans s s1); [apply emits_same; assumption | apply emits_notify].
    - intros j. rewrite dkeys_one. destruct (N.eqb j (d_sh d)); repeat constructor. intros [].
    - intros d' [<-|[]]. exact Hf.
  Qed.

  (* what else is known of each dropped entry *)
  Definition dok (s : state) (d : drop) : Prop :=
    d_sh d < c_shards c /\
    match d_rsn d with
    | Expired => fix_f16 (c_fix c) = true -> expired c (st_now P s) (d_ent d) = true
    | Capacity => c_cap c < U64_MAX
    | Invalidated => True
    end.

  (* when capacity cleanup's accounting is exact: with the F-18 patch, or when it never runs *)
  Definition exact_cost : Prop := fix_f18 (c_fix c) = true \/ c_cap c = U64_MAX.

  Definition mstepx (s s' : state) (D : list drop) (dcc : Z) : Prop :=
    mstep s s' D dcc /\ Forall (dok s) D /\ (exact_cost -> dcc = (- dcost D)%Z).

  Lemma mstepx_trans s s1 s2 D1 D2 d1 d2 :
    mstepx s s1 D1 d1 -> mstepx s1 s2 D2 d2 -> mstepx s s2 (D1 ++ D2) (d1 + d2).
  Proof.
    intros [M1 [O1 X1]] [M2 [O2 X2]]. split; [eapply mstep_trans; eassumption|]. split.
    - apply Forall_app. split; [exact O1|].
      assert (Hn : st_now P s1 = st_now P s) by (destruct M1 as [_ [_ [Hn _]]]; exact Hn).
      eapply Forall_impl; [|exact O2]. intros d [Hs Hd]. split; [exact Hs|]. rewrite <- Hn. exact Hd.
    - intros Hf. rewrite dcost_app, X1, X2 by exact Hf. lia.
  Qed.

  Lemma idle_mstepx s s' : idle s s' -> mstepx s s' [] 0.
  Proof. intros H. split; [apply idle_mstep; exact H|]. split; [constructor|]. intros _. reflexivity. Qed.

  (** ** expiry cleanup: a sub-list of the shard's entries is dropped, one by one *)
  Definition drops_of (i : N) (rsn : reason) (vs : list (N * entry)) : list drop :=
    map (fun ke => mkDrop i rsn (fst ke) (snd ke)) vs.

  Definition cost_sum (vs : list (N * entry)) : Z :=
    fold_right (fun ke z => Z.of_N (e_cost (snd ke)) + z)%Z 0%Z vs.

  Lemma dcost_drops_of i rsn vs : dcost (drops_of i rsn vs) = cost_sum vs.
  Proof.
    induction vs as [|ke t IH]; [reflexivity|].
    change (Z.of_N (e_cost (snd ke)) + dcost (drops_of i rsn t) = Z.of_N (e_cost (snd ke)) + cost_sum t)%Z.
    rewrite IH. reflexivity.
  Qed.

  Lemma drop_entry_mstep rsn cancel i s k e :
    afind k (smap s i) = Some e ->
    mstep s (drop_entry P c rsn cancel i s (k, e)) [mkDrop i rsn k e] (- Z.of_N (e_cost e)).
  Proof.
    intros Hf. apply (notify_mstep s _ (mkDrop i rsn k e)); [|exact Hf].
    apply (ueff_add_cc s _ i _ 0). eapply ueff_set_sh, ueff_id.
  Qed.

  Lemma drop_all_mstep rsn cancel i vs : forall s,
    NoDup (map fst vs) -> (forall ke, In ke vs -> afind (fst ke) (smap s i) = Some (snd ke)) ->
    mstep s (fold_left (drop_entry P c rsn cancel i) vs s) (drops_of i rsn vs) (- cost_sum vs).
  Proof.
    induction vs as [|[k e] t IH]; intros s Hnd Hin; cbn [fold_left].
    - apply idle_mstep, idle_refl.
    - inversion Hnd as [|? ? Hni Hnd']; subst.
      pose proof (drop_entry_mstep rsn cancel i s k e (Hin (k, e) (or_introl eq_refl))) as H1.
      eapply mstep_cons; [exact H1 | apply IH; [exact Hnd'|] | cbn [cost_sum fold_right snd]; fold (cost_sum t); lia].
      intros ke Hi. destruct H1 as [M _]. rewrite M, dkeys_one, N.eqb_refl. cbn [d_sh d_key adel_all fold_left].
      rewrite afind_adel_other; [apply Hin; right; exact Hi|].
      intros Heq. apply Hni. rewrite <- Heq. apply in_map. exact Hi.
  Qed.

  Definition not_inval (d : drop) : Prop := d_rsn d <> Invalidated.

  (* a maintenance pass, or a part of one *)
  Definition mpassed (s s' : state) : Prop := exists D dcc, mstepx s s' D dcc /\ Forall not_inval D.

  Lemma idle_mpassed s s' : idle s s' -> mpassed s s'.
  Proof. intros H. exists [], 0%Z. split; [apply idle_mstepx; exact H | constructor]. Qed.

  Lemma mpassed_trans s s1 s2 : mpassed s s1 -> mpassed s1 s2 -> mpassed s s2.
  Proof.
    intros [D1 [d1 [H1 R1]]] [D2 [d2 [H2 R2]]]. exists (D1 ++ D2), (d1 + d2)%Z.
    split; [eapply mstepx_trans; eassumption | apply Forall_app; split; assumption].
  Qed.

  Lemma drop_expired_mpassed cancel i vs s s1 :
    idle s s1 -> subseq vs (smap s i) -> NoDup (akeys (smap s i)) -> i < c_shards c ->
    (fix_f16 (c_fix c) = true -> forall ke, In ke vs -> expired c (st_now P s) (snd ke) = true) ->
    mpassed s (fold_left (drop_entry P c Expired cancel i) vs s1).
  Proof.
    intros H1 Hsub Hnd Hi Hex. apply (mpassed_trans s s1); [apply idle_mpassed; exact H1|].
    destruct H1 as [M1 [_ [N1 _]]]. rewrite <- (M1 i) in Hsub, Hnd.
    exists (drops_of i Expired vs), (- cost_sum vs)%Z. split; [split; [|split]|].
    - apply drop_all_mstep.
      + eapply subseq_NoDup; [apply subseq_map; exact Hsub | exact Hnd].
      + intros [k e] Hin. apply In_afind; [exact Hnd|]. eapply subseq_incl; eassumption.
    - apply Forall_forall. intros d Hd. apply in_map_iff in Hd. destruct Hd as [ke [<- Hin]].
      split; [exact Hi|]. cbn [d_rsn d_ent]. rewrite N1. intros Hf. apply Hex; assumption.
    - intros _. rewrite dcost_drops_of. reflexivity.
    - apply Forall_forall. intros d Hd. apply in_map_iff in Hd. destruct Hd as [ke [<- _]]. discriminate.
  Qed.

  Lemma cleanup_ttl_mpassed i s :
    NoDup (akeys (smap s i)) -> i < c_shards c -> mpassed s (cleanup_ttl P c i s).
  Proof.
    intros Hnd Hi. unfold cleanup_ttl. destruct (has_wheel c); [|apply idle_mpassed, idle_refl].
    destruct (wheel_advance P c (st_sh P s i)) as [fired sh1] eqn:Ew.
    assert (Hm1 : s_map P sh1 = smap s i) by (inversion Ew; reflexivity).
    pose proof (idle_set_sh s i sh1 Hm1) as H1.
    destruct fired as [|f0 fr]; [apply idle_mpassed; exact H1|].
    rewrite Hm1. apply (drop_expired_mpassed false i _ s _ H1 (subseq_filter _ _) Hnd Hi).
    intros Hfix ke Hin. apply filter_In in Hin. destruct Hin as [_ Hf].
    rewrite Hfix in Hf. apply andb_true_iff in Hf. apply Hf.
  Qed.

  Lemma cleanup_tti_mpassed i s :
    NoDup (akeys (smap s i)) -> i < c_shards c -> mpassed s (cleanup_tti P c i s).
  Proof.
    intros Hnd Hi. unfold cleanup_tti. destruct (c_tti c) as [d|]; [|apply idle_mpassed, idle_refl].
    apply (drop_expired_mpassed true i _ s s (idle_refl s)); [|exact Hnd | exact Hi|].
    - eapply subseq_trans; [apply subseq_filter | apply subseq_take_n].
    - intros _ ke Hin. apply filter_In in Hin. apply Hin.
  Qed.

  Lemma cc_obs_lt s : cc_obs P s < U64.
  Proof.
    unfold cc_obs. assert (0 <= st_cc P s mod Z.of_N U64 < Z.of_N U64)%Z by (apply Z.mod_pos_bound; reflexivity).
    lia.
  Qed.

  (* the nominated victims that are resident are dropped; the policy is not consulted again *)
  Lemma evict_victims_mstep i vs : forall s f0 s2 f2,
    fold_left (evict_victim P c i) vs (s, f0) = (s2, f2) ->
    exists D,
      mstep s s2 D 0
      /\ Forall (fun d => d_sh d = i /\ d_rsn d = Capacity /\ In (d_key d) vs) D
      /\ (forall k, In k vs -> afind k (smap s2 i) = None)
      /\ f2 = f0 + Z.to_N (dcost D)
      /\ s_pol P (st_sh P s2 i) = s_pol P (st_sh P s i).
  Proof.
    induction vs as [|k t IH]; intros s f0 s2 f2 H; cbn [fold_left] in H.
    - inversion H; subst. exists []. split; [apply idle_mstep, idle_refl|]. split; [constructor|]. split; [intros k []|].
      split; [cbn [dcost fold_right]; lia | reflexivity].
    - unfold evict_victim at 2 in H. change (s_map P (st_sh P s i)) with (smap s i) in H.
      destruct (afind k (smap s i)) as [e|] eqn:Ef.
      + set (s1 := notify P c _ _) in H. destruct (IH s1 _ s2 f2 H) as [D [H2 [R2 [G2 [F2 P2]]]]].
        assert (H1 : mstep s s1 [mkDrop i Capacity k e] 0)
          by (apply (notify_mstep s _ (mkDrop i Capacity k e)); [eapply ueff_set_sh, ueff_id | exact Ef]).
        exists (mkDrop i Capacity k e :: D). split; [|split; [|split; [|split]]].
        * exact (mstep_cons _ _ _ _ _ _ _ _ H1 H2 eq_refl).
        * constructor; [cbn; auto|]. eapply Forall_impl; [|exact R2]. cbn. intros d [A [B C]]. auto.
        * intros k' [<-|Hk]; [|apply G2; exact Hk]. destruct H2 as [M2 _], H1 as [M1 _].
          rewrite M2, M1, afind_adel_all, dkeys_one, N.eqb_refl. cbn [d_key adel_all fold_left].
          destruct (mem k (dkeys i D)); [reflexivity | apply afind_adel_same].
        * rewrite F2, dcost_cons. cbn [d_ent]. pose proof (dcost_nonneg D). lia.
        * rewrite P2. unfold s1. rewrite (proj1 (notify_frame _ _)). cbn [st_sh set_sh]. rewrite N.eqb_refl. reflexivity.
      + destruct (IH s f0 s2 f2 H) as [D [H2 [R2 [G2 [F2 P2]]]]].
        exists D. split; [exact H2|]. split; [|split; [|split; assumption]].
        * eapply Forall_impl; [|exact R2]. cbn. intros d [A [B C]]. auto.
        * intros k' [<-|Hk]; [|apply G2; exact Hk]. destruct H2 as [M2 _].
          rewrite M2, afind_adel_all. destruct (mem k (dkeys i D)); [reflexivity | exact Ef].
  Qed.

  Lemma cleanup_cap_mpassed i s : i < c_shards c -> mpassed s (cleanup_cap P c i s).
  Proof.
    intros Hi. unfold cleanup_cap. destruct (N.leb_spec (cc_obs P s) (c_cap c)) as [Hle|Hgt]; [apply idle_mpassed, idle_refl|].
    assert (Hcap : c_cap c < U64_MAX) by (pose proof (cc_obs_lt s); unfold U64, U64_MAX in *; lia).
    destruct (pstep P (s_pol P (st_sh P s i)) (Evict (cc_obs P s - c_cap c))) as [p' o].
    set (s1 := set_sh P s i (sh_pol P (st_sh P s i) p')).
    assert (H1 : idle s s1) by (apply idle_set_sh; reflexivity).
    destruct o as [| | |vs0|[|v0 vt] rel]; try (apply idle_mpassed; exact H1).
    destruct (fold_left (evict_victim P c i) (v0 :: vt) (s1, 0)) as [s2 freed] eqn:Ef.
    destruct (evict_victims_mstep i (v0 :: vt) s1 0 s2 freed Ef) as [D [H2 [R2 [_ [Hfr _]]]]].
    apply (mpassed_trans s s1); [apply idle_mpassed; exact H1|].
    set (dcc := (- Z.of_N (if fix_f18 (c_fix c) then freed else rel))%Z).
    exists D, dcc. split; [split; [|split]|].
    - destruct H2 as [M [C R]]. split; [exact M|]. split; [|exact R]. cbn [add_cc set_cc st_cc]. rewrite C. lia.
    - eapply Forall_impl; [|exact R2]. intros d [Hs [Hr _]]. split; [rewrite Hs; exact Hi|]. rewrite Hr. exact Hcap.
    - intros [Hf|Hf]; [|unfold U64_MAX in *; lia]. unfold dcc. rewrite Hf, Hfr. pose proof (dcost_nonneg D). lia.
    - eapply Forall_impl; [|exact R2]. intros d [_ [Hr _]]. unfold not_inval. congruence.
  Qed.

  (** ** well-formedness: no duplicate key in a shard map, keys live in their shard *)
  Definition placed (s : state) : Prop :=
    forall j k, In k (akeys (smap s j)) -> shard_of c k = j.
  Definition wfp (s : state) : Prop := wf P s /\ placed s.

  Lemma akeys_adel_all_subset ks m x : In x (akeys (adel_all ks m)) -> In x (akeys m).
  Proof.
    unfold adel_all. revert m. induction ks as [|k t IH]; intros m H; cbn [fold_left] in H; [exact H|].
    apply IH in H. apply akeys_adel_subset in H. tauto.
  Qed.

  Lemma mstep_wfp s s' D dcc : mstep s s' D dcc -> wfp s -> wfp s'.
  Proof.
    intros [M _] [Hw Hp]. split.
    - intros j. rewrite M. apply adel_all_NoDup. apply Hw.
    - intros j k Hk. rewrite M in Hk. apply akeys_adel_all_subset in Hk. apply Hp. exact Hk.
  Qed.

  Lemma mpassed_then (g : state -> state) s s1 :
    wfp s -> mpassed s s1 -> (forall s0, wfp s0 -> mpassed s0 (g s0)) -> mpassed s (g s1).
  Proof.
    intros Hw H1 Hg. apply (mpassed_trans s s1); [exact H1|]. apply Hg.
    destruct H1 as [D [dcc [[H _] _]]]. exact (mstep_wfp _ _ _ _ H Hw).
  Qed.

  Lemma maint_tail_mpassed i s s1 :
    wfp s -> i < c_shards c -> mpassed s s1 ->
    mpassed s (cleanup_cap P c i (cleanup_tti P c i (cleanup_ttl P c i s1))).
  Proof.
    intros Hw Hi H1.
    apply mpassed_then; [exact Hw | | intros s0 _; apply cleanup_cap_mpassed; exact Hi].
    apply mpassed_then; [exact Hw | | intros s0 Hw0; apply cleanup_tti_mpassed; [apply Hw0 | exact Hi]].
    apply mpassed_then; [exact Hw | exact H1 | intros s0 Hw0; apply cleanup_ttl_mpassed; [apply Hw0 | exact Hi]].
  Qed.

  Lemma run_maintenance_mpassed ord s : wfp s -> mpassed s (run_maintenance P c ord s).
  Proof.
    intros Hw. unfold run_maintenance.
    assert (Hl : forall i, In i (nseq (c_shards c)) -> i < c_shards c) by (intros i; apply nseq_In).
    revert Hl. generalize (nseq (c_shards c)). intros l. revert s Hw.
    induction l as [|i t IH]; intros s Hw Hl; cbn [fold_left]; [apply idle_mpassed, idle_refl|].
    apply (mpassed_then (fold_left (maint_shard P c ord) t)); [exact Hw | | intros s0 Hw0; apply IH; auto using in_cons].
    apply maint_tail_mpassed; [exact Hw | apply Hl; left; reflexivity | apply idle_mpassed, perform_idle].
  Qed.

  Lemma janitor_tick_mpassed i ord s : wfp s -> mpassed s (janitor_tick P c i ord s).
  Proof.
    intros Hw. unfold janitor_tick. destruct (N.ltb_spec i (c_shards c)) as [Hi|Hi]; [|apply idle_mpassed, idle_refl].
    apply maint_tail_mpassed; [exact Hw | exact Hi | apply idle_mpassed, perform_idle].
  Qed.

  Lemma janitor_signal_mpassed i ord s : wfp s -> mpassed s (janitor_signal P c i ord s).
  Proof.
    intros Hw. unfold janitor_signal. destruct (N.ltb_spec i (c_shards c)) as [Hi|Hi]; [|apply idle_mpassed, idle_refl].
    apply mpassed_then; [exact Hw | apply idle_mpassed, perform_idle | intros s0 _; apply cleanup_cap_mpassed; exact Hi].
  Qed.

  (** ** remove: drop_entry with the reason Invalidated, when the key is resident *)
  Definition rdrops (s : state) (k : N) : list drop :=
    match find P c s k with Some e => [mkDrop (shard_of c k) Invalidated k e] | None => [] end.

  Lemma do_remove_spec s k :
    0 < c_shards c ->
    mstepx s (fst (do_remove P c s k)) (rdrops s k) (- dcost (rdrops s k))
    /\ snd (do_remove P c s k) = option_map e_val (find P c s k).
  Proof.
    intros Hn. unfold do_remove, rdrops, find. change (s_map P (st_sh P s (shard_of c k))) with (smap s (shard_of c k)).
    destruct (afind k (smap s (shard_of c k))) as [e|] eqn:Ef; [|split; [apply idle_mstepx, idle_refl | reflexivity]].
    cbn [fst snd]. split; [|reflexivity]. split; [|split].
    - rewrite dcost_cons, Z.add_0_r. exact (drop_entry_mstep Invalidated true (shard_of c k) s k e Ef).
    - constructor; [|constructor]. split; [apply shard_of_lt; exact Hn | exact I].
    - reflexivity.
  Qed.
End Core.
