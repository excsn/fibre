(* The waiter queues are well formed (InvE).
   Every linked record (u, g) is the CURRENT done_flag of thread u, whose frame is alive and at a
   program point from which it will unlink it (or be unlinked by its waker) before the frame
   dies; no thread is linked twice; hence the wake CAS of a lock holder never touches a dead
   frame (`bad` stays false: C09) - with the F-02 repair also no unreachable!(). *)
From Coq Require Import List NArith Arith Bool Lia Sorted.
From Fibre Require Import Common.Lists Common.Conc Chan.MpmcK3 Proofs.MpmcK3Base Proofs.MpmcK3Queue Proofs.MpmcK3Life.
Import ListNotations.

Set Implicit Arguments.

Lemma remove_nth_In A i (l : list A) x : In x (remove_nth i l) -> In x l.
Proof.
  revert i. induction l as [|a l IH]; intros i H; [destruct i; exact H|].
  destruct i; cbn in H; [right; exact H|]. destruct H as [H|H]; [left; exact H|right; eapply IH; exact H].
Qed.

Lemma remove_nth_keep A i (l : list A) a x : nth_error l i = Some a -> In x l -> x <> a -> In x (remove_nth i l).
Proof.
  revert i. induction l as [|b l IH]; intros i Hn Hin Hne; [destruct Hin|].
  destruct i; cbn in *.
  - inversion Hn; subst. destruct Hin as [H|H]; [congruence|exact H].
  - destruct Hin as [H|H]; [left; exact H|right; eapply IH; eassumption].
Qed.

Lemma remove_nth_map A B (f : A -> B) i l : map f (remove_nth i l) = remove_nth i (map f l).
Proof. revert i. induction l as [|a l IH]; intros [|i]; cbn; try reflexivity. f_equal. apply IH. Qed.

Lemma remove_nth_NoDup A i (l : list A) : NoDup l -> NoDup (remove_nth i l).
Proof.
  revert i. induction l as [|a l IH]; intros i H; [destruct i; exact H|].
  inversion H; subst. destruct i; cbn; [assumption|]. constructor; [|apply IH; assumption].
  intros X. apply remove_nth_In in X. contradiction.
Qed.

Lemma ent_eqb_spec a b : ent_eqb a b = true <-> a = b.
Proof.
  destruct a as [a1 a2], b as [b1 b2]. unfold ent_eqb. cbn [fst snd]. rewrite andb_true_iff, !Nat.eqb_eq.
  split; [intros [-> ->]; reflexivity|intros H; inversion H; auto].
Qed.

Lemma unlink_In t g l x : In x (unlink t g l) <-> In x l /\ x <> (t, g).
Proof.
  unfold unlink. rewrite filter_In. split; intros [H1 H2]; split; auto.
  - intros ->. rewrite (proj2 (ent_eqb_spec (t, g) (t, g)) eq_refl) in H2. discriminate.
  - destruct (ent_eqb x (t, g)) eqn:E; [|reflexivity]. apply ent_eqb_spec in E. contradiction.
Qed.


Lemma in_map_fst (l : list (nat * nat)) u : In u (map fst l) -> exists g, In (u, g) l.
Proof. intros H. apply in_map_iff in H. destruct H as [[a b] [E H]]. cbn in E. subst. exists b. exact H. Qed.

Definition r_link (p : pc) : bool :=
  match p with
  | RRegUnlock _ GoWait | RWLoad | RWNext | RFinal | TWLoad | TWNext | TFinal | TCancelLock | RUnlLock _ => true
  | _ => false
  end.
Definition s_link (p : pc) : bool :=
  match p with SRegUnlock GoWait | SWLoad | SWNext | SFinal | SUnlLock _ => true | _ => false end.
Definition deaf_ctx (k : rctx) : bool := match k with CRtD | CRtDL => true | _ => false end.
Definition deaf_pc (p : pc) : bool :=
  match p with
  | TDeafNext | TDeafLoad | Panicked => true
  | RLock k | RScan k _ _ | RUnpark k _ _ | RUnlock k _ => deaf_ctx k
  | _ => false
  end.

Lemma r_link_frame p : r_link p = true -> in_frame p = true.
Proof. destruct p; cbn; intros H; try reflexivity; try discriminate H; try (destruct o; try reflexivity; discriminate H). Qed.
Lemma s_link_frame p : s_link p = true -> in_frame p = true.
Proof. destruct p; cbn; intros H; try reflexivity; try discriminate H; try (destruct o; try reflexivity; discriminate H). Qed.

Record InvE (s : st) : Prop := {
  E_r : forall u g, In (u, g) (wr s) -> g = gen s u /\ r_link (pcs s u) = true /\ flag s u <> FSuccess;
  E_s : forall u g, In (u, g) (ws s) -> g = gen s u /\ s_link (pcs s u) = true;
  E_ndr : NoDup (map fst (wr s));
  E_nds : NoDup (map fst (ws s));
  E_bad : bad s = false;
  E_deaf : forall u, deaf_pc (pcs s u) = false;
  E_ds : forall u i w, pcs s u = DScan false i w -> is_prod (prog s u) = false }.

Lemma link_disjoint p : r_link p = true -> s_link p = true -> False.
Proof. destruct p; cbn; congruence. Qed.

(* the record the lock holder is about to CAS is valid *)
Lemma nth_valid s t i u g :
  InvE s ->
  nth_error (wr s) i = Some (u, g) \/ nth_error (ws s) i = Some (u, g) \/ nth_error (closing s t) i = Some (u, g) ->
  valid_entry s u g = true.
Proof.
  intros HE H. unfold valid_entry.
  assert (X : In (u, g) (wr s) \/ In (u, g) (ws s)).
  { unfold closing in H. destruct (is_prod (prog s t)); destruct H as [H|[H|H]]; apply nth_error_In in H; auto. }
  destruct X as [X|X]; [destruct (E_r HE _ _ X) as (-> & Y & _); apply r_link_frame in Y
                       |destruct (E_s HE _ _ X) as (-> & Y); apply s_link_frame in Y];
    rewrite Nat.eqb_refl, Y; reflexivity.
Qed.

Lemma not_linked s t :
  InvE s -> (r_link (pcs s t) = false -> forall g, ~ In (t, g) (wr s)) /\ (s_link (pcs s t) = false -> forall g, ~ In (t, g) (ws s)).
Proof.
  intros HE. split; intros X g Y; [apply (E_r HE) in Y; destruct Y as (_ & Y & _)|apply (E_s HE) in Y; destruct Y as (_ & Y)]; congruence.
Qed.

Lemma nodup_fst_remove (l : list (nat * nat)) i u g g' :
  NoDup (map fst l) -> nth_error l i = Some (u, g) -> In (u, g') (remove_nth i l) -> False.
Proof.
  revert i. induction l as [|a l IH]; intros i Hn Hi Hin; [destruct i; discriminate|].
  cbn in Hn. inversion Hn; subst. destruct i; cbn in *.
  - inversion Hi; subst. apply H1. cbn. apply (in_map fst) in Hin. exact Hin.
  - destruct Hin as [Hin|Hin].
    + subst a. apply H1. cbn. apply nth_error_In in Hi. apply (in_map fst) in Hi. exact Hi.
    + eapply IH; eassumption.
Qed.

Definition dscan_some (p : pc) : bool := match p with DScan false _ _ => true | _ => false end.

(* what the mover's pc move has to respect: it stays where a linked record of its own can still be
   unlinked (unless its flag is SUCCESS: ok); it does not enter the deaf loop, and scans to wake one
   sender only as a receiver (pr: it is a producer) *)
Definition e_link (ok : bool) (p p' : pc) : bool :=
  (r_link p' || negb (r_link p) || ok) && (s_link p' || negb (s_link p)).
Definition e_pc (pr : bool) (p' : pc) : bool := negb (deaf_pc p') && (negb (dscan_some p') || negb pr).

(* the general step: every record linked afterwards was linked before with the same generation, or
   is the mover's fresh one; nobody is linked twice; the flags of the threads linked as receivers
   are not SUCCESS; the mover is no longer linked, or its pc move respects its links *)
Lemma InvE_move s s' t p' :
  InvE s -> pcs s' = upd (pcs s) t p' -> (forall u, is_prod (prog s' u) = is_prod (prog s u)) -> bad s' = bad s ->
  (forall u g, In (u, g) (wr s') -> In (u, g) (wr s) /\ gen s' u = gen s u \/ (u, g) = (t, gen s' t) /\ r_link p' = true) ->
  (forall u g, In (u, g) (ws s') -> In (u, g) (ws s) /\ gen s' u = gen s u \/ (u, g) = (t, gen s' t) /\ s_link p' = true) ->
  NoDup (map fst (wr s')) -> NoDup (map fst (ws s')) ->
  (forall u g, In (u, g) (wr s') -> flag s' u <> FSuccess) ->
  (forall g, ~ In (t, g) (wr s') /\ ~ In (t, g) (ws s')) \/ e_link (f_ok (flag s' t)) (pcs s t) p' = true ->
  e_pc (is_prod (prog s t)) p' = true ->
  InvE s'.
Proof.
  intros [Er Es Nr Ns Eb Ed Eds] Hp Hr Hb Ir Is Nr' Ns' Hf Hl Hk.
  apply andb_prop in Hk. destruct Hk as [K3 K4]. apply negb_true_iff in K3.
  assert (K : forall g, In (t, g) (wr s') \/ In (t, g) (ws s') ->
              (r_link p' || negb (r_link (pcs s t)) || f_ok (flag s' t)) = true /\ (s_link p' || negb (s_link (pcs s t))) = true).
  { intros g Y. destruct Hl as [Hl|Hl]; [exfalso; destruct (Hl g); tauto|]. apply andb_prop in Hl. exact Hl. }
  constructor; try assumption; [| | congruence | |].
  - intros u g Hin. rewrite Hp. unfold upd. pose proof (Hf _ _ Hin) as F. split; [|split; [|exact F]].
    + destruct (Ir _ _ Hin) as [[A ->]|[[= -> ->] _]]; [apply (Er _ _ A)|reflexivity].
    + destruct (Ir _ _ Hin) as [[A _]|[[= -> _] B]]; [|rewrite Nat.eqb_refl; exact B].
      destruct (Er _ _ A) as (_ & B & _). destruct (Nat.eqb_spec u t) as [->|]; [|exact B].
      destruct (K _ (or_introl Hin)) as [K1 _]. rewrite B in K1.
      destruct (r_link p'); [reflexivity|]. destruct (flag s' t); try discriminate K1. contradiction.
  - intros u g Hin. rewrite Hp. unfold upd. split.
    + destruct (Is _ _ Hin) as [[A ->]|[[= -> ->] _]]; [apply (Es _ _ A)|reflexivity].
    + destruct (Is _ _ Hin) as [[A _]|[[= -> _] B]]; [|rewrite Nat.eqb_refl; exact B].
      destruct (Es _ _ A) as (_ & B). destruct (Nat.eqb_spec u t) as [->|]; [|exact B].
      destruct (K _ (or_intror Hin)) as [_ K2]. rewrite B in K2. destruct (s_link p'); [reflexivity|discriminate K2].
  - intros u. rewrite Hp. unfold upd. destruct (Nat.eqb u t); [exact K3|apply Ed].
  - intros u i w. rewrite Hp, Hr. unfold upd. destruct (Nat.eqb_spec u t) as [->|]; [|apply Eds].
    intros ->. apply negb_true_iff. exact K4.
Qed.

Lemma InvE_same s s' t p' :
  InvE s -> pcs s' = upd (pcs s) t p' -> (forall u, is_prod (prog s' u) = is_prod (prog s u)) ->
  bad s' = bad s -> gen s' = gen s -> wr s' = wr s -> ws s' = ws s -> flag s' = flag s ->
  e_link (f_ok (flag s t)) (pcs s t) p' && e_pc (is_prod (prog s t)) p' = true -> InvE s'.
Proof.
  intros HE Hp Hr Hb Hg Ewr Ews Ef Hk. apply andb_prop in Hk.
  apply (InvE_move _ HE Hp Hr Hb); rewrite ?Hg, ?Ewr, ?Ews, ?Ef; try tauto; auto; apply HE.
Qed.

(* the flags premise of InvE_move when one flag is set: not to SUCCESS, or of a thread not linked as a receiver *)
Lemma flags_upd s (l : list (nat * nat)) u v :
  InvE s -> incl l (wr s) -> v <> FSuccess \/ (forall g, ~ In (u, g) l) ->
  forall uu gg, In (uu, gg) l -> upd (flag s) u v uu <> FSuccess.
Proof.
  intros HE Hi Hv uu gg Hin. unfold upd. destruct (Nat.eqb_spec uu u) as [->|N].
  - destruct Hv as [Hv|Hv]; [exact Hv|]. exfalso. exact (Hv _ Hin).
  - apply (E_r HE _ _ (Hi _ Hin)).
Qed.

Lemma InvE_step cap cf s t s' :
  rearm_after_steal cf = true -> InvE s -> Step cap cf s t s' -> InvE s'.
Proof.
  intros Hcf HE HS.
  pose proof (E_deaf HE t) as Dt. pose proof (E_ds HE t) as Dst. destruct (not_linked t HE) as [Nlr Nls].
  pose proof (E_ndr HE) as Nr. pose proof (E_nds HE) as Ns.
  destruct HS; try open_move; rewrite Epc in Dt, Nlr, Nls; cbn [deaf_pc r_link s_link] in Dt, Nlr, Nls.
  (* the deaf loop and its unreachable!() are not entered *)
  all: try discriminate Dt.
  all: try solve [ by_frame InvE_same; try exact (fin_role s t _); try (st_simpl; rewrite (nth_valid t i HE) by auto; reflexivity);
                   unfold e_link, e_pc; rewrite Epc, ?Hcf; case_pc; cbn [deaf_pc]; rewrite ?Dt; reflexivity ].
  (* DLock, receiver: it may go on to wake one sender *)
  all: try match goal with Epc : pcs _ _ = DLock |- _ =>
         solve [by_frame InvE_same; rewrite Ep, Epc; destruct (rcnt s - 1 =? 0); case_pc; reflexivity] end.
  (* DScan: the record was not WAITING; a producer scans only to close *)
  all: try match goal with Epc : pcs _ _ = DScan _ _ _, Ec : _ = false |- _ =>
         solve [by_frame InvE_same; [st_simpl; rewrite (nth_valid t i HE) by auto; reflexivity|];
                rewrite Epc; destruct a; [case_pc; reflexivity|]; rewrite (Dst _ _ Epc); reflexivity] end.
  (* the steps that edit the waiter queues or set a flag *)
  all: eapply (InvE_move _ HE); [st_simpl; reflexivity|reflexivity|reflexivity|..]; st_simpl; rewrite ?Epc, ?upd_eq; auto;
       try solve [right; reflexivity|reflexivity].
  (* the owner unlinks its record (SUnlLock, TCancelLock, RUnlLock) and is linked no more *)
  all: try solve [ intros x g0 Y; apply unlink_In in Y; left; split; [apply Y|reflexivity]
                 | apply NoDup_map_filter; assumption
                 | intros x g0 Y; first [apply unlink_In in Y; destruct Y as [Y _]|idtac]; apply (E_r HE _ _ Y)
                 | left; intros g0; split; intros Y; try apply unlink_In in Y;
                   first [exact (Nlr eq_refl _ Y)|exact (Nls eq_refl _ Y)
                         |destruct Y as [Y N]; apply N; first [destruct (E_r HE _ _ Y) as [-> _]|destruct (E_s HE _ _ Y) as [-> _]]; reflexivity] ].
  - (* the cancel CAS *) apply flags_upd; [exact HE|apply incl_refl|left; discriminate].
  - (* SScan: the record is taken out and its owner signalled *) intros x g0 Y. apply remove_nth_In in Y. auto.
  - rewrite remove_nth_map. apply remove_nth_NoDup, Nr.
  - apply flags_upd; [exact HE|intros x Y; apply remove_nth_In in Y; exact Y|].
    right. intros g0 Y. eapply nodup_fst_remove; [exact Nr|exact En|exact Y].
  - (* SRegLock: a fresh record of the mover is linked *)
    intros x g0 Y. left. split; [exact Y|]. apply upd_neq. intros ->. exact (Nlr eq_refl _ Y).
  - intros x g0 Y. apply in_app_iff in Y. destruct Y as [Y|[[= <- <-]|[]]]; [left|right; auto].
    split; [exact Y|]. apply upd_neq. intros ->. exact (Nls eq_refl _ Y).
  - rewrite map_app. apply NoDup_snoc; [exact Ns|]. intros Y. apply in_map_fst in Y. destruct Y as [g0 Y]. exact (Nls eq_refl _ Y).
  - apply flags_upd; [exact HE|apply incl_refl|left; discriminate].
  - (* RScan: the record is taken out and its owner signalled; it is not linked as a receiver *)
    intros x g0 Y. apply remove_nth_In in Y. auto.
  - rewrite remove_nth_map. apply remove_nth_NoDup, Ns.
  - apply flags_upd; [exact HE|apply incl_refl|]. right. intros g0 Y. apply nth_error_In in En.
    eapply link_disjoint; [apply (E_r HE _ _ Y)|apply (E_s HE _ _ En)].
  - unfold e_pc. cbn [deaf_pc]. rewrite Dt. reflexivity.
  - (* RRegLock: a fresh record of the mover is linked *)
    intros x g0 Y. apply in_app_iff in Y. destruct Y as [Y|[[= <- <-]|[]]]; [left|right; auto].
    split; [exact Y|]. apply upd_neq. intros ->. exact (Nlr eq_refl _ Y).
  - intros x g0 Y. left. split; [exact Y|]. apply upd_neq. intros ->. exact (Nls eq_refl _ Y).
  - rewrite map_app. apply NoDup_snoc; [exact Nr|]. intros Y. apply in_map_fst in Y. destruct Y as [g0 Y]. exact (Nlr eq_refl _ Y).
  - intros x g0 Y. unfold upd. destruct (Nat.eqb_spec x t); [discriminate|].
    apply in_app_iff in Y. destruct Y as [Y|[[= <- _]|[]]]; [apply (E_r HE _ _ Y)|contradiction].
  - (* DScan: a closing sender signals CLOSED; a closing receiver signals a sender *)
    apply flags_upd; [exact HE|apply incl_refl|]. unfold closing in En. destruct (is_prod (prog s t)).
    + left. destruct a; [discriminate|]. discriminate (Dst _ _ Epc).
    + right. intros g0 Y. apply nth_error_In in En. eapply link_disjoint; [apply (E_r HE _ _ Y)|apply (E_s HE _ _ En)].
  - destruct a; [cbn [andb]; case_pc; reflexivity|]. unfold e_pc. rewrite (Dst _ _ Epc). cbn [andb]. case_pc; reflexivity.
Qed.
