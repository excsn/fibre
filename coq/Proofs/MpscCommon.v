(* What the proofs about the two MPSC K2 models (MpscB, MpscU) share and
   that mentions neither model: injectivity lemmas and the head-first evaluation step. *)
From Fibre Require Import Common.Base.

Lemma Some_inj {A} (a b : A) : Some a = Some b -> a = b.
Proof. intros H. injection H as H. exact H. Qed.

(* On hypotheses of these shapes use the lemmas: [inversion] and [injection] in the large
   contexts of the step proofs leave terms that take the kernel minutes to check. *)
Ltac opt_step :=
  match goal with
  | H : Some _ = Some _ |- _ => apply Some_inj in H; subst
  | H : (_, _) = (_, _) |- _ => apply pair_equal_spec in H; destruct H; subst
  | H : Some _ = None |- _ => discriminate H
  | H : None = Some _ |- _ => discriminate H
  | H1 : ?x = Some _, H2 : ?x = Some _ |- _ => rewrite H1 in H2
  | H1 : ?x = Some _, H2 : ?x = None |- _ => rewrite H1 in H2
  end.

Ltac bools :=
  repeat match goal with
  | H : _ && _ = true |- _ => apply andb_true_iff in H; destruct H
  | H : _ || _ = false |- _ => apply orb_false_iff in H; destruct H
  | H : negb _ = true |- _ => apply negb_true_iff in H
  | H : negb _ = false |- _ => apply negb_false_iff in H
  end.

(** [post P x]: a goal about the pair [x = exec s o] while [x] is being evaluated.  The wrapper
    keeps [P] out of the way: the evaluation looks at [x] only. *)
Definition post {A} (P : A -> Prop) (x : A) : Prop := P x.

Ltac head_scrut t := lazymatch t with match ?x with _ => _ end => head_scrut x | _ => t end.
Ltac head_const t := lazymatch t with ?f _ => head_const f | _ => t end.

(** One evaluation step on [post _ x]: if [x] is a call, unfold it; if it is a match, decide the
    scrutinee [c] its value hangs on - by [prim c] where the model has something better than a
    case split (a frame lemma, an unfolding), by [destruct] otherwise.  Guards are met in
    program order, so a refused call ends at once and nothing is split before it is needed. *)
Ltac head_step prim :=
  lazymatch goal with
  | |- post _ (_, _) => fail
  | |- post _ ?x =>
      let c := head_scrut x in
      lazymatch c with
      | x => let h := head_const x in unfold h
      | _ => first [prim c | destruct c eqn:?]
      end
  end.
