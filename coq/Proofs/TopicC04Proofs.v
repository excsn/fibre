(* Proofs/TopicC04Proofs.v — C04 clauses for the topic flavour: preservation of Inv4 by every step and the
   theorems (all histories). *)
From Fibre Require Import Common.Base Chan.TopicOps Chan.TopicSpec Chan.TopicSpec04 Proofs.TopicLemmas Proofs.TopicInv
     Proofs.TopicInvRecv Proofs.TopicInvSub Proofs.TopicInvRx Proofs.TopicInvPub Proofs.TopicInvTx Proofs.TopicOpsProofs Proofs.TopicC04Inv.

Lemma pair4_rx c kc s sp r x :
  Inv4 c kc s sp -> find_rx r (rxs s) = Some x ->
  exists y, find_rx4 r (s4_rx sp) = Some y /\ In x (rxs s) /\ In y (s4_rx sp) /\
            rel4_rx c kc (disp_alive s) (quiet (txs s)) (cls_of c (txs s)) x y.
Proof. intros J. exact (find_id_pair r_id a_id _ (@p_id _ _ _ _ _) _ _ r x (j_rx J)). Qed.

Lemma none4_rx c kc s sp r : Inv4 c kc s sp -> find_rx r (rxs s) = None -> find_rx4 r (s4_rx sp) = None.
Proof. intros J. exact (find_id_pair_None r_id a_id _ (@p_id _ _ _ _ _) _ _ r (j_rx J)). Qed.

Lemma pair4_tx c kc s sp r x :
  Inv4 c kc s sp -> find_tx r (txs s) = Some x ->
  exists y, find_tx4 r (s4_tx sp) = Some y /\ In x (txs s) /\ In y (s4_tx sp) /\ rel4_tx c x y.
Proof. intros J. exact (find_id_pair t_id b_id _ (@q_id c) _ _ r x (j_tx J)). Qed.

Lemma none4_tx c kc s sp r : Inv4 c kc s sp -> find_tx r (txs s) = None -> find_tx4 r (s4_tx sp) = None.
Proof. intros J. exact (find_id_pair_None t_id b_id _ (@q_id c) _ _ r (j_tx J)). Qed.

(* where the receiver count is right and the dispatcher lives, it is 0 exactly when the reference has no open
   receiver: the open receivers are the same on both sides *)
Lemma any_rx_open_count c kc s sp :
  Inv4 c kc s sp -> fix07 c || kc = true -> disp_alive s = true -> any_rx_open sp = negb (Z.eqb (rcount s) 0).
Proof.
  intros J Hk Hda. rewrite (j_cnt J Hk Hda). unfold any_rx_open. rewrite existsb_filter_length.
  rewrite <- (Forall2_filter_length _ rx_open_m rx4_open _ _ (j_rx J)).
  - destruct (length (filter rx_open_m (rxs s))); reflexivity.
  - intros x y HR. rewrite Hda in HR. unfold rx_open_m, rx4_open. rewrite <- (p_live HR).
    destruct (r_live x) eqn:L; [|reflexivity]. cbn [andb]. f_equal.
    destruct (r_closed x) eqn:E, (a_closed y) eqn:E'; try reflexivity.
    + pose proof (p_cl2 HR L eq_refl E). congruence.
    + pose proof (p_cl1 HR L E' Hk). congruence.
Qed.

(* change the record of receiver r only (and, with it, the receiver count) *)
Lemma inv4_upd_rx_gen c kc s sp r x y f g rc' :
  NoDup (map r_id (rxs s)) -> Inv4 c kc s sp -> find_rx r (rxs s) = Some x -> find_rx4 r (s4_rx sp) = Some y ->
  (forall z, r_id (f z) = r_id z) -> (forall z, a_id (g z) = a_id z) ->
  rel4_rx c kc (disp_alive s) (quiet (txs s)) (cls_of c (txs s)) (f x) (g y) ->
  (fix07 c || kc = true -> disp_alive s = true ->
     (rc' + Z.of_nat (Nat.b2n (rx_open_m x)) = rcount s + Z.of_nat (Nat.b2n (rx_open_m (f x))))%Z) ->
  (cls_of c (txs s) = true -> r_live (f x) = true -> m_disc (r_mb (f x)) = true -> quiet (txs s)) ->
  Inv4 c kc (st_set_rcount (st_set_rxs s (upd_rx r f (rxs s))) rc') (s4_set_rx sp (upd_rx4 r g (s4_rx sp))).
Proof.
  intros I J Hx Hy Hidf Hidg HR Hcnt Hq.
  assert (Hux : forall x0, In x0 (rxs s) -> r_id x0 = r -> x0 = x).
  { intros x0 H1 H2. exact (find_id_unique r_id r _ x x0 I Hx H1 H2). }
  apply inv4_set_rxs; [exact J | | |].
  - apply (upd_id_pair r_id a_id _ (@p_id _ _ _ _ _) _ r f g _ _ (j_rx J)); [|auto].
    intros x0 y0 Hx0 Hy0 HR0 E. rewrite (Hux x0 Hx0 E).
    assert (E2 : a_id y0 = r) by (rewrite <- (p_id HR0); exact E).
    rewrite (find_id_unique a_id r _ y y0) by
      (try assumption; rewrite <- (ids_eq r_id a_id _ (@p_id _ _ _ _ _) _ _ (j_rx J)); exact I).
    exact HR.
  - intros A B. specialize (Hcnt A B). rewrite (j_cnt J A B) in Hcnt.
    pose proof (count_upd_id r_id rx_open_m r f (rxs s) x I Hx Hidf : (length (filter _ (upd_rx _ _ _)) + _ = _)%nat) as P.
    clear - P Hcnt. lia.
  - intros A x0' Hx0' Hl Hd. apply (In_upd_id r_id) in Hx0'. destruct Hx0' as [x0 [Hx0 E]].
    destruct (N.eqb_spec (r_id x0) r) as [E2|E2]; subst x0'.
    + rewrite (Hux x0 Hx0 E2) in *. apply Hq; assumption.
    + apply (j_quiet J A x0 Hx0 Hl Hd).
Qed.

(* the same when the handle stays as open as it was *)
Lemma inv4_upd_rx c kc s sp r x y f g :
  NoDup (map r_id (rxs s)) -> Inv4 c kc s sp -> find_rx r (rxs s) = Some x -> find_rx4 r (s4_rx sp) = Some y ->
  (forall z, r_id (f z) = r_id z) -> (forall z, a_id (g z) = a_id z) ->
  rel4_rx c kc (disp_alive s) (quiet (txs s)) (cls_of c (txs s)) (f x) (g y) ->
  (fix07 c || kc = true -> rx_open_m (f x) = rx_open_m x) ->
  (cls_of c (txs s) = true -> r_live (f x) = true -> m_disc (r_mb (f x)) = true -> quiet (txs s)) ->
  Inv4 c kc (st_set_rxs s (upd_rx r f (rxs s))) (s4_set_rx sp (upd_rx4 r g (s4_rx sp))).
Proof.
  intros I J Hx Hy Hidf Hidg HR Hopen Hq.
  apply (inv4_upd_rx_gen c kc s sp r x y f g (rcount s) I J Hx Hy Hidf Hidg HR); [|exact Hq].
  intros A _. rewrite (Hopen A). reflexivity.
Qed.

(** receive forms *)
Lemma recv_core_ok4 c kc s sp0 sp r x none reg s1 rs w sp1 vs :
  Inv c s sp0 -> Inv4 c kc s sp -> live_rx r s = Some x ->
  nothing none \/ (none = RDisc /\ r_closed x = true /\ reg = None) ->
  recv_core r x none reg s = (s1, (rs, w)) ->
  s4_recv sp r rs = (sp1, vs) ->
  Inv4 c kc s1 sp1 /\ vs4_ok c kc s vs.
Proof.
  intros I J Hl Hnone Hrc Hsp.
  apply live_rx_spec in Hl. destruct Hl as [Hx Hlive].
  destruct (pair4_rx _ _ _ _ _ _ J Hx) as [y [Hy [Hinx [Hiny HR]]]].
  unfold recv_core, mb_pop in Hrc. unfold s4_recv in Hsp. rewrite Hy in Hsp.
  (* a model-only change of the mailbox that keeps flags, the disconnected bit and does not grow the buffer *)
  assert (Hmodel : forall fm : rxh -> mbox, m_disc (fm x) = m_disc (r_mb x) -> (m_buf (r_mb x) = [] -> m_buf (fm x) = []) ->
            Inv4 c kc (st_set_rxs s (upd_rx r (fun y0 => rx_set_mb y0 (fm y0)) (rxs s))) sp).
  { intros fm Hd Hb. rewrite <- (s4_set_rx_same sp). rewrite <- (upd_id_same a_id r (s4_rx sp)).
    apply (inv4_upd_rx c kc s sp r x y _ _ (i_rnd _ _ _ I)); auto.
    - destruct HR. constructor; cbn; auto.
      intros A B C. destruct (p_disc A B C) as [D1 D2]. split; [apply Hb; exact D1 | exact D2].
    - cbn. rewrite Hd. intros A B C. apply (j_quiet J A x Hinx B C). }
  (* the reference records that the handle observed Disconnected *)
  assert (Hsaw : m_buf (r_mb x) = [] -> (cls_of c (txs s) = true -> quiet (txs s)) ->
            Inv4 c kc s (s4_set_rx sp (upd_rx4 r (fun y0 => rx4_set y0 (a_live y0) (a_closed y0) true) (s4_rx sp)))).
  { intros Hb Hq. rewrite <- (st_set_rxs_same s) at 1. rewrite <- (upd_id_same r_id r (rxs s)).
    apply (inv4_upd_rx c kc s sp r x y _ _ (i_rnd _ _ _ I)); auto.
    all: try (intros A B C; apply (j_quiet J A x Hinx B C)).
    all: destruct HR; constructor; cbn; auto. }
  destruct (m_buf (r_mb x)) as [|[t v] b] eqn:Eb.
  - destruct (m_disc (r_mb x)) eqn:Ed.
    + injection Hrc as <- <- <-.
      destruct (a_closed y) eqn:Ec; injection Hsp as <- <-; (split; [|apply vs4_ok_nil]); [exact J|].
      apply Hsaw; [reflexivity|]. intros A. apply (j_quiet J A x Hinx Hlive Ed).
    + assert (Hs1 : Inv4 c kc s1 sp /\ rs = none /\ w = []).
      { destruct reg as [wk|]; injection Hrc as <- <- <-; (split; [|auto]); [|exact J].
        apply (Hmodel (fun y0 => mb_set_waiter (r_mb y0) (Some wk))); [cbn; exact Ed | cbn; auto]. }
      destruct Hs1 as [J1 [-> ->]].
      destruct Hnone as [Hn|[-> [Hcl ->]]].
      * assert (Hsp' : (sp, if a_closed y then [V4ClosedRxAccepts r] else []) = (sp1, vs))
          by (destruct Hn as [->|[->| ->]]; exact Hsp).
        injection Hsp' as <- <-. split; [exact J1|].
        intros v0 Hv0. destruct (a_closed y); [|destruct Hv0]. destruct Hv0 as [<-|[]]. exact Logic.I.
      * (* rto on a closed handle reports Disconnected although the mailbox is not: the dispatcher is dead *)
        injection Hrc as <-.
        destruct (a_closed y) eqn:Ec; injection Hsp as <- <-; (split; [|apply vs4_ok_nil]); [exact J|].
        apply Hsaw; [reflexivity|]. intros _. apply da_false_quiet.
        destruct (disp_alive s) eqn:E; [|reflexivity].
        pose proof (p_cl2 HR Hlive eq_refl Hcl). congruence.
  - injection Hrc as <- <- <-. injection Hsp as <- <-. split.
    + apply (Hmodel (fun _ => mb_set_buf (r_mb x) b)); [reflexivity | intros; discriminate].
    + intros v0 Hv0. apply in_app_or in Hv0. destruct Hv0 as [Hv0|Hv0].
      * destruct (a_sawdisc y) eqn:Es; [|destruct Hv0]. destruct Hv0 as [<-|[]]. cbn.
        destruct (cls_of c (txs s)) eqn:Ecl; [|reflexivity].
        destruct (p_disc HR Hlive Es eq_refl) as [D _]. congruence.
      * destruct (a_closed y); [|destruct Hv0]. destruct Hv0 as [<-|[]]. exact Logic.I.
Qed.

Definition step4_ok_for (c : cfg) (kc : bool) (o : op) : Prop :=
  forall s sp0 sp s1 rs w sp1 vs, Inv c s sp0 -> Inv4 c kc s sp ->
    step c s o = (s1, (rs, w)) -> s4_step sp o rs = (sp1, vs) ->
    Inv4 c kc s1 sp1 /\ vs4_ok c kc s vs.

Lemma s4_recv_inert sp r rs :
  match rs with RVal _ _ | REmpty | RTimeout | RPending | RDisc => False | _ => True end ->
  s4_recv sp r rs = (sp, []).
Proof.
  intros H. unfold s4_recv. destruct (find_rx4 r (s4_rx sp)); [|reflexivity].
  destruct rs; try reflexivity; contradiction.
Qed.

#[export] Hint Rewrite s4_recv_inert using exact Logic.I : topic_inert.

(* try_recv, recv_timeout(0), Stream::poll_next and RecvFuture::poll: guards, then recv_core *)
Lemma ok4_recv c kc o :
  match o with TryRecv _ | RecvTimeout0 _ | PollNext _ _ | Poll _ _ => True | _ => False end -> step4_ok_for c kc o.
Proof.
  intros Ho s sp0 sp s1 rs w sp1 vs I J Hs Hsp.
  assert (Hcore : forall r x none reg, live_rx r s = Some x ->
            nothing none \/ (none = RDisc /\ r_closed x = true /\ reg = None) ->
            recv_core r x none reg s = (s1, (rs, w)) -> s4_recv sp r rs = (sp1, vs) -> Inv4 c kc s1 sp1 /\ vs4_ok c kc s vs).
  { intros r x none reg. exact (recv_core_ok4 c kc s sp0 sp r x none reg s1 rs w sp1 vs I J). }
  destruct o; try contradiction; cbn [step s4_step] in *.
  - destruct (live_rx r s) as [x|] eqn:Hl; [|same Hs Hsp J].
    apply (Hcore r x REmpty None); unfold nothing; auto.
  - destruct (live_rx r s) as [x|] eqn:Hl; [|same Hs Hsp J].
    destruct (r_async x); [same Hs Hsp J|].
    destruct (r_closed x) eqn:Ec; [apply (Hcore r x RDisc None) | apply (Hcore r x RTimeout None)]; unfold nothing; auto.
  - rewrite <- (j_futs J) in Hsp.
    destruct (find (fun p => N.eqb (fst p) f) (futs s)) as [[f' r]|] eqn:Hf; [|same Hs Hsp J].
    destruct (live_rx r s) as [x|] eqn:Hl; [|same Hs Hsp J].
    apply (Hcore r x RPending (Some w0)); unfold nothing; auto.
  - destruct (live_rx r s) as [x|] eqn:Hl; [|same Hs Hsp J].
    destruct (negb (r_async x)); [same Hs Hsp J|].
    destruct (rx_busy r s); [same Hs Hsp J|].
    apply (Hcore r x RPending (Some w0)); unfold nothing; auto.
Qed.

Lemma ok4_observers c kc o :
  match o with IsClosedS _ | IsClosedR _ | IsEmptyR _ | CapR _ => True | _ => False end -> step4_ok_for c kc o.
Proof.
  intros Ho s sp0 sp s1 rs w sp1 vs I J Hs Hsp. destruct o; try contradiction; cbn [step s4_step] in *;
    [destruct (live_tx s0 s) | destruct (live_rx r s) | destruct (live_rx r s) | destruct (live_rx r s)];
    same Hs Hsp J.
Qed.

(* futures come and go on both sides alike; (un)subscribing stays within the frame *)
Lemma ok4_futs_subs c kc o :
  match o with MkRecv _ _ | DropF _ | Subscribe _ _ | Unsubscribe _ _ => True | _ => False end -> step4_ok_for c kc o.
Proof.
  intros Ho s sp0 sp s1 rs w sp1 vs I J Hs Hsp. destruct o; try contradiction; cbn [step s4_step] in *.
  - destruct (live_rx r s); [|same Hs Hsp J].
    injection Hs as <- <- <-. injection Hsp as <- <-. split; [|apply vs4_ok_nil].
    exact (inv4_frame _ _ _ _ _ J (subscribe_core_frame r t s)).
  - destruct (live_rx r s); [|same Hs Hsp J].
    injection Hs as <- <- <-. injection Hsp as <- <-. split; [|apply vs4_ok_nil].
    exact (inv4_frame _ _ _ _ _ J (unsubscribe_core_frame r t s)).
  - destruct (live_rx r s) as [x|] eqn:Hl; [|same Hs Hsp J].
    destruct (negb (r_async x)); [same Hs Hsp J|].
    destruct (existsb (fun p => N.eqb (fst p) f) (futs s)); [same Hs Hsp J|].
    injection Hs as <- <- <-. injection Hsp as <- <-. split; [|apply vs4_ok_nil].
    rewrite <- (j_futs J). apply inv4_futs. exact J.
  - destruct (find (fun p => N.eqb (fst p) f) (futs s)); [|same Hs Hsp J].
    injection Hs as <- <- <-. injection Hsp as <- <-. split; [|apply vs4_ok_nil].
    rewrite <- (j_futs J). apply inv4_futs. exact J.
Qed.

Lemma deliver_fn_flags l m x :
  (r_id (deliver_fn l m x) = r_id x /\ r_live (deliver_fn l m x) = r_live x /\ r_closed (deliver_fn l m x) = r_closed x /\
   r_async (deliver_fn l m x) = r_async x) /\ m_disc (r_mb (deliver_fn l m x)) = m_disc (r_mb x).
Proof.
  unfold deliver_fn. destruct (r_live x && mem (r_id x) l); [|auto 6]. cbn. repeat split.
  unfold mb_deliver. destruct (N.leb (m_cap (r_mb x)) (N.of_nat (length (m_buf (r_mb x))))); reflexivity.
Qed.

Lemma ok4_Publish c kc h t v : step4_ok_for c kc (Publish h t v).
Proof.
  intros s sp0 sp s1 rs w sp1 vs I J Hs Hsp. cbn [step s4_step] in *.
  destruct (live_tx h s) as [x|] eqn:Hl; [|same Hs Hsp J].
  pose proof (live_tx_da _ _ _ Hl) as Hda.
  apply live_tx_spec in Hl. destruct Hl as [Hx Hlive].
  destruct (pair4_tx _ _ _ _ _ _ J Hx) as [y [Hy [Hinx [Hiny HR]]]].
  destruct (t_closed x || Z.eqb (rcount s) 0) eqn:Ecl.
  - injection Hs as <- <- <-. rewrite Hy in Hsp. injection Hsp as <- <-. split; [exact J|].
    intros v0 Hv0. destruct (tx4_open y && any_rx_open sp) eqn:E; [|destruct Hv0]. destruct Hv0 as [<-|[]]. cbn.
    destruct (fix07 c || kc) eqn:Ek; [|reflexivity]. exfalso.
    apply andb_true_iff in E. destruct E as [E1 E2].
    unfold tx4_open in E1. apply andb_true_iff in E1. destruct E1 as [_ E1]. apply negb_true_iff in E1.
    assert (Hc : t_closed x = false).
    { destruct (t_closed x) eqn:C; [|reflexivity]. pose proof (q_cl HR Hlive C). congruence. }
    rewrite Hc in Ecl. cbn [orb] in Ecl. rewrite (any_rx_open_count _ _ _ _ J Ek Hda), Ecl in E2. discriminate.
  - apply orb_false_iff in Ecl. destruct Ecl as [Ec1 Ec2].
    assert (Hvs : vs4_ok c kc s ((if b_self y then [V4ClosedTxAccepts h] else []) ++
                                 (if any_rx_open sp then [] else [V4SendAfterLastRx h]))).
    { intros v0 Hv0. apply in_app_or in Hv0. destruct Hv0 as [Hv0|Hv0].
      - destruct (b_self y) eqn:Es; [|destruct Hv0]. pose proof (q_self HR Hlive Es). congruence.
      - destruct (any_rx_open sp) eqn:Eo; [destruct Hv0|]. destruct Hv0 as [<-|[]]. cbn.
        destruct (fix07 c || kc) eqn:Ek; [|reflexivity].
        rewrite (any_rx_open_count _ _ _ _ J Ek Hda), Ec2 in Eo. discriminate. }
    assert (Hopen : tx_open_m x = true) by (unfold tx_open_m; rewrite Hlive, Ec1; reflexivity).
    assert (Hnq : ~ quiet (txs s)).
    { intros Q. rewrite (Q x Hinx) in Hopen. discriminate. }
    assert (Hgen : forall l, Inv4 c kc (st_set_rxs s (map (deliver_fn l (t, v)) (rxs s))) sp).
    { intros l. apply inv4_map_rx; [exact J | intros x0; apply deliver_fn_flags | |].
      - intros x0 _ _ Q. contradiction.
      - intros _ x0 _ _ Hd. left. rewrite <- (proj2 (deliver_fn_flags l (t, v) x0)). exact Hd. }
    destruct (get_list t (lists s)) as [l|] eqn:El.
    + pose proof (deliver_list_spec (t, v) l (rxs s) (i_lnd _ _ _ I _ _ El) (i_rnd _ _ _ I)) as Hd.
      destruct (deliver_list l (t, v) (rxs s)) as [rs' w']. cbn [fst] in Hd. subst rs'.
      injection Hs as <- <- <-. rewrite Hy in Hsp. injection Hsp as <- <-. split; [apply Hgen | exact Hvs].
    + injection Hs as <- <- <-. rewrite Hy in Hsp. injection Hsp as <- <-. split; [exact J | exact Hvs].
Qed.

(** sender handles *)
Lemma cls_upd_tx c h f ts : cls_of c (upd_tx h f ts) = cls_of c ts.
Proof. unfold cls_of, upd_tx. rewrite map_length. reflexivity. Qed.

Lemma quiet_upd_tx h f ts : (forall z, tx_open_m (f z) = true -> tx_open_m z = true) -> quiet ts -> quiet (upd_tx h f ts).
Proof.
  intros Hf Q t Ht. unfold upd_tx in Ht. apply in_map_iff in Ht. destruct Ht as [a [Ea Ha]].
  destruct (N.eqb (t_id a) h); subst t; [|apply Q; exact Ha].
  destruct (tx_open_m (f a)) eqn:E; [|reflexivity]. pose proof (Hf a E) as H1. rewrite (Q a Ha) in H1. discriminate.
Qed.

(* one sender handle changes; no handle opens *)
Lemma inv4_upd_tx c kc s sp h x y f g :
  NoDup (map t_id (txs s)) -> Inv4 c kc s sp -> find_tx h (txs s) = Some x -> find_tx4 h (s4_tx sp) = Some y ->
  (forall z, t_id (f z) = t_id z) -> (forall z, b_id (g z) = b_id z) ->
  (forall z, t_live (f z) = true -> t_live z = true) ->
  rel4_tx c (f x) (g y) ->
  (forall z, tx_open_m (f z) = true -> tx_open_m z = true) ->
  Inv4 c kc (st_set_txs s (upd_tx h f (txs s))) (s4_set_tx sp (upd_tx4 h g (s4_tx sp))).
Proof.
  intros I J Hx Hy Hidf Hidg Hlf HR Hmono. apply inv4_set_txs; [exact J | | |].
  - apply (upd_id_pair t_id b_id _ (@q_id c) _ h f g _ _ (j_tx J)); [|auto].
    intros x0 y0 Hx0 Hy0 HR0 E. rewrite (find_id_unique t_id h _ x x0 I Hx Hx0 E).
    assert (E2 : b_id y0 = h) by (rewrite <- (q_id HR0); exact E).
    rewrite (find_id_unique b_id h _ y y0) by
      (try assumption; rewrite <- (ids_eq t_id b_id _ (@q_id c) _ _ (j_tx J)); exact I).
    exact HR.
  - apply existsb_upd_tx_live. exact Hlf.
  - rewrite cls_upd_tx. intros A. split; [exact A | apply quiet_upd_tx; exact Hmono].
Qed.

Lemma ok4_ConvS c kc h : step4_ok_for c kc (ConvS h).
Proof.
  intros s sp0 sp s1 rs w sp1 vs I J Hs Hsp. cbn [step s4_step] in *.
  destruct (live_tx h s) as [x|] eqn:Hl; [|same Hs Hsp J].
  injection Hs as <- <- <-. injection Hsp as <- <-. split; [|apply vs4_ok_nil].
  apply live_tx_spec in Hl. destruct Hl as [Hx Hlive].
  destruct (pair4_tx _ _ _ _ _ _ J Hx) as [y [Hy [_ [_ HR]]]].
  replace sp with (s4_set_tx sp (upd_tx4 h (fun z => z) (s4_tx sp))) by (rewrite (upd_id_same b_id); destruct sp; reflexivity).
  apply (inv4_upd_tx c kc s sp h x y _ _ (i_tnd _ _ _ I)); auto.
  destruct HR. constructor; cbn; auto.
Qed.

Lemma ok4_CloneS c kc h h' : step4_ok_for c kc (CloneS h h').
Proof.
  intros s sp0 sp s1 rs w sp1 vs I J Hs Hsp. cbn [step s4_step] in *.
  destruct (live_tx h s) as [x|] eqn:Hl; [|same Hs Hsp J].
  destruct (find_tx h' (txs s)) as [x'|] eqn:Hf'; [same Hs Hsp J|].
  destruct (t_async x); [same Hs Hsp J|].
  pose proof (live_tx_da _ _ _ Hl) as Hda.
  apply live_tx_spec in Hl. destruct Hl as [Hx Hlive].
  destruct (pair4_tx _ _ _ _ _ _ J Hx) as [y [Hy [Hinx [Hiny HR]]]].
  pose proof (none4_tx _ _ _ _ _ J Hf') as Hnone.
  injection Hs as <- <- <-. rewrite Hy, Hnone in Hsp. injection Hsp as <- <-. split; [|apply vs4_ok_nil].
  set (cl := fix04 c && t_closed x).
  set (xn := {| t_id := h'; t_live := true; t_async := false; t_closed := cl |}).
  set (yn := {| b_id := h'; b_live := true; b_closed := b_closed y; b_self := false |}).
  assert (J1 : Inv4 c kc (st_set_txs s (txs s ++ [xn])) (s4_set_tx sp (s4_tx sp ++ [yn]))).
  { apply inv4_set_txs; [exact J | | intros _; exact Hda |].
    - apply Forall2_snoc; [apply (j_tx J)|]. constructor; cbn; auto; try (intros; discriminate).
      + intros _ Hc. unfold cl in Hc. apply andb_true_iff in Hc. destruct Hc as [_ Hc]. apply (q_cl HR Hlive Hc).
      + intros _ F4. unfold cl. rewrite F4. cbn. apply (q_cl4 HR Hlive F4).
    - (* with a second sender handle the clause about Disconnected is claimed under fix04 only,
         and then a clone of a closed handle is closed *)
      unfold cls_of. rewrite app_length. cbn [length]. destruct (fix04 c) eqn:F4; cbn [orb].
      + intros _. split; [reflexivity|]. intros Q t Ht. apply in_app_or in Ht. destruct Ht as [Ht|[<-|[]]]; [apply Q; exact Ht|].
        pose proof (Q x Hinx) as Qx. unfold tx_open_m in *. rewrite Hlive in Qx. cbn in Qx. apply negb_false_iff in Qx.
        cbn. unfold cl. rewrite Qx. reflexivity.
      + destruct (txs s) as [|a l]; [destruct Hinx|]. cbn [length]. intros H. apply Nat.eqb_eq in H. clear - H. lia. }
  destruct (fix04 c && negb cl); [apply inv4_scount|]; exact J1.
Qed.

(* close / drop of a sender handle whose own flag is not set: the handle stops being open, then close_internal
   disconnects the mailboxes it reaches if it finds that the last open sender has gone *)
Lemma sender_gone_inv4 c kc s sp0 sp h x y f g :
  Inv c s sp0 -> Inv4 c kc s sp -> find_tx h (txs s) = Some x -> t_live x = true -> t_closed x = false ->
  find_tx4 h (s4_tx sp) = Some y ->
  (forall z, t_id (f z) = t_id z) -> (forall z, b_id (g z) = b_id z) ->
  (forall z, t_live (f z) = true -> t_live z = true) ->
  rel4_tx c (f x) (g y) -> (forall z, tx_open_m (f z) = false) ->
  Inv4 c kc (st_set_txs (fst (tx_close_internal c s)) (upd_tx h f (txs s))) (s4_set_tx sp (upd_tx4 h g (s4_tx sp))).
Proof.
  intros I J Hx Hlive Hncl Hy Hidf Hidg Hlf HR Hfo.
  assert (Hmono : forall z, tx_open_m (f z) = true -> tx_open_m z = true) by (intros z E; rewrite Hfo in E; discriminate).
  pose proof (inv4_upd_tx c kc s sp h x y f g (i_tnd _ _ _ I) J Hx Hy Hidf Hidg Hlf HR Hmono) as J1.
  rewrite tx_close_internal_fst.
  change (Inv4 c kc (st_set_scount (st_set_rxs (st_set_txs s (upd_tx h f (txs s)))
                                      (if tx_ran c s then map (disc_fn c (lists s)) (rxs s) else rxs s))
                                   (if fix04 c then (scount s - 1)%Z else scount s))
               (s4_set_tx sp (upd_tx4 h g (s4_tx sp)))).
  apply inv4_scount. destruct (tx_ran c s) eqn:Hr; [|exact J1].
  apply (inv4_map_rx c kc _ _ (disc_fn c (lists s)) J1).
  - intros x0. destruct (disc_fn_keeps c (lists s) x0) as [A1 [A2 [A3 [A4 _]]]]. auto.
  - intros x0 _ Hb _. destruct (disc_fn_keeps c (lists s) x0) as [_ [_ [_ [_ [_ [A6 _]]]]]]. rewrite A6. exact Hb.
  - (* it ran, so no sender handle is open any more *)
    intros A x0 _ _ _. right. cbn [txs st_set_txs] in *. rewrite cls_upd_tx in A. apply quiet_count.
    pose proof (find_id_In t_id _ _ _ Hx) as [Hinx Hxid].
    unfold tx_ran in Hr. unfold cls_of in A. destruct (fix04 c) eqn:F4.
    + pose proof (count_upd_id t_id tx_open_m h f (txs s) x (i_tnd _ _ _ I) Hx Hidf : (length (filter _ (upd_tx _ _ _)) + _ = _)%nat) as Hn.
      unfold tx_open_m at 2 in Hn. rewrite Hlive, Hncl, (Hfo x) in Hn.
      cbn [negb orb] in Hr. apply Z.eqb_eq in Hr. rewrite (inv_sc _ _ _ I F4) in Hr. clear - Hr Hn. cbn in Hn. lia.
    + cbn [orb] in A. apply Nat.eqb_eq in A. destruct (txs s) as [|a [|a' l]] eqn:E; try discriminate.
      destruct Hinx as [->|[]]. unfold upd_tx. cbn [map filter]. rewrite Hxid, N.eqb_refl. rewrite Hfo. reflexivity.
Qed.

Lemma ok4_CloseS c kc h : step4_ok_for c kc (CloseS h).
Proof.
  intros s sp0 sp s1 rs w sp1 vs I J Hs Hsp. rewrite step_CloseS in Hs. cbn [s4_step] in Hsp.
  destruct (live_tx h s) as [x|] eqn:Hl; [|same Hs Hsp J].
  destruct (t_closed x) eqn:Ec; [same Hs Hsp J|].
  apply live_tx_spec in Hl. destruct Hl as [Hx Hlive].
  destruct (pair4_tx _ _ _ _ _ _ J Hx) as [y [Hy [_ [_ HR]]]].
  injection Hs as <- <- <-. rewrite Hy in Hsp. injection Hsp as <- <-. split.
  - apply (sender_gone_inv4 c kc s sp0 sp h x y); auto.
    + destruct HR. constructor; cbn; auto.
    + intros z. unfold tx_open_m. cbn. apply andb_false_r.
  - intros v0 Hv0. destruct (b_self y) eqn:Es; [|destruct Hv0].
    pose proof (q_self HR Hlive Es). congruence.
Qed.

Lemma ok4_DropS c kc h : step4_ok_for c kc (DropS h).
Proof.
  intros s sp0 sp s1 rs w sp1 vs I J Hs Hsp. rewrite step_DropS in Hs. cbn [s4_step] in Hsp.
  destruct (live_tx h s) as [x|] eqn:Hl; [|same Hs Hsp J].
  apply live_tx_spec in Hl. destruct Hl as [Hx Hlive].
  destruct (pair4_tx _ _ _ _ _ _ J Hx) as [y [Hy [_ [_ HR]]]].
  injection Hs as <- <- <-. injection Hsp as <- <-. split; [|apply vs4_ok_nil].
  assert (Hrel : rel4_tx c (tx_set x false (t_async x) true) (tx4_set y false true (b_self y))).
  { destruct HR. constructor; cbn; auto; intros; discriminate. }
  destruct (t_closed x) eqn:Ec.
  - apply (inv4_upd_tx c kc s sp h x y _ _ (i_tnd _ _ _ I)); auto; intros z H; discriminate.
  - apply (sender_gone_inv4 c kc s sp0 sp h x y); auto. intros z H. discriminate.
Qed.

(** receiver handles: close / drop / clone / convert *)
Lemma core_upd_cong r k l1 l2 :
  map rx_core l1 = map rx_core l2 ->
  (forall z1 z2, rx_core z1 = rx_core z2 -> rx_core (k z1) = rx_core (k z2)) ->
  map rx_core (upd_rx r k l1) = map rx_core (upd_rx r k l2).
Proof.
  intros E Hk. revert l2 E. induction l1 as [|a l1 IH]; intros l2 E; destruct l2 as [|b l2]; try discriminate; [reflexivity|].
  cbn [map] in E. apply cons_eq_inv in E. destruct E as [E1 E2]. unfold upd_rx. cbn [map]. fold (upd_rx r k l1). fold (upd_rx r k l2).
  rewrite (IH l2 E2). f_equal.
  assert (Eid : r_id a = r_id b) by (unfold rx_core in E1; congruence). rewrite Eid.
  destruct (N.eqb (r_id b) r); [apply Hk; exact E1 | exact E1].
Qed.

Lemma ok4_CloseR c kc r : step4_ok_for c kc (CloseR r).
Proof.
  intros s sp0 sp s1 rs w sp1 vs I J Hs Hsp. cbn [step s4_step] in *.
  destruct (live_rx r s) as [x|] eqn:Hl; [|same Hs Hsp J].
  destruct (r_closed x) eqn:Ec; [same Hs Hsp J|].
  apply live_rx_spec in Hl. destruct Hl as [Hx Hlive].
  destruct (pair4_rx _ _ _ _ _ _ J Hx) as [y [Hy [Hinx [Hiny HR]]]].
  injection Hs as <- <- <-. rewrite Hy in Hsp. injection Hsp as <- <-. split.
  - (* mark the handle closed and count it out; close_internal does the rest within the frame *)
    eapply inv4_frame; [|apply close_internal_frame].
    apply (inv4_upd_rx_gen c kc s sp r x y (fun y0 => rx_set_closed y0 true)
             (fun y0 => rx4_set y0 (a_live y0) true (a_sawdisc y0)) _ (i_rnd _ _ _ I)); auto.
    + destruct HR. constructor; cbn; auto.
    + intros A B. change (disp_alive (st_set_rxs s (upd_rx r (fun y0 => rx_set_closed y0 true) (rxs s)))) with (disp_alive s).
      cbn [rxs st_set_rxs]. rewrite B, find_rx_upd, Hx by reflexivity.
      unfold rx_open_m. cbn. rewrite Hlive, Ec. cbn. clear. lia.
    + cbn. intros A B C. apply (j_quiet J A x Hinx B C).
  - intros v0 Hv0. destruct (a_closed y) eqn:Ea; [|destruct Hv0]. destruct Hv0 as [<-|[]]. cbn.
    destruct (fix07 c || kc) eqn:Ek; [|reflexivity].
    pose proof (p_cl1 HR Hlive Ea Ek). congruence.
Qed.

Lemma ok4_ConvR c kc r : (kc = false) -> step4_ok_for c kc (ConvR r).
Proof.
  intros Hkc s sp0 sp s1 rs w sp1 vs I J Hs Hsp. cbn [step s4_step] in *.
  destruct (live_rx r s) as [x|] eqn:Hl; [|same Hs Hsp J].
  destruct (rx_busy r s); [same Hs Hsp J|].
  injection Hs as <- <- <-. injection Hsp as <- <-. split; [|apply vs4_ok_nil].
  apply live_rx_spec in Hl. destruct Hl as [Hx Hlive].
  destruct (pair4_rx _ _ _ _ _ _ J Hx) as [y [Hy [Hinx [Hiny HR]]]].
  rewrite <- (s4_set_rx_same sp). rewrite <- (upd_id_same a_id r (s4_rx sp)).
  apply (inv4_upd_rx c kc s sp r x y _ _ (i_rnd _ _ _ I)); auto.
  - destruct HR. constructor; cbn; auto.
    + intros A B C. rewrite Hkc, orb_false_r in C. rewrite C. cbn. apply p_cl1; auto. rewrite C. reflexivity.
    + intros A B C. apply andb_true_iff in C. destruct C as [_ C]. auto.
    + intros; congruence.
  - intros A. rewrite Hkc, orb_false_r in A. unfold rx_open_m. cbn. rewrite A. reflexivity.
  - cbn. intros A B C. apply (j_quiet J A x Hinx B C).
Qed.

Lemma ok4_DropR c kc r : step4_ok_for c kc (DropR r).
Proof.
  intros s sp0 sp s1 rs w sp1 vs I J Hs Hsp. cbn [step s4_step] in *.
  destruct (live_rx r s) as [x|] eqn:Hl; [|same Hs Hsp J].
  destruct (rx_busy r s) eqn:Hb; [same Hs Hsp J|].
  injection Hs as <- <- <-. injection Hsp as <- <-. split; [|apply vs4_ok_nil].
  apply live_rx_spec in Hl. destruct Hl as [Hx Hlive].
  destruct (pair4_rx _ _ _ _ _ _ J Hx) as [y [Hy [Hinx [Hiny HR]]]].
  set (sA := st_set_rxs s (upd_rx r (fun y0 => rx_set_closed y0 true) (rxs s))).
  set (run := if r_async x && negb (fix07 c) then true else negb (r_closed x)).
  set (s2 := if run then rx_close_internal c r sA else sA).
  set (kill := fun y0 => rx_set_mb (rx_set_live y0 false) (fst (mb_disconnect (r_mb y0)))).
  set (f := fun z => kill (rx_set_closed z true)).
  assert (Hf : find_rx r (rxs sA) = Some (rx_set_closed x true)).
  { unfold sA. cbn [rxs st_set_rxs]. rewrite find_rx_upd by reflexivity. rewrite Hx, N.eqb_refl. reflexivity. }
  set (k2 := (if run && disp_alive s then rcount s - 1 else rcount s)%Z).
  assert (Hs2 : subs_frame (st_set_rcount sA k2) s2).
  { unfold s2, k2. destruct run; cbn [andb]; [|unfold subs_frame; auto 6].
    pose proof (close_internal_frame c r sA) as Fr. rewrite Hf in Fr. exact Fr. }
  destruct Hs2 as [B1 [B2 [B3 [B4 B5]]]]. cbn [txs rcount scount futs rxs st_set_rcount] in B1, B2, B3, B4, B5.
  apply (inv4_frame c kc (st_set_rcount (st_set_rxs s (upd_rx r f (rxs s))) k2)).
  - apply (inv4_upd_rx_gen c kc s sp r x y f (fun y0 => rx4_set y0 false (a_closed y0) (a_sawdisc y0)) _ (i_rnd _ _ _ I)); auto.
    + destruct HR. constructor; cbn; auto; try (intros; discriminate).
    + intros A B. unfold k2. rewrite B, andb_true_r. unfold rx_open_m at 2. cbn [f kill r_live rx_set_mb rx_set_live]. cbn [andb Nat.b2n].
      assert (Hrun : run = negb (r_closed x)).
      { unfold run. apply orb_true_iff in A. destruct A as [A|A].
        - rewrite A. cbn. rewrite andb_false_r. reflexivity.
        - rewrite (p_sync HR A). reflexivity. }
      rewrite Hrun. unfold rx_open_m. rewrite Hlive. cbn [andb]. clear. destruct (r_closed x); cbn; lia.
    + cbn. intros; discriminate.
  - unfold subs_frame. cbn [txs rcount scount futs rxs st_set_rxs st_set_rcount]. repeat split; auto.
    rewrite (core_upd_cong r kill (rxs s2) (rxs sA) B5).
    + unfold sA. cbn [rxs st_set_rxs]. rewrite (upd_id_comp r_id) by reflexivity. reflexivity.
    + intros z1 z2 E. unfold rx_core in *. injection E as E1 E2 E3 E4 E5. unfold kill. cbn. rewrite E1, E3, E4, E5. reflexivity.
Qed.

Definition not_conv_r (o : op) : Prop := match o with ConvR _ => False | _ => True end.

Lemma ok4_CloneR c kc r r' : step4_ok_for c kc (CloneR r r').
Proof.
  intros s sp0 sp s1 rs w sp1 vs I J Hs Hsp. cbn [step s4_step] in *.
  destruct (live_rx r s) as [x|] eqn:Hl; [|same Hs Hsp J].
  destruct (find_rx r' (rxs s)) as [x'|] eqn:Hf'; [same Hs Hsp J|].
  apply live_rx_spec in Hl. destruct Hl as [Hx Hlive].
  destruct (pair4_rx _ _ _ _ _ _ J Hx) as [y [Hy [Hinx [Hiny HR]]]].
  rewrite Hy, (none4_rx _ _ _ _ _ J Hf') in Hsp.
  set (yn := {| a_id := r'; a_live := true; a_closed := false; a_sawdisc := false |}) in *.
  (* the new record, born open, and born disconnected only in a quiet channel *)
  assert (Hadd : forall xn rc', r_id xn = r' -> r_live xn = true -> r_async xn = r_async x ->
            (disp_alive s = true -> r_closed xn = false) ->
            (fix07 c || kc = true -> disp_alive s = true -> rc' = (rcount s + 1)%Z) ->
            (m_disc (r_mb xn) = true -> quiet (txs s)) ->
            Inv4 c kc (st_set_rcount (st_set_rxs s (rxs s ++ [xn])) rc') (s4_set_rx sp (s4_rx sp ++ [yn]))).
  { intros xn rc' E1 E2 E3 E4 Hrc Hq. apply inv4_set_rxs; [exact J | | |].
    - apply Forall2_snoc; [apply (j_rx J)|].
      constructor; cbn; auto; try (intros; discriminate).
      + intros _ B C. rewrite (E4 B) in C. discriminate.
      + intros A. rewrite E3. apply (p_sync HR A).
    - intros A B. rewrite (Hrc A B), filter_app, app_length, (j_cnt J A B). cbn [filter].
      replace (rx_open_m xn) with true by (unfold rx_open_m; rewrite E2, (E4 B); reflexivity). cbn. clear. lia.
    - intros A x0 Hx0 Hl0 Hd0. apply in_app_or in Hx0. destruct Hx0 as [Hx0|[<-|[]]]; [|auto].
      apply (j_quiet J A x0 Hx0 Hl0 Hd0). }
  destruct (disp_alive s) eqn:Eda; injection Hs as <- <- <-; injection Hsp as <- <-; (split; [|apply vs4_ok_nil]).
  - eapply inv4_frame; [|exact (fold_frame (fun t a => subscribe_core r' t a) (r_subs x) (fun t s0 => subscribe_core_frame r' t s0) _)].
    apply (Hadd _ (rcount s + 1)%Z); auto. cbn.
    intros Hd. apply andb_true_iff in Hd. destruct Hd as [Hd Hz]. apply andb_true_iff in Hd. destruct Hd as [_ F4].
    apply Z.eqb_eq in Hz. apply quiet_count. rewrite (inv_sc _ _ _ I F4) in Hz. clear - Hz. lia.
  - apply (Hadd (new_rx r' (r_async x) true 0 (fix05 c)) (rcount s)); auto; try discriminate.
    intros _. apply da_false_quiet. exact Eda.
Qed.

Theorem step4_ok c kc o : (kc = true -> not_conv_r o) -> step4_ok_for c kc o.
Proof.
  intros Hk. destruct o; try (apply ok4_recv; exact Logic.I); try (apply ok4_observers; exact Logic.I);
    try (apply ok4_futs_subs; exact Logic.I).
  - apply ok4_Publish.
  - apply ok4_CloneS.
  - apply ok4_CloseS.
  - apply ok4_DropS.
  - apply ok4_ConvS.
  - apply ok4_CloneR.
  - apply ok4_CloseR.
  - apply ok4_DropR.
  - apply ok4_ConvR. destruct kc; [destruct (Hk eq_refl) | reflexivity].
Qed.

Lemma check4_sound c kc : forall h s sp sp4,
  (kc = true -> Forall not_conv_r h) -> Inv c s sp -> Inv4 c kc s sp4 ->
  forall v, In v (check4_from c s sp4 h) ->
  exists h1 h2, h = h1 ++ h2 /\ v4_ok c kc (state_from c s h1) v /\ Inv c (state_from c s h1) (spec_from c s sp h1).
Proof.
  induction h as [|o h IH]; intros s sp sp4 Hk I J v Hv; [destruct Hv|].
  cbn [check4_from] in Hv. destruct (step c s o) as [s1 [rs w]] eqn:Es.
  destruct (s4_step sp4 o rs) as [sp41 vs] eqn:Ep.
  assert (Hko : kc = true -> not_conv_r o).
  { intros A. specialize (Hk A). inversion Hk; assumption. }
  assert (Hkh : kc = true -> Forall not_conv_r h).
  { intros A. specialize (Hk A). inversion Hk; assumption. }
  destruct (step4_ok c kc o Hko s sp sp4 s1 rs w sp41 vs I J Es Ep) as [J1 Hvs].
  destruct (sp_step sp o rs) as [sp1 vs0] eqn:Ep0.
  destruct (step_ok c o s sp s1 rs w sp1 vs0 I Es Ep0) as [I1 _].
  apply in_app_or in Hv. destruct Hv as [Hv|Hv].
  - exists [], (o :: h). split; [reflexivity|]. split; [apply Hvs; exact Hv | exact I].
  - destruct (IH s1 sp1 sp41 Hkh I1 J1 v Hv) as [h1 [h2 [E [Hok I2]]]].
    exists (o :: h1), h2. split; [rewrite E; reflexivity|].
    rewrite state_from_cons, spec_from_cons, Es. cbn [fst snd]. rewrite Ep0. cbn [fst]. auto.
Qed.

Lemma violations4_sound c kc a cap h v :
  (kc = true -> a = false /\ Forall not_conv_r h) ->
  In v (violations4 c a cap h) ->
  exists h1 h2, h = h1 ++ h2 /\ v4_ok c kc (state_from c (init a cap) h1) v /\
                Inv c (state_from c (init a cap) h1) (spec_after c a cap h1).
Proof.
  intros Hk Hv. unfold violations4 in Hv. unfold spec_after.
  eapply (check4_sound c kc h (init a cap) (sp_init cap) s4_init); eauto.
  - intros A. apply Hk. exact A.
  - apply inv_init.
  - apply inv4_init. intros A. apply Hk. exact A.
Qed.

(** the theorems *)
(* never, for any fix switches: a closed sender handle accepting a send, or closing twice *)
Theorem c04_closed_sender_rejects c a cap h s :
  ~ In (V4ClosedTxAccepts s) (violations4 c a cap h) /\ ~ In (V4DoubleCloseTx s) (violations4 c a cap h).
Proof.
  split; intros Hv; destruct (violations4_sound c false a cap h _ (fun A => ltac:(discriminate)) Hv) as [h1 [h2 [_ [Hok _]]]];
    exact Hok.
Qed.

(* receiver count: with patch F-07, and on the current code for sync channels whose receivers are never converted *)
Definition count_clause (v : clause4) : Prop :=
  match v with V4SendAfterLastRx _ | V4ClosedWithLiveRx _ | V4DoubleCloseRx _ => True | _ => False end.

Theorem c04_count_postfix_F07 c : fix07 c = true ->
  forall a cap h v, count_clause v -> ~ In v (violations4 c a cap h).
Proof.
  intros F7 a cap h v Hc Hv.
  destruct (violations4_sound c false a cap h _ (fun A => ltac:(discriminate)) Hv) as [h1 [h2 [_ [Hok _]]]].
  destruct v; try contradiction; cbn in Hok; rewrite F7 in Hok; discriminate.
Qed.

Theorem c04_count_except_F07 c cap h v :
  Forall not_conv_r h -> count_clause v -> ~ In v (violations4 c false cap h).
Proof.
  intros Hf Hc Hv.
  destruct (violations4_sound c true false cap h _ (fun _ => conj eq_refl Hf) Hv) as [h1 [h2 [_ [Hok _]]]].
  destruct v; try contradiction; cbn in Hok; rewrite orb_true_r in Hok; discriminate.
Qed.

(* a handle that observed Disconnected never obtains a value afterwards *)
Theorem c04_value_after_disc_postfix_F04 c : fix04 c = true ->
  forall a cap h r, ~ In (V4ValueAfterDisc r) (violations4 c a cap h).
Proof.
  intros F4 a cap h r Hv.
  destruct (violations4_sound c false a cap h _ (fun A => ltac:(discriminate)) Hv) as [h1 [h2 [_ [Hok _]]]].
  cbn in Hok. unfold cls_of in Hok. rewrite F4 in Hok. discriminate.
Qed.

Theorem c04_value_after_disc_except_F04 c a cap h r :
  Forall not_clone_s h -> ~ In (V4ValueAfterDisc r) (violations4 c a cap h).
Proof.
  intros Hf Hv.
  destruct (violations4_sound c false a cap h _ (fun A => ltac:(discriminate)) Hv) as [h1 [h2 [E [Hok I]]]].
  cbn in Hok. unfold cls_of in Hok. apply orb_false_iff in Hok. destruct Hok as [_ Hok].
  rewrite (Forall2_len _ _ _ (i_tx _ _ _ I)) in Hok. unfold spec_after in Hok.
  rewrite spec_from_single in Hok; [cbn in Hok; discriminate|].
  rewrite E in Hf. apply Forall_app in Hf. tauto.
Qed.

(* F-03 (topic): a closed receiver handle keeps handing out values / "empty": refuted for every choice of switches *)
Definition closed_rx_rejects (c : cfg) : Prop := forall a cap h r, ~ In (V4ClosedRxAccepts r) (violations4 c a cap h).

Definition w_F03 : list op := [CloseR 0; TryRecv 0].

Theorem c04_closed_rx_refuted_F03 : ~ closed_rx_rejects pre_fix /\ ~ closed_rx_rejects post_fix.
Proof.
  split; intros H; apply (H false 2 w_F03 0); vm_compute; left; reflexivity.
Qed.

(* witnesses of the other refutations *)
Definition C04_full (c : cfg) : Prop :=
  forall a cap h v, In v (violations4 c a cap h) -> match v with V4ClosedRxAccepts _ => True | _ => False end.

Definition w_F07_conv : list op := [CloneR 0 1; CloseR 0; ConvR 0; CloseR 0; Publish 0 0 1].
Definition w_F07_adrop : list op := [CloneR 0 1; CloseR 0; DropR 0; Publish 0 0 1].
Definition w_F07_under : list op := [CloseR 0; DropR 0; Publish 0 0 1].
Definition w_F04_val : list op := [Subscribe 0 1; CloneS 0 1; DropS 1; TryRecv 0; Publish 0 1 8; TryRecv 0].
Definition w_F04_zombie : list op := [Subscribe 0 1; CloseS 0; CloneS 0 1; TryRecv 0; Publish 1 1 8; TryRecv 0].

Lemma witness_F07_conv : violations4 pre_fix false 2 w_F07_conv = [V4DoubleCloseRx 0; V4ClosedWithLiveRx 0].
Proof. vm_compute. reflexivity. Qed.
Lemma witness_F07_adrop : violations4 pre_fix true 2 w_F07_adrop = [V4ClosedWithLiveRx 0].
Proof. vm_compute. reflexivity. Qed.
Lemma witness_F07_under : violations4 pre_fix true 2 w_F07_under = [V4SendAfterLastRx 0].
Proof. vm_compute. reflexivity. Qed.
Lemma witness_F04_val : violations4 pre_fix false 2 w_F04_val = [V4ValueAfterDisc 0].
Proof. vm_compute. reflexivity. Qed.
Lemma witness_F04_zombie : violations4 pre_fix false 2 w_F04_zombie = [V4ValueAfterDisc 0].
Proof. vm_compute. reflexivity. Qed.
Lemma witnesses4_postfix :
  violations4 post_fix false 2 w_F07_conv = [] /\ violations4 post_fix true 2 w_F07_adrop = [] /\
  violations4 post_fix true 2 w_F07_under = [] /\ violations4 post_fix false 2 w_F04_val = [] /\
  violations4 post_fix false 2 w_F04_zombie = [].
Proof. vm_compute. auto 6. Qed.

Theorem c04_refuted_F07 : ~ C04_full pre_fix.
Proof. intros H. specialize (H true 2 w_F07_under (V4SendAfterLastRx 0)). apply H. vm_compute. left. reflexivity. Qed.
Theorem c04_refuted_F04 : ~ C04_full pre_fix.
Proof. intros H. specialize (H false 2 w_F04_val (V4ValueAfterDisc 0)). apply H. vm_compute. left. reflexivity. Qed.

(* with the patches every clause but the closed-receiver one holds *)
Theorem c04_postfix c : fix04 c = true -> fix07 c = true -> C04_full c.
Proof.
  intros F4 F7 a cap h v Hv. destruct v; try exact Logic.I; exfalso.
  - eapply c04_value_after_disc_postfix_F04; eauto.
  - eapply (c04_count_postfix_F07 c F7 a cap h (V4SendAfterLastRx s)); [exact Logic.I | exact Hv].
  - eapply (c04_count_postfix_F07 c F7 a cap h (V4ClosedWithLiveRx s)); [exact Logic.I | exact Hv].
  - eapply (proj1 (c04_closed_sender_rejects c a cap h s)); exact Hv.
  - eapply (proj2 (c04_closed_sender_rejects c a cap h s)); exact Hv.
  - eapply (c04_count_postfix_F07 c F7 a cap h (V4DoubleCloseRx r)); [exact Logic.I | exact Hv].
Qed.
