(* Proofs/SpmcDropProofs.v — C09 for the broadcast SPMC channel: conservation of payloads in the K2 model
   Chan/SpmcOps.v, for ALL op histories.  Every payload instance entrusted to the channel (an argument of a
   send form or of a send-future constructor) and every clone handed to a receiver is, at any time, in exactly
   one place: dropped (`dlog`), resident in a slot (`resident`, until the last handle goes), or still held by a
   live send future.  `TC s v` counts id v over the three places; `stepR_TC` reads its change off `stepR`. *)
From Fibre Require Import Common.Base Chan.SpmcOps Proofs.SpmcOpsProofs Proofs.SpmcWakeProofs.
From Coq Require Import ZifyBool ZifyNat ZifyN.

Definition cnt (v : N) (l : list N) : nat := count_occ N.eq_dec l v.

Lemma cnt_app l1 l2 v : cnt v (l1 ++ l2) = (cnt v l1 + cnt v l2)%nat.
Proof. apply count_occ_app. Qed.
Lemma cnt_nil v : cnt v [] = 0%nat.
Proof. reflexivity. Qed.
Lemma cnt_cons x l v : cnt v (x :: l) = (cnt v [x] + cnt v l)%nat.
Proof. change (x :: l) with ([x] ++ l). apply cnt_app. Qed.

Definition hv (x : fut) : list N := if f_live x then held (f_kind x) else [].
Definition held_all (s : st) : list N := flat_map (fun p => hv (snd p)) (futs s).
Definition resident' (s : st) : list N := if all_dead s then [] else resident s.

(* the conserved quantity, per id *)
Definition TC (s : st) (v : N) : nat := (cnt v (dlog s) + cnt v (resident' s) + cnt v (held_all s))%nat.

(* what an op entrusts to the channel, and every value its result hands to a receiver *)
Definition offered_of (o : op) (x : out) : list N :=
  match x with
  | ONA | OWouldBlock => []
  | _ =>
    match o with
    | TrySend v | Send v | MkSend _ v => [v]
    | TrySendB vs | TrySendM vs | SendB vs | SendM vs | MkSendB _ vs | MkSendM _ vs => vs
    | _ => []
    end
  end.

Fixpoint allvals (o : out) : list N :=
  match o with
  | OVal _ v => [v]
  | OVals _ vs => vs
  | OReady o' => allvals o'
  | _ => []
  end.

Lemma held_set l f x v :
  (cnt v (flat_map (fun p => hv (snd p)) (set l f x)) +
   cnt v (match get l f with Some x0 => hv x0 | None => [] end)
   = cnt v (flat_map (fun p => hv (snd p)) l) + cnt v (hv x))%nat.
Proof.
  induction l as [|[k a] t IH]; cbn [set get flat_map snd].
  - rewrite app_nil_r, cnt_nil. lia.
  - destruct (N.eqb_spec f k) as [->|Hn]; cbn [flat_map snd]; rewrite !cnt_app; lia.
Qed.

Lemma hv_mark w f x : hv (snd (mark w (f, x))) = hv x.
Proof. unfold hv, mark. destruct (f_wait x) as [w'|]; [destruct (N.eqb w w')|]; reflexivity. Qed.

Lemma hv_displace w f g x : hv (snd (displace w f (g, x))) = hv x.
Proof.
  unfold hv, displace. destruct (N.eqb g f); [reflexivity|].
  destruct (fut_rx (f_kind x)); [reflexivity|]. destruct (f_wait x) as [w'|]; [destruct (N.eqb w w')|]; reflexivity.
Qed.

Lemma held_map (g : N * fut -> N * fut) l :
  (forall k x, hv (snd (g (k, x))) = hv x) ->
  flat_map (fun p => hv (snd p)) (map g l) = flat_map (fun p => hv (snd p)) l.
Proof.
  intros H. induction l as [|[k x] t IH]; [reflexivity|]. cbn [map flat_map]. rewrite IH, H. reflexivity.
Qed.

(* ------------------------------------------------------------------ primitives that touch neither the
   three components nor what any single future holds *)
Definition hvf (s : st) (f : N) : list N := match get (futs s) f with Some x0 => hv x0 | None => [] end.
Definition sameF (s s' : st) : Prop := forall f, hvf s' f = hvf s f.

Definition sameK (s s' : st) : Prop :=
  dlog s' = dlog s /\ log s' = log s /\ cap s' = cap s /\ rxs s' = rxs s /\ s_alive s' = s_alive s /\
  held_all s' = held_all s /\ sameF s s'.

Lemma sameK_refl s : sameK s s.
Proof. repeat split. Qed.

Lemma sameK_trans s1 s2 s3 : sameK s1 s2 -> sameK s2 s3 -> sameK s1 s3.
Proof.
  intros (A1 & A2 & A3 & A4 & A5 & A6 & A7) (B1 & B2 & B3 & B4 & B5 & B6 & B7).
  repeat split; congruence.
Qed.

Lemma sameK_F s s' : sameK s s' -> sameF s s'.
Proof. intros (_ & _ & _ & _ & _ & _ & H). exact H. Qed.

Lemma sameK_TC s s' v : sameK s s' -> TC s' v = TC s v.
Proof.
  intros (A1 & A2 & A3 & A4 & A5 & A6 & _). unfold TC, resident', all_dead, resident, head.
  rewrite A1, A2, A3, A4, A5, A6. reflexivity.
Qed.

Lemma sameK_wake w s : sameK s (wake w s).
Proof.
  do 5 (split; [reflexivity|]). split; [|intros g]; unfold held_all, hvf, wake; cbn [set_futs set_wlog futs].
  - apply held_map, hv_mark.
  - rewrite get_map_mark. destruct (get (futs s) g); [apply hv_mark|reflexivity].
Qed.

Lemma sameK_wake_list ws : forall s, sameK s (wake_list ws s).
Proof.
  induction ws as [|w t IH]; intros s; [apply sameK_refl|]. cbn [wake_list fold_left].
  change (sameK s (wake_list t (wake w s))). eapply sameK_trans; [apply sameK_wake|apply IH].
Qed.

Lemma sameK_wake_producer s : sameK s (wake_producer s).
Proof.
  unfold wake_producer. destruct (pw s); [|apply sameK_refl].
  eapply sameK_trans; [|apply sameK_wake]. repeat split.
Qed.

Lemma sameK_drain k s : sameK s (drain k s).
Proof. unfold drain. eapply sameK_trans; [|apply sameK_wake_list]. repeat split. Qed.

Lemma sameK_wake_all s : sameK s (wake_all s).
Proof. unfold wake_all. eapply sameK_trans; [|apply sameK_wake_list]. repeat split. Qed.

Lemma sameK_register k w s : sameK s (register k w s).
Proof. unfold register. destruct (has_reg k w (regs s)); repeat split. Qed.

Lemma sameK_reg_producer f w s : sameK s (reg_producer f w s).
Proof.
  do 5 (split; [reflexivity|]). split; [|intros g]; unfold held_all, hvf, reg_producer; cbn [set_pw set_futs futs].
  - apply held_map, hv_displace.
  - rewrite get_map_displace. destruct (get (futs s) g); [apply hv_displace|reflexivity].
Qed.

Lemma sameF_write_many vs : forall s, sameF s (write_many vs s).
Proof.
  induction vs as [|v t IH]; intros s f; [reflexivity|]. cbn [write_many fold_left].
  change (hvf (write_many t (write1 v s)) f = hvf s f). rewrite IH, write1_eq.
  rewrite (sameK_F _ _ (sameK_drain _ _) f). reflexivity.
Qed.

Lemma TC_add_drops s l v : TC (add_drops s l) v = (TC s v + cnt v l)%nat.
Proof.
  unfold TC. change (resident' (add_drops s l)) with (resident' s). change (held_all (add_drops s l)) with (held_all s).
  cbn [add_drops dlog]. rewrite cnt_app. lia.
Qed.

Lemma all_dead_alive s : s_alive s = true -> all_dead s = false.
Proof. unfold all_dead. intros ->. reflexivity. Qed.

Lemma all_dead_live_rx s r x : get (rxs s) r = Some x -> r_live x = true -> all_dead s = false.
Proof.
  intros Hg Hl. unfold all_dead. apply andb_false_iff. right.
  destruct (forallb (fun p => negb (r_live (snd p))) (rxs s)) eqn:E; [|reflexivity].
  rewrite forallb_forall in E. specialize (E (r, x) (get_In _ _ _ Hg)). cbn [snd] in E. rewrite Hl in E. discriminate.
Qed.

Lemma skipn_app_le {A} n (l1 l2 : list A) : (n <= length l1)%nat -> skipn n (l1 ++ l2) = skipn n l1 ++ l2.
Proof.
  intros H. rewrite skipn_app. replace (n - length l1)%nat with 0%nat by lia. reflexivity.
Qed.

Lemma TC_write1 v s x :
  s_alive s = true -> 0 < cap s -> TC (write1 v s) x = (TC s x + cnt x [v])%nat.
Proof.
  intros Ha Hc. rewrite write1_eq, (sameK_TC _ _ x (sameK_drain _ _)).
  unfold TC, resident'. rewrite !all_dead_alive by exact Ha.
  cbn [set_log add_drops dlog]. unfold resident, head, skipnN. cbn [set_log add_drops log cap].
  rewrite lenN_app. fold (head s). set (h := head s). replace (lenN [v]) with 1 by reflexivity.
  change (held_all (set_log _ _)) with (held_all s).
  destruct (N.leb_spec (cap s) h) as [Hge|Hlt].
  - (* the slot held index h - cap: its original is dropped now *)
    replace (N.to_nat (h + 1 - N.min (h + 1) (cap s))) with (S (N.to_nat (h - cap s))) by lia.
    replace (N.to_nat (h - N.min h (cap s))) with (N.to_nat (h - cap s)) by lia.
    assert (Hlen : (N.to_nat (h - cap s) < length (log s))%nat) by (unfold h, head, lenN in *; lia).
    rewrite skipn_app_le by lia.
    rewrite (skipn_cons_nth 0 (N.to_nat (h - cap s)) (log s) Hlen).
    rewrite (cnt_cons (nth (N.to_nat (h - cap s)) (log s) 0) (skipn (S (N.to_nat (h - cap s))) (log s))).
    rewrite !cnt_app. lia.
  - replace (N.to_nat (h + 1 - N.min (h + 1) (cap s))) with 0%nat by lia.
    replace (N.to_nat (h - N.min h (cap s))) with 0%nat by lia.
    cbn [skipn]. rewrite !cnt_app, cnt_nil. lia.
Qed.

Lemma write1_keeps v s : s_alive (write1 v s) = s_alive s /\ cap (write1 v s) = cap s.
Proof.
  pose proof (proj_write1 v s) as H. split.
  - change (c_alive (proj (write1 v s)) = s_alive s). rewrite H. reflexivity.
  - change (c_cap (proj (write1 v s)) = cap s). rewrite H. reflexivity.
Qed.

Lemma TC_write_many vs : forall s x,
  s_alive s = true -> 0 < cap s -> TC (write_many vs s) x = (TC s x + cnt x vs)%nat.
Proof.
  induction vs as [|v t IH]; intros s x Ha Hc; [cbn [write_many fold_left]; rewrite cnt_nil; lia|].
  cbn [write_many fold_left]. change (TC (write_many t (write1 v s)) x = (TC s x + cnt x (v :: t))%nat).
  destruct (write1_keeps v s) as [Ha1 Hc1].
  rewrite IH by congruence. rewrite TC_write1 by assumption. rewrite (cnt_cons v t). lia.
Qed.

(* receiver records: as long as liveness does not change, nothing moves *)
Lemma forallb_set_live l r x x' :
  get l r = Some x -> r_live x' = r_live x ->
  forallb (fun p => negb (r_live (snd p))) (set l r x') = forallb (fun p => negb (r_live (snd p))) l.
Proof.
  intros Hg Hl. induction l as [|[k a] t IH]; cbn [get] in Hg; [discriminate|]. cbn [set].
  destruct (N.eqb_spec r k) as [->|Hn].
  - inversion Hg; subst a. cbn [forallb snd]. rewrite Hl. reflexivity.
  - cbn [forallb snd]. rewrite IH by exact Hg. reflexivity.
Qed.

Lemma TC_set_rx_same_live s r x x' v :
  get (rxs s) r = Some x -> r_live x' = r_live x -> TC (set_rx s r x') v = TC s v.
Proof.
  intros Hg Hl. unfold TC, resident', all_dead. cbn [set_rx set_rxs s_alive rxs dlog].
  rewrite (forallb_set_live _ _ _ _ Hg Hl). reflexivity.
Qed.

Lemma TC_set_rx_clone s c xc v :
  s_alive s = true \/ (exists r x, get (rxs s) r = Some x /\ r_live x = true) ->
  get (rxs s) c = None -> r_live xc = true -> TC (set_rx s c xc) v = TC s v.
Proof.
  intros Hlive Hn Hl. unfold TC, resident'.
  assert (H0 : all_dead s = false).
  { destruct Hlive as [Ha|(r & x & Hg & Hx)]; [apply all_dead_alive; exact Ha|eapply all_dead_live_rx; eauto]. }
  assert (H1 : all_dead (set_rx s c xc) = false).
  { apply (all_dead_live_rx _ c xc); [cbn [set_rx set_rxs rxs]; apply get_set_eq|exact Hl]. }
  rewrite H0, H1. reflexivity.
Qed.

(* the last handle goes: `release` moves the residents to the drop log *)
Definition E (s : st) (v : N) : nat := (cnt v (dlog s) + cnt v (resident s) + cnt v (held_all s))%nat.

Lemma E_same s s' v : dlog s' = dlog s -> log s' = log s -> cap s' = cap s -> held_all s' = held_all s -> E s' v = E s v.
Proof. intros H1 H2 H3 H4. unfold E, resident, head. rewrite H1, H2, H3, H4. reflexivity. Qed.

Lemma TC_release s v : TC (release s) v = E s v.
Proof.
  unfold release, E. destruct (all_dead s) eqn:Ed.
  - unfold TC, resident'. change (all_dead (add_drops s (resident s))) with (all_dead s). rewrite Ed.
    cbn [add_drops dlog]. change (held_all (add_drops s (resident s))) with (held_all s). rewrite cnt_app, cnt_nil. lia.
  - unfold TC, resident'. rewrite Ed. reflexivity.
Qed.

Lemma TC_live s v : all_dead s = false -> TC s v = E s v.
Proof. intros Ed. unfold TC, resident'. rewrite Ed. reflexivity. Qed.

Lemma TC_set_fut s f x v :
  (TC (set_fut s f x) v + cnt v (match get (futs s) f with Some x0 => hv x0 | None => [] end)
   = TC s v + cnt v (hv x))%nat.
Proof.
  unfold TC. change (dlog (set_fut s f x)) with (dlog s). change (resident' (set_fut s f x)) with (resident' s).
  unfold held_all. cbn [set_fut set_futs futs]. pose proof (held_set (futs s) f x v). lia.
Qed.

Lemma TC_kill s f x v : (TC (kill s f x) v + cnt v (hvf s f) = TC s v)%nat.
Proof.
  unfold kill. pose proof (TC_set_fut s f (mkFut (f_kind x) false None false false) v) as H.
  unfold hv at 2 in H. cbn [f_live] in H. rewrite cnt_nil in H. unfold hvf. lia.
Qed.

Lemma TC_pend s f k w v : (TC (pend s f k w) v + cnt v (hvf s f) = TC s v + cnt v (held k))%nat.
Proof.
  unfold pend. pose proof (TC_set_fut s f (mkFut k true (Some w) false false) v) as H.
  unfold hv at 2 in H. cbn [f_live f_kind] in H. unfold hvf. lia.
Qed.
Lemma hvf_live s f x : get (futs s) f = Some x -> f_live x = true -> hvf s f = held (f_kind x).
Proof. intros Hg Hl. unfold hvf, hv. rewrite Hg, Hl. reflexivity. Qed.

Lemma offered_carried o x : x <> ONA -> x <> OWouldBlock -> offered_of o x = carried o.
Proof. destruct x; try congruence; reflexivity. Qed.

Lemma offered_nil o x : carried o = [] -> offered_of o x = [].
Proof. intros H. destruct x; try reflexivity; exact H. Qed.

Lemma quiet_allvals x : quiet x -> allvals x = [].
Proof.
  unfold quiet. induction x as [| | | | | | | | | | |r0 v0|r0 vs0| | | | | | |x0 IH|]; cbn [allvals]; intros H; try reflexivity.
  - specialize (H r0). rewrite vals_of_OVal_eq in H. discriminate H.
  - specialize (H r0). rewrite vals_of_OVals_eq in H. exact H.
  - apply IH. exact H.
Qed.

Lemma allvals_of r x : (forall r', r' <> r -> vals_of r' x = []) -> allvals x = vals_of r x.
Proof.
  induction x as [| | | | | | | | | | |r0 v0|r0 vs0| | | | | | |x0 IH|]; intros H; cbn [allvals vals_of]; try reflexivity.
  - destruct (N.eqb_spec r0 r) as [->|Hn]; [reflexivity|]. specialize (H r0 Hn). rewrite vals_of_OVal_eq in H. discriminate H.
  - destruct (N.eqb_spec r0 r) as [->|Hn]; [reflexivity|]. specialize (H r0 Hn). rewrite vals_of_OVals_eq in H. exact H.
  - apply IH. exact H.
Qed.

Lemma payload_nil s o pf : polled s o pf -> payload pf o = [] -> carried o = [].
Proof. destruct pf as [[f y]|]; [intros (_ & _ & H) _; exact H|auto]. Qed.

(* retiring the polled future takes what it held out of the count *)
Lemma TC_retire pf o s s1 v :
  polled s o pf -> sameF s s1 ->
  (TC (retire pf s1) v + cnt v (payload pf o) = TC s1 v + cnt v (carried o))%nat.
Proof.
  destruct pf as [[f y]|]; cbn [polled retire payload]; [|lia].
  intros (Hg & Hl & ->) Hf. pose proof (TC_kill s1 f y v) as H.
  rewrite (Hf f), (hvf_live s f y Hg Hl) in H. rewrite cnt_nil. lia.
Qed.

Lemma resumes_held k sp ws k' : resumes k sp ws k' -> held k = ws ++ held k'.
Proof.
  destruct k; cbn [resumes held]; try contradiction.
  - intros (_ & -> & ->). reflexivity.
  - intros (-> & -> & _). symmetry. apply firstnN_skipnN.
  - intros (-> & -> & _). symmetry. apply firstnN_skipnN.
Qed.

Lemma new_kind_held o f k : new_kind o = Some (f, k) -> held k = carried o.
Proof. destruct o; intros H; inversion H; reflexivity. Qed.

Lemma stepR_TC s o x s' v :
  stepR s o x s' -> 0 < cap s ->
  TC s' v = (TC s v + cnt v (offered_of o x) + cnt v (allvals x))%nat.
Proof.
  intros H Hc. stepR_cases H.
  - destruct Ex as [-> | ->]; cbn [offered_of allvals]; rewrite cnt_nil; lia.
  - pose proof (TC_retire pf o s s v Epf (fun f => eq_refl)) as Ht.
    rewrite (offered_nil o x (payload_nil s o pf Epf Epay)), (quiet_allvals x Equiet), !cnt_nil.
    rewrite Epay, (payload_nil s o pf Epf Epay), cnt_nil in Ht. lia.
  - destruct Eplain as (Hq & _ & Hn1 & Hn2). pose proof (TC_retire pf o s s v Epf (fun f => eq_refl)) as Ht.
    rewrite TC_add_drops, (offered_carried o x Hn1 Hn2), (quiet_allvals x Hq), cnt_nil. lia.
  - destruct Eplain as (Hq & _ & Hn1 & Hn2).
    pose proof (TC_retire pf o s _ v Epf (sameF_write_many ws s)) as Ht.
    rewrite Epay, cnt_app, (TC_write_many ws s v Ealive Hc) in Ht.
    rewrite TC_add_drops, (offered_carried o x Hn1 Hn2), (quiet_allvals x Hq), cnt_nil. lia.
  - set (s1 := wake_producer (add_drops (set_rx s r (adv y k)) vs)).
    assert (Hf : sameF s s1) by (intros f0; unfold s1; rewrite (sameK_F _ _ (sameK_wake_producer _) f0); reflexivity).
    pose proof (TC_retire pf o s s1 v Epf Hf) as Ht.
    assert (H1' : TC s1 v = (TC s v + cnt v vs)%nat).
    { unfold s1. rewrite (sameK_TC _ _ v (sameK_wake_producer _)), TC_add_drops.
      rewrite (TC_set_rx_same_live s r y (adv y k) v Eget eq_refl). reflexivity. }
    rewrite (offered_nil o x (payload_nil s o pf Epf Epay)), (allvals_of r x Eothers), Evals, cnt_nil.
    rewrite Epay, (payload_nil s o pf Epf Epay), cnt_nil in Ht. lia.
  - pose proof (TC_pend (register (r_cur z mod cap s) w s) f (f_kind y) w v) as Hp.
    rewrite (sameK_F _ _ (sameK_register _ _ _) f), (hvf_live s f y Efut Elive) in Hp.
    rewrite (sameK_TC _ _ v (sameK_register _ _ _)) in Hp. cbn [offered_of allvals]. rewrite !cnt_nil. lia.
  - pose proof (TC_pend (reg_producer f w (write_many ws s)) f k' w v) as Hp.
    rewrite (sameK_F _ _ (sameK_reg_producer _ _ _) f), (sameF_write_many ws s f), (hvf_live s f y Efut Elive) in Hp.
    rewrite (sameK_TC _ _ v (sameK_reg_producer _ _ _)), (TC_write_many ws s v Ealive Hc) in Hp.
    rewrite (resumes_held _ _ _ _ Eres), cnt_app in Hp. cbn [offered_of allvals]. rewrite !cnt_nil. lia.
  - rewrite (sameK_TC _ _ v (sameK_register _ _ _)), (offered_nil o OPending Epay). cbn [allvals]. rewrite !cnt_nil. lia.
  - pose proof (TC_set_fut s f (mkFut k true None false false) v) as Hp. rewrite Efree in Hp.
    unfold hv in Hp. cbn [f_live f_kind] in Hp. rewrite cnt_nil in Hp.
    rewrite (offered_carried o OOk), <- (new_kind_held o f k Ekind) by discriminate. cbn [allvals]. rewrite !cnt_nil. lia.
  - cbn [offered_of allvals]. rewrite !cnt_nil.
    rewrite (sameK_TC _ _ v (sameK_wake_producer _)), (TC_set_rx_same_live s r y (rx_unreg y) v Eget eq_refl). lia.
  - cbn [offered_of allvals]. rewrite !cnt_nil, TC_release, (TC_live s v (all_dead_live_rx s r y Eget Elive)).
    destruct Ecase as [(_ & -> & ->)|(_ & -> & ->)].
    + rewrite (E_same s _ v); try reflexivity. lia.
    + destruct (sameK_wake_producer (set_rx s r (rx_unreg y))) as (K1 & K2 & K3 & K4 & K5 & K6 & _).
      rewrite (E_same (wake_producer (set_rx s r (rx_unreg y))) _ v); try reflexivity.
      rewrite (E_same s _ v); auto. lia.
  - cbn [offered_of allvals]. rewrite !cnt_nil.
    rewrite (TC_set_rx_same_live s r y y' v Eget); [lia|]. subst y'. destruct (fixedm s); cbn [r_live]; congruence.
  - cbn [offered_of allvals]. rewrite !cnt_nil, (TC_set_rx_clone s c yc v); [lia|right; eauto|assumption|].
    subst yc. destruct (fixedm s && r_closed y); reflexivity.
  - cbn [offered_of allvals]. rewrite !cnt_nil. unfold sender_close_internal.
    rewrite (sameK_TC _ _ v (sameK_wake_all _)).
    rewrite !TC_live by (apply all_dead_alive; cbn [set_sender s_alive]; assumption || reflexivity).
    rewrite (E_same s _ v); try reflexivity. lia.
  - cbn [offered_of allvals]. rewrite !cnt_nil, TC_release, (TC_live s) by (apply all_dead_alive; assumption).
    subst s1. destruct (s_closed s).
    + rewrite (E_same s _ v); try reflexivity. lia.
    + destruct (sameK_wake_all (set_sender s (s_alive s) (s_closed s) (s_async s) (s_taint s) true))
        as (K1 & K2 & K3 & K4 & K5 & K6 & _).
      rewrite (E_same (sender_close_internal s) _ v); try reflexivity.
      rewrite (E_same s (sender_close_internal s) v); auto. lia.
  - cbn [offered_of allvals]. rewrite !cnt_nil. subst s'.
    destruct (fixedm s);
      rewrite !TC_live by (apply all_dead_alive; cbn [set_sender s_alive]; assumption || reflexivity);
      rewrite (E_same s _ v); try reflexivity; lia.
Qed.

Fixpoint offered (s : st) (ops : list op) : list N :=
  match ops with
  | [] => []
  | o :: t => offered_of o (snd (step s o)) ++ offered (fst (step s o)) t
  end.

Definition delivered (outs : list out) : list N := flat_map allvals outs.

Lemma cap_step s o : cap (fst (step s o)) = cap s.
Proof.
  destruct (step s o) as [s1 x] eqn:E. cbn [fst]. pose proof (step_shape _ _ _ _ E) as Hsh.
  change (c_cap (proj s1) = c_cap (proj s)). destruct Hsh; reflexivity.
Qed.

Lemma conservation_from ops : forall s v, 0 < cap s ->
  TC (end_of s ops) v = (TC s v + cnt v (offered s ops) + cnt v (delivered (outs_from s ops)))%nat.
Proof.
  induction ops as [|o t IH]; intros s v Hc.
  - cbn [end_of offered outs_from delivered flat_map]. rewrite cnt_nil. lia.
  - cbn [end_of offered outs_from delivered flat_map]. fold (delivered (outs_from (fst (step s o)) t)).
    rewrite IH by (rewrite cap_step; exact Hc). rewrite !cnt_app.
    destruct (step s o) as [s1 x] eqn:E. cbn [fst snd]. rewrite (stepR_TC s o x s1 v (step_stepR _ _ _ _ E) Hc). lia.
Qed.

(* at any point of any history nothing is lost and nothing is duplicated: the drops so far, the values
   still resident in slots and the values still held by live send futures are, as a multiset, exactly
   what was entrusted to the channel plus the clones handed to receivers *)
Theorem spmc_conservation fx c a ops :
  0 < c ->
  let s := end_of (init fx c a) ops in
  Permutation (dlog s ++ resident' s ++ held_all s)
              (offered (init fx c a) ops ++ delivered (outs_from (init fx c a) ops)).
Proof.
  intros Hc s. apply (Permutation_count_occ N.eq_dec). intros v.
  pose proof (conservation_from ops (init fx c a) v Hc) as H. change (TC (init fx c a) v) with 0%nat in H. fold s in H.
  unfold TC in H. fold (cnt v (dlog s ++ resident' s ++ held_all s)).
  fold (cnt v (offered (init fx c a) ops ++ delivered (outs_from (init fx c a) ops))).
  rewrite !cnt_app. lia.
Qed.

(* whatever the order in which handles and futures were dropped: once every handle is gone and no
   future is alive, every payload instance entrusted to the channel and every clone handed to a receiver
   has been dropped exactly once *)
Theorem spmc_drop_exactly_once fx c a ops :
  0 < c ->
  let s := end_of (init fx c a) ops in
  all_dead s = true -> held_all s = [] ->
  Permutation (dlog s) (offered (init fx c a) ops ++ delivered (outs_from (init fx c a) ops)).
Proof.
  intros Hc s Hd Hh. pose proof (spmc_conservation fx c a ops Hc) as H. cbv zeta in H. fold s in H.
  unfold resident' in H. rewrite Hd, Hh in H. cbn [app] in H. rewrite app_nil_r in H. exact H.
Qed.

(* the channel's own share: the originals.  At any time the slots hold exactly the last min(head, cap)
   accepted values, each older original was dropped when its slot was overwritten (write1), and the rest
   go when the last handle goes (release) *)
Theorem spmc_overwrite_drops_previous_lap s v :
  s_alive s = true -> 0 < cap s ->
  dlog (write1 v s) = (if N.leb (cap s) (head s) then [nth (N.to_nat (head s - cap s)) (log s) 0] else []) ++ dlog s
  /\ log (write1 v s) = log s ++ [v].
Proof.
  intros Ha Hc. split.
  - rewrite write1_eq, (proj1 (sameK_drain _ _)). reflexivity.
  - change (c_log (proj (write1 v s)) = log s ++ [v]). rewrite proj_write1. reflexivity.
Qed.
