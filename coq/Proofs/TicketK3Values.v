(* Proofs/TicketK3Values.v — the value invariant VInv of the K3 ticket model: what the consumer has
   taken is the SET payloads below the cursor in ticket order; a thread's SET tickets carry its op
   numbers in increasing order; API results agree with the ticket states (C01, C02).  VInv is
   preserved by each of the state changes the steps make, given SInv of the state before. *)
From Fibre Require Import Common.Base Common.Conc Chan.TicketK3 Proofs.TicketK3Base.
From Coq Require Import ZifyBool ZifyNat ZifyN Arith.

(* number of items of the call in progress whose SET store is done *)
Definition done_of (pc : ppc_t) : N :=
  match pc with
  | PE1 k r | PE2 k r _ | PEs k r _ | PE3 k r _ | PW0 k r | PW1 k r | PN1 k r | PN2 k r | PN3 k r =>
      kitem k + N.min (rw r) (rv r)
  | PB1 b | PL1 b | PC0 b | PC1 b | PC2 b _ | PC3 b _ | PC4 b _ _ => bsent b
  | _ => 0
  end.

(* consumer pcs at which nothing has been taken in the current call *)
Definition dgot0 (d : dctx) : bool := match d with DRun _ _ got => N.eqb got 0 | _ => true end.
Definition fquiet (f : fctx) : bool := match f with FVals => false | _ => true end.
Definition quiet (pc : cpc_t) : bool :=
  match pc with
  | CIdle | CDropSt | CWk _ | CDone | CSa _ => true
  | CLock d | CD1 d | CD2 d | CD3 d | CD4 d | CM1 d | CM2 d => dgot0 d
  | CD5 d set => dgot0 d && negb set
  | CD6 d => match d with DRun _ _ got => N.eqb got 0 | _ => false end
  | CUnl d r => match d with
                | DRun _ _ got => N.eqb got 0
                | _ => match r with QGot => false | _ => true end
                end
  | CP1 u | CP2 u | CP3 u | CP4 u | CP5 u =>
      match u with
      | UbDeq (DRun _ _ got) _ => N.eqb got 0       (* got is already advanced *)
      | UbDeq _ set => negb set
      | UbFlush f => fquiet f
      end
  | CFl f | CFu f => fquiet f
  end.

Definition valsf (tkf : N -> tstat) (a b : N) : list val :=
  flat_map (fun t => tk_val (tkf t)) (nrange a (N.to_nat (b - a))).

Lemma vals_in_valsf s a b : vals_in s a b = valsf (tk s) a b.
Proof. reflexivity. Qed.

Lemma valsf_ext f g a b : (forall t, a <= t < b -> f t = g t) -> valsf f a b = valsf g a b.
Proof.
  intros H. unfold valsf. rewrite !flat_map_concat_map. f_equal. apply map_ext_in.
  intros t Ht. apply in_nrange in Ht. rewrite H by lia. reflexivity.
Qed.

Lemma valsf_snoc f a b : a <= b -> valsf f a (b + 1) = valsf f a b ++ tk_val (f b).
Proof.
  intros H. unfold valsf. replace (N.to_nat (b + 1 - a)) with (N.to_nat (b - a) + 1)%nat by lia.
  rewrite nrange_app, flat_map_app. cbn [nrange flat_map]. rewrite app_nil_r.
  replace (a + N.of_nat (N.to_nat (b - a))) with b by lia. reflexivity.
Qed.

Record same_val (s s' : st) : Prop := {
  sv_tk : tk s' = tk s;
  sv_hpos : hpos s' = hpos s;
  sv_presl : presl s' = presl s;
  sv_pseq : pseq s' = pseq s;
  sv_received : received s' = received s;
  sv_cresl : cresl s' = cresl s;
  sv_chand : chand s' = chand s
}.

Record VInv (s : st) : Prop := {
  V_recv : received s = valsf (tk s) 0 (hpos s) ++ (if taken (cpc s) then tk_val (tk s (hpos s)) else []);
  V_set : forall t th k, tk s t = TSet (th, k) ->
          1 <= k /\ k <= pseq s th + done_of (ppc s th) /\ (k <= pseq s th -> In (POk (th, k)) (presl s th));
  V_fly : forall th i, i < done_of (ppc s th) -> exists t, tk s t = TSet (th, pseq s th + 1 + i);
  V_ord : forall t1 t2 th k1 k2, tk s t1 = TSet (th, k1) -> tk s t2 = TSet (th, k2) -> t1 < t2 -> k1 < k2;
  V_own : forall t t2 th k, tk s t = TSet (th, k) -> tk s t2 = TOwn th -> t < t2;
  V_res : forall th r, In r (presl s th) ->
          exists k, 1 <= k <= pseq s th /\
            ((r = POk (th, k) /\ exists t, tk s t = TSet (th, k)) \/
             ((r = PFull (th, k) \/ r = PClosed (th, k)) /\ forall t, tk s t <> TSet (th, k)));
  V_got : got s ++ chand s = received s;
  V_quiet : quiet (cpc s) = true -> chand s = []
}.

Lemma done_updn pcs u p th : done_of p = done_of (pcs u) -> done_of (updn pcs u p th) = done_of (pcs th).
Proof. intros H. unfold updn. destruct (Nat.eqb_spec th u) as [->|]; [exact H | reflexivity]. Qed.

(* ---------------------------------------------------------------- frames *)
Lemma VInv_p_pure s s' u p :
  VInv s -> same_val s s' -> cpc s' = cpc s -> ppc s' = updn (ppc s) u p ->
  done_of p = done_of (ppc s u) -> VInv s'.
Proof.
  intros [V1 V2 V3 V4 V5 V6 V7 V8] [e1 e2 e3 e4 e5 e6 e7] Ec Ep Hf.
  constructor; unfold got in *; rewrite ?e1, ?e2, ?e3, ?e4, ?e5, ?e6, ?e7, ?Ec, ?Ep; try assumption.
  - intros t th k. rewrite (done_updn _ _ _ _ Hf). apply V2.
  - intros th i. rewrite (done_updn _ _ _ _ Hf). apply V3.
Qed.

Lemma VInv_c_pure s s' p :
  VInv s -> same_val s s' -> ppc s' = ppc s -> cpc s' = p ->
  taken p = taken (cpc s) -> (quiet p = true -> quiet (cpc s) = true) -> VInv s'.
Proof.
  intros [V1 V2 V3 V4 V5 V6 V7 V8] [e1 e2 e3 e4 e5 e6 e7] Ep Ec Ht Hq.
  constructor; unfold got in *; rewrite ?e1, ?e2, ?e3, ?e4, ?e5, ?e6, ?e7, ?Ec, ?Ep, ?Ht; try assumption.
  intros X. apply V8. apply Hq. exact X.
Qed.

Lemma flat_vals_map l : flat_map cres_val (map RVal l) = l.
Proof. induction l as [|v l IH]; cbn [map flat_map cres_val app]; [reflexivity | rewrite IH; reflexivity]. Qed.

(* membership in the result list of a batch call *)
Lemma in_batch_res s u b fail r :
  bsent b <= btotal b ->
  (In r (batch_res s u b fail) <->
   (exists i, i < bsent b /\ r = POk (itemval s u i)) \/
   (exists i, bsent b <= i < btotal b /\ r = fail (itemval s u i))).
Proof.
  intros Hle. unfold batch_res. rewrite in_app_iff, !in_map_iff. split.
  - intros [[i [<- Hi]]|[i [<- Hi]]]; apply in_nrange in Hi; [left | right]; exists i; (split; [lia | reflexivity]).
  - intros [[i [Hi ->]]|[i [Hi ->]]]; [left | right]; exists i; (split; [reflexivity | apply in_nrange; lia]).
Qed.

(* ---------------------------------------------------------------- completion of a producer call *)
Lemma VInv_p_done_batch s u b fail :
  VInv s -> done_of (ppc s u) = bsent b -> bsent b <= btotal b -> fail = PFull \/ fail = PClosed ->
  VInv (p_done_batch s u b fail).
Proof.
  intros [V1 V2 V3 V4 V5 V6 V7 V8] Hd Hle Hf. unfold p_done_batch, p_done_n, set_ppc_at.
  constructor; unfold got; st_goal; try assumption.
  - intros t th k Ht. destruct (V2 _ _ _ Ht) as [Y1 [Y2 Y3]]. split; [exact Y1|].
    destruct (Nat.eqb_spec th u) as [->|Hth].
    + rewrite !updn_eq. cbn [done_of]. rewrite Hd in Y2. split; [lia|]. intros _. apply in_or_app.
      destruct (N.le_gt_cases k (pseq s u)) as [L|L]; [left; apply Y3; exact L|].
      right. apply (in_batch_res s u b fail _ Hle). left. exists (k - pseq s u - 1).
      split; [lia|]. unfold itemval. do 2 f_equal. lia.
    + rewrite !updn_neq by exact Hth. split; assumption.
  - intros th i Hi. destruct (Nat.eqb_spec th u) as [->|Hth].
    + rewrite updn_eq in Hi. cbn [done_of] in Hi. lia.
    + rewrite !updn_neq in * by exact Hth. apply (V3 _ _ Hi).
  - intros th r Hr. destruct (Nat.eqb_spec th u) as [->|Hth].
    + rewrite !updn_eq in *. apply in_app_or in Hr. destruct Hr as [Hin|Hin].
      * destruct (V6 _ _ Hin) as [k [Hk Y]]. exists k. split; [lia | exact Y].
      * apply (in_batch_res s u b fail _ Hle) in Hin. unfold itemval in Hin.
        destruct Hin as [[i [Hi ->]]|[i [Hi ->]]]; exists (pseq s u + 1 + i); (split; [lia|]).
        -- left. split; [reflexivity|]. apply (V3 u i). rewrite Hd. exact Hi.
        -- right. split; [destruct Hf as [->| ->]; auto|].
           intros t Ht. destruct (V2 _ _ _ Ht) as [_ [Z _]]. lia.
    + rewrite !updn_neq in * by exact Hth. apply (V6 _ _ Hr).
Qed.

Lemma VInv_init np pp0 cp0 : VInv (init np pp0 cp0).
Proof.
  constructor; unfold got; cbn [init received tk hpos cpc taken presl cresl pseq ppc chand flat_map app quiet done_of]; try reflexivity.
  - intros t th k H. discriminate H.
  - intros th i H. lia.
  - intros t1 t2 th k1 k2 H. discriminate H.
  - intros t t2 th k H. discriminate H.
  - intros th r [].
Qed.

Section Values.
Variables cap cc n : N.
Hypothesis Hcc : 0 < cc.
Hypothesis Hn : 0 < n.

(* ------------------------------------------------------------ S3 / C3, W1: the ticket states change *)
(* every SET ticket stays; at most one ticket, t0 owned by u, becomes SET, with u's next op number and
   below everything u still owns; a ticket newly owned (by u) lies above every SET one *)
Lemma VInv_tk s s0 u p tk' t0 :
  SInv cap cc n s -> VInv s -> same_val s s0 -> cpc s0 = cpc s -> ppc s0 = ppc s ->
  (forall t v, tk s t = TSet v -> tk' t = TSet v) ->
  (forall t, t < hpos s -> tk' t = tk s t) ->
  (forall t th k, tk' t = TSet (th, k) -> tk s t = TSet (th, k) \/
     (t = t0 /\ th = u /\ k = pseq s u + 1 + done_of (ppc s u) /\ tk s t0 = TOwn u /\
      done_of p = done_of (ppc s u) + 1 /\ forall t2, tk' t2 = TOwn u -> t0 < t2)) ->
  (forall t th, tk' t = TOwn th -> tk s t = TOwn th \/ (th = u /\ forall t1 v, tk s t1 = TSet v -> t1 < t)) ->
  (done_of p = done_of (ppc s u) \/
   (done_of p = done_of (ppc s u) + 1 /\ tk' t0 = TSet (u, pseq s u + 1 + done_of (ppc s u)))) ->
  VInv (set_ppc_at (set_tk s0 tk') u p).
Proof.
  intros I [V1 V2 V3 V4 V5 V6 V7 V8] [e1 e2 e3 e4 e5 e6 e7] Ec Ep Hkeep Hlow Hset Hown Hd.
  assert (Hle : forall th, done_of (ppc s th) <= done_of (updn (ppc s) u p th)).
  { intros th. unfold updn. destruct (Nat.eqb_spec th u) as [->|]; lia. }
  unfold set_ppc_at. constructor; unfold got; st_goal; rewrite ?e2, ?e3, ?e4, ?e5, ?e6, ?e7, ?Ec, ?Ep; try assumption.
  - rewrite V1. f_equal; [apply valsf_ext; intros t L; symmetry; apply Hlow; lia|].
    destruct (taken (cpc s)) eqn:Et; [|reflexivity].
    destruct (taken_set cap cc n Hcc Hn s I Et) as [v Hv]. rewrite (Hkeep _ _ Hv), Hv. reflexivity.
  - intros t th k H. destruct (Hset _ _ _ H) as [H0|[-> [-> [-> [_ [E _]]]]]].
    + destruct (V2 _ _ _ H0) as [Y1 [Y2 Y3]]. specialize (Hle th). repeat split; [exact Y1 | lia | exact Y3].
    + rewrite updn_eq. split; [lia|]. split; [lia|]. intros Y. lia.
  - intros th i Hi. unfold updn in Hi. destruct (Nat.eqb_spec th u) as [->|Hth].
    2: { destruct (V3 _ _ Hi) as [t Ht]. exists t. exact (Hkeep _ _ Ht). }
    destruct (N.lt_ge_cases i (done_of (ppc s u))) as [L|L].
    + destruct (V3 _ _ L) as [t Ht]. exists t. exact (Hkeep _ _ Ht).
    + destruct Hd as [E|[E Ht0]]; [lia|]. exists t0. replace i with (done_of (ppc s u)) by lia. exact Ht0.
  - intros t1 t2 th k1 k2 H1 H2 L.
    destruct (Hset _ _ _ H1) as [H1'|[-> [-> [-> [O1 _]]]]]; destruct (Hset _ _ _ H2) as [H2'|[-> [E2 [-> _]]]].
    + exact (V4 _ _ _ _ _ H1' H2' L).
    + subst th. destruct (V2 _ _ _ H1') as [_ [Y _]]. lia.
    + pose proof (V5 _ _ _ _ H2' O1). lia.
    + lia.
  - intros t t2 th k H1 H2.
    destruct (Hown _ _ H2) as [H2'|[-> Hf]]; destruct (Hset _ _ _ H1) as [H1'|[-> [E [_ [_ [_ Hb]]]]]].
    + exact (V5 _ _ _ _ H1' H2').
    + subst th. exact (Hb _ H2).
    + exact (Hf _ _ H1').
    + exact (Hb _ H2).
  - intros th r Hr. destruct (V6 th r Hr) as [k [Hk [[Hr1 [t Ht]]|[Hr1 Hr2]]]]; exists k; (split; [exact Hk|]).
    + left. split; [exact Hr1|]. exists t. exact (Hkeep _ _ Ht).
    + right. split; [exact Hr1|]. intros t Y.
      destruct (Hset _ _ _ Y) as [Y0|[_ [-> [-> _]]]]; [exact (Hr2 _ Y0) | lia].
Qed.

Lemma VInv_claim s u m p :
  SInv cap cc n s -> VInv s -> done_of p = done_of (ppc s u) ->
  VInv (set_ppc_at (set_tk (set_gtail s (gtail s + m)) (claim (tk s) (gtail s) m u)) u p).
Proof.
  intros I V Hd. pose proof (A_tail _ _ _ _ I) as Htl.
  assert (Hlt : forall t v, tk s t = TSet v -> t < gtail s) by (intros t v; apply (set_below_tail cap cc n s); exact I).
  apply (VInv_tk s _ u p _ 0 I V); [constructor; reflexivity | reflexivity | reflexivity | | | | | left; exact Hd].
  - intros t v H. rewrite claim_out; [exact H | left; exact (Hlt _ _ H)].
  - intros t L. apply claim_out. lia.
  - intros t th k H. left. destruct (claim_cases (tk s) (gtail s) m u t) as [[_ E]|[_ E]]; rewrite E in H; [discriminate H | exact H].
  - intros t th H. destruct (claim_cases (tk s) (gtail s) m u t) as [[L E]|[_ E]]; rewrite E in H; [|left; exact H].
    right. injection H as <-. split; [reflexivity|]. intros t1 v H1. pose proof (Hlt _ _ H1). lia.
Qed.

Lemma VInv_publish s u k r p' X :
  SInv cap cc n s -> VInv s -> ppc s u = PW1 k r ->
  done_of p' = done_of (PW1 k r) + (if rset r then 1 else 0) ->
  VInv (set_ppc_at (set_tk (set_sstate s X)
                           (updN (tk s) (rcur r) (if rset r then TSet (itemval s u (kitem k + rw r)) else TSkip))) u p').
Proof.
  intros I V Epc Hd. set (t := rcur r) in *. set (x' := if rset r then _ else TSkip).
  pose proof (P_inv _ _ _ _ I u) as Pu. rewrite Epc in Pu. destruct Pu as [[Pw _] _].
  assert (Ht : tk s t = TOwn u).
  { apply (B_own _ _ _ _ I). rewrite Epc. unfold owns. cbn [own_lo own_hi]. unfold t, rcur. lia. }
  pose proof (own_ge _ _ _ _ _ _ I Ht) as Hge.
  assert (Hmin : rset r = true -> N.min (rw r) (rv r) = rw r) by (unfold rset; intros Y; apply N.ltb_lt in Y; lia).
  assert (Hx' : forall th, x' <> TOwn th) by (subst x'; destruct (rset r); discriminate).
  apply (VInv_tk s _ u p' _ t I V); [constructor; reflexivity | reflexivity | reflexivity | | | | |].
  - intros t' v H. rewrite updN_neq; [exact H | intros ->; congruence].
  - intros t' L. apply updN_neq. lia.
  - intros t' th k' H. destruct (N.eqb_spec t' t) as [->|N1]; [|rewrite updN_neq in H by exact N1; left; exact H].
    rewrite updN_eq in H. right. subst x'. destruct (rset r) eqn:Ers; [|discriminate H]. injection H as <- <-.
    rewrite Hd, Epc. cbn [done_of]. rewrite (Hmin eq_refl). repeat split; try reflexivity; try assumption.
    intros t2 H2. destruct (N.eqb_spec t2 t) as [->|N2]; [rewrite updN_eq in H2; discriminate H2|].
    rewrite updN_neq in H2 by exact N2. apply (B_own _ _ _ _ I) in H2. rewrite Epc in H2.
    unfold owns in H2. cbn [own_lo own_hi] in H2. unfold t, rcur in *. lia.
  - intros t' th H. left. destruct (N.eqb_spec t' t) as [->|N1]; [rewrite updN_eq in H; destruct (Hx' _ H)|].
    rewrite updN_neq in H by exact N1. exact H.
  - rewrite Hd, Epc, updN_eq. subst x'. cbn [done_of]. destruct (rset r) eqn:Ers; [right | left; lia].
    rewrite (Hmin eq_refl). split; reflexivity.
Qed.

(* ------------------------------------------------------------ D4 *)
Lemma VInv_take s d v X :
  VInv s -> cpc s = CD4 d -> tk s (hpos s) = TSet v ->
  VInv (set_cpc (set_chand (set_received (set_sdata s X) (received s ++ [v])) (chand s ++ [v])) (CD5 d true)).
Proof.
  intros [V1 V2 V3 V4 V5 V6 V7 V8] Epc Hv. rewrite Epc in V1. cbn [taken] in V1. rewrite app_nil_r in V1.
  constructor; unfold got in *; st_goal; try assumption.
  - cbn [taken]. rewrite Hv. cbn [tk_val]. rewrite V1. reflexivity.
  - rewrite app_assoc, V7. reflexivity.
  - cbn [quiet]. rewrite Bool.andb_false_r. discriminate.
Qed.

(* ------------------------------------------------------------ D5 *)
Lemma VInv_advance s d b u p X :
  SInv cap cc n s -> VInv s -> cpc s = CD5 d b -> taken p = false ->
  (quiet p = true -> quiet (CD5 d b) = true) ->
  VInv (set_cpc (set_unpub (set_hpos (set_hidx (set_sstate s X) (hidx s + 1)) (hpos s + 1)) u) p).
Proof.
  intros I [V1 V2 V3 V4 V5 V6 V7 V8] Epc Ht Hq. rewrite Epc in V1, V8.
  (* the ticket under the cursor *)
  assert (Hs : b = false -> tk_val (tk s (hpos s)) = []).
  { intros ->. pose proof (C_inv _ _ _ _ I) as C. rewrite Epc in C. cbn [CInv] in C. destruct C as [C1 [C2 C3]].
    destruct (cursor_slot cap cc n Hcc Hn s I C1 C2) as [S1 _]. unfold hslot in S1. rewrite C3 in S1.
    destruct (tk s (hpos s)); try discriminate S1. reflexivity. }
  constructor; unfold got in *; st_goal; try assumption.
  - rewrite Ht, app_nil_r. rewrite valsf_snoc by lia. rewrite V1. f_equal.
    destruct b; cbn [taken]; [reflexivity | symmetry; apply Hs; reflexivity].
  - intros Y. apply V8. apply Hq. exact Y.
Qed.

(* ------------------------------------------------------------ completion of a consumer call *)
Lemma VInv_c_done_l s rs :
  VInv s -> taken (cpc s) = false -> flat_map cres_val rs = chand s -> VInv (c_done_l s rs).
Proof.
  intros [V1 V2 V3 V4 V5 V6 V7 V8] Ht Hr. unfold c_done_l.
  constructor; unfold got in *; st_goal; try assumption.
  - cbn [taken]. rewrite Ht in V1. exact V1.
  - rewrite flat_map_app, app_nil_r, Hr. exact V7.
  - reflexivity.
Qed.

End Values.
