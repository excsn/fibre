(* Proofs/CacheStepProofs.v — what each operation of Cache/CacheOps.v does, in
   terms of the effect shapes of CacheCoreProofs.v (ueff / mstepx) and of two
   more defined here (write, refr).  [step_kind] is the one case analysis over
   the operations: C12, C13, C16 and well-formedness reason about the six kinds
   of transition, not about the operations. *)
From Fibre Require Import Common.Base Cache.PolicySpec Cache.AMap Cache.CacheOps Cache.CacheSpec
     Proofs.AMapProofs Proofs.CacheCoreProofs.

Lemma fst_let {A B C} (p : A * B) (f : B -> C) : fst (let '(a, b) := p in (a, f b)) = fst p.
Proof. destruct p. reflexivity. Qed.

Lemma snd_let {A B C} (p : A * B) (f : B -> C) : snd (let '(a, b) := p in (a, f b)) = f (snd p).
Proof. destruct p. reflexivity. Qed.

Section Steps.
  Set Default Proof Using "All".
  Variable P : policy.
  Variable c : cfg.
  Hypothesis Hn : 0 < c_shards c.

  Notation state := (state P).
  Notation smap := (smap P).
  Notation sent := (sent P).
  Notation find := (find P c).
  Notation ueff := (ueff P).
  Notation mstep := (mstep P c).
  Notation mstepx := (mstepx P c).
  Notation wfp := (wfp P c).

  Lemma find_ueff s s' i m' dcc de k :
    ueff s s' i m' dcc de -> find s' k = if N.eqb (shard_of c k) i then afind k m' else find s k.
  Proof.
    intros [M _]. rewrite !find_smap, M. destruct (N.eqb (shard_of c k) i); reflexivity.
  Qed.

  Lemma find_ueff_aset s s' k0 e dcc de k :
    ueff s s' (shard_of c k0) (aset k0 e (smap s (shard_of c k0))) dcc de ->
    find s' k = if N.eqb k k0 then match find s k0 with Some _ => Some e | None => None end else find s k.
  Proof.
    intros H. rewrite (find_ueff _ _ _ _ _ _ k H).
    destruct (N.eqb_spec k k0) as [->|Hne].
    - rewrite N.eqb_refl. rewrite afind_aset_same. reflexivity.
    - destruct (N.eqb_spec (shard_of c k) (shard_of c k0)) as [He|]; [|reflexivity].
      rewrite afind_aset_other by exact Hne. rewrite find_smap, He. reflexivity.
  Qed.

  Lemma find_mstep s s' D dcc k :
    mstep s s' D dcc -> find s' k = if mem k (dkeys (shard_of c k) D) then None else find s k.
  Proof. intros [M _]. rewrite !find_smap, M. apply afind_adel_all. Qed.

  Lemma find_same s s' k : (forall j, smap s' j = smap s j) -> find s' k = find s k.
  Proof. intros M. rewrite !find_smap, M. reflexivity. Qed.

  Lemma ueff_wfp s s' i m' dcc de :
    ueff s s' i m' dcc de -> NoDup (akeys m') -> (forall k, In k (akeys m') -> shard_of c k = i) ->
    wfp s -> wfp s'.
  Proof.
    intros [M _] Hnd Hpl [Hw Hp]. split.
    - intros j. rewrite M. destruct (N.eqb j i); [exact Hnd | apply Hw].
    - intros j k Hk. rewrite M in Hk. destruct (N.eqb_spec j i) as [->|]; [apply Hpl; exact Hk | apply Hp; exact Hk].
  Qed.

  Lemma ueff_aset_wfp s s' i k e dcc de :
    ueff s s' i (aset k e (smap s i)) dcc de -> wfp s -> wfp s'.
  Proof.
    intros H Hw. eapply ueff_wfp; [exact H | apply aset_NoDup; apply Hw | | exact Hw].
    intros k' Hk. rewrite akeys_aset in Hk. apply (proj2 Hw). exact Hk.
  Qed.

  Lemma ueff_same_wfp s s' i dcc de : ueff s s' i (smap s i) dcc de -> wfp s -> wfp s'.
  Proof.
    intros H Hw. eapply ueff_wfp; [exact H | apply Hw | | exact Hw]. intros k Hk. apply (proj2 Hw). exact Hk.
  Qed.

  Lemma same_maps_wfp s s' : (forall j, smap s' j = smap s j) -> wfp s -> wfp s'.
  Proof.
    intros M [Hw Hp]. split.
    - intros j. rewrite M. apply Hw.
    - intros j k Hk. rewrite M in Hk. apply Hp. exact Hk.
  Qed.

  Lemma init_wfp now0 : wfp (init P now0).
  Proof. split; [intros j; constructor | intros j k []]. Qed.

  (** ** writes: a fresh incarnation [e] is put under [k], accounted for exactly *)
  Definition old_cost (s : state) (k : N) : Z :=
    match find s k with Some o => Z.of_N (e_cost o) | None => 0%Z end.

  Definition la0 (s : state) : N := match c_tti c with Some _ => st_now P s | None => 0 end.

  Definition write (s s' : state) (k : N) (e : entry) : Prop :=
    ueff s s' (shard_of c k) (aput k e (smap s (shard_of c k))) (Z.of_N (e_cost e) - old_cost s k) 1
    /\ e_id e = st_eid P s.

  Lemma find_write s s' k e k' : write s s' k e -> find s' k' = if N.eqb k' k then Some e else find s k'.
  Proof.
    intros [H _]. rewrite (find_ueff _ _ _ _ _ _ k' H).
    destruct (N.eqb_spec k' k) as [->|Hne].
    - rewrite N.eqb_refl. apply afind_aput_same.
    - destruct (N.eqb_spec (shard_of c k') (shard_of c k)) as [He|]; [|reflexivity].
      rewrite afind_aput_other by exact Hne. rewrite find_smap, He. reflexivity.
  Qed.

  Lemma write_wfp s s' k e : write s s' k e -> wfp s -> wfp s'.
  Proof.
    intros [H _] Hw. eapply ueff_wfp; [exact H | apply aput_NoDup; apply Hw | | exact Hw].
    intros k' Hk. unfold aput in Hk. destruct (ahas k (smap s (shard_of c k))).
    - rewrite akeys_aset in Hk. apply (proj2 Hw). exact Hk.
    - destruct Hk as [<-|Hk]; [reflexivity | apply (proj2 Hw); exact Hk].
  Qed.

  Lemma insert_core_write s k v cost exp sched :
    exists h, (sched = None -> h = None)
              /\ write s (insert_core P c s k v cost exp sched) k (mkE v cost exp (la0 s) h (st_eid P s)).
  Proof.
    destruct (insert_core_ueff P c s k v cost exp sched) as [h [Hh H]].
    exists h. split; [exact Hh|]. split; [exact H | reflexivity].
  Qed.

  Lemma opportunistic_write s s1 k0 k e : write s s1 k e -> write s (opportunistic P c s1 k0) k e.
  Proof.
    intros [H Hid]. split; [|exact Hid]. unfold opportunistic. destruct (c_opp c); [|exact H].
    eapply ueff_idle; [exact H | apply perform_idle].
  Qed.

  (* Cache::insert and insert_with_ttl: insert_core, then opportunistic maintenance *)
  Lemma opp_insert_write s k v cost exp sched :
    exists h, write s (opportunistic P c (insert_core P c s k v cost exp sched) k) k (mkE v cost exp (la0 s) h (st_eid P s)).
  Proof.
    destruct (insert_core_write s k v cost exp sched) as [h [_ H]]. exists h. apply opportunistic_write. exact H.
  Qed.

  (* VacantEntry::insert is insert_core without a timer *)
  Lemma vacant_insert_write s k v cost :
    write s (vacant_insert P c s k v cost) k (mkE v cost (ttl_exp c (st_now P s)) (la0 s) None (st_eid P s)).
  Proof.
    destruct (insert_core_write s k v cost (ttl_exp c (st_now P s)) None) as [h [Hh H]].
    rewrite (Hh eq_refl) in H. exact H.
  Qed.

  (* a sequence of writes, each of a key that [o] overwrites silently *)
  Inductive writes (o : op) : state -> state -> Prop :=
  | writes_nil s : writes o s s
  | writes_cons s s1 s2 k e :
      write s s1 k e -> silent o k = true -> writes o s1 s2 -> writes o s s2.

  Lemma writes_one o s s' k e : write s s' k e -> silent o k = true -> writes o s s'.
  Proof. intros H Hs. eapply writes_cons; [exact H | exact Hs | apply writes_nil]. Qed.

  Lemma writes_frame o s s' k : writes o s s' -> silent o k = false -> find s' k = find s k.
  Proof.
    induction 1 as [s|s s1 s2 k0 e H Hsil _ IH]; intros Hs; [reflexivity|].
    rewrite IH, (find_write _ _ _ _ k H) by exact Hs. destruct (N.eqb_spec k k0); [congruence | reflexivity].
  Qed.

  Lemma writes_inv (Q : state -> Prop) o s s' :
    (forall s s1 k e, wfp s -> Q s -> write s s1 k e -> silent o k = true -> Q s1) ->
    writes o s s' -> wfp s -> Q s -> wfp s' /\ Q s'.
  Proof.
    intros Hstep Hws. induction Hws as [s|s s1 s2 k e H Hsil _ IH]; intros Hw HQ; [auto|].
    apply IH; [eapply write_wfp; eassumption | eapply Hstep; eassumption].
  Qed.

  Lemma do_multi_insert_writes o items : forall s,
    (forall it, In it items -> silent o (fst (fst it)) = true) -> writes o s (do_multi_insert P c s items).
  Proof.
    unfold do_multi_insert. induction items as [|[[k v] cost] t IH]; intros s Hsil; cbn [fold_left]; [apply writes_nil|].
    destruct (insert_core_write s k v cost (ttl_exp c (st_now P s)) (c_ttl c)) as [h [_ H]].
    eapply writes_cons; [exact H | apply (Hsil (k, v, cost)); left; reflexivity|].
    apply IH. intros it Hi. apply Hsil. right. exact Hi.
  Qed.

  (** ** reads only refresh: entries of the keys in [R] may have their idle timer restarted *)
  Definition upd (R : N -> bool) (s : state) (k : N) (e e' : entry) : Prop :=
    e' = e \/ (e' = refreshed P c s e /\ expired c (st_now P s) e = false /\ R k = true).

  Definition rel_entry (R : N -> bool) (s : state) (k : N) (o o' : option entry) : Prop :=
    match o, o' with
    | None, None => True
    | Some e, Some e' => upd R s k e e'
    | _, _ => False
    end.

  Definition refr (R : N -> bool) (s s' : state) : Prop :=
    (forall j, akeys (smap s' j) = akeys (smap s j))
    /\ (forall j k, rel_entry R s k (afind k (smap s j)) (afind k (smap s' j)))
    /\ st_cc P s' = st_cc P s /\ st_now P s' = st_now P s /\ st_eid P s' = st_eid P s
    /\ sent s' = sent s /\ st_ndrops P s' = st_ndrops P s.

  Lemma upd_fields R s k e e' :
    upd R s k e e' ->
    e_val e' = e_val e /\ e_id e' = e_id e /\ e_exp e' = e_exp e /\ e_cost e' = e_cost e
    /\ (e_la e' = e_la e \/ (e_la e' = st_now P s /\ expired c (st_now P s) e = false /\ R k = true)).
  Proof.
    intros [->|[-> Hx]]; [repeat split; auto|].
    unfold refreshed. destruct (c_tti c); cbn; repeat split; auto.
  Qed.

  Lemma rel_entry_refl R s k o : rel_entry R s k o o.
  Proof. destruct o; cbn; [left|]; auto. Qed.

  Lemma refr_refl R s : refr R s s.
  Proof. repeat split; auto. intros j k. apply rel_entry_refl. Qed.

  Lemma refr_mono (R R' : N -> bool) s s' : (forall k, R k = true -> R' k = true) -> refr R s s' -> refr R' s s'.
  Proof.
    intros HR [K [H Rest]]. split; [exact K|]. split; [|exact Rest].
    intros j k. specialize (H j k). unfold rel_entry, upd in *.
    destruct (afind k (smap s j)), (afind k (smap s' j)); try exact H.
    destruct H as [H|[H1 [H2 H3]]]; auto.
  Qed.

  Lemma refr_trans R s s1 s2 : refr R s s1 -> refr R s1 s2 -> refr R s s2.
  Proof.
    intros [K1 [R1 [C1 [N1 [E1 [S1 D1]]]]]] [K2 [R2 [C2 [N2 [E2 [S2 D2]]]]]].
    split; [intros j; rewrite K2; apply K1|]. split; [|repeat split; congruence].
    intros j k. specialize (R1 j k). specialize (R2 j k). unfold rel_entry, upd in *. rewrite N1 in R2.
    destruct (afind k (smap s j)) as [e|], (afind k (smap s1 j)) as [e1|], (afind k (smap s2 j)) as [e2|];
      try contradiction; auto.
    (* refreshing twice at the same instant is refreshing once *)
    assert (Hi : refreshed P c s1 (refreshed P c s e) = refreshed P c s e)
      by (unfold refreshed; destruct (c_tti c); [cbn; rewrite N1|]; reflexivity).
    assert (Hs : refreshed P c s1 e = refreshed P c s e) by (unfold refreshed; rewrite N1; reflexivity).
    destruct R1 as [->|[-> Hx]], R2 as [->|[-> Hy]]; rewrite ?Hi, ?Hs; auto.
  Qed.

  Lemma refr_wfp R s s' : refr R s s' -> wfp s -> wfp s'.
  Proof.
    intros [K _] [Hw Hp]. split.
    - intros j. rewrite K. apply Hw.
    - intros j k Hk. rewrite K in Hk. apply Hp. exact Hk.
  Qed.

  Lemma refr_back R s s' k e' :
    refr R s s' -> find s' k = Some e' -> exists e, find s k = Some e /\ upd R s k e e'.
  Proof.
    intros [_ [H _]] Hf. specialize (H (shard_of c k) k). rewrite <- !find_smap, Hf in H.
    destruct (find s k) as [e|]; [eauto | contradiction].
  Qed.

  Lemma refr_fwd R s s' k e :
    refr R s s' -> find s k = Some e -> exists e', find s' k = Some e' /\ upd R s k e e'.
  Proof.
    intros [_ [H _]] Hf. specialize (H (shard_of c k) k). rewrite <- !find_smap, Hf in H.
    destruct (find s' k) as [e'|]; [eauto | contradiction].
  Qed.

  (* the hit path of get/fetch and of the async multiget *)
  Lemma ueff_refresh_refr s s' k e :
    find s k = Some e -> expired c (st_now P s) e = false ->
    ueff s s' (shard_of c k)
         (match c_tti c with Some _ => aset k (refreshed P c s e) (smap s (shard_of c k)) | None => smap s (shard_of c k) end) 0 0 ->
    refr (fun k' => N.eqb k' k) s s'.
  Proof.
    intros Hf Hx [M [C [N [E [S D]]]]]. split; [|split].
    - intros j. rewrite M. destruct (N.eqb_spec j (shard_of c k)) as [->|]; [|reflexivity].
      destruct (c_tti c); [apply akeys_aset | reflexivity].
    - intros j k'. rewrite M. destruct (N.eqb_spec j (shard_of c k)) as [->|]; [|apply rel_entry_refl].
      destruct (c_tti c) eqn:Et; [|apply rel_entry_refl].
      destruct (N.eqb_spec k' k) as [->|Hne].
      + rewrite afind_aset_same. rewrite find_smap in Hf. rewrite Hf. right. rewrite N.eqb_refl. auto.
      + rewrite afind_aset_other by exact Hne. apply rel_entry_refl.
    - repeat split; try assumption; lia.
  Qed.

  (* what every read path hands out: the resident entry, unless it is expired *)
  Definition visible (s : state) (k : N) : option entry :=
    match find s k with
    | Some e => if expired c (st_now P s) e then None else Some e
    | None => None
    end.

  Lemma visible_Some s k e : visible s k = Some e <-> find s k = Some e /\ expired c (st_now P s) e = false.
  Proof.
    unfold visible. destruct (find s k) as [e0|]; [|split; [discriminate | intros [H _]; discriminate]].
    destruct (expired c (st_now P s) e0) eqn:Ex; split; try discriminate.
    - intros [H Hx]. congruence.
    - intros H. inversion H; subst. auto.
    - intros [H _]. exact H.
  Qed.

  (* a refresh never makes an expired entry visible (only this direction holds in every state:
     with TTI 0 an entry last accessed in the future is unexpired, its refreshed copy is not) *)
  Lemma refr_visible_back R s s' k e' :
    refr R s s' -> visible s' k = Some e' -> exists e, visible s k = Some e /\ e_val e = e_val e'.
  Proof.
    intros Hr Hv. apply visible_Some in Hv. destruct Hv as [Hf Hx].
    destruct (refr_back R s s' k e' Hr Hf) as [e [Hf0 Hu]]. exists e.
    destruct Hr as [_ [_ [_ [Nw _]]]]. rewrite Nw in Hx.
    split; [|symmetry; apply (upd_fields _ _ _ _ _ Hu)].
    apply visible_Some. split; [exact Hf0|]. destruct Hu as [->|[_ [Hx0 _]]]; assumption.
  Qed.

  Lemma refr_visible_other R s s' k : refr R s s' -> R k = false -> visible s' k = visible s k.
  Proof.
    intros Hr HR. unfold visible. destruct (find s k) as [e|] eqn:Ef.
    - destruct (refr_fwd R s s' k e Hr Ef) as [e' [-> [->|[_ [_ Hk]]]]]; [|congruence].
      destruct Hr as [_ [_ [_ [-> _]]]]. reflexivity.
    - destruct (find s' k) as [e'|] eqn:Ef'; [|reflexivity].
      destruct (refr_back R s s' k e' Hr Ef') as [e [He _]]. congruence.
  Qed.

  (* a read primitive: get/fetch/peek, or the async multiget's *)
  Definition rd_ok (rd : state -> N -> state * option N) : Prop :=
    forall s k, refr (fun k' => N.eqb k' k) s (fst (rd s k)) /\ snd (rd s k) = option_map e_val (visible s k).

  Lemma do_read_rd_ok hit : rd_ok (do_read P c hit).
  Proof.
    intros s k. unfold do_read, visible. destruct (find s k) as [e|] eqn:Ef; [|split; [apply refr_refl | reflexivity]].
    destruct (expired c (st_now P s) e) eqn:Ex; (split; [|reflexivity]); cbn [fst]; [apply refr_refl|].
    destruct hit; [|apply refr_refl]. eapply ueff_refresh_refr; [exact Ef | exact Ex | apply on_hit_ueff].
  Qed.

  Lemma do_read_direct_rd_ok : rd_ok (do_read_direct P c).
  Proof.
    intros s k. unfold do_read_direct, visible. destruct (find s k) as [e|] eqn:Ef; [|split; [apply refr_refl | reflexivity]].
    destruct (expired c (st_now P s) e) eqn:Ex; (split; [|reflexivity]); cbn [fst]; [apply refr_refl|].
    eapply ueff_refresh_refr; [exact Ef | exact Ex | apply on_hit_direct_ueff].
  Qed.

  Lemma do_read_peek s k : fst (do_read P c false s k) = s.
  Proof. unfold do_read. destruct (find s k) as [e|]; [destruct (expired c (st_now P s) e)|]; reflexivity. Qed.

  (* multiget: the pairs returned are visible entries of requested keys (first occurrence
     wins), and every visible requested key is returned *)
  Lemma multiget_gen_spec rd : rd_ok rd -> forall ks s acc,
    refr (fun k => mem k ks) s (fst (do_multiget_gen P rd s ks acc))
    /\ (forall k v, In (k, v) (snd (do_multiget_gen P rd s ks acc)) ->
                    In (k, v) acc \/ (In k ks /\ option_map e_val (visible s k) = Some v))
    /\ (forall k, In k ks -> visible s k <> None -> In k (map fst (snd (do_multiget_gen P rd s ks acc))))
    /\ (forall k, In k (map fst acc) -> In k (map fst (snd (do_multiget_gen P rd s ks acc)))).
  Proof.
    intros Hrd. induction ks as [|k0 t IH]; intros s acc; cbn [do_multiget_gen fst snd].
    - split; [apply refr_refl|]. split; [|split].
      + intros k v Hi. left. apply in_rev. exact Hi.
      + intros k [].
      + intros k Hi. rewrite map_rev. apply -> in_rev. exact Hi.
    - destruct (Hrd s k0) as [Hr1 Ho]. destruct (rd s k0) as [s1 o]. cbn [fst snd] in Hr1, Ho.
      (* the accumulator after k0 *)
      assert (Hacc : exists acc',
                 (match o with
                  | Some v => do_multiget_gen P rd s1 t (if mem k0 (map fst acc) then acc else (k0, v) :: acc)
                  | None => do_multiget_gen P rd s1 t acc
                  end) = do_multiget_gen P rd s1 t acc'
                 /\ (forall k v, In (k, v) acc' -> In (k, v) acc \/ (k = k0 /\ o = Some v))
                 /\ (forall k, In k (map fst acc) -> In k (map fst acc'))
                 /\ (o <> None -> In k0 (map fst acc'))).
      { destruct o as [v|]; [destruct (mem k0 (map fst acc)) eqn:Em|].
        - exists acc. split; [reflexivity|]. split; [auto|]. split; [auto|]. intros _. apply mem_In. exact Em.
        - exists ((k0, v) :: acc). split; [reflexivity|]. split; [|split; [intros k Hi; right; exact Hi | intros _; left; reflexivity]].
          intros k v' [Hi|Hi]; [inversion Hi; subst; auto | auto].
        - exists acc. split; [reflexivity|]. split; [auto|]. split; [auto|]. intros Hx. congruence. }
      destruct Hacc as [acc' [-> [Hin' [Hsub' Hk0]]]].
      destruct (IH s1 acc') as [Hr2 [Hin [Hcomp Hacc]]].
      split; [|split; [|split]].
      + eapply refr_trans; (eapply refr_mono; [|eassumption]); intros k Hk; apply mem_In.
        * left. symmetry. apply N.eqb_eq. exact Hk.
        * right. apply mem_In. exact Hk.
      + intros k v Hi. destruct (Hin k v Hi) as [Ha|[Hk Hv]].
        * destruct (Hin' k v Ha) as [Ha'|[-> ->]]; [left; exact Ha' | right; split; [left; reflexivity | symmetry; exact Ho]].
        * right. split; [right; exact Hk|]. destruct (visible s1 k) as [e1|] eqn:Ev1; [|discriminate].
          destruct (refr_visible_back _ s s1 k e1 Hr1 Ev1) as [e [-> He]]. cbn [option_map] in *. congruence.
      + intros k Hk Hv. destruct (N.eqb_spec k k0) as [->|Hne].
        * apply Hacc, Hk0. rewrite Ho. destruct (visible s k0); [discriminate | contradiction].
        * destruct Hk as [Hk|Hk]; [congruence|]. apply (Hcomp k Hk).
          rewrite (refr_visible_other _ s s1 k Hr1); [exact Hv | apply N.eqb_neq; exact Hne].
      + intros k Hk. apply Hacc, Hsub'. exact Hk.
  Qed.

  Lemma occupied_spec s k :
    match occupied P c s k with
    | Some e => find s k = Some e /\ (fix_f15 (c_fix c) = true -> expired c (st_now P s) e = false)
    | None => find s k = None
              \/ exists e, find s k = Some e /\ fix_f15 (c_fix c) = true /\ expired c (st_now P s) e = true
    end.
  Proof.
    unfold occupied. destruct (find s k) as [e|]; [|left; reflexivity].
    destruct (fix_f15 (c_fix c)); cbn [andb].
    - destruct (expired c (st_now P s) e) eqn:Ex; [right; exists e; auto | split; auto].
    - split; [reflexivity | discriminate].
  Qed.

  Lemma computable_spec s k :
    match computable P c s k with
    | Some e => find s k = Some e /\ (fix_f33 (c_fix c) = true -> expired c (st_now P s) e = false)
    | None => True
    end.
  Proof.
    unfold computable. destruct (find s k) as [e|]; [|exact I].
    destruct (fix_f33 (c_fix c)); cbn [andb].
    - destruct (expired c (st_now P s) e) eqn:Ex; [exact I | split; auto].
    - split; [reflexivity | discriminate].
  Qed.

  Lemma clear_shards_spec (l : list N) : forall s,
    let s' := fold_left (clear_shard P) l s in
    (forall j, smap s' j = if mem j l then [] else smap s j)
    /\ st_cc P s' = st_cc P s /\ st_now P s' = st_now P s /\ st_eid P s' = st_eid P s
    /\ sent s' = sent s /\ st_ndrops P s' = st_ndrops P s.
  Proof.
    induction l as [|i t IH]; intros s; cbn [fold_left mem existsb].
    - repeat split; reflexivity.
    - specialize (IH (clear_shard P s i)). cbn zeta in IH. destruct IH as [M [C [N [E [S D]]]]].
      split; [|repeat split; assumption].
      intros j. rewrite M. fold (mem j t). unfold clear_shard. rewrite smap_set_sh. cbn [s_map].
      destruct (mem j t); [rewrite orb_true_r; reflexivity|]. rewrite orb_false_r. reflexivity.
  Qed.

  Lemma do_clear_spec s :
    let s' := do_clear P c s in
    (forall j, smap s' j = if N.ltb j (c_shards c) then [] else smap s j)
    /\ st_cc P s' = 0%Z /\ st_now P s' = st_now P s /\ st_eid P s' = st_eid P s
    /\ sent s' = sent s /\ st_ndrops P s' = st_ndrops P s.
  Proof.
    cbn zeta. unfold do_clear. destruct (clear_shards_spec (nseq (c_shards c)) s) as [M [C [N [E [S D]]]]].
    split; [|repeat split; assumption].
    intros j. change (smap (set_cc P ?x 0%Z) j) with (smap x j). rewrite M.
    destruct (N.ltb_spec j (c_shards c)) as [Hl|Hl].
    - assert (Hm : mem j (nseq (c_shards c)) = true) by (apply mem_In, nseq_In; exact Hl). rewrite Hm. reflexivity.
    - assert (Hm : mem j (nseq (c_shards c)) = false) by (apply mem_false_In; rewrite nseq_In; lia). rewrite Hm. reflexivity.
  Qed.

  Lemma do_clear_find s k : find (do_clear P c s) k = None.
  Proof.
    destruct (do_clear_spec s) as [M _]. rewrite find_smap, M.
    assert (H : shard_of c k <? c_shards c = true) by (apply N.ltb_lt, shard_of_lt; exact Hn). rewrite H. reflexivity.
  Qed.

  Lemma do_clear_wfp s : wfp s -> wfp (do_clear P c s).
  Proof.
    intros [Hw Hp]. destruct (do_clear_spec s) as [M _]. split.
    - intros j. rewrite M. destruct (N.ltb j (c_shards c)); [constructor | apply Hw].
    - intros j k Hk. rewrite M in Hk. destruct (N.ltb j (c_shards c)); [destruct Hk | apply Hp; exact Hk].
  Qed.

  Lemma find_rdrops s s' k dcc k' :
    mstep s s' (rdrops P c s k) dcc -> find s' k' = if N.eqb k' k then None else find s k'.
  Proof.
    intros H. rewrite (find_mstep _ _ _ _ k' H). unfold rdrops. destruct (find s k) as [e|] eqn:Ef.
    - rewrite dkeys_one. cbn [d_sh d_key]. destruct (N.eqb_spec k' k) as [->|Hne].
      + rewrite N.eqb_refl. cbn [mem existsb]. rewrite N.eqb_refl. reflexivity.
      + destruct (N.eqb _ _); [|reflexivity]. cbn [mem existsb]. destruct (N.eqb_spec k' k); [contradiction | reflexivity].
    - cbn [dkeys filter map mem existsb]. destruct (N.eqb_spec k' k) as [->|]; [exact Ef | reflexivity].
  Qed.

  Lemma do_multi_remove_spec ks : forall s acc,
    exists D, mstepx s (fst (do_multi_remove P c s ks acc)) D (- dcost D)
              /\ Forall (fun d => d_rsn d = Invalidated /\ In (d_key d) ks /\ find s (d_key d) = Some (d_ent d)) D
              /\ snd (do_multi_remove P c s ks acc) = rev acc ++ map (fun d => (d_key d, e_val (d_ent d))) D
              /\ (forall k, In k ks -> find (fst (do_multi_remove P c s ks acc)) k = None).
  Proof.
    induction ks as [|k t IH]; intros s acc; cbn [do_multi_remove fst snd].
    - exists []. split; [apply idle_mstepx, idle_refl|]. split; [constructor|]. split; [rewrite app_nil_r; reflexivity | intros k []].
    - destruct (do_remove_spec P c s k Hn) as [H1 Ho]. destruct (do_remove P c s k) as [s1 o]. cbn [fst snd] in H1, Ho. subst o.
      set (acc' := match find s k with Some e => (k, e_val e) :: acc | None => acc end).
      replace (match option_map e_val (find s k) with
               | Some v => do_multi_remove P c s1 t ((k, v) :: acc)
               | None => do_multi_remove P c s1 t acc
               end) with (do_multi_remove P c s1 t acc') by (unfold acc'; destruct (find s k); reflexivity).
      destruct (IH s1 acc') as [D [H2 [R2 [L2 G2]]]]. exists (rdrops P c s k ++ D). split; [|split; [|split]].
      + rewrite dcost_app, Z.opp_add_distr. eapply mstepx_trans; eassumption.
      + apply Forall_app. split.
        * unfold rdrops. destruct (find s k) eqn:Ef; repeat constructor. exact Ef.
        * eapply Forall_impl; [|exact R2]. intros d [A [B C]]. split; [exact A|]. split; [right; exact B|].
          rewrite (find_rdrops _ _ _ _ (d_key d) (proj1 H1)) in C. destruct (N.eqb (d_key d) k); [discriminate | exact C].
      + rewrite L2, map_app. unfold acc', rdrops. destruct (find s k); cbn [rev map app d_key d_ent]; rewrite <- ?app_assoc; reflexivity.
      + intros k' [<-|Hk]; [|apply G2; exact Hk]. rewrite (find_mstep _ _ _ _ k (proj1 H2)).
        destruct (mem k (dkeys (shard_of c k) D)); [reflexivity|].
        rewrite (find_rdrops _ _ _ _ k (proj1 H1)), N.eqb_refl. reflexivity.
  Qed.

  Lemma flush_intro_idle s : idle P s (flush_intro P c s).
  Proof.
    unfold flush_intro. destruct (c_intro c); [|apply idle_refl].
    generalize (nseq (c_shards c)). intros l. revert s. induction l as [|i t IH]; intros s; cbn [fold_left]; [apply idle_refl|].
    eapply idle_trans; [apply perform_idle | apply IH].
  Qed.

  Lemma do_deliver_idle s n : idle P s (do_deliver P s n).
  Proof.
    unfold do_deliver. pose proof (take_n_app n (st_nq P s)) as Ht.
    destruct (take_n n (st_nq P s)) as [a b]. cbn [fst snd] in Ht.
    repeat split. unfold CacheSpec.sent. cbn [st_log st_nq]. rewrite <- app_assoc, Ht. reflexivity.
  Qed.

  Lemma maint_mpassed s o :
    is_maint o = true -> wfp s -> exists D dcc, mstepx s (fst (step P c s o)) D dcc /\ Forall not_inval D.
  Proof.
    destruct o; try discriminate; intros _ Hw; cbn [step fst].
    - apply run_maintenance_mpassed. exact Hw.
    - apply janitor_tick_mpassed. exact Hw.
    - apply janitor_signal_mpassed. exact Hw.
  Qed.

  Definition reason_ok (o : op) (d : drop) : Prop :=
    match d_rsn d with
    | Invalidated => removes o (d_key d) = true
    | _ => is_maint o = true
    end.

  Inductive kind (s : state) (o : op) (s' : state) : Prop :=
  | K_writes : writes o s s' -> kind s o s'
  | K_refr : refr (refreshes o) s s' -> kind s o s'
  | K_aset k e v :
      find s k = Some e -> ueff s s' (shard_of c k) (aset k (with_val e v) (smap s (shard_of c k))) 0 0 -> kind s o s'
  | K_mstep D dcc :
      mstepx s s' D dcc -> Forall (reason_ok o) D -> (is_maint o = false -> dcc = (- dcost D)%Z) -> kind s o s'
  | K_clear : o = OClear -> s' = do_clear P c s -> kind s o s'
  | K_same :
      (forall j, smap s' j = smap s j) -> st_eid P s' = st_eid P s -> sent s' = sent s ->
      st_ndrops P s' = st_ndrops P s -> st_cc P s' = st_cc P s -> kind s o s'.

  Lemma step_kind s o : wfp s -> kind s o (fst (step P c s o)).
  Proof.
    intros Hw.
    assert (Hsame : kind s o s) by (apply K_refr, refr_refl).
    assert (Hread : forall k, (forall k', N.eqb k' k = true -> refreshes o k' = true) ->
                              kind s o (fst (do_read P c true s k))).
    { intros k HR. apply K_refr. eapply refr_mono; [exact HR | apply do_read_rd_ok]. }
    assert (Hcomp : forall k f, kind s o (fst (do_compute P c s k f))).
    { intros k f. pose proof (do_compute_ueff P c s k f) as H. cbn zeta in H.
      destruct (computable P c s k) as [e|]; [|rewrite H; exact Hsame].
      destruct H as [H [_ Hf]]. eapply K_aset; [exact Hf | exact H]. }
    assert (Hrem : forall k, removes o k = true -> kind s o (fst (do_remove P c s k))).
    { intros k Hr. eapply K_mstep; [apply (do_remove_spec P c s k Hn) | | reflexivity].
      unfold rdrops. destruct (find s k); repeat constructor. exact Hr. }
    assert (Hmget : forall rd ks, rd_ok rd -> refreshes o = (fun k => mem k ks) -> kind s o (fst (do_multiget_gen P rd s ks []))).
    { intros rd ks Hrd HR. apply K_refr. rewrite HR. apply (multiget_gen_spec rd Hrd ks s []). }
    assert (Hmrem : forall ks, (forall k, In k ks -> removes o k = true) ->
                               kind s o (fst (do_multi_remove P c s ks []))).
    { intros ks Hr. destruct (do_multi_remove_spec ks s []) as [D [H [Hi _]]].
      eapply K_mstep; [exact H | | reflexivity]. eapply Forall_impl; [|exact Hi].
      intros d [Hd [Hk _]]. unfold reason_ok. rewrite Hd. apply Hr, Hk. }
    destruct (is_maint o) eqn:Em.
    { destruct (maint_mpassed s o Em Hw) as [D [dcc [H Hni]]].
      eapply K_mstep; [exact H | | congruence]. eapply Forall_impl; [|exact Hni].
      intros d Hd. unfold reason_ok, not_inval in *. destruct (d_rsn d); [exact Em | exact Em | contradiction]. }
    destruct o; try discriminate Em; cbn [step fst]; rewrite ?fst_let.
    - destruct (opp_insert_write s k v c0 (ttl_exp c (st_now P s)) (c_ttl c)) as [h H]. apply K_writes. eapply writes_one; [exact H | apply N.eqb_refl].
    - destruct (opp_insert_write s k v c0 (st_now P s + d) (Some d)) as [h H]. apply K_writes. eapply writes_one; [exact H | apply N.eqb_refl].
    - apply Hread. auto.
    - apply Hread. auto.
    - rewrite do_read_peek. exact Hsame.
    - unfold do_or_insert. destruct (occupied P c s k); cbn [fst]; [exact Hsame|].
      apply K_writes. eapply writes_one; [apply vacant_insert_write | apply N.eqb_refl].
    - exact Hsame.
    - apply Hcomp.
    - apply Hcomp.
    - apply Hrem, N.eqb_refl.
    - apply Hrem, N.eqb_refl.
    - apply K_clear; reflexivity.
    - apply Hmget; [apply do_read_rd_ok | reflexivity].
    - apply Hmget; [apply do_read_direct_rd_ok | reflexivity].
    - apply K_writes, do_multi_insert_writes. intros it Hi. apply mem_In. apply (in_map (fun it => fst (fst it))). exact Hi.
    - apply Hmrem. intros k Hk. apply mem_In. exact Hk.
    - apply Hmrem. intros k Hk. apply mem_In. exact Hk.
    - apply K_same; reflexivity.
    - destruct (flush_intro_idle s) as [M [C [N [E [S D]]]]]. apply K_same; assumption.
    - destruct (do_deliver_idle s n) as [M [C [N [E [S D]]]]]. apply K_same; assumption.
  Qed.

  Lemma step_wfp s o : wfp s -> wfp (fst (step P c s o)).
  Proof.
    intros Hw. destruct (step_kind s o Hw) as [H | H | k e v _ H | D dcc H _ _ | _ -> | M _ _ _ _].
    - apply (writes_inv (fun _ => True) o s _ (fun _ _ _ _ _ _ _ _ => I) H Hw I).
    - exact (refr_wfp _ _ _ H Hw).
    - exact (ueff_aset_wfp _ _ _ _ _ _ _ H Hw).
    - exact (mstep_wfp P c _ _ _ _ (proj1 H) Hw).
    - exact (do_clear_wfp s Hw).
    - exact (same_maps_wfp _ _ M Hw).
  Qed.

  Lemma run_wfp ops : forall s, wfp s -> wfp (fst (run P c s ops)).
  Proof.
    induction ops as [|o t IH]; intros s Hw; cbn [run fst]; [exact Hw|].
    pose proof (step_wfp s o Hw) as H1. destruct (step P c s o) as [s1 x]. cbn [fst] in H1.
    specialize (IH s1 H1). destruct (run P c s1 t) as [s2 xs]. exact IH.
  Qed.

  Lemma reachable_wfp s : reachable P c s -> wfp s.
  Proof. intros [now0 [ops ->]]. apply run_wfp. apply init_wfp. Qed.
End Steps.
