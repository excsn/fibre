(* Proofs/HMutexBase.v — basics for the HybridMutex proofs: list/upd lemmas, classification of
   program counters, inversion of `dispatch`, and the step case-analysis tactic. *)
From Coq Require Import List NArith Arith Bool Lia.
From Fibre Require Import Common.Conc Sync.HMutex.
Import ListNotations.

Set Implicit Arguments.

Lemma upd_eq A (f : nat -> A) t v : upd f t v t = v.
Proof. unfold upd. rewrite Nat.eqb_refl. reflexivity. Qed.

Lemma upd_neq A (f : nat -> A) t v u : u <> t -> upd f t v u = f u.
Proof. intros H. unfold upd. destruct (Nat.eqb_spec u t); [contradiction|reflexivity]. Qed.

Lemma mem_In t l : mem t l = true <-> In t l.
Proof.
  unfold mem. rewrite existsb_exists. split.
  - intros [x [Hx E]]. apply Nat.eqb_eq in E. subst. exact Hx.
  - intros H. exists t. split; [exact H|apply Nat.eqb_refl].
Qed.

Lemma mem_false t l : mem t l = false <-> ~ In t l.
Proof.
  rewrite <- mem_In. destruct (mem t l); split; intros H; try congruence; exfalso; apply H; reflexivity.
Qed.

Lemma In_app1 {A} (x y : A) l : In x (l ++ [y]) <-> In x l \/ x = y.
Proof. rewrite in_app_iff. cbn. intuition. Qed.

(* unlinking by owner, for the mutex list (owners) and the rwlock list (owner, is_writer) alike *)
Lemma filter_key_In {A} (f : A -> nat) t x l :
  In x (filter (fun y => negb (Nat.eqb (f y) t)) l) <-> In x l /\ f x <> t.
Proof.
  rewrite filter_In. split; intros [H1 H2]; split; auto.
  - intros E. rewrite E, Nat.eqb_refl in H2. discriminate.
  - destruct (Nat.eqb_spec (f x) t); [contradiction|reflexivity].
Qed.

Lemma filter_key_notin {A} (f : A -> nat) t l :
  (forall x, In x l -> f x <> t) -> filter (fun y => negb (Nat.eqb (f y) t)) l = l.
Proof.
  induction l as [|a l IH]; intros H; cbn; [reflexivity|].
  destruct (Nat.eqb_spec (f a) t) as [E|_]; [destruct (H a (or_introl eq_refl) E)|].
  cbn. f_equal. apply IH. intros x Hx. apply H. right. exact Hx.
Qed.

Lemma rem_In u t l : In u (rem t l) <-> In u l /\ u <> t.
Proof. exact (filter_key_In (fun u => u) t u l). Qed.

Lemma rem_NoDup t l : NoDup l -> NoDup (rem t l).
Proof. apply NoDup_filter. Qed.

Lemma rem_notin t l : ~ In t l -> rem t l = l.
Proof. intros H. apply (filter_key_notin (fun u => u)). intros x Hx ->. exact (H Hx). Qed.

Lemma rem_head t l : NoDup (t :: l) -> rem t (t :: l) = l.
Proof.
  intros H. inversion H; subst. cbn. rewrite Nat.eqb_refl. cbn. apply rem_notin. assumption.
Qed.

Definition holds (p : pc) : bool :=
  match p with
  | CS | UFand | XFix _ | XUnl _ | QFix _ | QUnl _ true => true
  | LLSwap (LX _) | LLLoad (LX _) | LLSpin (LX _) => true
  | _ => false
  end.

Definition inlist (p : pc) : bool :=
  match p with
  | QRearm _ | QFor _ | QLoad _ | QCas _ _ | QFix _ | QUnl _ _ | XFix _ | XUnl _
  | WMark | WUnl _ | DFix | DUnl => true
  | _ => false
  end.

(* the thread is inside lock_slow (its stack node is alive) *)
Definition insync (p : pc) : bool :=
  match p with
  | TALoad (ASpin _) | TACas (ASpin _) _ | Yield _ | SpinNext _ => true
  | LLSwap (LQ (QSync _)) | LLLoad (LQ (QSync _)) | LLSpin (LQ (QSync _)) => true
  | QRearm (QSync _) | QFor (QSync _) | QLoad (QSync _) | QCas (QSync _) _ | QFix (QSync _) | QUnl (QSync _) _ => true
  | PLoad | Park => true
  | LLSwap (LX (QSync _)) | LLLoad (LX (QSync _)) | LLSpin (LX (QSync _)) | XFix (QSync _) | XUnl (QSync _) => true
  | _ => false
  end.

Definition start_actx (f : option bool) (a : actx) : Prop :=
  match f with
  | None => a = ALock \/ a = AFirst true \/ a = ATry \/ a = AFirst false
  | Some _ => a = ATry \/ a = APoll false
  end.

Lemma dispatch_inv s t c p s' e :
  dispatch s t c p = Some (s', e) ->
  exists p',
    ((fut s t <> None /\ do_llswap (set_prog s t p') t LDrop = Some (s', e)) \/
     (fut s t <> None /\ do_wait (set_prog s t p') t c = Some (s', e))) \/
    (exists a, start_actx (fut s t) a /\ do_taload (set_prog s t p') t a = Some (s', e)).
Proof.
  revert s. induction p as [|o r IH]; intros s H; cbn [dispatch] in H.
  - destruct (fut s t) eqn:F; [|discriminate]. exists []. left. left. split; [congruence|exact H].
  - destruct o.
    + destruct (fut s t) eqn:F.
      * exists (OLock :: r). left. left. split; [congruence|exact H].
      * exists r. right. exists ALock. split; [cbn; auto|exact H].
    + exists r. right. exists ATry. split; [|exact H]. destruct (fut s t); cbn; auto.
    + destruct (fut s t) eqn:F.
      * exists (OAsync :: r). left. left. split; [congruence|exact H].
      * exists r. right. exists (AFirst true). split; [cbn; auto|exact H].
    + destruct (fut s t) eqn:F.
      * exists r. right. exists (APoll false). split; [cbn; auto|exact H].
      * exists r. right. exists (AFirst false). split; [cbn; auto 6|exact H].
    + destruct (fut s t) eqn:F.
      * exists r. left. left. split; [congruence|exact H].
      * apply IH in H. rewrite F in H. exact H.
    + destruct (fut s t) eqn:F.
      * exists r. left. right. split; [congruence|exact H].
      * apply IH in H. rewrite F in H. exact H.
Qed.

Ltac fsimpl_goal :=
  cbn [locked hasq llock queue narm nwk token bwoken prog pcs fut holders results
       set_locked set_hasq set_llock set_queue set_narm set_nwk set_token set_bwoken set_prog set_pc
       set_fut set_holders log].

Ltac fsimpl_in H :=
  cbn [locked hasq llock queue narm nwk token bwoken prog pcs fut holders results
       set_locked set_hasq set_llock set_queue set_narm set_nwk set_token set_bwoken set_prog set_pc
       set_fut set_holders log] in H.

Ltac break_match H :=
  match type of H with
  | context [match ?x with _ => _ end] =>
      lazymatch x with
      | context [match _ with _ => _ end] => fail
      | _ => let y := fresh "v" in let E := fresh "E" in
             remember x as y eqn:E in H; symmetry in E; destruct y
      end
  end.

Ltac step_cases H :=
  unfold mstep in H;
  match type of H with context [pcs ?s ?t] =>
    let y := fresh "v" in remember (pcs s t) as y eqn:Epc in H; symmetry in Epc; destruct y end;
  cbv beta iota in H;
  [ apply dispatch_inv in H;
    let p' := fresh "p'" in let a := fresh "a" in let Ha := fresh "Ha" in let Hf := fresh "Hf" in
    destruct H as [p' [[[Hf H]|[Hf H]]|[a [Ha H]]]];
    [ | | unfold start_actx in Ha;
        match type of Ha with context [fut ?s ?t] =>
          let y := fresh "v" in remember (fut s t) as y eqn:Ef in Ha; symmetry in Ef; destruct y end;
        repeat match type of Ha with _ \/ _ => destruct Ha as [Ha|Ha] end; subst a ]
  | .. ];
  unfold do_taload, do_llswap, do_wait, after_llock, ret, block_next, fix_flags in H;
  fsimpl_in H; cbv beta iota zeta in H;
  repeat (break_match H; fsimpl_in H; cbv beta iota zeta in H);
  try discriminate H;
  match type of H with Some _ = Some _ => injection H as <- <- end;
  repeat match goal with
         | E : ?x = _ |- _ =>
             is_var x;
             lazymatch type of x with
             | actx => subst x | qctx => subst x | lctx => subst x | bool => subst x
             | option _ => subst x | wk => subst x | pc => subst x
             end
         end.

Ltac split_thr u t :=
  destruct (Nat.eq_dec u t) as [->|?]; [rewrite ?upd_eq | rewrite ?upd_neq by assumption].

(* case analysis on what the matches of the goal scrutinise *)
Ltac case_pc :=
  repeat match goal with |- context [match ?x with _ => _ end] =>
           lazymatch x with context [match _ with _ => _ end] => fail | _ => destruct x end
         end.
