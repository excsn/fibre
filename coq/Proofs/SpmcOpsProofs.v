(* Proofs/SpmcOpsProofs.v — theorems about the K2 model of the broadcast SPMC channel
   (Chan/SpmcOps.v), for ALL op histories (induction over the op list with an invariant).
   `stepR` says once what one step does to the whole state; SpmcWakeProofs and SpmcDropProofs read their
   step lemmas off it.  Projected on the `core` (no wakers, futures, drop log) a step has one of six
   `shape`s, and the invariant `InvC` is preserved by each. *)
From Fibre Require Import Common.Base Chan.SpmcOps.
From Coq Require Import ZifyBool ZifyNat ZifyN.
Ltac Zify.zify_post_hook ::= Z.div_mod_to_equations.

Section AssocFacts.
  Context {A : Type}.
  Implicit Types (l : list (N * A)).

  Lemma get_set_eq l k a : get (set l k a) k = Some a.
  Proof.
    induction l as [|[k' a'] t IH]; cbn [set get].
    - rewrite N.eqb_refl. reflexivity.
    - destruct (N.eqb_spec k k') as [->|Hn]; cbn [get].
      + rewrite N.eqb_refl. reflexivity.
      + destruct (N.eqb_spec k k'); [contradiction|]. exact IH.
  Qed.

  Lemma get_set_neq l k k2 a : k2 <> k -> get (set l k a) k2 = get l k2.
  Proof.
    intros Hne. induction l as [|[k' a'] t IH]; cbn [set get].
    - destruct (N.eqb_spec k2 k); [contradiction|]. reflexivity.
    - destruct (N.eqb_spec k k') as [->|Hn]; cbn [get].
      + destruct (N.eqb_spec k2 k'); [contradiction|]. reflexivity.
      + destruct (N.eqb_spec k2 k'); [reflexivity|]. exact IH.
  Qed.

  Lemma get_In l k a : get l k = Some a -> In (k, a) l.
  Proof.
    induction l as [|[k' a'] t IH]; cbn [get]; intros H; [discriminate|].
    destruct (N.eqb_spec k k') as [->|Hn].
    - inversion H; subst. left. reflexivity.
    - right. apply IH. exact H.
  Qed.

  Lemma get_None_keys l k : get l k = None -> ~ In k (map fst l).
  Proof.
    induction l as [|[k' a'] t IH]; cbn [get map fst]; intros H; [tauto|].
    destruct (N.eqb_spec k k') as [->|Hn]; [discriminate|].
    intros [He|Hi]; [congruence | exact (IH H Hi)].
  Qed.

  Lemma In_get l k a : NoDup (map fst l) -> In (k, a) l -> get l k = Some a.
  Proof.
    induction l as [|[k' a'] t IH]; cbn [get map fst]; intros Hnd Hin; [contradiction|].
    inversion Hnd as [|? ? Hni Hnd']; subst.
    destruct Hin as [He|Hin].
    - inversion He; subst. rewrite N.eqb_refl. reflexivity.
    - destruct (N.eqb_spec k k') as [->|Hn].
      + exfalso. apply Hni. apply in_map_iff. exists (k', a). auto.
      + apply IH; assumption.
  Qed.

  Lemma set_keys_in l k a x : In x (map fst (set l k a)) -> x = k \/ In x (map fst l).
  Proof.
    induction l as [|[k' a'] t IH]; cbn [set map fst].
    - intros [H|[]]. left. congruence.
    - destruct (N.eqb_spec k k') as [->|Hn]; cbn [map fst].
      + intros [H|H]; [left; congruence | right; right; exact H].
      + intros [H|H]; [right; left; exact H|]. destruct (IH H); [left|right; right]; assumption.
  Qed.

  Lemma set_NoDup l k a : NoDup (map fst l) -> NoDup (map fst (set l k a)).
  Proof.
    induction l as [|[k' a'] t IH]; cbn [set map fst]; intros Hnd.
    - constructor; [intros []|constructor].
    - inversion Hnd as [|? ? Hni Hnd']; subst.
      destruct (N.eqb_spec k k') as [->|Hn]; cbn [map fst].
      + constructor; assumption.
      + constructor; [|apply IH; exact Hnd'].
        intros Hin. apply set_keys_in in Hin. destruct Hin; [congruence|contradiction].
  Qed.
  Lemma set_set l k a b : set (set l k a) k b = set l k b.
  Proof.
    induction l as [|[k' a'] t IH]; cbn [set].
    - rewrite N.eqb_refl. reflexivity.
    - destruct (N.eqb_spec k k') as [->|Hn]; cbn [set].
      + rewrite N.eqb_refl. reflexivity.
      + destruct (N.eqb_spec k k'); [contradiction|]. rewrite IH. reflexivity.
  Qed.
End AssocFacts.

Definition slice (l : list N) (a b : N) : list N :=
  firstn (N.to_nat (b - a)) (skipn (N.to_nat a) l).

Lemma lenN_app {A} (l1 l2 : list A) : lenN (l1 ++ l2) = lenN l1 + lenN l2.
Proof. unfold lenN. rewrite app_length. lia. Qed.

Lemma slice_nil l a : slice l a a = [].
Proof. unfold slice. replace (a - a) with 0 by lia. reflexivity. Qed.

Lemma slice_app_l l vs a b : b <= lenN l -> slice (l ++ vs) a b = slice l a b.
Proof.
  unfold slice, lenN. intros Hb.
  destruct (N.leb_spec a b) as [Hab|Hab].
  - rewrite skipn_app. rewrite firstn_app.
    rewrite skipn_length.
    replace (N.to_nat (b - a) - (length l - N.to_nat a))%nat with 0%nat by lia.
    cbn [firstn]. rewrite app_nil_r. reflexivity.
  - replace (b - a) with 0 by lia. reflexivity.
Qed.

Lemma firstn_plus {A} (n m : nat) (l : list A) :
  firstn (n + m) l = firstn n l ++ firstn m (skipn n l).
Proof.
  revert l. induction n as [|n IH]; intros l; [reflexivity|].
  destruct l as [|x t]; cbn [plus firstn skipn app].
  - destruct m; reflexivity.
  - rewrite IH. reflexivity.
Qed.

Lemma skipn_plus {A} (n m : nat) (l : list A) : skipn m (skipn n l) = skipn (n + m) l.
Proof.
  revert l. induction n as [|n IH]; intros l; [reflexivity|].
  destruct l as [|x t]; cbn [plus skipn].
  - destruct m; reflexivity.
  - apply IH.
Qed.

Lemma slice_split l a b c : a <= b -> b <= c -> slice l a c = slice l a b ++ slice l b c.
Proof.
  unfold slice. intros Hab Hbc.
  replace (N.to_nat (c - a)) with (N.to_nat (b - a) + N.to_nat (c - b))%nat by lia.
  rewrite firstn_plus. f_equal.
  rewrite skipn_plus. f_equal. f_equal. lia.
Qed.

Lemma skipn_cons_nth {A} (d : A) (n : nat) (l : list A) :
  (n < length l)%nat -> skipn n l = nth n l d :: skipn (S n) l.
Proof.
  revert l. induction n as [|n IH]; intros [|x t] H; cbn [length] in H; try lia.
  - reflexivity.
  - cbn [skipn nth]. apply IH. lia.
Qed.

Lemma slice_cons l t k :
  t < lenN l -> slice l t (t + N.of_nat (S k)) = nth (N.to_nat t) l 0 :: slice l (t + 1) (t + 1 + N.of_nat k).
Proof.
  unfold slice, lenN. intros Ht.
  replace (N.to_nat (t + N.of_nat (S k) - t)) with (S k) by lia.
  replace (N.to_nat (t + 1 + N.of_nat k - (t + 1))) with k by lia.
  rewrite (skipn_cons_nth 0) by lia. cbn [firstn].
  replace (N.to_nat (t + 1)) with (S (N.to_nat t)) by lia. reflexivity.
Qed.

Lemma map_nth_seqN l t k :
  t + N.of_nat k <= lenN l ->
  map (fun i => nth (N.to_nat i) l 0) (seqN t k) = slice l t (t + N.of_nat k).
Proof.
  revert t. induction k as [|k IH]; intros t H.
  - cbn [seqN map]. replace (t + N.of_nat 0) with t by lia. rewrite slice_nil. reflexivity.
  - cbn [seqN map]. rewrite slice_cons by lia. f_equal. apply IH. lia.
Qed.

Lemma seqN_length a k : length (seqN a k) = k.
Proof. revert a. induction k; intros a; cbn [seqN length]; [reflexivity|]. rewrite IHk. reflexivity. Qed.

Lemma seqN_bounds a k i : In i (seqN a k) -> a <= i < a + N.of_nat k.
Proof.
  revert a. induction k as [|k IH]; intros a; cbn [seqN]; [intros []|].
  intros [<-|H]; [lia|]. apply IH in H. lia.
Qed.

(* the part of the state the delivery / backpressure / disconnect theorems talk about; waker and drop
   bookkeeping never touch it *)
Record core := mkCore {
  c_fixed : bool; c_cap : N; c_log : list N;
  c_alive : bool; c_closed : bool; c_taint : bool; c_pdrop : bool;
  c_rxs : list (N * rx) }.

Definition proj (s : st) : core :=
  mkCore (fixedm s) (cap s) (log s) (s_alive s) (s_closed s) (s_taint s) (pdrop s) (rxs s).

Lemma proj_wake w s : proj (wake w s) = proj s.
Proof. reflexivity. Qed.

Lemma proj_wake_list ws s : proj (wake_list ws s) = proj s.
Proof.
  revert s. induction ws as [|w t IH]; intros s; [reflexivity|].
  cbn [wake_list fold_left]. change (proj (wake_list t (wake w s)) = proj s). rewrite IH. reflexivity.
Qed.

Lemma proj_wake_producer s : proj (wake_producer s) = proj s.
Proof. unfold wake_producer. destruct (pw s); reflexivity. Qed.

Lemma proj_drain k s : proj (drain k s) = proj s.
Proof. unfold drain. rewrite proj_wake_list. reflexivity. Qed.

Lemma proj_wake_all s : proj (wake_all s) = proj s.
Proof. unfold wake_all. rewrite proj_wake_list. reflexivity. Qed.

Lemma proj_register k w s : proj (register k w s) = proj s.
Proof. unfold register. destruct (has_reg k w (regs s)); reflexivity. Qed.

Lemma proj_add_drops s l : proj (add_drops s l) = proj s.
Proof. reflexivity. Qed.

Lemma proj_set_fut s f x : proj (set_fut s f x) = proj s.
Proof. reflexivity. Qed.

Lemma proj_pend s f k w : proj (pend s f k w) = proj s.
Proof. reflexivity. Qed.

Definition c_head (c : core) : N := lenN (c_log c).
Definition with_log (c : core) (l : list N) : core :=
  mkCore (c_fixed c) (c_cap c) l (c_alive c) (c_closed c) (c_taint c) (c_pdrop c) (c_rxs c).
Definition with_rxs (c : core) (l : list (N * rx)) : core :=
  mkCore (c_fixed c) (c_cap c) (c_log c) (c_alive c) (c_closed c) (c_taint c) (c_pdrop c) l.
Definition with_sender (c : core) (alive closed taint pd : bool) : core :=
  mkCore (c_fixed c) (c_cap c) (c_log c) alive closed taint pd (c_rxs c).

Definition c_cursors (c : core) : list N :=
  map (fun p => r_cur (snd p)) (filter (fun p => r_reg (snd p)) (c_rxs c)).

Definition c_space (c : core) : option N :=
  match minl (c_cursors c) with
  | None => None
  | Some m => Some (c_cap c - N.min (c_head c - m) (c_cap c))
  end.

Definition c_slot_index (c : core) (idx : N) : N := idx + c_cap c * ((c_head c - 1 - idx) / c_cap c).
Definition c_slot_val (c : core) (idx : N) : N := nth (N.to_nat (c_slot_index c idx)) (c_log c) 0.

Lemma slot_val_proj s i : slot_val s i = c_slot_val (proj s) i.
Proof. reflexivity. Qed.

Lemma proj_write1 v s : proj (write1 v s) = with_log (proj s) (log s ++ [v]).
Proof.
  unfold write1. rewrite proj_drain.
  destruct (N.leb (cap s) (head s)); reflexivity.
Qed.

Lemma proj_write_many vs s : proj (write_many vs s) = with_log (proj s) (log s ++ vs).
Proof.
  revert s. induction vs as [|v t IH]; intros s.
  - cbn [write_many fold_left]. rewrite app_nil_r. destruct s; reflexivity.
  - cbn [write_many fold_left]. change (proj (write_many t (write1 v s)) = with_log (proj s) (log s ++ v :: t)).
    rewrite IH. pose proof (proj_write1 v s) as H.
    assert (Hl : log (write1 v s) = log s ++ [v]) by (change (c_log (proj (write1 v s)) = log s ++ [v]); rewrite H; reflexivity).
    rewrite Hl, H. unfold with_log. cbn [c_fixed c_cap c_alive c_closed c_taint c_pdrop c_rxs proj].
    rewrite <- app_assoc. reflexivity.
Qed.

Fixpoint vals_of (r : N) (o : out) : list N :=
  match o with
  | OVal r' v => if N.eqb r' r then [v] else []
  | OVals r' vs => if N.eqb r' r then vs else []
  | OReady o' => vals_of r o'
  | _ => []
  end.

Definition recvd (r : N) (outs : list out) : list N := flat_map (vals_of r) outs.
Definition quiet (o : out) : Prop := forall r, vals_of r o = [].

Lemma recvd_snoc r outs o : recvd r (outs ++ [o]) = recvd r outs ++ vals_of r o.
Proof. unfold recvd. rewrite flat_map_app. cbn [flat_map]. rewrite app_nil_r. reflexivity. Qed.

Ltac pinj H := injection H as <- <-.

Lemma add_drops_nil s : add_drops s [] = s.
Proof. destruct s; reflexivity. Qed.

Lemma write1_eq v s :
  write1 v s = drain (head s mod cap s)
                 (set_log (add_drops s (if N.leb (cap s) (head s)
                                        then [nth (N.to_nat (head s - cap s)) (log s) 0] else []))
                          (log s ++ [v])).
Proof. unfold write1. destruct (N.leb (cap s) (head s)); [|rewrite add_drops_nil]; reflexivity. Qed.

Lemma firstnN_len {A} k (l : list A) : lenN (firstnN k l) = N.min k (lenN l).
Proof. unfold lenN, firstnN. rewrite firstn_length. lia. Qed.

Lemma firstnN_skipnN {A} k (l : list A) : firstnN k l ++ skipnN k l = l.
Proof. apply firstn_skipn. Qed.

Lemma try_send_core_spec v s s' res :
  try_send_core v s = (s', res) ->
  match res with
  | SOk => s' = write1 v s /\ exists sp, space s = Some sp /\ 1 <= sp
  | SFull => s' = s /\ space s = Some 0
  | SClosedR => s' = s /\ space s = None
  end.
Proof.
  unfold try_send_core, space. destruct (minl (cursors s)) as [m|].
  - destruct (N.leb_spec (cap s) (head s - m)) as [Hle|Hlt]; intros H; pinj H.
    + split; [reflexivity|]. f_equal. lia.
    + split; [reflexivity|]. eexists. split; [reflexivity|]. lia.
  - intros H; pinj H. split; reflexivity.
Qed.

Lemma send_some_spec vs s :
  match send_some vs s with
  | None => space s = None
  | Some (s', k, rest) =>
      exists sp, space s = Some sp /\ k = N.min sp (lenN vs) /\ rest = skipnN k vs /\
                 s' = write_many (firstnN k vs) s
  end.
Proof. unfold send_some. destruct (space s) as [sp|]; [|reflexivity]. exists sp. auto. Qed.

Lemma in_window_spec s t : in_window s t = true <-> t < head s /\ head s <= t + cap s.
Proof. unfold in_window. rewrite andb_true_iff, N.ltb_lt, N.leb_le. tauto. Qed.

Lemma slot_index_window c i :
  i < c_head c -> c_head c <= i + c_cap c -> c_slot_index c i = i.
Proof.
  intros H1 H2. unfold c_slot_index.
  assert (Hc : c_cap c <> 0) by lia.
  rewrite N.div_small by lia. lia.
Qed.

Lemma try_recv_core_spec r x s s' res :
  try_recv_core r x s = (s', res) ->
  match res with
  | RVal v => s' = wake_producer (add_drops (set_rx s r (adv x 1)) [v]) /\
              v = slot_val s (r_cur x) /\ in_window s (r_cur x) = true
  | REmpty => s' = s /\ in_window s (r_cur x) = false /\ (pdrop s = false \/ r_cur x < head s)
  | RDisc => s' = s /\ pdrop s = true /\ head s <= r_cur x
  end.
Proof.
  unfold try_recv_core. destruct (in_window s (r_cur x)) eqn:Ew.
  - intros H; pinj H. apply in_window_spec in Ew.
    split; [reflexivity|]. split; [|reflexivity].
    unfold slot_val. replace (slot_index s (r_cur x)) with (r_cur x); [reflexivity|].
    symmetry. apply (slot_index_window (proj s)); apply Ew.
  - destruct (pdrop s) eqn:Ep; cbn [andb].
    + destruct (N.leb_spec (head s) (r_cur x)) as [Hle|Hlt]; intros H; pinj H; auto.
    + intros H; pinj H. auto.
Qed.

Lemma try_recv_batch_core_spec r x n s s' res :
  try_recv_batch_core r x n s = (s', res) ->
  match res with
  | BVals vs => exists k, s' = wake_producer (add_drops (set_rx s r (adv x k)) vs) /\
                k = N.min (head s - r_cur x) n /\ r_cur x < head s /\
                vs = map (slot_val s) (seqN (r_cur x) (N.to_nat k))
  | BEmpty => s' = s /\ head s <= r_cur x /\ pdrop s = false
  | BDisc => s' = s /\ head s <= r_cur x /\ pdrop s = true
  end.
Proof.
  unfold try_recv_batch_core. destruct (N.leb_spec (head s) (r_cur x)) as [Hle|Hlt].
  - destruct (pdrop s) eqn:Ep; intros H; pinj H; auto.
  - intros H; pinj H. eexists. auto.
Qed.

Lemma with_rx_inv s r k s' o :
  with_rx s r k = (s', o) ->
  (s' = s /\ o = ONA) \/ exists x, get (rxs s) r = Some x /\ r_live x = true /\ k x = (s', o).
Proof.
  unfold with_rx. destruct (get (rxs s) r) as [x|] eqn:E.
  - destruct (r_live x) eqn:El; intros H.
    + right. eauto.
    + inversion H. left. auto.
  - intros H. inversion H. left. auto.
Qed.

Lemma vals_of_OVal_eq r v : vals_of r (OVal r v) = [v].
Proof. cbn [vals_of]. rewrite N.eqb_refl. reflexivity. Qed.
Lemma vals_of_OVal_neq r r' v : r' <> r -> vals_of r' (OVal r v) = [].
Proof. intros H. cbn [vals_of]. destruct (N.eqb_spec r r'); [congruence|reflexivity]. Qed.
Lemma vals_of_OVals_eq r vs : vals_of r (OVals r vs) = vs.
Proof. cbn [vals_of]. rewrite N.eqb_refl. reflexivity. Qed.
Lemma vals_of_OVals_neq r r' vs : r' <> r -> vals_of r' (OVals r vs) = [].
Proof. intros H. cbn [vals_of]. destruct (N.eqb_spec r r'); [congruence|reflexivity]. Qed.

Definition is_disc (r : N) (o : out) : bool :=
  match o with
  | ODisc r' => N.eqb r' r
  | OReady (ODisc r') => N.eqb r' r
  | _ => false
  end.

Definition frozen (s : st) (r : N) : Prop :=
  exists x, get (rxs s) r = Some x /\ (r_closed x = true \/ (pdrop s = true /\ head s <= r_cur x)).

(* Every operation either is refused, or does one of: nothing, hand its payload back (dropped by the
   caller), write a prefix of its payload and hand the rest back, advance a cursor, update one handle,
   update the futures table.  A poll of a future does what the direct operation does and then retires
   the future; its payload comes out of the future instead of the argument: [pf] is the polled future. *)
Definition carried (o : op) : list N :=
  match o with
  | TrySend v | Send v | MkSend _ v => [v]
  | TrySendB vs | TrySendM vs | SendB vs | SendM vs | MkSendB _ vs | MkSendM _ vs => vs
  | _ => []
  end.

Definition new_kind (o : op) : option (N * fkind) :=
  match o with
  | MkRecv f r => Some (f, FRecv r) | MkRecvB f r n => Some (f, FRecvB r n)
  | MkSend f v => Some (f, FSend v) | MkSendB f vs => Some (f, FSendB vs 0 (lenN vs))
  | MkSendM f vs => Some (f, FSendM vs 0)
  | _ => None
  end.

Definition direct : option (N * fut) := None.
Definition retire (pf : option (N * fut)) (s : st) : st :=
  match pf with Some (f, y) => kill s f y | None => s end.
Definition payload (pf : option (N * fut)) (o : op) : list N :=
  match pf with Some (_, y) => held (f_kind y) | None => carried o end.
Definition polled (s : st) (o : op) (pf : option (N * fut)) : Prop :=
  match pf with
  | Some (f, y) => get (futs s) f = Some y /\ f_live y = true /\ carried o = []
  | None => True
  end.

Definition plain (x : out) : Prop :=
  quiet x /\ (forall r, is_disc r x = false) /\ x <> ONA /\ x <> OWouldBlock.

(* a send future of kind k, having written ws into a space of sp without finishing, continues as k' *)
Definition resumes (k : fkind) (sp : N) (ws : list N) (k' : fkind) : Prop :=
  match k with
  | FSend v => sp = 0 /\ ws = [] /\ k' = FSend v
  | FSendB rest sent total =>
      let n := N.min sp (lenN rest) in
      ws = firstnN n rest /\ k' = FSendB (skipnN n rest) (sent + n) total /\ sent + n <> total
  | FSendM rest sent =>
      let n := N.min sp (lenN rest) in
      ws = firstnN n rest /\ k' = FSendM (skipnN n rest) (sent + n) /\ skipnN n rest <> []
  | _ => False
  end.

Definition rx_dead (y : rx) : rx :=
  mkRx (r_cur y) (r_start y) (r_reg y) (r_closed y) (r_async y) false (r_taint y).

Inductive stepR (s : st) : op -> out -> st -> Prop :=
| R_refuse o x : x = ONA \/ x = OWouldBlock -> stepR s o x s
| R_nop pf o x : polled s o pf -> payload pf o = [] -> quiet x ->
    (forall r, is_disc r x = true -> frozen s r) -> stepR s o x (retire pf s)
| R_reject pf o x : polled s o pf -> plain x -> stepR s o x (add_drops (retire pf s) (payload pf o))
| R_send pf o x ws rest sp : polled s o pf -> plain x -> payload pf o = ws ++ rest ->
    s_alive s = true -> s_closed s = false -> space s = Some sp -> lenN ws <= sp ->
    stepR s o x (add_drops (retire pf (write_many ws s)) rest)
| R_recv pf o x r y k vs : polled s o pf -> payload pf o = [] -> (forall r', is_disc r' x = false) ->
    get (rxs s) r = Some y -> r_closed y = false -> r_cur y < head s -> r_cur y + k <= head s ->
    vs = map (slot_val s) (seqN (r_cur y) (N.to_nat k)) ->
    vals_of r x = vs -> (forall r', r' <> r -> vals_of r' x = []) ->
    stepR s o x (retire pf (wake_producer (add_drops (set_rx s r (adv y k)) vs)))
| R_pend_rx f y w r z : get (futs s) f = Some y -> f_live y = true -> fut_rx (f_kind y) = Some r ->
    get (rxs s) r = Some z -> r_closed z = false ->
    in_window s (r_cur z) = false -> pdrop s = false \/ r_cur z < head s ->
    stepR s (Poll f w) OPending (pend (register (r_cur z mod cap s) w s) f (f_kind y) w)
| R_pend_tx f y w ws k' sp : get (futs s) f = Some y -> f_live y = true ->
    s_alive s = true -> s_closed s = false -> space s = Some sp -> resumes (f_kind y) sp ws k' ->
    stepR s (Poll f w) OPending (pend (reg_producer f w (write_many ws s)) f k' w)
| R_register o slot w : carried o = [] -> stepR s o OPending (register slot w s)
| R_new o f k : new_kind o = Some (f, k) -> get (futs s) f = None ->
    stepR s o OOk (set_fut s f (mkFut k true None false false))
| R_rclose r y : get (rxs s) r = Some y -> r_live y = true -> r_closed y = false ->
    stepR s (RClose r) OOk (wake_producer (set_rx s r (rx_unreg y)))
| R_rdrop r y s1 y1 : get (rxs s) r = Some y -> r_live y = true -> rx_busy s r = false ->
    (r_closed y = true /\ s1 = s /\ y1 = y) \/
    (r_closed y = false /\ s1 = wake_producer (set_rx s r (rx_unreg y)) /\ y1 = rx_unreg y) ->
    stepR s (RDrop r) OOk (release (set_rx s1 r (rx_dead y1)))
| R_rconv r y y' : get (rxs s) r = Some y -> r_live y = true -> rx_busy s r = false ->
    y' = (if fixedm s
          then mkRx (r_cur y) (r_start y) (r_reg y) (r_closed y) (negb (r_async y)) true (r_taint y)
          else mkRx (r_cur y) (r_start y) (r_reg y) false (negb (r_async y)) true (r_taint y || r_closed y)) ->
    stepR s (RConv r) OOk (set_rx s r y')
| R_clone r y c yc : get (rxs s) r = Some y -> r_live y = true -> get (rxs s) c = None ->
    yc = (if fixedm s && r_closed y
          then mkRx (r_cur y) (r_cur y) false true (r_async y) true (r_taint y)
          else mkRx (r_cur y) (r_cur y) true false (r_async y) true (r_taint y || negb (r_reg y))) ->
    stepR s (RClone r c) OOk (set_rx s c yc)
| R_sclose : s_alive s = true -> tx_busy s = false -> s_closed s = false ->
    stepR s SClose OOk (sender_close_internal (set_sender s true true (s_async s) (s_taint s) (pdrop s)))
| R_sdrop s1 : s_alive s = true -> tx_busy s = false ->
    s1 = (if s_closed s then s else sender_close_internal s) ->
    stepR s SDrop OOk (release (set_sender s1 false true (s_async s1) (s_taint s1) (pdrop s1)))
| R_sconv s' : s_alive s = true -> tx_busy s = false ->
    s' = (if fixedm s then set_sender s true (s_closed s) (negb (s_async s)) (s_taint s) (pdrop s)
          else set_sender s true false (negb (s_async s)) (s_taint s || s_closed s) (pdrop s)) ->
    stepR s SConv OOk s'.

Ltac stepR_cases H :=
  destruct H as
    [ o x Ex | pf o x Epf Epay Equiet Edisc | pf o x Epf Eplain |
      pf o x ws rest sp Epf Eplain Epay Ealive Eopen Esp Ele |
      pf o x r y k vs Epf Epay Endisc Eget Eopen Elt Ele Evs Evals Eothers |
      f y w r z Efut Elive Ekind Eget Eopen Ewin Epd | f y w ws k' sp Efut Elive Ealive Eopen Esp Eres |
      o slot w Epay | o f k Ekind Efree | r y Eget Elive Eopen | r y s1 y1 Eget Elive Eidle Ecase |
      r y y' Eget Elive Eidle Ey | r y c yc Eget Elive Efree Ey | Ealive Eidle Eopen | s1 Ealive Eidle Es1 |
      s' Ealive Eidle Es2 ].

(* for a concrete output x: `quiet x` and `plain x` hold by computation; `taken` reads s' and x off the
   equation `(_, _) = (s', x)` at the head of the goal; refuse / nop / reject then close `stepR s o x s'`
   with the constructor of that name *)
Ltac quiet_tac := let r := fresh in intros r; cbn [vals_of]; try reflexivity; destruct (N.eqb _ _); reflexivity.
Ltac plain_tac := split; [quiet_tac | split; [intros ?; reflexivity | split; discriminate]].
Ltac taken := let H := fresh in intros H; injection H as <- <-.
Ltac refuse := taken; apply R_refuse; auto.
(* the output reports no disconnect, or it is ODisc r for a closed handle in the context *)
Ltac nop pf :=
  taken; apply (R_nop _ pf);
  [ first [exact I | assumption] | auto | quiet_tac
  | intros ? Hd; first [discriminate Hd | apply N.eqb_eq in Hd; subst; eexists; eauto] ].
Ltac reject pf := taken; apply (R_reject _ pf); [first [exact I | assumption] | plain_tac].

Lemma rxs_wake_producer s : rxs (wake_producer s) = rxs s.
Proof. change (c_rxs (proj (wake_producer s)) = rxs s). rewrite proj_wake_producer. reflexivity. Qed.

Lemma send1_stepR pf o x v s s1 :
  polled s o pf -> payload pf o = [v] -> plain x -> s_alive s = true -> s_closed s = false ->
  try_send_core v s = (s1, SOk) -> stepR s o x (retire pf s1).
Proof.
  intros Hp Hv Hx Ha Hc H. apply try_send_core_spec in H. destruct H as (-> & sp & Hsp & Hle).
  rewrite <- (add_drops_nil (retire pf (write1 v s))). apply (R_send s pf o x [v] [] sp); auto.
Qed.

Lemma send_some_stepR pf o x vs s s1 k rest :
  polled s o pf -> payload pf o = vs -> plain x -> s_alive s = true -> s_closed s = false ->
  send_some vs s = Some (s1, k, rest) -> stepR s o x (add_drops (retire pf s1) rest).
Proof.
  intros Hp Hv Hx Ha Hc H. pose proof (send_some_spec vs s) as Hs. rewrite H in Hs.
  destruct Hs as (sp & Hsp & -> & -> & ->). apply R_send with (sp := sp); auto.
  - rewrite firstnN_skipnN. exact Hv.
  - rewrite firstnN_len. lia.
Qed.

(* x reports what the result of the receive says (a future wraps it in OReady) *)
Lemma recv_stepR pf o x r y s s1 res :
  polled s o pf -> payload pf o = [] -> get (rxs s) r = Some y -> r_closed y = false ->
  try_recv_core r y s = (s1, res) ->
  (forall r', vals_of r' x = vals_of r' (out_of_rres r res OOk)) ->
  (forall r', is_disc r' x = true -> is_disc r' (out_of_rres r res OOk) = true) ->
  stepR s o x (retire pf s1).
Proof.
  intros Hp Hv Hg Hc H Hvals Hdisc. apply try_recv_core_spec in H. destruct res as [v| |]; cbn [out_of_rres] in *.
  - destruct H as (-> & Hval & Hw). apply in_window_spec in Hw.
    apply (R_recv s pf o x r y 1 [v]); auto.
    + intros r'. destruct (is_disc r' x) eqn:E; [|reflexivity]. apply Hdisc in E. discriminate E.
    + apply Hw.
    + lia.
    + subst v. reflexivity.
    + rewrite Hvals. apply vals_of_OVal_eq.
    + intros r' Hr. rewrite Hvals. apply vals_of_OVal_neq. exact Hr.
  - destruct H as (-> & _). apply R_nop; auto. intros r' Hd. apply Hdisc in Hd. discriminate Hd.
  - destruct H as (-> & Hpd & Hh). apply R_nop; auto.
    intros r' Hd. apply Hdisc, N.eqb_eq in Hd. subst r'. exists y. auto.
Qed.

Lemma recv_batch_stepR pf o x r y n s s1 res :
  polled s o pf -> payload pf o = [] -> get (rxs s) r = Some y -> r_closed y = false ->
  try_recv_batch_core r y n s = (s1, res) ->
  (forall r', vals_of r' x = vals_of r' (out_of_bres r res OOk)) ->
  (forall r', is_disc r' x = true -> is_disc r' (out_of_bres r res OOk) = true) ->
  stepR s o x (retire pf s1).
Proof.
  intros Hp Hv Hg Hc H Hvals Hdisc. apply try_recv_batch_core_spec in H. destruct res as [vs| |]; cbn [out_of_bres] in *.
  - destruct H as (k & -> & Hk & Hlt & Hvs).
    apply (R_recv s pf o x r y k vs); auto.
    + intros r'. destruct (is_disc r' x) eqn:E; [|reflexivity]. apply Hdisc in E. discriminate E.
    + lia.
    + rewrite Hvals. apply vals_of_OVals_eq.
    + intros r' Hr. rewrite Hvals. apply vals_of_OVals_neq. exact Hr.
  - destruct H as (-> & _). apply R_nop; auto. intros r' Hd. apply Hdisc in Hd. discriminate Hd.
  - destruct H as (-> & Hh & Hpd). apply R_nop; auto.
    intros r' Hd. apply Hdisc, N.eqb_eq in Hd. subst r'. exists y. auto.
Qed.

Lemma poll_stepR s f y w s' x :
  get (futs s) f = Some y -> f_live y = true -> poll_fut s f y w = (s', x) -> stepR s (Poll f w) x s'.
Proof.
  intros Hf Hl. set (pf := Some (f, y)).
  assert (Hp : polled s (Poll f w) pf) by (repeat split; assumption).
  unfold poll_fut. destruct (f_kind y) as [r|r n|v|rest sent total|rest sent] eqn:Ek.
  - assert (Hv : payload pf (Poll f w) = []) by (cbn [payload pf]; rewrite Ek; reflexivity).
    destruct (get (rxs s) r) as [z|] eqn:Eg; [|refuse].
    destruct (r_closed z) eqn:Ec; [nop pf|].
    destruct (try_recv_core r z s) as [s1 res] eqn:Et.
    destruct res; taken; try (apply (recv_stepR _ _ _ _ _ _ _ _ Hp Hv Eg Ec Et); auto).
    apply try_recv_core_spec in Et. destruct Et as (-> & Hw & Hd). rewrite <- Ek.
    apply (R_pend_rx s f y w r z); auto. rewrite Ek. reflexivity.
  - assert (Hv : payload pf (Poll f w) = []) by (cbn [payload pf]; rewrite Ek; reflexivity).
    destruct (get (rxs s) r) as [z|] eqn:Eg; [|refuse].
    destruct (r_closed z) eqn:Ec; [nop pf|].
    destruct (N.eqb n 0); [nop pf|].
    destruct (try_recv_batch_core r z n s) as [s1 res] eqn:Et.
    destruct res; taken; try (apply (recv_batch_stepR _ _ _ _ _ _ _ _ _ Hp Hv Eg Ec Et); auto).
    apply try_recv_batch_core_spec in Et. destruct Et as (-> & Hh & Hd). rewrite <- Ek.
    apply (R_pend_rx s f y w r z); auto.
    + rewrite Ek. reflexivity.
    + unfold in_window. destruct (N.ltb_spec (r_cur z) (head s)); [lia|reflexivity].
  - assert (Hv : payload pf (Poll f w) = [v]) by (cbn [payload pf]; rewrite Ek; reflexivity).
    destruct (s_alive s) eqn:Ea; cbn [negb]; [|refuse].
    destruct (s_closed s) eqn:Ec; [taken; rewrite <- Hv; apply (R_reject _ pf); [assumption|plain_tac]|].
    destruct (try_send_core v s) as [s1 res] eqn:Et.
    destruct res; taken.
    + apply (send1_stepR pf _ _ v s s1); auto. plain_tac.
    + apply try_send_core_spec in Et. destruct Et as (-> & Hsp).
      apply (R_pend_tx s f y w [] (FSend v) 0); auto. rewrite Ek. cbn. auto.
    + apply try_send_core_spec in Et. destruct Et as (-> & _). rewrite <- Hv. apply (R_reject _ pf); [assumption|plain_tac].
  - assert (Hv : payload pf (Poll f w) = rest) by (cbn [payload pf]; rewrite Ek; reflexivity).
    destruct (s_alive s) eqn:Ea; cbn [negb]; [|refuse].
    destruct (N.eqb sent total); [taken; rewrite <- Hv; apply (R_reject _ pf); [assumption|plain_tac]|].
    destruct (s_closed s) eqn:Ec; [taken; rewrite <- Hv; apply (R_reject _ pf); [assumption|plain_tac]|].
    pose proof (send_some_spec rest s) as Hs.
    destruct (send_some rest s) as [[[s1 k] rest']|] eqn:Es; [|taken; rewrite <- Hv; apply (R_reject _ pf); [assumption|plain_tac]].
    destruct (N.eqb_spec (sent + k) total) as [He|Hne]; taken.
    + apply (send_some_stepR pf _ _ rest s s1 k rest'); auto. plain_tac.
    + destruct Hs as (sp & Hsp & -> & -> & ->).
      apply (R_pend_tx s f y w _ _ sp); auto. rewrite Ek. cbn [resumes]. auto.
  - assert (Hv : payload pf (Poll f w) = rest) by (cbn [payload pf]; rewrite Ek; reflexivity).
    destruct (s_alive s) eqn:Ea; cbn [negb]; [|refuse].
    destruct rest as [|v0 rest0]; [nop pf|].
    destruct (s_closed s) eqn:Ec; [taken; rewrite <- Hv; apply (R_reject _ pf); [assumption|plain_tac]|].
    pose proof (send_some_spec (v0 :: rest0) s) as Hs.
    destruct (send_some (v0 :: rest0) s) as [[[s1 k] rest']|] eqn:Es; [|taken; rewrite <- Hv; apply (R_reject _ pf); [assumption|plain_tac]].
    destruct rest' as [|v1 rest1]; taken.
    + rewrite <- (add_drops_nil (kill s1 f y)).
      apply (send_some_stepR pf _ _ (v0 :: rest0) s s1 k []); auto. plain_tac.
    + destruct Hs as (sp & Hsp & -> & Hr & ->).
      apply (R_pend_tx s f y w _ _ sp); auto. rewrite Ek. cbn [resumes]. rewrite <- Hr. repeat split. discriminate.
Qed.

Lemma new_fut_stepR s o f k s' x :
  new_kind o = Some (f, k) -> new_fut s f k = (s', x) -> stepR s o x s'.
Proof.
  intros Hk. unfold new_fut. destruct (get (futs s) f) eqn:Eg; [refuse|]. taken. apply R_new; assumption.
Qed.

Lemma with_rx_stepR s r k o s' x :
  (forall y, get (rxs s) r = Some y -> r_live y = true -> k y = (s', x) -> stepR s o x s') ->
  with_rx s r k = (s', x) -> stepR s o x s'.
Proof.
  intros Hk H. apply with_rx_inv in H. destruct H as [[-> ->]|(y & Hg & Hl & H)]; [apply R_refuse; auto|eauto].
Qed.

Theorem step_stepR s o s' x : step s o = (s', x) -> stepR s o x s'.
Proof.
  destruct o; cbn [step].
  - (* TrySend *)
    destruct (s_alive s) eqn:Ea; cbn [negb]; [|refuse].
    destruct (s_closed s) eqn:Ec; [reject direct|].
    destruct (try_send_core v s) as [s1 res] eqn:Et.
    destruct res.
    + taken. apply (send1_stepR direct _ _ v s s1); auto; [exact I|plain_tac].
    + apply try_send_core_spec in Et. destruct Et as (-> & _). reject direct.
    + apply try_send_core_spec in Et. destruct Et as (-> & _). reject direct.
  - (* Send *)
    destruct (s_alive s) eqn:Ea; cbn [negb orb]; [|refuse].
    destruct (s_async s); [refuse|].
    destruct (s_closed s) eqn:Ec; [reject direct|].
    destruct (try_send_core v s) as [s1 res] eqn:Et.
    destruct res.
    + taken. apply (send1_stepR direct _ _ v s s1); auto; [exact I|plain_tac].
    + refuse.
    + apply try_send_core_spec in Et. destruct Et as (-> & _). reject direct.
  - (* TrySendB *)
    destruct (s_alive s) eqn:Ea; cbn [negb]; [|refuse].
    destruct vs as [|v0 vs0]; [nop direct|].
    destruct (s_closed s) eqn:Ec; [reject direct|].
    destruct (send_some (v0 :: vs0) s) as [[[s1 k] rest]|] eqn:Es; [|reject direct].
    destruct rest; taken; [rewrite <- (add_drops_nil s1)|];
      apply (send_some_stepR direct _ _ _ s s1 k _ I eq_refl); auto; plain_tac.
  - (* TrySendM *)
    destruct (s_alive s) eqn:Ea; cbn [negb]; [|refuse].
    destruct vs as [|v0 vs0]; [nop direct|].
    destruct (s_closed s) eqn:Ec; [reject direct|].
    destruct (send_some (v0 :: vs0) s) as [[[s1 k] rest]|] eqn:Es; [|reject direct].
    taken. apply (send_some_stepR direct _ _ _ s s1 k _ I eq_refl); auto; plain_tac.
  - (* SendB *)
    destruct (s_alive s) eqn:Ea; cbn [negb orb]; [|refuse].
    destruct (s_async s); [refuse|].
    destruct vs as [|v0 vs0]; [nop direct|].
    destruct (s_closed s) eqn:Ec; [reject direct|].
    destruct (send_some (v0 :: vs0) s) as [[[s1 k] rest]|] eqn:Es; [|reject direct].
    destruct rest; [|refuse]. taken. rewrite <- (add_drops_nil s1).
    apply (send_some_stepR direct _ _ _ s s1 k _ I eq_refl); auto; plain_tac.
  - (* SendM *)
    destruct (s_alive s) eqn:Ea; cbn [negb orb]; [|refuse].
    destruct (s_async s); [refuse|].
    destruct vs as [|v0 vs0]; [nop direct|].
    destruct (s_closed s) eqn:Ec; [reject direct|].
    destruct (send_some (v0 :: vs0) s) as [[[s1 k] rest]|] eqn:Es; [|reject direct].
    destruct rest; [|refuse]. taken. rewrite <- (add_drops_nil s1).
    apply (send_some_stepR direct _ _ _ s s1 k _ I eq_refl); auto; plain_tac.
  - (* SClose *)
    destruct (s_alive s) eqn:Ea; cbn [negb]; [|refuse].
    destruct (tx_busy s) eqn:Eb; [nop direct|].
    destruct (s_closed s) eqn:Ec; [nop direct|]. taken. apply R_sclose; assumption.
  - (* SDrop *)
    destruct (s_alive s) eqn:Ea; cbn [negb]; [|refuse].
    destruct (tx_busy s) eqn:Eb; [nop direct|]. taken. apply R_sdrop; auto.
  - (* SConv *)
    destruct (s_alive s) eqn:Ea; cbn [negb]; [|refuse].
    destruct (tx_busy s) eqn:Eb; [nop direct|].
    destruct (fixedm s) eqn:Ef; taken; apply R_sconv; auto; rewrite Ef; reflexivity.
  - (* SObs *)
    destruct (s_alive s); cbn [negb]; [nop direct|refuse].
  - (* TryRecv *)
    apply with_rx_stepR. intros y Hg Hl.
    destruct (r_closed y) eqn:Ec; [nop direct|].
    destruct (try_recv_core r y s) as [s1 res] eqn:Et. taken.
    apply (recv_stepR direct (TryRecv r) _ r y s s1 res I eq_refl Hg Ec Et); destruct res; auto.
  - (* Recv *)
    apply with_rx_stepR. intros y Hg Hl.
    destruct (r_async y); [refuse|].
    destruct (r_closed y) eqn:Ec; [nop direct|].
    destruct (try_recv_core r y s) as [s1 res] eqn:Et. taken.
    apply (recv_stepR direct (Recv r) _ r y s s1 res I eq_refl Hg Ec Et); destruct res; auto.
  - (* RecvT *)
    apply with_rx_stepR. intros y Hg Hl.
    destruct (r_async y); [refuse|].
    destruct (r_closed y) eqn:Ec; [nop direct|].
    destruct (try_recv_core r y s) as [s1 res] eqn:Et. taken.
    apply (recv_stepR direct (RecvT r) _ r y s s1 res I eq_refl Hg Ec Et); destruct res; auto.
  - (* TryRecvB *)
    apply with_rx_stepR. intros y Hg Hl.
    destruct (N.eqb n 0); [nop direct|].
    destruct (r_closed y) eqn:Ec; [nop direct|].
    destruct (try_recv_batch_core r y n s) as [s1 res] eqn:Et. taken.
    apply (recv_batch_stepR direct (TryRecvB r n) _ r y n s s1 res I eq_refl Hg Ec Et); destruct res; auto.
  - (* RecvB *)
    apply with_rx_stepR. intros y Hg Hl.
    destruct (r_async y); [refuse|].
    destruct (N.eqb n 0); [nop direct|].
    destruct (r_closed y) eqn:Ec; [nop direct|].
    destruct (try_recv_batch_core r y n s) as [s1 res] eqn:Et. taken.
    apply (recv_batch_stepR direct (RecvB r n) _ r y n s s1 res I eq_refl Hg Ec Et); destruct res; auto.
  - (* RClose *)
    apply with_rx_stepR. intros y Hg Hl.
    destruct (r_closed y) eqn:Ec; [nop direct|]. taken. apply R_rclose; assumption.
  - (* RDrop *)
    apply with_rx_stepR. intros y Hg Hl.
    destruct (rx_busy s r) eqn:Eb; [nop direct|].
    destruct (r_closed y) eqn:Ec.
    + rewrite Hg. taken. apply (R_rdrop s r y s y); auto.
    + rewrite rxs_wake_producer. cbn [set_rx set_rxs rxs]. rewrite get_set_eq. taken.
      apply (R_rdrop s r y _ (rx_unreg y)); auto.
  - (* RClone *)
    apply with_rx_stepR. intros y Hg Hl.
    destruct (get (rxs s) c) eqn:Egc; [refuse|].
    destruct (fixedm s && r_closed y) eqn:Ef; taken; apply (R_clone s r y c); auto; rewrite Ef; reflexivity.
  - (* RConv *)
    apply with_rx_stepR. intros y Hg Hl.
    destruct (rx_busy s r) eqn:Eb; [nop direct|].
    destruct (fixedm s) eqn:Ef; taken; apply (R_rconv s r y); auto; rewrite Ef; reflexivity.
  - (* RObs *)
    apply with_rx_stepR. intros y Hg Hl. nop direct.
  - (* MkRecv *)
    apply with_rx_stepR. intros y Hg Hl.
    destruct (r_async y); [apply new_fut_stepR; reflexivity | refuse].
  - (* MkRecvB *)
    apply with_rx_stepR. intros y Hg Hl.
    destruct (r_async y); [apply new_fut_stepR; reflexivity | refuse].
  - destruct (s_alive s && s_async s); [apply new_fut_stepR; reflexivity | refuse].
  - destruct (s_alive s && s_async s); [apply new_fut_stepR; reflexivity | refuse].
  - destruct (s_alive s && s_async s); [apply new_fut_stepR; reflexivity | refuse].
  - (* Poll *)
    destruct (get (futs s) f) as [y|] eqn:Eg; [|refuse].
    destruct (f_live y) eqn:El; [apply poll_stepR; assumption | refuse].
  - (* DropF *)
    destruct (get (futs s) f) as [y|] eqn:Eg; [|refuse].
    destruct (f_live y) eqn:El; [|refuse]. taken.
    apply (R_reject s (Some (f, y))); [repeat split; assumption|plain_tac].
  - (* PollNext *)
    apply with_rx_stepR. intros y Hg Hl.
    destruct (r_async y); cbn [negb]; [|refuse].
    destruct (rx_busy s r); [nop direct|].
    destruct (r_closed y) eqn:Ec; [nop direct|].
    destruct (try_recv_core r y s) as [s1 res] eqn:Et.
    destruct res; taken; try (apply (recv_stepR direct (PollNext r w) _ r y s s1 _ I eq_refl Hg Ec Et); auto; discriminate).
    apply try_recv_core_spec in Et. destruct Et as (-> & _). apply R_register. reflexivity.
  - (* Snap *)
    nop direct.
Qed.

Definition c_get (c : core) (r : N) : option rx := get (c_rxs c) r.

(* which op may introduce a taint: only Clone / to_sync,to_async of a receiver / of the sender *)
Inductive okind := KOther | KClone (r : N) | KRConv (r : N) | KSConv.
Definition kind_of (o : op) : okind :=
  match o with RClone r _ => KClone r | RConv r => KRConv r | SConv => KSConv | _ => KOther end.

Definition rx_upd_ok (kd : okind) (r : N) (fixed : bool) (x x' : rx) : Prop :=
  r_cur x' = r_cur x /\ r_start x' = r_start x /\
  (   (r_reg x' = false /\ r_closed x' = true /\ r_taint x' = r_taint x)
   \/ (r_reg x' = r_reg x /\ r_closed x' = r_closed x /\ r_taint x' = r_taint x /\
       (r_live x' = true \/ r_closed x = true))
   \/ (fixed = false /\ r_reg x' = r_reg x /\ r_closed x' = false /\ r_live x' = true /\
       r_taint x' = (r_taint x || r_closed x) /\ kd = KRConv r)).

Definition clone_ok (kd : okind) (r : N) (fixed : bool) (x xc : rx) : Prop :=
  kd = KClone r /\ r_cur xc = r_cur x /\ r_start xc = r_cur x /\ r_live xc = true /\
  (   (r_reg xc = true /\ r_closed xc = false /\ r_taint xc = (r_taint x || negb (r_reg x)) /\
       (fixed = false \/ r_closed x = false))
   \/ (fixed = true /\ r_closed x = true /\ r_reg xc = false /\ r_closed xc = true /\ r_taint xc = r_taint x)).

Definition sender_ok (kd : okind) (c : core) (a cl t pd : bool) : Prop :=
  c_alive c = true /\
  (   (c_closed c = false /\ a = true /\ cl = true /\ t = c_taint c /\ pd = true)
   \/ (a = false /\ cl = true /\ t = c_taint c /\ (pd = true \/ (c_closed c = true /\ pd = c_pdrop c)))
   \/ (c_fixed c = false /\ a = true /\ cl = false /\ t = (c_taint c || c_closed c) /\ pd = c_pdrop c /\ kd = KSConv)).

Inductive shape (kd : okind) (c : core) (o : out) : core -> Prop :=
| Sh_same : quiet o -> shape kd c o c
| Sh_send vs sp : quiet o -> c_space c = Some sp -> lenN vs <= sp -> c_alive c = true -> c_closed c = false ->
    shape kd c o (with_log c (c_log c ++ vs))
| Sh_recv r x k : c_get c r = Some x -> r_closed x = false ->
    r_cur x + k <= c_head c ->
    vals_of r o = map (c_slot_val c) (seqN (r_cur x) (N.to_nat k)) ->
    (forall r', r' <> r -> vals_of r' o = []) ->
    shape kd c o (with_rxs c (set (c_rxs c) r (adv x k)))
| Sh_rx_upd r x x' : quiet o -> c_get c r = Some x -> r_live x = true -> rx_upd_ok kd r (c_fixed c) x x' ->
    shape kd c o (with_rxs c (set (c_rxs c) r x'))
| Sh_clone r x cid xc : quiet o -> c_get c r = Some x -> r_live x = true -> c_get c cid = None ->
    clone_ok kd r (c_fixed c) x xc ->
    shape kd c o (with_rxs c (set (c_rxs c) cid xc))
| Sh_sender a cl t pd : quiet o -> sender_ok kd c a cl t pd -> shape kd c o (with_sender c a cl t pd).

Lemma with_log_same c : with_log c (c_log c) = c.
Proof. destruct c; reflexivity. Qed.

Lemma proj_retire pf s : proj (retire pf s) = proj s.
Proof. destruct pf as [[f y]|]; reflexivity. Qed.

Lemma proj_release s : proj (release s) = proj s.
Proof. unfold release. destruct (all_dead s); reflexivity. Qed.

Lemma proj_set_rx s r x : proj (set_rx s r x) = with_rxs (proj s) (set (rxs s) r x).
Proof. reflexivity. Qed.

Lemma resumes_len k sp ws k' : resumes k sp ws k' -> lenN ws <= sp.
Proof.
  destruct k; cbn [resumes]; try contradiction.
  - intros (-> & -> & _). apply N.le_refl.
  - intros (-> & _). rewrite firstnN_len. lia.
  - intros (-> & _). rewrite firstnN_len. lia.
Qed.

Lemma stepR_shape s o x s' : stepR s o x s' -> shape (kind_of o) (proj s) x (proj s').
Proof.
  intros H. stepR_cases H.
  - apply Sh_same. destruct Ex as [-> | ->]; quiet_tac.
  - rewrite proj_retire. apply Sh_same. assumption.
  - rewrite proj_add_drops, proj_retire. apply Sh_same. apply Eplain.
  - rewrite proj_add_drops, proj_retire, proj_write_many. apply Sh_send with (sp := sp); auto. apply Eplain.
  - rewrite proj_retire, proj_wake_producer. subst vs. eapply Sh_recv with (k := k); eauto.
  - rewrite proj_pend, proj_register. apply Sh_same. quiet_tac.
  - change (shape (kind_of (Poll f w)) (proj s) OPending (proj (write_many ws s))).
    rewrite proj_write_many. apply Sh_send with (sp := sp); auto; [quiet_tac|].
    eapply resumes_len. eassumption.
  - rewrite proj_register. apply Sh_same. quiet_tac.
  - apply Sh_same. quiet_tac.
  - rewrite proj_wake_producer. eapply Sh_rx_upd; eauto; [quiet_tac|].
    split; [reflexivity|]. split; [reflexivity|]. left. auto.
  - rewrite proj_release, proj_set_rx.
    destruct Ecase as [(Hc & -> & ->)|(Hc & -> & ->)].
    + eapply Sh_rx_upd; eauto; [quiet_tac|].
      split; [reflexivity|]. split; [reflexivity|]. right. left. cbn [rx_dead r_reg r_closed r_taint r_live]. auto.
    + rewrite proj_wake_producer, rxs_wake_producer. cbn [proj set_rx set_rxs rxs with_rxs c_rxs]. rewrite set_set.
      eapply (Sh_rx_upd _ (proj s)); eauto; [quiet_tac|].
      split; [reflexivity|]. split; [reflexivity|]. left. auto.
  - subst y'. eapply Sh_rx_upd; eauto; [quiet_tac|].
    split; [destruct (fixedm s); reflexivity|]. split; [destruct (fixedm s); reflexivity|].
    destruct (fixedm s) eqn:Ef; [right; left|right; right]; cbn [r_reg r_closed r_taint r_live proj c_fixed]; auto 6.
  - subst yc. eapply Sh_clone; eauto; [quiet_tac|]. cbn [proj c_fixed kind_of].
    destruct (fixedm s && r_closed y) eqn:Eb; (split; [reflexivity|]); cbn [r_cur r_start r_live r_reg r_closed r_taint].
    + apply andb_true_iff in Eb. tauto.
    + apply andb_false_iff in Eb. repeat split. left. tauto.
  - unfold sender_close_internal. rewrite proj_wake_all.
    apply (Sh_sender _ (proj s) _ true true (s_taint s) true); [quiet_tac|].
    split; [assumption|]. left. auto.
  - rewrite proj_release. subst s1. destruct (s_closed s) eqn:Ec.
    + apply (Sh_sender _ (proj s) _ false true (s_taint s) (pdrop s)); [quiet_tac|].
      split; [assumption|]. right. left. repeat split. right. split; [exact Ec|reflexivity].
    + set (s1 := sender_close_internal s).
      assert (Hp1 : proj s1 = with_sender (proj s) (s_alive s) (s_closed s) (s_taint s) true)
        by (unfold s1, sender_close_internal; rewrite proj_wake_all; reflexivity).
      change (proj (set_sender s1 false true (s_async s1) (s_taint s1) (pdrop s1)))
        with (with_sender (proj s1) false true (c_taint (proj s1)) (c_pdrop (proj s1))).
      rewrite Hp1. apply (Sh_sender _ (proj s) _ false true (s_taint s) true); [quiet_tac|].
      split; [assumption|]. right. left. auto.
  - subst s'. destruct (fixedm s) eqn:Ef.
    + replace (proj (set_sender s true (s_closed s) (negb (s_async s)) (s_taint s) (pdrop s))) with (proj s)
        by (unfold proj; cbn [set_sender fixedm cap log s_alive s_closed s_taint pdrop rxs]; rewrite Ealive; reflexivity).
      apply Sh_same. quiet_tac.
    + apply (Sh_sender _ (proj s) _ true false (s_taint s || s_closed s) (pdrop s)); [quiet_tac|].
      split; [assumption|]. right. right. cbn [proj c_fixed c_closed c_taint c_pdrop]. auto 7.
Qed.

Lemma step_shape s op s' o : step s op = (s', o) -> shape (kind_of op) (proj s) o (proj s').
Proof. intros H. apply stepR_shape, step_stepR, H. Qed.

Lemma step_disc s o s' x r : step s o = (s', x) -> is_disc r x = true -> frozen s r.
Proof.
  revert r. intros r0 H Hd. apply step_stepR in H. stepR_cases H.
  all: try discriminate Hd.
  - destruct Ex as [-> | ->]; discriminate Hd.
  - exact (Edisc r0 Hd).
  - destruct Eplain as (_ & Hn & _). rewrite Hn in Hd. discriminate Hd.
  - destruct Eplain as (_ & Hn & _). rewrite Hn in Hd. discriminate Hd.
  - rewrite Endisc in Hd. discriminate Hd.
Qed.

Definition RxInv (c : core) (outs : list out) (r : N) (x : rx) : Prop :=
  r_start x <= r_cur x /\ r_cur x <= c_head c /\
  (r_taint x = false -> r_reg x = true -> c_head c <= r_cur x + c_cap c) /\
  (r_reg x = true -> r_live x = true /\ r_closed x = false) /\
  (r_taint x = false -> r_reg x = false -> r_closed x = true) /\
  (r_taint x = false -> recvd r outs = slice (c_log c) (r_start x) (r_cur x)).

Record InvC (c : core) (outs : list out) : Prop := {
  i_cap : 0 < c_cap c;
  i_nd : NoDup (map fst (c_rxs c));
  i_none : forall r, c_get c r = None -> recvd r outs = [];
  i_rx : forall r x, c_get c r = Some x -> RxInv c outs r x;
  i_s1 : c_closed c = true \/ c_alive c = false -> c_pdrop c = true;
  i_s2 : c_pdrop c = true -> c_closed c = true \/ c_alive c = false \/ c_taint c = true }.

Lemma minl_le l m x : minl l = Some m -> In x l -> m <= x.
Proof.
  revert m. induction l as [|y t IH]; cbn [minl]; intros m Hm Hin; [contradiction|].
  destruct (minl t) as [m'|] eqn:Em.
  - inversion Hm; subst. destruct Hin as [->|Hin]; [lia|]. specialize (IH m' eq_refl Hin). lia.
  - inversion Hm; subst. destruct Hin as [->|Hin]; [lia|]. destruct t; [contradiction|].
    cbn [minl] in Em. destruct (minl t); discriminate.
Qed.

Lemma minl_in l m : minl l = Some m -> In m l.
Proof.
  revert m. induction l as [|y t IH]; cbn [minl]; intros m Hm; [discriminate|].
  destruct (minl t) as [m'|] eqn:Em; inversion Hm; subst.
  - destruct (N.min_spec y m') as [[_ ->]|[_ ->]]; [left; reflexivity | right; apply IH; reflexivity].
  - left. reflexivity.
Qed.

Lemma minl_none l : minl l = None -> l = [].
Proof. destruct l as [|y t]; [reflexivity|]. cbn [minl]. destruct (minl t); discriminate. Qed.

Lemma cursor_in c r x : c_get c r = Some x -> r_reg x = true -> In (r_cur x) (c_cursors c).
Proof.
  intros Hg Hr. apply get_In in Hg. unfold c_cursors.
  apply in_map_iff. exists (r, x). split; [reflexivity|]. apply filter_In. split; [exact Hg|exact Hr].
Qed.

Lemma in_cursors c m : NoDup (map fst (c_rxs c)) -> In m (c_cursors c) ->
  exists r x, c_get c r = Some x /\ r_reg x = true /\ r_cur x = m.
Proof.
  intros Hnd Hin. unfold c_cursors in Hin. apply in_map_iff in Hin. destruct Hin as ([r x] & Hm & Hf).
  apply filter_In in Hf. destruct Hf as [Hi Hr]. exists r, x. split; [|split; [exact Hr|exact Hm]].
  apply In_get; assumption.
Qed.

Lemma recvd_quiet r outs o : quiet o -> recvd r (outs ++ [o]) = recvd r outs.
Proof. intros H. rewrite recvd_snoc, H, app_nil_r. reflexivity. Qed.

Lemma slot_vals_window c t k :
  0 < c_cap c -> t + k <= c_head c -> c_head c <= t + c_cap c ->
  map (c_slot_val c) (seqN t (N.to_nat k)) = slice (c_log c) t (t + k).
Proof.
  intros Hc Hk Hw.
  replace (t + k) with (t + N.of_nat (N.to_nat k)) by lia.
  rewrite <- map_nth_seqN by (unfold c_head in Hk; lia).
  apply map_ext_in. intros i Hi. apply seqN_bounds in Hi.
  unfold c_slot_val. rewrite slot_index_window; [reflexivity|lia|lia].
Qed.

Ltac rxinv_split := unfold RxInv; split; [|split; [|split; [|split; [|split]]]].

(* a receiver's clause only reads the log, the capacity and what the step handed to that receiver *)
Lemma RxInv_frame c c' outs o r x :
  c_log c' = c_log c -> c_cap c' = c_cap c -> vals_of r o = [] ->
  RxInv c outs r x -> RxInv c' (outs ++ [o]) r x.
Proof. unfold RxInv, c_head. intros -> -> Hv. rewrite recvd_snoc, Hv, app_nil_r. auto. Qed.

(* replacing (or adding) one receiver record: only its own clause is to be shown *)
Lemma inv_set_rx c outs o r x' :
  InvC c outs -> (forall r', r' <> r -> vals_of r' o = []) -> RxInv c (outs ++ [o]) r x' ->
  InvC (with_rxs c (set (c_rxs c) r x')) (outs ++ [o]).
Proof.
  intros [Icap Ind Inone Irx Is1 Is2] Hq Hx. constructor; auto.
  - apply set_NoDup. exact Ind.
  - intros r0 Hg. unfold c_get in Hg. cbn [with_rxs c_rxs] in Hg.
    destruct (N.eq_dec r0 r) as [->|Hne]; [rewrite get_set_eq in Hg; discriminate|].
    rewrite get_set_neq in Hg by exact Hne. rewrite recvd_snoc, (Inone r0 Hg), Hq by exact Hne. reflexivity.
  - intros r0 x0 Hg. unfold c_get in Hg. cbn [with_rxs c_rxs] in Hg.
    destruct (N.eq_dec r0 r) as [->|Hne].
    + rewrite get_set_eq in Hg. injection Hg as <-. exact Hx.
    + rewrite get_set_neq in Hg by exact Hne. apply (RxInv_frame c); auto.
Qed.

Lemma inv_step kd c outs o c' : InvC c outs -> shape kd c o c' -> InvC c' (outs ++ [o]).
Proof.
  intros I Hs. destruct Hs.
  - (* same *)
    destruct I as [Icap Ind Inone Irx Is1 Is2]. constructor; auto.
    + intros r Hg. rewrite recvd_quiet by assumption. auto.
    + intros r x Hg. apply (RxInv_frame c); auto.
  - (* send *)
    destruct I as [Icap Ind Inone Irx Is1 Is2]. constructor; auto.
    + intros r Hg. rewrite recvd_quiet by assumption. auto.
    + intros r x Hg. destruct (Irx r x Hg) as (A & B & C & D & E & F).
      rxinv_split; unfold c_head in *; cbn [with_log c_log c_cap c_fixed]; rewrite ?lenN_app; auto; try lia.
      * intros Ht Hr. specialize (C Ht Hr).
        unfold c_space in H0. destruct (minl (c_cursors c)) as [m|] eqn:Em; [|discriminate].
        injection H0 as <-. pose proof (minl_le _ _ _ Em (cursor_in c r x Hg Hr)).
        unfold c_head in *. lia.
      * intros Ht. rewrite recvd_quiet by assumption. rewrite slice_app_l by lia. auto.
  - (* recv *)
    apply inv_set_rx; auto.
    destruct (i_rx _ _ I r x H) as (A & B & C & D & E & F).
    rxinv_split; cbn [adv r_cur r_start r_reg r_closed r_live r_taint]; auto; try lia.
    intros Ht. rewrite recvd_snoc, H2, (F Ht).
    assert (Hr : r_reg x = true) by (destruct (r_reg x); [reflexivity|specialize (E Ht eq_refl); congruence]).
    specialize (C Ht Hr). rewrite slot_vals_window by (try apply (i_cap _ _ I); lia).
    rewrite <- slice_split by lia. reflexivity.
  - (* receiver flag update *)
    apply inv_set_rx; auto.
    pose proof (RxInv_frame c c outs o r x eq_refl eq_refl (H r) (i_rx _ _ I r x H0)) as Hx.
    destruct Hx as (A & B & C & D & E & F). destruct H2 as (Hcur & Hst & Hcases).
    destruct Hcases as [(R1 & R2 & R3)|[(R1 & R2 & R3 & R4)|(R0 & R1 & R2 & R3 & R4 & _)]];
      rxinv_split; rewrite ?Hcur, ?Hst, ?R1, ?R2, ?R3, ?R4; auto; try congruence.
    + intros Hr. destruct (D Hr). split; [destruct R4; congruence|assumption].
    + intros Ht. apply orb_false_iff in Ht. destruct Ht. auto.
    + intros Ht Hr. apply orb_false_iff in Ht. destruct Ht as [Ht Hc]. specialize (E Ht Hr). congruence.
    + intros Ht. apply orb_false_iff in Ht. destruct Ht. auto.
  - (* clone *)
    apply inv_set_rx; auto.
    pose proof (RxInv_frame c c outs o r x eq_refl eq_refl (H r) (i_rx _ _ I r x H0)) as Hx.
    destruct Hx as (A & B & C & D & E & F). destruct H3 as (_ & Hcur & Hst & Hlive & Hcases).
    assert (Hnew : recvd cid (outs ++ [o]) = slice (c_log c) (r_cur x) (r_cur x))
      by (rewrite recvd_quiet, (i_none _ _ I cid H2), slice_nil by assumption; reflexivity).
    destruct Hcases as [(R1 & R2 & R3 & R4)|(R0 & R1 & R2 & R3 & R4)];
      rxinv_split; rewrite ?Hcur, ?Hst, ?R1, ?R2, ?R3, ?R4, ?Hlive; auto; try lia; try congruence.
    + intros Ht _. apply orb_false_iff in Ht. destruct Ht as [Ht Hr]. apply negb_false_iff in Hr. auto.
  - (* sender lifecycle *)
    destruct I as [Icap Ind Inone Irx Is1 Is2]. destruct H0 as (Ha & Hcases).
    constructor; cbn [with_sender c_cap c_rxs c_closed c_alive c_pdrop c_taint c_fixed]; auto.
    + intros r Hg. rewrite recvd_quiet by assumption. auto.
    + intros r x Hg. apply (RxInv_frame c); auto.
    + destruct Hcases as [(R1 & -> & -> & -> & ->)|[(-> & -> & -> & [->|[R1 ->]])|(R0 & -> & -> & -> & -> & _)]]; auto.
      intros [?|?]; congruence.
    + destruct Hcases as [(R1 & -> & -> & -> & ->)|[(-> & -> & -> & [->|[R1 ->]])|(R0 & -> & -> & -> & -> & _)]]; auto.
      intros Hp. destruct (Is2 Hp) as [Hc|[Hc|Hc]]; [|congruence|]; right; right; rewrite Hc; auto using orb_true_r.
Qed.

Lemma inv_init fx c a : 0 < c -> InvC (proj (init fx c a)) [].
Proof.
  intros Hc. constructor; cbn [proj init fixedm cap log s_alive s_closed s_taint pdrop rxs
                                c_cap c_rxs c_closed c_alive c_pdrop c_taint c_fixed]; auto.
  - cbn [map fst]. constructor; [intros []|constructor].
  - intros r x Hg. unfold c_get, proj, init in Hg. cbn [c_rxs rxs get] in Hg.
    destruct (N.eqb r 0); [|discriminate]. inversion Hg; subst x.
    rxinv_split; unfold c_head, proj, init;
      cbn [r_start r_cur r_reg r_closed r_live r_taint c_cap c_log c_fixed fixedm cap log length]; auto;
      try (unfold lenN; cbn [length]; lia).
  - intros [?|?]; discriminate.
Qed.

(* chronological outputs of a history started in s, and the state it ends in *)
Fixpoint outs_from (s : st) (ops : list op) : list out :=
  match ops with
  | [] => []
  | o :: t => snd (step s o) :: outs_from (fst (step s o)) t
  end.

Fixpoint end_of (s : st) (ops : list op) : st :=
  match ops with [] => s | o :: t => end_of (fst (step s o)) t end.

Lemma runacc_outs ops : forall s acc,
  runacc (s, acc) ops = (end_of s ops, rev (outs_from s ops) ++ acc).
Proof.
  induction ops as [|o t IH]; intros s acc; [reflexivity|].
  cbn [runacc fold_left]. change (fold_left stepacc t) with (fun p => runacc p t). cbn beta.
  unfold stepacc. cbn [fst snd]. destruct (step s o) as [s1 x] eqn:Es. rewrite IH.
  cbn [end_of outs_from rev]. rewrite Es. cbn [fst snd]. rewrite <- app_assoc. reflexivity.
Qed.

Lemma run_outs fx c a ops : run fx c a ops = (end_of (init fx c a) ops, outs_from (init fx c a) ops).
Proof. unfold run. rewrite runacc_outs. rewrite app_nil_r, rev_involutive. reflexivity. Qed.

Lemma inv_next s o s' x outs : InvC (proj s) outs -> step s o = (s', x) -> InvC (proj s') (outs ++ [x]).
Proof. intros I H. eapply inv_step; [exact I|]. apply step_shape with (op := o). exact H. Qed.

Lemma inv_end_of ops : forall s outs,
  InvC (proj s) outs -> InvC (proj (end_of s ops)) (outs ++ outs_from s ops).
Proof.
  induction ops as [|o t IH]; intros s outs I; cbn [end_of outs_from]; [rewrite app_nil_r; exact I|].
  destruct (step s o) as [s1 x] eqn:Es. cbn [fst snd].
  change (x :: outs_from s1 t) with ([x] ++ outs_from s1 t). rewrite app_assoc.
  apply IH. eapply inv_next; eauto.
Qed.

Theorem inv_run fx c a ops s outs :
  0 < c -> run fx c a ops = (s, outs) -> InvC (proj s) outs.
Proof.
  intros Hc H. rewrite run_outs in H. injection H as <- <-.
  apply (inv_end_of ops _ []), inv_init, Hc.
Qed.

Lemma fixedm_step s o : fixedm (fst (step s o)) = fixedm s.
Proof.
  destruct (step s o) as [s1 x] eqn:E. cbn [fst]. pose proof (step_shape _ _ _ _ E) as Hsh.
  change (c_fixed (proj s1) = c_fixed (proj s)). destruct Hsh; reflexivity.
Qed.

Lemma fixedm_end_of ops : forall s, fixedm (end_of s ops) = fixedm s.
Proof.
  induction ops as [|o t IH]; intros s; [reflexivity|]. cbn [end_of]. rewrite IH. apply fixedm_step.
Qed.

Lemma runacc_app ops1 ops2 p : runacc p (ops1 ++ ops2) = runacc (runacc p ops1) ops2.
Proof. unfold runacc. apply fold_left_app. Qed.

(* C07: delivery *)
Theorem spmc_delivery fx c a ops s outs r x :
  0 < c -> run fx c a ops = (s, outs) -> get (rxs s) r = Some x -> r_taint x = false ->
  recvd r outs = slice (log s) (r_start x) (r_cur x) /\ r_start x <= r_cur x /\ r_cur x <= head s.
Proof.
  intros Hc Hr Hg Ht. pose proof (inv_run _ _ _ _ _ _ Hc Hr) as I.
  destruct (i_rx _ _ I r x Hg) as (A & B & C & D & E & F).
  split; [apply F; exact Ht|]. split; assumption.
Qed.

Theorem spmc_clone_position s p cid s' :
  step s (RClone p cid) = (s', OOk) ->
  exists xp xc, get (rxs s) p = Some xp /\ get (rxs s') cid = Some xc /\
                r_start xc = r_cur xp /\ r_cur xc = r_cur xp /\ get (rxs s) cid = None.
Proof.
  cbn [step]. intros H. apply with_rx_inv in H. destruct H as [[_ H]|(x & Hg & Hl & H)]; [discriminate|].
  destruct (get (rxs s) cid) eqn:Egc; [discriminate|].
  destruct (fixedm s && r_closed x); injection H as <-; eexists; eexists; (split; [exact Hg|]);
    cbn [set_rx set_rxs rxs]; rewrite get_set_eq; (split; [reflexivity|]); cbn [r_start r_cur]; auto.
Qed.

(* C07: an unread value is never overwritten *)
Theorem spmc_no_overwrite fx c a ops s outs r x :
  0 < c -> run fx c a ops = (s, outs) -> get (rxs s) r = Some x ->
  r_taint x = false -> r_closed x = false ->
  r_reg x = true /\ r_live x = true /\ head s <= r_cur x + cap s /\
  forall i, r_cur x <= i -> i < head s -> slot_index s i = i.
Proof.
  intros Hc Hr Hg Ht Hcl. pose proof (inv_run _ _ _ _ _ _ Hc Hr) as I.
  destruct (i_rx _ _ I r x Hg) as (A & B & C & D & E & F).
  assert (Hreg : r_reg x = true).
  { destruct (r_reg x) eqn:Er; [reflexivity|]. specialize (E Ht eq_refl). congruence. }
  destruct (D Hreg) as [Hl _]. specialize (C Ht Hreg). change (head s <= r_cur x + cap s) in C.
  repeat split; auto. intros i H1 H2. apply (slot_index_window (proj s));
    change (c_head (proj s)) with (head s); change (c_cap (proj s)) with (cap s); lia.
Qed.

(* C07: the sender is held back by the slowest registered receiver; exactness of try_send *)
Theorem spmc_try_send_exact s v :
  s_alive s = true -> s_closed s = false ->
  match minl (cursors s) with
  | None => step s (TrySend v) = (add_drops s [v], OClosedV v)
  | Some m =>
      if N.ltb (head s - m) (cap s)
      then snd (step s (TrySend v)) = OOk /\ log (fst (step s (TrySend v))) = log s ++ [v]
      else step s (TrySend v) = (add_drops s [v], OFull v)
  end.
Proof.
  intros Ha Hc. cbn [step]. rewrite Ha, Hc. cbn [negb]. unfold try_send_core.
  destruct (minl (cursors s)) as [m|]; [|reflexivity].
  destruct (N.ltb_spec (head s - m) (cap s)) as [Hlt|Hge].
  - destruct (N.leb_spec (cap s) (head s - m)); [lia|]. split; [reflexivity|].
    cbn [fst]. change (c_log (proj (write1 v s)) = log s ++ [v]). rewrite proj_write1. reflexivity.
  - destruct (N.leb_spec (cap s) (head s - m)); [reflexivity|lia].
Qed.

Theorem spmc_send_ok_means_space s op s' o vs :
  step s op = (s', o) -> log s' = log s ++ vs -> vs <> [] ->
  exists m, minl (cursors s) = Some m /\ head s + lenN vs - m <= cap s /\
            s_alive s = true /\ s_closed s = false.
Proof.
  intros Hs Hl Hne. apply step_shape in Hs.
  assert (Hlog : c_log (proj s') = c_log (proj s) ++ vs) by exact Hl.
  destruct Hs as [Hq|vs0 sp Hq Hsp Hle Ha Hc|r x k Hg Hcl Hk Hv Ho|r x x' Hq Hg Hl0 Hu|r x cid xc Hq Hg Hl0 Hn Hk|al cl t pd Hq Hk];
    cbn [with_log with_rxs with_sender c_log] in Hlog.
  1,3,4,5,6: (rewrite <- (app_nil_r (c_log (proj s))) in Hlog at 1; apply app_inv_head in Hlog; congruence).
  apply app_inv_head in Hlog. subst vs0.
  unfold c_space in Hsp. change (c_cursors (proj s)) with (cursors s) in Hsp.
  destruct (minl (cursors s)) as [m|] eqn:Em; [|discriminate]. inversion Hsp; subst sp.
  exists m. split; [reflexivity|]. change (c_head (proj s)) with (head s) in Hle. cbn [c_cap proj] in Hle.
  split; [|split; assumption].
  assert (lenN vs <> 0) by (unfold lenN; destruct vs; [congruence|cbn [length]; lia]). lia.
Qed.

(* C07: closing / dropping a receiver releases the backpressure it caused and wakes the producer *)
Lemma wlog_release s : wlog (release s) = wlog s.
Proof. unfold release. destruct (all_dead s); reflexivity. Qed.

Lemma close_or_drop_spec s r x o :
  get (rxs s) r = Some x -> r_live x = true -> r_closed x = false -> rx_busy s r = false ->
  o = RClose r \/ o = RDrop r ->
  snd (step s o) = OOk /\
  (exists x', r_reg x' = false /\ proj (fst (step s o)) = with_rxs (proj s) (set (rxs s) r x')) /\
  (forall w, pw s = Some w -> wlog (fst (step s o)) = w :: wlog s).
Proof.
  intros Hg Hl Hc Hb [-> | ->]; cbn [step]; unfold with_rx; rewrite Hg, Hl, ?Hb, Hc.
  - cbn [fst snd]. split; [reflexivity|]. split.
    + exists (rx_unreg x). split; [reflexivity|]. rewrite proj_wake_producer. reflexivity.
    + intros w Hw. unfold wake_producer. cbn [set_rx set_rxs pw]. rewrite Hw. reflexivity.
  - set (s1 := wake_producer (set_rx s r (rx_unreg x))).
    assert (Hp1 : proj s1 = with_rxs (proj s) (set (rxs s) r (rx_unreg x)))
      by (unfold s1; rewrite proj_wake_producer; reflexivity).
    assert (Hr1 : rxs s1 = set (rxs s) r (rx_unreg x))
      by (change (c_rxs (proj s1) = set (rxs s) r (rx_unreg x)); rewrite Hp1; reflexivity).
    rewrite Hr1, get_set_eq. cbn [fst snd]. split; [reflexivity|]. split.
    + eexists. split; [|rewrite proj_release, proj_set_rx, Hp1, Hr1, set_set; reflexivity]. reflexivity.
    + intros w Hw. rewrite wlog_release. cbn [set_rx set_rxs wlog].
      unfold s1, wake_producer. cbn [set_rx set_rxs pw]. rewrite Hw. reflexivity.
Qed.

Theorem spmc_close_releases fx c a ops s outs r x v o :
  0 < c -> run fx c a ops = (s, outs) ->
  s_alive s = true -> s_closed s = false ->
  get (rxs s) r = Some x -> r_live x = true -> r_closed x = false -> rx_busy s r = false ->
  (forall r' x', r' <> r -> get (rxs s) r' = Some x' -> r_reg x' = true -> head s - r_cur x' < cap s) ->
  o = RClose r \/ o = RDrop r ->
  let s1 := fst (step s o) in
  snd (step s o) = OOk /\
  (snd (step s1 (TrySend v)) = OOk \/ (snd (step s1 (TrySend v)) = OClosedV v /\ cursors s1 = [])) /\
  (forall w, pw s = Some w -> wlog s1 = w :: wlog s).
Proof.
  intros Hc Hr Ha Hcl Hg Hl Hrc Hb Hothers Ho s1.
  pose proof (inv_run _ _ _ _ _ _ Hc Hr) as I.
  destruct (close_or_drop_spec s r x o Hg Hl Hrc Hb Ho) as (Hout & (x' & Hx' & Hp) & Hw).
  fold s1 in Hp, Hw. split; [exact Hout|]. split; [|exact Hw].
  assert (Ha1 : s_alive s1 = true) by (change (c_alive (proj s1) = true); rewrite Hp; exact Ha).
  assert (Hc1 : s_closed s1 = false) by (change (c_closed (proj s1) = false); rewrite Hp; exact Hcl).
  assert (Hh1 : head s1 = head s) by (change (c_head (proj s1) = head s); rewrite Hp; reflexivity).
  assert (Hcap1 : cap s1 = cap s) by (change (c_cap (proj s1) = cap s); rewrite Hp; reflexivity).
  pose proof (spmc_try_send_exact s1 v Ha1 Hc1) as Hex.
  destruct (minl (cursors s1)) as [m|] eqn:Em.
  - left. apply minl_in in Em. change (cursors s1) with (c_cursors (proj s1)) in Em.
    rewrite Hp in Em. apply in_cursors in Em; [|cbn [with_rxs c_rxs]; apply set_NoDup; exact (i_nd _ _ I)].
    destruct Em as (r0 & x0 & Hg0 & Hreg0 & Hcur0). unfold c_get in Hg0. cbn [with_rxs c_rxs] in Hg0.
    destruct (N.eq_dec r0 r) as [->|Hne].
    + rewrite get_set_eq in Hg0. inversion Hg0; subst x0. congruence.
    + rewrite get_set_neq in Hg0 by exact Hne. specialize (Hothers r0 x0 Hne Hg0 Hreg0).
      rewrite Hh1, Hcap1 in Hex. destruct (N.ltb_spec (head s - m) (cap s)); [tauto|lia].
  - right. rewrite Hex. cbn [snd]. split; [reflexivity|]. apply minl_none. exact Em.
Qed.

(* C07 / C04: Disconnected only once the sender is gone and the receiver has drained its view *)
Theorem spmc_try_recv_disc fx c a ops s outs r s' :
  0 < c -> run fx c a ops = (s, outs) -> step s (TryRecv r) = (s', ODisc r) ->
  exists x, get (rxs s) r = Some x /\ r_live x = true /\
    (r_closed x = true \/
     (pdrop s = true /\ r_cur x = head s /\
      (s_alive s = false \/ s_closed s = true \/ s_taint s = true) /\
      (r_taint x = false -> recvd r outs = slice (log s) (r_start x) (head s)))).
Proof.
  intros Hc Hr Hs. pose proof (inv_run _ _ _ _ _ _ Hc Hr) as I.
  cbn [step] in Hs. apply with_rx_inv in Hs. destruct Hs as [[_ H]|(x & Hg & Hl & H)]; [discriminate|].
  exists x. split; [exact Hg|]. split; [exact Hl|].
  destruct (r_closed x) eqn:Ecl; [left; reflexivity|right].
  destruct (try_recv_core r x s) as [s1 res] eqn:Et. apply try_recv_core_spec in Et.
  destruct res; cbn [out_of_rres] in H; try discriminate.
  destruct Et as (_ & Hp & Hh).
  destruct (i_rx _ _ I r x Hg) as (A & B & C & D & E & F).
  change (c_head (proj s)) with (head s) in *.
  assert (Heq : r_cur x = head s) by lia.
  split; [exact Hp|]. split; [exact Heq|]. split.
  - destruct (i_s2 _ _ I Hp) as [?|[?|?]]; auto.
  - intros Ht. rewrite <- Heq. apply F. exact Ht.
Qed.

Theorem spmc_try_recv_when_gone_and_drained s r x :
  get (rxs s) r = Some x -> r_live x = true -> r_closed x = false ->
  pdrop s = true -> r_cur x = head s -> step s (TryRecv r) = (s, ODisc r).
Proof.
  intros Hg Hl Hc Hp Hh. cbn [step]. unfold with_rx. rewrite Hg, Hl, Hc. unfold try_recv_core.
  assert (Hw : in_window s (r_cur x) = false).
  { unfold in_window. rewrite Hh. destruct (N.ltb_spec (head s) (head s)); [lia|reflexivity]. }
  rewrite Hw, Hp. cbn [andb]. destruct (N.leb_spec (head s) (r_cur x)); [reflexivity|lia].
Qed.

(* the sender being gone is what sets producer_dropped, in every reachable state *)
Theorem spmc_pdrop_iff_sender_gone fx c a ops s outs :
  0 < c -> run fx c a ops = (s, outs) ->
  (s_closed s = true \/ s_alive s = false -> pdrop s = true) /\
  (pdrop s = true -> s_closed s = true \/ s_alive s = false \/ s_taint s = true).
Proof.
  intros Hc Hr. pose proof (inv_run _ _ _ _ _ _ Hc Hr) as I.
  split; [exact (i_s1 _ _ I) | exact (i_s2 _ _ I)].
Qed.

(* C07: full statement and the known finding on the faithful model (fixedm = false); it holds on the
   patched model and on clean histories, which never taint (below) *)
Definition spmc_delivery_full (fx : bool) : Prop :=
  forall c a ops s outs r x,
    0 < c -> run fx c a ops = (s, outs) -> get (rxs s) r = Some x ->
    recvd r outs = slice (log s) (r_start x) (r_cur x).

(* witness: receiver 0 is closed at position 0, values 1 and 2 go round the 1-slot ring, then
   Clone of the closed handle registers a cursor at the stale position 0; its batch receive
   returns the value of index 1 twice *)
Definition witness_clone_closed : list op :=
  [RClone 0 1; RClose 0; TrySend 1; TryRecv 1; TrySend 2; TryRecv 1; RClone 0 2; TryRecvB 2 5].

Lemma spmc_delivery_refuted_clone_closed : ~ spmc_delivery_full false.
Proof.
  intros H.
  specialize (H 1 false witness_clone_closed).
  destruct (run false 1 false witness_clone_closed) as [s outs] eqn:E.
  assert (Hg : exists x, get (rxs s) 2 = Some x /\ recvd 2 outs <> slice (log s) (r_start x) (r_cur x)).
  { vm_compute in E. inversion E; subst. eexists. split; [vm_compute; reflexivity|]. vm_compute. discriminate. }
  destruct Hg as (x & Hg & Hne). apply Hne. eapply H; [lia|reflexivity|exact Hg].
Qed.

(* what `r_taint` means operationally: a receiver handle is tainted only if it (or an ancestor in the
   clone relation) was obtained from a handle that was not in the cursor list: Clone of a closed handle,
   to_sync/to_async of a closed handle.  On histories that never do that, nothing is tainted. *)
Definition derives_from_closed (s : st) (o : op) : bool :=
  match o with
  | RClone r _ | RConv r =>
      match get (rxs s) r with
      | Some x => r_closed x || negb (r_reg x)
      | None => false
      end
  | SConv => s_closed s
  | _ => false
  end.

Fixpoint clean_from (s : st) (ops : list op) : bool :=
  match ops with
  | [] => true
  | o :: t => negb (derives_from_closed s o) && clean_from (fst (step s o)) t
  end.

Definition no_taint (s : st) : Prop :=
  s_taint s = false /\ forall r x, get (rxs s) r = Some x -> r_taint x = false.

Lemma no_taint_init fx c a : no_taint (init fx c a).
Proof.
  split; [reflexivity|]. intros r x H. cbn [init rxs get] in H. destruct (N.eqb r 0); [|discriminate].
  injection H as <-. reflexivity.
Qed.

(* a step is "calm" if it does not clone / convert a closed handle, or the model is the patched one *)
Definition calm (s : st) (o : op) : Prop := fixedm s = true \/ derives_from_closed s o = false.

Fixpoint calm_from (s : st) (ops : list op) : Prop :=
  match ops with
  | [] => True
  | o :: t => calm s o /\ calm_from (fst (step s o)) t
  end.

Lemma clean_calm ops : forall s, clean_from s ops = true -> calm_from s ops.
Proof.
  induction ops as [|o t IH]; intros s H; [exact I|].
  cbn [clean_from] in H. apply andb_true_iff in H. destruct H as [H1 H2].
  split; [right; apply negb_true_iff; exact H1 | apply IH; exact H2].
Qed.

Lemma fixed_calm ops : forall s, fixedm s = true -> calm_from s ops.
Proof.
  induction ops as [|o t IH]; intros s H; [exact I|].
  split; [left; exact H|]. apply IH. rewrite fixedm_step. exact H.
Qed.

Lemma kind_of_inv o :
  match kind_of o with
  | KClone r => exists c, o = RClone r c | KRConv r => o = RConv r | KSConv => o = SConv | KOther => True
  end.
Proof. destruct o; cbn [kind_of]; eauto. Qed.

(* taints arise only in the three unpatched branches, each from a closed (or unregistered) handle *)
Lemma step_no_taint s o outs :
  InvC (proj s) outs -> no_taint s -> calm s o -> no_taint (fst (step s o)).
Proof.
  intros I [Hs Hr] Hc. destruct (step s o) as [s' x] eqn:Es. cbn [fst].
  pose proof (step_shape _ _ _ _ Es) as Hsh.
  assert (Hgoal : c_taint (proj s') = false /\ forall r y, c_get (proj s') r = Some y -> r_taint y = false);
    [|exact Hgoal].
  assert (Hd : c_fixed (proj s) = false -> derives_from_closed s o = false)
    by (intros Hf; destruct Hc as [Hc|Hc]; [change (c_fixed (proj s) = true) in Hc; congruence|exact Hc]).
  change (c_taint (proj s) = false) in Hs. change (forall r x, c_get (proj s) r = Some x -> r_taint x = false) in Hr.
  destruct Hsh as [Hq|vs0 sp Hq Hsp Hle Ha Hcl|r x0 k Hg Hcl Hk Hv Ho|r x0 x' Hq Hg Hl0 Hu|r x0 cid xc Hq Hg Hl0 Hn Hk|al cl t pd Hq Hk].
  - auto.
  - auto.
  - split; [exact Hs|]. intros r1 y Hy. unfold c_get in Hy. cbn [with_rxs c_rxs] in Hy.
    destruct (N.eq_dec r1 r) as [->|Hne].
    + rewrite get_set_eq in Hy. injection Hy as <-. apply (Hr r x0 Hg).
    + rewrite get_set_neq in Hy by exact Hne. apply (Hr r1 y Hy).
  - split; [exact Hs|]. intros r1 y Hy. unfold c_get in Hy. cbn [with_rxs c_rxs] in Hy.
    destruct (N.eq_dec r1 r) as [->|Hne].
    + rewrite get_set_eq in Hy. injection Hy as <-.
      destruct Hu as (_ & _ & [(_ & _ & ->)|[(_ & _ & -> & _)|(Hf & Hreg & Hcl & Hlv & -> & Hkd)]]);
        try (apply (Hr r x0 Hg)).
      pose proof (kind_of_inv o) as Ho; rewrite Hkd in Ho; subst o. specialize (Hd Hf). cbn [derives_from_closed] in Hd.
      unfold c_get in Hg. cbn [proj c_rxs] in Hg. rewrite Hg in Hd. apply orb_false_iff in Hd. destruct Hd as [Hd _].
      rewrite (Hr r x0 Hg), Hd. reflexivity.
    + rewrite get_set_neq in Hy by exact Hne. apply (Hr r1 y Hy).
  - split; [exact Hs|]. intros r1 y Hy. unfold c_get in Hy. cbn [with_rxs c_rxs] in Hy.
    destruct (N.eq_dec r1 cid) as [->|Hne].
    + rewrite get_set_eq in Hy. injection Hy as <-.
      destruct Hk as (Hkd & _ & _ & _ & [(_ & _ & -> & Hfc)|(_ & _ & _ & _ & ->)]); [|apply (Hr r x0 Hg)].
      rewrite (Hr r x0 Hg). cbn [orb]. apply negb_false_iff.
      destruct (r_reg x0) eqn:Er; [reflexivity|exfalso]. destruct Hfc as [Hf|Hcl].
      * pose proof (kind_of_inv o) as Ho; rewrite Hkd in Ho; destruct Ho as [c0 ->]. specialize (Hd Hf). cbn [derives_from_closed] in Hd.
        unfold c_get in Hg. cbn [proj c_rxs] in Hg. rewrite Hg, Er, orb_true_r in Hd. discriminate Hd.
      * destruct (i_rx _ _ I r x0 Hg) as (_ & _ & _ & _ & E & _). specialize (E (Hr r x0 Hg) Er). congruence.
    + rewrite get_set_neq in Hy by exact Hne. apply (Hr r1 y Hy).
  - split; [|exact Hr]. cbn [with_sender c_taint].
    destruct Hk as (_ & [(_ & _ & _ & -> & _)|[(_ & _ & -> & _)|(Hf & _ & _ & -> & _ & Hkd)]]); try exact Hs.
    pose proof (kind_of_inv o) as Ho; rewrite Hkd in Ho; subst o. specialize (Hd Hf). cbn [derives_from_closed] in Hd.
    rewrite Hs. change (c_closed (proj s)) with (s_closed s). rewrite Hd. reflexivity.
Qed.

Lemma calm_no_taint ops : forall s outs,
  InvC (proj s) outs -> no_taint s -> calm_from s ops -> no_taint (end_of s ops).
Proof.
  induction ops as [|o t IH]; intros s outs I Hn Hc; [exact Hn|]. destruct Hc as [Hc1 Hc2].
  pose proof (step_no_taint s o outs I Hn Hc1) as Hn1. cbn [end_of].
  destruct (step s o) as [s1 x] eqn:Es. apply (IH s1 (outs ++ [x])); auto. eapply inv_next; eauto.
Qed.

(* the `_except_` form of the delivery theorem with a checkable hypothesis on the history *)
Theorem spmc_delivery_clean fx c a ops s outs r x :
  0 < c -> clean_from (init fx c a) ops = true -> run fx c a ops = (s, outs) ->
  get (rxs s) r = Some x ->
  recvd r outs = slice (log s) (r_start x) (r_cur x) /\ r_start x <= r_cur x /\ r_cur x <= head s.
Proof.
  intros Hc Hcl Hr Hg. apply (spmc_delivery fx c a ops s outs r x Hc Hr Hg).
  rewrite run_outs in Hr. injection Hr as <- _.
  apply (proj2 (calm_no_taint ops _ [] (inv_init fx c a Hc) (no_taint_init fx c a) (clean_calm ops _ Hcl)) r x Hg).
Qed.

Theorem spmc_fixed_untainted c a ops s outs :
  0 < c -> run true c a ops = (s, outs) ->
  s_taint s = false /\ forall r x, get (rxs s) r = Some x -> r_taint x = false.
Proof.
  intros Hc Hr. rewrite run_outs in Hr. injection Hr as <- _.
  exact (calm_no_taint ops _ [] (inv_init true c a Hc) (no_taint_init true c a) (fixed_calm ops (init true c a) eq_refl)).
Qed.

Theorem spmc_delivery_fixed : spmc_delivery_full true.
Proof.
  intros c a ops s outs r x Hc Hr Hg.
  destruct (spmc_fixed_untainted c a ops s outs Hc Hr) as [_ Ht].
  apply (spmc_delivery true c a ops s outs r x Hc Hr Hg (Ht r x Hg)).
Qed.


(* C04: disconnect protocol *)

(* after the last receiver is gone every send form fails with Closed and hands the values back *)
Lemma no_open_rx_no_cursor c outs :
  InvC c outs -> (forall r x, c_get c r = Some x -> r_live x = false \/ r_closed x = true) -> c_cursors c = [].
Proof.
  intros I Hall. destruct (c_cursors c) as [|m t] eqn:E; [reflexivity|exfalso].
  assert (Hin : In m (c_cursors c)) by (rewrite E; left; reflexivity).
  apply in_cursors in Hin; [|exact (i_nd _ _ I)]. destruct Hin as (r & x & Hg & Hr & _).
  destruct (i_rx _ _ I r x Hg) as (_ & _ & _ & D & _). destruct (D Hr) as [Hl Hc].
  destruct (Hall r x Hg); congruence.
Qed.

Theorem spmc_all_receivers_gone fx c a ops s outs :
  0 < c -> run fx c a ops = (s, outs) -> s_alive s = true ->
  (forall r x, get (rxs s) r = Some x -> r_live x = false \/ r_closed x = true) ->
  (forall v, snd (step s (TrySend v)) = OClosedV v) /\
  (forall v, s_async s = false -> snd (step s (Send v)) = OClosed) /\
  (forall vs, vs <> [] -> snd (step s (TrySendB vs)) = OBatch BClosed 0 vs) /\
  (forall vs, vs <> [] -> snd (step s (TrySendM vs)) = OMut false 0 vs) /\
  (forall vs, vs <> [] -> s_async s = false -> snd (step s (SendB vs)) = OBErr 0 vs) /\
  (forall vs, vs <> [] -> s_async s = false -> snd (step s (SendM vs)) = OMut false 0 vs) /\
  snd (step s SObs) = OObs 0 true false true (cap s).
Proof.
  intros Hc Hr Ha Hall. pose proof (inv_run _ _ _ _ _ _ Hc Hr) as I.
  assert (Hcur : cursors s = []) by (apply (no_open_rx_no_cursor (proj s) outs I); exact Hall).
  assert (Ht : forall v, try_send_core v s = (s, SClosedR)) by (intros v; unfold try_send_core; rewrite Hcur; reflexivity).
  assert (Hs : forall vs, send_some vs s = None) by (intros vs; unfold send_some, space; rewrite Hcur; reflexivity).
  assert (Hcap : N.eqb 0 (cap s) = false).
  { destruct (N.eqb_spec 0 (cap s)) as [E|]; [|reflexivity]. pose proof (i_cap _ _ I) as H0. cbn [proj c_cap] in H0. lia. }
  cbn [step]. rewrite Ha. cbn [negb orb]. repeat split.
  - intros v. rewrite Ht. destruct (s_closed s); reflexivity.
  - intros v ->. rewrite Ht. destruct (s_closed s); reflexivity.
  - intros [|v0 t] Hne; [congruence|]. rewrite Hs. destruct (s_closed s); reflexivity.
  - intros [|v0 t] Hne; [congruence|]. rewrite Hs. destruct (s_closed s); reflexivity.
  - intros [|v0 t] Hne ->; [congruence|]. rewrite Hs. destruct (s_closed s); reflexivity.
  - intros [|v0 t] Hne ->; [congruence|]. rewrite Hs. destruct (s_closed s); reflexivity.
  - unfold obs_tx. rewrite Hcur. cbn [minl snd]. rewrite N.eqb_refl, Hcap. reflexivity.
Qed.

(* a closed handle rejects every operation on it; close is idempotent *)
Theorem spmc_closed_rx_rejects s r x :
  get (rxs s) r = Some x -> r_live x = true -> r_closed x = true ->
  step s (TryRecv r) = (s, ODisc r) /\
  (r_async x = false -> step s (Recv r) = (s, ODisc r) /\ step s (RecvT r) = (s, ODisc r)) /\
  (forall n, n <> 0 -> step s (TryRecvB r n) = (s, ODisc r)) /\
  (forall n, n <> 0 -> r_async x = false -> step s (RecvB r n) = (s, ODisc r)) /\
  step s (RClose r) = (s, OCloseErr) /\
  (forall f y w, get (futs s) f = Some y -> f_live y = true -> fut_rx (f_kind y) = Some r ->
                 snd (step s (Poll f w)) = OReady (ODisc r)) /\
  (r_async x = true -> rx_busy s r = false -> forall w, step s (PollNext r w) = (s, OReady ONone)).
Proof.
  intros Hg Hl Hc. cbn [step]. unfold with_rx. rewrite Hg, Hl, Hc.
  split; [reflexivity|]. split; [intros ->; split; reflexivity|].
  split; [intros n Hn; destruct (N.eqb_spec n 0); [contradiction|reflexivity]|].
  split; [intros n Hn ->; destruct (N.eqb_spec n 0); [contradiction|reflexivity]|].
  split; [reflexivity|]. split.
  - intros f y w Hf Hlv Hk. rewrite Hf, Hlv. unfold poll_fut.
    destruct (f_kind y) as [r0|r0 n0| | |]; cbn [fut_rx] in Hk; inversion Hk; subst r0; rewrite Hg, Hc; reflexivity.
  - intros -> Hb w. cbn [negb]. rewrite Hb. reflexivity.
Qed.

Theorem spmc_closed_tx_rejects s :
  s_alive s = true -> s_closed s = true ->
  (forall v, step s (TrySend v) = (add_drops s [v], OClosedV v)) /\
  (forall v, s_async s = false -> step s (Send v) = (add_drops s [v], OClosed)) /\
  (forall vs, vs <> [] -> step s (TrySendB vs) = (add_drops s vs, OBatch BClosed 0 vs)) /\
  (forall vs, vs <> [] -> step s (TrySendM vs) = (add_drops s vs, OMut false 0 vs)) /\
  (tx_busy s = false -> step s SClose = (s, OCloseErr)) /\
  (forall f y w v, get (futs s) f = Some y -> f_live y = true -> f_kind y = FSend v ->
                   snd (step s (Poll f w)) = OReady OClosed).
Proof.
  intros Ha Hc. cbn [step]. rewrite Ha, Hc. cbn [negb].
  split; [reflexivity|]. split; [intros v ->; reflexivity|].
  split; [intros [|v0 t] Hne; [congruence|reflexivity]|].
  split; [intros [|v0 t] Hne; [congruence|reflexivity]|].
  split; [intros ->; reflexivity|].
  intros f y w v Hf Hl Hk. rewrite Hf, Hl. unfold poll_fut. rewrite Hk, Ha, Hc. reflexivity.
Qed.

Theorem spmc_close_sets_flag s r s' :
  step s (RClose r) = (s', OOk) ->
  exists x x', get (rxs s) r = Some x /\ r_closed x = false /\ get (rxs s') r = Some x' /\
               r_closed x' = true /\ r_reg x' = false.
Proof.
  cbn [step]. intros H. apply with_rx_inv in H. destruct H as [[_ H]|(x & Hg & Hl & H)]; [discriminate|].
  destruct (r_closed x) eqn:Ec; [discriminate|]. injection H as <-.
  exists x, (rx_unreg x). split; [exact Hg|]. split; [exact Ec|].
  split; [|split; reflexivity].
  change (c_get (proj (wake_producer (set_rx s r (rx_unreg x)))) r = Some (rx_unreg x)).
  rewrite proj_wake_producer. unfold c_get. cbn [proj set_rx set_rxs rxs c_rxs]. apply get_set_eq.
Qed.

(* closing or dropping one receiver changes no other receiver's outcomes, and does not disconnect
   the sender while another receiver is registered *)
Theorem spmc_close_isolated s r x o r' :
  get (rxs s) r = Some x -> r_live x = true -> r_closed x = false -> rx_busy s r = false ->
  o = RClose r \/ o = RDrop r -> r' <> r ->
  let s1 := fst (step s o) in
  get (rxs s1) r' = get (rxs s) r' /\
  snd (step s1 (TryRecv r')) = snd (step s (TryRecv r')) /\
  (forall n, snd (step s1 (TryRecvB r' n)) = snd (step s (TryRecvB r' n))) /\
  snd (step s1 (RObs r')) = snd (step s (RObs r')) /\
  (forall x', get (rxs s) r' = Some x' -> r_reg x' = true -> minl (cursors s1) <> None).
Proof.
  intros Hg Hl Hc Hb Ho Hne s1.
  destruct (close_or_drop_spec s r x o Hg Hl Hc Hb Ho) as (_ & (x1 & Hx1 & Hp) & _). fold s1 in Hp.
  unfold proj, with_rxs in Hp. cbn [c_fixed c_cap c_log c_alive c_closed c_taint c_pdrop c_rxs] in Hp.
  injection Hp as _ Hcap Hlog _ _ _ Hpd Hrx.
  assert (Hget : get (rxs s1) r' = get (rxs s) r') by (rewrite Hrx; apply get_set_neq, Hne).
  assert (Hhd : head s1 = head s) by (unfold head; rewrite Hlog; reflexivity).
  split; [exact Hget|]. split; [|split; [|split]].
  - cbn [step]. unfold with_rx. rewrite Hget. destruct (get (rxs s) r') as [y|]; [|reflexivity].
    destruct (r_live y); [|reflexivity]. destruct (r_closed y); [reflexivity|].
    unfold try_recv_core, in_window. rewrite Hhd, Hcap, Hpd, Hlog.
    destruct (N.ltb (r_cur y) (head s) && N.leb (head s) (r_cur y + cap s)); [reflexivity|].
    destruct (pdrop s && N.leb (head s) (r_cur y)); reflexivity.
  - intros n. cbn [step]. unfold with_rx. rewrite Hget. destruct (get (rxs s) r') as [y|]; [|reflexivity].
    destruct (r_live y); [|reflexivity]. destruct (N.eqb n 0); [reflexivity|]. destruct (r_closed y); [reflexivity|].
    unfold try_recv_batch_core. rewrite Hhd, Hpd.
    destruct (N.leb (head s) (r_cur y)); [destruct (pdrop s); reflexivity|]. cbn [snd out_of_bres].
    f_equal. apply map_ext. intros i. unfold slot_val, slot_index. rewrite Hhd, Hcap, Hlog. reflexivity.
  - cbn [step]. unfold with_rx. rewrite Hget. destruct (get (rxs s) r') as [y|]; [|reflexivity].
    destruct (r_live y); [|reflexivity]. cbn [snd]. unfold obs_rx. rewrite Hhd, Hcap, Hpd. reflexivity.
  - intros x' Hg' Hr' Hn. apply minl_none in Hn.
    assert (Hin : In (r_cur x') (c_cursors (proj s1))).
    { apply (cursor_in (proj s1) r' x'); [|exact Hr']. unfold c_get. change (c_rxs (proj s1)) with (rxs s1). rewrite Hget. exact Hg'. }
    change (c_cursors (proj s1)) with (cursors s1) in Hin. rewrite Hn in Hin. contradiction.
Qed.

(* history level: Disconnected is final, close is final *)

(* once producer_dropped is set the log no longer grows, unless a closed sender is re-opened *)
Lemma pdrop_stays s o s' x outs :
  InvC (proj s) outs -> step s o = (s', x) -> calm s o -> s_taint s = false ->
  pdrop s = true -> pdrop s' = true /\ log s' = log s.
Proof.
  intros I Hs Hc Ht Hp. pose proof (step_shape _ _ _ _ Hs) as Hsh.
  change (c_taint (proj s) = false) in Ht. change (c_pdrop (proj s) = true) in Hp.
  change (c_pdrop (proj s') = true /\ c_log (proj s') = c_log (proj s)).
  destruct Hsh as [Hq|vs0 sp Hq Hsp Hle Ha Hcl|r0 x0 k Hg Hcl Hk Hv Ho|r0 x0 x' Hq Hg Hl0 Hu|r0 x0 cid xc Hq Hg Hl0 Hn Hk|al cl t pd Hq Hk];
    cbn [with_log with_rxs with_sender c_pdrop c_log]; auto.
  - destruct (i_s2 _ _ I Hp) as [?|[?|?]]; congruence.
  - destruct Hk as (Ha & [(_ & _ & _ & _ & ->)|[(_ & _ & _ & [->|[_ ->]])|(_ & _ & _ & _ & -> & _)]]); auto.
Qed.

Lemma step_rx_calm s o s' x r y :
  step s o = (s', x) -> calm s o -> get (rxs s) r = Some y ->
  (r_closed y = true \/ (pdrop s = true /\ head s <= r_cur y)) ->
  (exists y', get (rxs s') r = Some y' /\
              (r_closed y' = true \/ (r_closed y = false /\ r_cur y' = r_cur y))) /\ vals_of r x = [].
Proof.
  intros Hs Hc Hgy Hfr. pose proof (step_shape _ _ _ _ Hs) as Hsh.
  change (get (rxs s') r) with (c_get (proj s') r).
  change (c_get (proj s) r = Some y) in Hgy.
    destruct Hsh as [Hq|vs0 sp Hq Hsp Hle Ha Hcl|r0 x0 k Hg Hcl Hk Hv Ho|r0 x0 x' Hq Hg Hl0 Hu|r0 x0 cid xc Hq Hg Hl0 Hn Hk|al cl t pd Hq Hk].
    - split; [|apply Hq]. exists y. split; [exact Hgy|]. destruct (r_closed y); auto.
    - split; [|apply Hq]. exists y. split; [exact Hgy|]. destruct (r_closed y); auto.
    - destruct (N.eq_dec r r0) as [->|Hne].
      + rewrite Hgy in Hg. inversion Hg; subst x0. clear Hg.
        destruct Hfr as [Hfr|[Hp Hh]]; [congruence|].
        change (c_head (proj s)) with (head s) in Hk.
        assert (k = 0) by lia. subst k.
        split.
        * exists (adv y 0). split; [unfold c_get; cbn [with_rxs c_rxs]; apply get_set_eq|].
          right. split; [exact Hcl|]. cbn [adv r_cur]. lia.
        * rewrite Hv. reflexivity.
      + split; [|apply Ho; exact Hne]. exists y. split.
        * unfold c_get. cbn [with_rxs c_rxs]. rewrite get_set_neq by exact Hne. exact Hgy.
        * destruct (r_closed y); auto.
    - split; [|apply Hq]. destruct (N.eq_dec r r0) as [->|Hne].
      + rewrite Hgy in Hg. inversion Hg; subst x0. clear Hg.
        exists x'. split; [unfold c_get; cbn [with_rxs c_rxs]; apply get_set_eq|].
        destruct Hu as (Hcur & _ & [(_ & -> & _)|[(_ & -> & _)|(Hf & Hreg & Hcl' & Hlv & _ & Hkd)]]).
        * auto.
        * destruct (r_closed y); auto.
        * pose proof (kind_of_inv o) as Ho; rewrite Hkd in Ho; subst o. destruct Hc as [Hc|Hc].
          -- change (c_fixed (proj s) = true) in Hc. congruence.
          -- cbn [derives_from_closed] in Hc. unfold c_get in Hgy. cbn [proj c_rxs] in Hgy. rewrite Hgy in Hc.
             apply orb_false_iff in Hc. destruct Hc as [Hc _]. right. auto.
      + exists y. split.
        * unfold c_get. cbn [with_rxs c_rxs]. rewrite get_set_neq by exact Hne. exact Hgy.
        * destruct (r_closed y); auto.
    - split; [|apply Hq]. exists y. split.
      + unfold c_get. cbn [with_rxs c_rxs]. rewrite get_set_neq; [exact Hgy|]. intros ->. congruence.
      + destruct (r_closed y); auto.
    - split; [|apply Hq]. exists y. split; [exact Hgy|]. destruct (r_closed y); auto.
Qed.

Lemma step_frozen s o s' x outs r :
  InvC (proj s) outs -> step s o = (s', x) -> calm s o -> s_taint s = false ->
  frozen s r -> frozen s' r /\ vals_of r x = [].
Proof.
  intros I Hs Hc Ht (y & Hgy & Hfr).
  destruct (step_rx_calm s o s' x r y Hs Hc Hgy Hfr) as [(y' & Hg' & Hy') Hv]. split; [|exact Hv].
  exists y'. split; [exact Hg'|]. destruct Hy' as [Hy'|[Hcy Hcur]]; [left; exact Hy'|].
  destruct Hfr as [Hfr|[Hp Hh]]; [congruence|]. right.
  destruct (pdrop_stays s o s' x outs I Hs Hc Ht Hp) as [Hp' Hl']. split; [exact Hp'|].
  unfold head. rewrite Hl', Hcur. exact Hh.
Qed.

(* once Disconnected was returned for r, no later output carries a value for r *)
Fixpoint nvad (r : N) (seen : bool) (outs : list out) : Prop :=
  match outs with
  | [] => True
  | o :: t => (seen = true -> vals_of r o = []) /\ nvad r (seen || is_disc r o) t
  end.

Lemma nvad_from r ops : forall s seen outs0,
  InvC (proj s) outs0 -> no_taint s -> calm_from s ops ->
  (seen = true -> frozen s r) -> nvad r seen (outs_from s ops).
Proof.
  induction ops as [|o t IH]; intros s seen outs0 I Hn Hc Hf; [exact Logic.I|].
  cbn [outs_from nvad]. destruct Hc as [Hc1 Hc2]. pose proof (step_no_taint s o outs0 I Hn Hc1) as Hn1.
  destruct (step s o) as [s1 x] eqn:Es. cbn [fst snd] in *.
  pose proof (fun H => step_frozen s o s1 x outs0 r I Es Hc1 (proj1 Hn) H) as Hfz.
  split; [intros Hs; apply (Hfz (Hf Hs))|].
  apply (IH s1 _ (outs0 ++ [x])); auto; [eapply inv_next; eauto|].
  intros Hs. apply Hfz. apply orb_true_iff in Hs. destruct Hs as [Hs|Hs]; [exact (Hf Hs)|].
  eapply step_disc; eauto.
Qed.

Definition spmc_disc_final_full (fx : bool) : Prop :=
  forall c a ops r, 0 < c -> nvad r false (snd (run fx c a ops)).

Theorem spmc_disc_final_clean fx c a ops r :
  0 < c -> clean_from (init fx c a) ops = true -> nvad r false (snd (run fx c a ops)).
Proof.
  intros Hc Hcl. rewrite run_outs. cbn [snd].
  apply (nvad_from r ops (init fx c a) false []); [apply inv_init; exact Hc|apply no_taint_init|apply clean_calm; exact Hcl|discriminate].
Qed.

Theorem spmc_disc_final_fixed : spmc_disc_final_full true.
Proof.
  intros c a ops r Hc. rewrite run_outs. cbn [snd].
  apply (nvad_from r ops (init true c a) false []); [apply inv_init; exact Hc|apply no_taint_init| |discriminate].
  apply fixed_calm. reflexivity.
Qed.

(* known finding (sender): close(); to_async()/to_sync() re-opens the sender, so a receiver that has
   observed Disconnected obtains a value afterwards *)
Definition witness_reopen_tx : list op := [SClose; TryRecv 0; SConv; TrySend 1; TryRecv 0].

Lemma spmc_disc_final_refuted_reopen_tx : ~ spmc_disc_final_full false.
Proof.
  intros H. specialize (H 2 false witness_reopen_tx 0 ltac:(lia)).
  assert (E : snd (run false 2 false witness_reopen_tx) = [OOk; ODisc 0; OOk; OOk; OVal 0 1])
    by (vm_compute; reflexivity).
  rewrite E in H. destruct H as (_ & _ & _ & _ & H & _). specialize (H eq_refl). discriminate H.
Qed.

(* close is final for a receiver handle: after close() returned Ok, no later operation yields a
   value on it — on the patched model and on histories that do not convert/clone closed handles *)
Lemma closed_forever r ops : forall s y,
  calm_from s ops -> get (rxs s) r = Some y -> r_closed y = true ->
  (exists y', get (rxs (end_of s ops)) r = Some y' /\ r_closed y' = true) /\ recvd r (outs_from s ops) = [].
Proof.
  induction ops as [|o t IH]; intros s y Hc Hg Hcl; [split; [eauto|reflexivity]|].
  destruct Hc as [Hc1 Hc2]. cbn [end_of outs_from]. destruct (step s o) as [s1 x] eqn:Es. cbn [fst snd] in *.
  destruct (step_rx_calm s o s1 x r y Es Hc1 Hg (or_introl Hcl)) as [(y' & Hg' & Hy') Hv].
  assert (Hcl' : r_closed y' = true) by (destruct Hy' as [?|[? _]]; congruence).
  destruct (IH s1 y' Hc2 Hg' Hcl') as [He Hr]. split; [exact He|].
  unfold recvd. cbn [flat_map]. rewrite Hv. exact Hr.
Qed.

Definition spmc_close_final_full (fx : bool) : Prop :=
  forall c a ops1 r ops2, 0 < c ->
    let s1 := end_of (init fx c a) ops1 in
    snd (step s1 (RClose r)) = OOk ->
    recvd r (outs_from (fst (step s1 (RClose r))) ops2) = [].

Theorem spmc_close_final_fixed : spmc_close_final_full true.
Proof.
  intros c a ops1 r ops2 Hc s1 Hok.
  pose proof (fixedm_step s1 (RClose r)) as Hf. unfold s1 in Hf at 2. rewrite fixedm_end_of in Hf. cbn [init fixedm] in Hf.
  destruct (step s1 (RClose r)) as [s2 x] eqn:Es. cbn [snd fst] in *. subst x.
  destruct (spmc_close_sets_flag s1 r s2 Es) as (y & y' & _ & _ & Hg' & Hcl' & _).
  destruct (closed_forever r ops2 s2 y' (fixed_calm ops2 s2 Hf) Hg' Hcl') as [_ H]. exact H.
Qed.

Theorem spmc_close_final_clean fx c a ops1 r ops2 :
  0 < c -> let s1 := end_of (init fx c a) ops1 in
  snd (step s1 (RClose r)) = OOk -> clean_from (fst (step s1 (RClose r))) ops2 = true ->
  recvd r (outs_from (fst (step s1 (RClose r))) ops2) = [].
Proof.
  intros Hc s1 Hok Hcl. destruct (step s1 (RClose r)) as [s2 x] eqn:Es. cbn [snd fst] in *. subst x.
  destruct (spmc_close_sets_flag s1 r s2 Es) as (y & y' & _ & _ & Hg' & Hcl' & _).
  destruct (closed_forever r ops2 s2 y' (clean_calm ops2 s2 Hcl) Hg' Hcl') as [_ H]. exact H.
Qed.

(* known finding (receiver): close(); to_async()/to_sync() re-opens the handle *)
Lemma spmc_close_final_refuted_reopen_rx : ~ spmc_close_final_full false.
Proof.
  intros H. specialize (H 2 false [RClone 0 1] 0 [RConv 0; TrySend 1; TryRecv 0] ltac:(lia)).
  cbv zeta in H. specialize (H ltac:(vm_compute; reflexivity)). vm_compute in H. discriminate H.
Qed.
