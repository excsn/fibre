(* Proofs/TicketK3Theorems.v — C01 / C02 theorems of the K3 ticket model, for every capacity, chunk
   size, table size, cadence, number of producers, programs and schedule. *)
From Fibre Require Import Common.Base Common.Conc Chan.TicketK3 Proofs.TicketK3Base Proofs.TicketK3Values
  Proofs.TicketK3Safety.
From Coq Require Import ZifyBool ZifyNat ZifyN Arith.

(* two entries of a ticket-ordered list come from two tickets in that order *)
Lemma vals_in_order s a b l1 v1 l2 v2 l3 :
  vals_in s a b = l1 ++ v1 :: l2 ++ v2 :: l3 -> exists t1 t2, t1 < t2 /\ tk s t1 = TSet v1 /\ tk s t2 = TSet v2.
Proof.
  unfold vals_in. generalize (N.to_nat (b - a)) as k. intros k. revert a l1.
  induction k as [|k IH]; intros a l1 H; cbn [nrange flat_map] in H; [destruct l1; discriminate H|].
  destruct (tk s a) as [| |v|] eqn:Ea; cbn [tk_val app] in H; try exact (IH _ _ H).
  destruct l1 as [|x l1]; injection H as -> Hr; [|exact (IH _ _ Hr)].
  assert (Hin : In v2 (vals_in s (a + 1) (a + 1 + N.of_nat k))).
  { unfold vals_in. replace (N.to_nat (a + 1 + N.of_nat k - (a + 1))) with k by lia.
    rewrite Hr. apply in_or_app. right. left. reflexivity. }
  apply in_vals_in in Hin. destruct Hin as [t2 [L E2]]. exists a, t2. split; [lia|]. split; assumption.
Qed.

Lemma NoDup_no_repeat {A} (l : list A) : (forall l1 v l2 l3, l <> l1 ++ v :: l2 ++ v :: l3) -> NoDup l.
Proof.
  induction l as [|a l IH]; intros H; constructor.
  - intros Hin. apply in_split in Hin. destruct Hin as [l2 [l3 ->]]. apply (H [] a l2 l3). reflexivity.
  - apply IH. intros l1 v l2 l3 ->. apply (H (a :: l1) v l2 l3). reflexivity.
Qed.

Section Theorems.
Variables cap cc n kk : N.
Variable np : nat.
Hypothesis Hcc : 0 < cc.
Hypothesis Hn : 0 < n.
Variable pp0 : nat -> list pop.
Variable cp0 : list cop.

Notation S := (sys cap cc n kk np pp0 cp0).

Lemma inv s : reachable S s -> SInv cap cc n s /\ VInv s.
Proof. exact (Inv_reachable cap cc n kk np Hcc Hn pp0 cp0 s). Qed.

(* the cursor as seen by `received`: one past pos while a taken payload waits for its EMPTY store *)
Definition rpos (s : st) : N := hpos s + (if taken (cpc s) then 1 else 0).

Lemma rpos_le_tail s : reachable S s -> rpos s <= gtail s.
Proof.
  intros Hr. destruct (inv s Hr) as [I V]. unfold rpos.
  pose proof (A_tail _ _ _ _ I). destruct (taken (cpc s)) eqn:Et; [|lia].
  destruct (taken_set cap cc n Hcc Hn s I Et) as [v Hv]. pose proof (set_below_tail _ _ _ _ _ _ I Hv). lia.
Qed.

(* what the consumer has taken = the SET payloads of the tickets below the cursor, in ticket order *)
Theorem received_by_ticket s : reachable S s -> received s = vals_in s 0 (rpos s).
Proof.
  intros Hr. destruct (inv s Hr) as [I V].
  rewrite (V_recv _ V), vals_in_valsf. unfold rpos. destruct (taken (cpc s)).
  - rewrite valsf_snoc by lia. reflexivity.
  - rewrite N.add_0_r, app_nil_r. reflexivity.
Qed.

(* conservation + delivery in ticket order: the accepted payloads (SET tickets, in ticket order) are
   the received ones followed by the still buffered ones *)
Theorem accepted_is_received_then_buffered s :
  reachable S s -> accepted s = received s ++ vals_in s (rpos s) (gtail s).
Proof.
  intros Hr. rewrite (received_by_ticket s Hr). unfold accepted.
  apply vals_in_split; [lia | apply rpos_le_tail; exact Hr].
Qed.

(* per-producer FIFO: payloads of one producer are accepted (ticket order) and received in the
   order of its calls *)
Theorem accepted_per_producer_fifo s l1 th k1 l2 k2 l3 :
  reachable S s -> accepted s = l1 ++ (th, k1) :: l2 ++ (th, k2) :: l3 -> k1 < k2.
Proof.
  intros Hr H. destruct (inv s Hr) as [I V].
  destruct (vals_in_order _ _ _ _ _ _ _ _ H) as [t1 [t2 [L [H1 H2]]]].
  apply (V_ord _ V _ _ _ _ _ H1 H2 L).
Qed.

Theorem received_per_producer_fifo s l1 th k1 l2 k2 l3 :
  reachable S s -> received s = l1 ++ (th, k1) :: l2 ++ (th, k2) :: l3 -> k1 < k2.
Proof.
  intros Hr H. apply (accepted_per_producer_fifo s l1 th k1 l2 k2 (l3 ++ vals_in s (rpos s) (gtail s)) Hr).
  rewrite (accepted_is_received_then_buffered s Hr), H, <- app_assoc. cbn [app]. rewrite <- app_assoc. reflexivity.
Qed.

(* exactly once: no payload is accepted twice, none is taken twice (it would come before itself) *)
Theorem accepted_nodup s : reachable S s -> NoDup (accepted s).
Proof.
  intros Hr. apply NoDup_no_repeat. intros l1 [th k] l2 l3 H.
  pose proof (accepted_per_producer_fifo s _ _ _ _ _ _ Hr H). lia.
Qed.

Theorem received_nodup s : reachable S s -> NoDup (received s).
Proof.
  intros Hr. apply NoDup_no_repeat. intros l1 [th k] l2 l3 H.
  pose proof (received_per_producer_fifo s _ _ _ _ _ _ Hr H). lia.
Qed.

(* a thread's successive tickets increase: everything it has SET lies below what it owns now, and
   its SET tickets carry its op numbers in increasing order *)
Theorem producer_tickets_increase s th :
  reachable S s ->
  (forall t t2 k, tk s t = TSet (th, k) -> owns (ppc s th) t2 -> t < t2) /\
  (forall t1 t2 k1 k2, tk s t1 = TSet (th, k1) -> tk s t2 = TSet (th, k2) -> t1 < t2 -> k1 < k2).
Proof.
  intros Hr. destruct (inv s Hr) as [I V]. split.
  - intros t t2 k H1 H2. apply (B_own _ _ _ _ I) in H2. apply (V_own _ V _ _ _ _ H1 H2).
  - intros t1 t2 k1 k2. apply (V_ord _ V).
Qed.

(* API results vs. the channel: values returned by try_recv (+ the one in hand) = received *)
Theorem got_is_received s : reachable S s -> got s ++ chand s = received s.
Proof. intros Hr. apply (V_got _ (proj2 (inv s Hr))). Qed.

Lemma in_accepted s v : reachable S s -> (In v (accepted s) <-> exists t, tk s t = TSet v).
Proof.
  intros Hr. destruct (inv s Hr) as [I V]. unfold accepted. rewrite in_vals_in. split.
  - intros [t [_ H]]. exists t. exact H.
  - intros [t H]. exists t. pose proof (set_below_tail _ _ _ _ _ _ I H). split; [lia | exact H].
Qed.

(* a try_send that returned Ok put its payload into the channel *)
Theorem sent_ok_is_accepted s th v :
  reachable S s -> In v (sent_ok s th) -> In v (accepted s).
Proof.
  intros Hr Hin. destruct (inv s Hr) as [I V].
  unfold sent_ok in Hin. apply in_flat_map in Hin. destruct Hin as [r [Hr1 Hr2]].
  destruct r; cbn [pres_ok In] in Hr2; try contradiction. destruct Hr2 as [->|[]].
  destruct (V_res _ V _ _ Hr1) as [k [_ [[E [t Ht]]|[[E|E] _]]]]; try discriminate E.
  inversion E; subst. apply (in_accepted s _ Hr). exists t. exact Ht.
Qed.

(* nothing else is in the channel: an accepted payload belongs to a call that returned Ok for it, or
   is one of the `done_of` items of the call in progress whose SET store is already done *)
Theorem accepted_is_sent_or_in_flight s th k :
  reachable S s -> In (th, k) (accepted s) ->
  In (th, k) (sent_ok s th) \/ (pseq s th < k <= pseq s th + done_of (ppc s th)).
Proof.
  intros Hr Hin. destruct (inv s Hr) as [I V].
  apply (in_accepted s _ Hr) in Hin. destruct Hin as [t Ht].
  destruct (V_set _ V _ _ _ Ht) as [_ [Y Z]].
  destruct (N.le_gt_cases k (pseq s th)) as [L|L].
  - left. unfold sent_ok. apply in_flat_map. exists (POk (th, k)). split; [apply Z; exact L | left; reflexivity].
  - right. lia.
Qed.

(* .. and conversely every item the call in progress has completed is in the channel *)
Theorem in_flight_is_accepted s th i :
  reachable S s -> i < done_of (ppc s th) -> In (th, pseq s th + 1 + i) (accepted s).
Proof.
  intros Hr Hi. destruct (inv s Hr) as [I V].
  apply (in_accepted s _ Hr). apply (V_fly _ V _ _ Hi).
Qed.

(* a try_send that returned Full or Closed handed its value back and left no SET in the channel *)
Theorem failed_send_no_effect s th v :
  reachable S s -> In v (failed s th) -> ~ In v (accepted s).
Proof.
  intros Hr Hin Hacc. destruct (inv s Hr) as [I V].
  unfold failed in Hin. apply in_flat_map in Hin. destruct Hin as [r [Hr1 Hr2]].
  apply (in_accepted s _ Hr) in Hacc. destruct Hacc as [t Ht].
  destruct (V_res _ V _ _ Hr1) as [k [_ [[E _]|[E Hno]]]].
  - subst r. cbn [pres_fail In] in Hr2. contradiction.
  - destruct E as [E|E]; subst r; cbn [pres_fail In] in Hr2; destruct Hr2 as [<-|[]]; apply (Hno t Ht).
Qed.

(* the results of one producer are its op numbers 1 .. pseq (each call returns once) *)
Theorem results_are_own_ops s th r :
  reachable S s -> In r (presl s th) ->
  exists k, 1 <= k <= pseq s th /\ (r = POk (th, k) \/ r = PFull (th, k) \/ r = PClosed (th, k)).
Proof.
  intros Hr Hin. destruct (inv s Hr) as [I V].
  destruct (V_res _ V _ _ Hin) as [k [Hk [[E _]|[[E|E] _]]]]; exists k; auto.
Qed.

(* a SKIP tombstone never carries a payload *)
Theorem skip_has_no_payload s j i :
  reachable S s -> j < n -> i < cc -> sstate s (j * cc + i) = sSKIP -> sdata s (j * cc + i) = None.
Proof.
  intros Hr Hj Hi Hs. destruct (inv s Hr) as [I V].
  rewrite (E_dt _ _ _ _ I j i Hj Hi). rewrite (E_st _ _ _ _ I j i Hj Hi) in Hs.
  destruct (N.ltb (ids s j * cc + i) (hpos s)); [reflexivity|].
  unfold dataof. destruct (tk s (ids s j * cc + i)); try reflexivity; discriminate Hs.
Qed.

End Theorems.
