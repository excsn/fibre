(* Proofs/CacheC16Proofs.v — C16: notifications are truthful, never duplicated,
   and complete when the channel does not drop. *)
From Fibre Require Import Common.Base Cache.PolicySpec Cache.AMap Cache.CacheOps Cache.CacheSpec
     Proofs.AMapProofs Proofs.CacheCoreProofs Proofs.CacheStepProofs.

Section C16.
  Set Default Proof Using "All".
  Variable P : policy.
  Variable c : cfg.
  Hypothesis Hn : 0 < c_shards c.

  Notation state := (state P).
  Notation find := (find P c).
  Notation wfp := (wfp P c).
  Notation smap := (smap P).
  Notation sent := (sent P).

  (* incarnation numbers: fresh, unique among residents, never resident once notified *)
  Definition inv16 (s : state) : Prop :=
    (forall k e, find s k = Some e -> e_id e < st_eid P s)
    /\ (forall k1 e1 k2 e2, find s k1 = Some e1 -> find s k2 = Some e2 -> e_id e1 = e_id e2 -> k1 = k2)
    /\ (forall n, In n (sent s) -> n_id n < st_eid P s /\ forall k e, find s k = Some e -> e_id e <> n_id n)
    /\ NoDup (map n_id (sent s)).

  (* every entry of s' is an entry of s (same incarnation), or the one fresh incarnation, under [fresh] *)
  Definition idsub (fresh : option N) (s s' : state) : Prop :=
    forall k e', find s' k = Some e' ->
      (exists e, find s k = Some e /\ e_id e = e_id e') \/ (fresh = Some k /\ e_id e' = st_eid P s).

  (* the invariant after a step that notifies [new]: old incarnations, none of them resident any more *)
  Lemma inv16_next fresh s s' new :
    idsub fresh s s' -> st_eid P s <= st_eid P s' -> (fresh <> None -> st_eid P s < st_eid P s') ->
    sent s' = sent s ++ new ->
    (forall n, In n new -> n_id n < st_eid P s /\ (forall k e', find s' k = Some e' -> e_id e' <> n_id n)
                           /\ ~ In (n_id n) (map n_id (sent s))) ->
    NoDup (map n_id new) ->
    inv16 s -> inv16 s'.
  Proof.
    intros Hs He Hfr Hsent Hnew Hnd [A [B [C D]]]. split; [|split; [|split]].
    - intros k e' Hf. destruct (Hs k e' Hf) as [[e [Hf0 <-]]|[Hk ->]]; [specialize (A k e Hf0); lia | apply Hfr; congruence].
    - intros k1 e1 k2 e2 H1 H2 Hid.
      destruct (Hs k1 e1 H1) as [[a [Ha Ia]]|[K1 I1]], (Hs k2 e2 H2) as [[b [Hb Ib]]|[K2 I2]].
      + apply (B k1 a k2 b Ha Hb). congruence.
      + specialize (A k1 a Ha). lia.
      + specialize (A k2 b Hb). lia.
      + congruence.
    - rewrite Hsent. intros n Hi. apply in_app_or in Hi. destruct Hi as [Hi|Hi].
      + destruct (C n Hi) as [C1 C2]. split; [lia|]. intros k e' Hf.
        destruct (Hs k e' Hf) as [[e [Hf0 <-]]|[_ ->]]; [apply (C2 k e Hf0) | lia].
      + destruct (Hnew n Hi) as [N1 [N2 _]]. split; [lia | exact N2].
    - rewrite Hsent, map_app. apply NoDup_app_intro; [exact D | exact Hnd|].
      intros x H1 H2. apply in_map_iff in H2. destruct H2 as [n [<- Hn']]. apply (Hnew n Hn'). exact H1.
  Qed.

  Lemma inv16_quiet fresh s s' :
    idsub fresh s s' -> st_eid P s <= st_eid P s' -> (fresh <> None -> st_eid P s < st_eid P s') ->
    sent s' = sent s -> inv16 s -> inv16 s'.
  Proof.
    intros Hs He Hfr Hsent. apply (inv16_next fresh s s' []); auto; [rewrite app_nil_r; exact Hsent | intros n [] | constructor].
  Qed.

  (** ** transitions that notify nothing *)
  Definition quiet (s s' : state) (o : op) : Prop :=
    sent s' = sent s
    /\ (forall k e, find s k = Some e -> silent o k = false ->
                    exists e', find s' k = Some e' /\ e_id e' = e_id e).

  Lemma quiet_step s s' o : quiet s s' o -> s' = fst (step P c s o) -> C16_step P c s o.
  Proof.
    intros [Hs Hk] ->. exists []. rewrite app_nil_r. split; [exact Hs|]. split; [intros n []|]. split; [|reflexivity].
    intros _ _ k e Hf Hgone Hsil. destruct (Hk k e Hf Hsil) as [e' [Hf' Hid]]. exfalso. apply (Hgone e' Hf'). exact Hid.
  Qed.

  (** ** a write *)
  Lemma write_facts s s' k e : write P c s s' k e -> inv16 s -> inv16 s' /\ sent s' = sent s.
  Proof.
    intros H Hi. pose proof H as [[_ [_ [_ [E [S _]]]]] Hid]. split; [|exact S].
    apply (inv16_quiet (Some k) s s'); [|lia | lia | exact S | exact Hi].
    intros k' e' Hf. rewrite (find_write P c Hn _ _ _ _ k' H) in Hf.
    destruct (N.eqb_spec k' k) as [->|]; [right; split; congruence | left; eauto].
  Qed.

  (** ** a removal step *)
  Lemma drop_find s D d :
    wfp s -> (forall d, In d D -> afind (d_key d) (smap s (d_sh d)) = Some (d_ent d)) -> In d D ->
    find s (d_key d) = Some (d_ent d) /\ shard_of c (d_key d) = d_sh d.
  Proof.
    intros [_ Hp] F Hd. specialize (F d Hd).
    assert (Hs : shard_of c (d_key d) = d_sh d) by (apply Hp; eapply afind_Some_keys; exact F).
    split; [rewrite find_smap, Hs; exact F | exact Hs].
  Qed.

  Lemma drops_ids_NoDup s D :
    wfp s -> inv16 s ->
    (forall d, In d D -> afind (d_key d) (smap s (d_sh d)) = Some (d_ent d)) ->
    (forall j, NoDup (dkeys j D)) ->
    NoDup (map (fun d => e_id (d_ent d)) D).
  Proof.
    intros Hw [_ [B _]] F U. induction D as [|d t IH]; cbn [map]; constructor.
    - intros Hi. apply in_map_iff in Hi. destruct Hi as [d' [Hid Hd']].
      destruct (drop_find s (d :: t) d Hw F (or_introl eq_refl)) as [F1 S1].
      destruct (drop_find s (d :: t) d' Hw F (or_intror Hd')) as [F2 S2].
      assert (Hk : d_key d' = d_key d) by (eapply B; eassumption).
      specialize (U (d_sh d)). unfold dkeys in U. cbn [filter] in U. rewrite N.eqb_refl in U. cbn [map] in U.
      inversion U as [|? ? Hni _]; subst. apply Hni. rewrite <- Hk. apply in_map. apply filter_In. split; [exact Hd'|].
      apply N.eqb_eq. congruence.
    - apply IH.
      + intros d' Hd'. apply F. right. exact Hd'.
      + intros j. specialize (U j). unfold dkeys in *. cbn [filter] in U. destruct (N.eqb (d_sh d) j); [|exact U].
        cbn [map] in U. inversion U; assumption.
  Qed.

  Lemma mstep_facts s s' o D dcc :
    wfp s -> inv16 s -> mstepx P c s s' D dcc -> Forall (reason_ok o) D ->
    inv16 s' /\ (s' = fst (step P c s o) -> C16_step P c s o).
  Proof.
    intros Hw Hi [Hm [Hok _]] Hrs.
    pose proof Hm as [M [_ [Nw [E [[Hnd [kept [Hsent [Hsub [Hall Hnone]]]]] [U F]]]]]].
    destruct Hi as [A [B [C Dn]]].
    assert (Hfind : forall k, find s' k = if mem k (dkeys (shard_of c k) D) then None else find s k)
      by (intros k; apply (find_mstep P c Hn _ _ _ _ k Hm)).
    assert (Hsub' : idsub None s s').
    { intros k e' Hf. rewrite Hfind in Hf. destruct (mem k _); [discriminate|]. left. eauto. }
    assert (Hkept : forall n, In n kept -> exists d, In d D /\ n = dnote d).
    { intros n Hi. apply (subseq_incl _ _ Hsub) in Hi. apply in_map_iff in Hi. destruct Hi as [d [<- Hd]]. eauto. }
    assert (Hgone : forall d, In d D -> find s' (d_key d) = None).
    { intros d Hd. rewrite Hfind. destruct (drop_find s D d Hw F Hd) as [_ Hs].
      assert (Hm' : mem (d_key d) (dkeys (shard_of c (d_key d)) D) = true).
      { apply mem_In. apply In_dkeys. exists d. auto. }
      rewrite Hm'. reflexivity. }
    split.
    - (* each notified incarnation was resident, so it is old, was never notified, and is gone *)
      apply (inv16_next None s s' kept Hsub'); [lia | congruence | exact Hsent | | | exact (conj A (conj B (conj C Dn)))].
      + intros n Hi. destruct (Hkept n Hi) as [d [Hd ->]]. destruct (drop_find s D d Hw F Hd) as [Fd _]. cbn [dnote n_id].
        split; [apply (A _ _ Fd)|]. split.
        * intros k e' Hf Hid. destruct (Hsub' k e' Hf) as [[e [Hf0 He]]|[Hx _]]; [|discriminate].
          assert (Hk : k = d_key d) by (eapply B; [exact Hf0 | exact Fd | congruence]).
          subst k. rewrite (Hgone d Hd) in Hf. discriminate.
        * intros Hx. apply in_map_iff in Hx. destruct Hx as [n1 [Hx H1]]. destruct (C n1 H1) as [_ C2]. apply (C2 _ _ Fd). congruence.
      + eapply subseq_NoDup; [apply subseq_map; exact Hsub|]. rewrite map_map. cbn [dnote n_id].
        apply (drops_ids_NoDup s D Hw (conj A (conj B (conj C Dn))) F U).
    - (* the step statement *)
      intros ->. exists kept. split; [exact Hsent|]. split; [|split; [|exact Hnone]].
      + intros n Hi. destruct (Hkept n Hi) as [d [Hd ->]]. destruct (drop_find s D d Hw F Hd) as [Fd _].
        exists (d_ent d). cbn [dnote n_key n_id n_val n_reason]. split; [exact Fd|]. split; [reflexivity|]. split; [reflexivity|].
        split; [intros e' Hf; rewrite (Hgone d Hd) in Hf; discriminate|].
        rewrite Forall_forall in Hok, Hrs. specialize (Hrs d Hd). destruct (Hok d Hd) as [_ Hr]. unfold reason_ok in Hrs.
        destruct (d_rsn d); [split; [exact Hrs | exact Hr] | split; [exact Hrs | exact Hr] | exact Hrs].
      + intros Hl Hd k e Hf Hg Hsil.
        assert (Hin : In k (dkeys (shard_of c k) D)).
        { destruct (mem k (dkeys (shard_of c k) D)) eqn:Em; [apply mem_In; exact Em|].
          exfalso. specialize (Hfind k). rewrite Em, Hf in Hfind. apply (Hg e Hfind). reflexivity. }
        apply In_dkeys in Hin. destruct Hin as [d [Hdd [Hs Hk]]].
        destruct (drop_find s D d Hw F Hdd) as [Fd _]. rewrite Hk, Hf in Fd. inversion Fd as [He].
        exists (dnote d). rewrite (Hall Hl Hd). split; [apply in_map; exact Hdd|].
        cbn [dnote n_id n_key n_val]. rewrite <- He. auto.
  Qed.

  (** ** every operation *)
  Lemma c16_step_gen s o :
    wfp s -> inv16 s -> inv16 (fst (step P c s o)) /\ C16_step P c s o.
  Proof.
    intros Hw Hi. pose proof (step_kind P c Hn s o Hw) as Hk.
    assert (Hq : forall s', s' = fst (step P c s o) ->
                            (forall k e', find s' k = Some e' -> exists e, find s k = Some e /\ e_id e = e_id e') ->
                            st_eid P s <= st_eid P s' -> sent s' = sent s ->
                            (forall k e, find s k = Some e -> silent o k = false ->
                                         exists e', find s' k = Some e' /\ e_id e' = e_id e) ->
                            inv16 s' /\ C16_step P c s o).
    { intros s' Hs' Hsub He Hsent Hkeep. split; [apply (inv16_quiet None s s'); auto; [|congruence]; intros k e' Hf; left; auto|].
      apply (quiet_step s s' o); [split; assumption | exact Hs']. }
    remember (fst (step P c s o)) as s' eqn:Hs'. destruct Hk as [H | Hr | k e v Hf H | D dcc H Hrs _ | Ho Hc | M E S Dn C].
    - destruct (writes_inv P c Hn (fun s1 => inv16 s1 /\ sent s1 = sent s) o s s') as [_ [Hi' Hsent]]; [|exact H | exact Hw | auto|].
      { intros s0 s1 k e _ [Hi0 Hs0] Hwr _. destruct (write_facts s0 s1 k e Hwr Hi0) as [A B]. split; [exact A | congruence]. }
      split; [exact Hi'|]. apply (quiet_step s s' o); [|exact Hs']. split; [exact Hsent|].
      intros k e Hf Hsil. exists e. rewrite (writes_frame P c Hn o _ _ k H Hsil). auto.
    - apply Hq; [reflexivity | | destruct Hr as [_ [_ [_ [_ [Er _]]]]]; lia | apply Hr |].
      + intros k e' Hf. destruct (refr_back P c Hn _ s s' k e' Hr Hf) as [e [H1 H2]]. exists e. split; [exact H1|].
        symmetry. apply (upd_fields P c Hn _ _ _ _ _ H2).
      + intros k e Hf _. destruct (refr_fwd P c Hn _ s s' k e Hr Hf) as [e' [H1 H2]]. exists e'. split; [exact H1|].
        apply (upd_fields P c Hn _ _ _ _ _ H2).
    - assert (Hfs : forall k', find s' k' = if N.eqb k' k then Some (with_val e v) else find s k').
      { intros k'. rewrite (find_ueff_aset P c Hn _ _ _ _ _ _ k' H), Hf. reflexivity. }
      apply Hq; [reflexivity | | destruct H as [_ [_ [_ [Ee _]]]]; lia | apply H |].
      + intros k' e2 Hf2. rewrite Hfs in Hf2. destruct (N.eqb_spec k' k) as [->|]; [|eauto].
        inversion Hf2; subst. eauto.
      + intros k' e0 Hf0 _. rewrite Hfs. destruct (N.eqb_spec k' k) as [->|]; [|eauto].
        rewrite Hf in Hf0. inversion Hf0; subst. eauto.
    - destruct (mstep_facts s s' o D dcc Hw Hi H Hrs) as [A B]. split; [exact A | apply B; exact Hs'].
    - subst o. destruct (do_clear_spec P c Hn s) as [_ [_ [_ [Ee [Se _]]]]].
      apply Hq; [reflexivity | | rewrite Hc, Ee; lia | rewrite Hc; exact Se |].
      + intros k e' Hf. rewrite Hc, (do_clear_find P c Hn) in Hf. discriminate.
      + intros k e _ Hs0. discriminate.
    - assert (Hfs : forall k, find s' k = find s k) by (intros k; apply (find_same P c Hn); exact M).
      apply Hq; [reflexivity | | lia | exact S |].
      + intros k e' Hf. rewrite Hfs in Hf. eauto.
      + intros k e Hf _. rewrite Hfs. eauto.
  Qed.

  Lemma init_inv16 now0 : inv16 (init P now0).
  Proof.
    split; [|split; [|split]].
    - intros k e Hf. discriminate.
    - intros k1 e1 k2 e2 Hf. discriminate.
    - intros n [].
    - constructor.
  Qed.

  Lemma run_inv16 ops : forall s, wfp s -> inv16 s -> inv16 (fst (run P c s ops)).
  Proof.
    induction ops as [|o t IH]; intros s Hw Hi; cbn [run fst]; [exact Hi|].
    pose proof (step_wfp P c Hn s o Hw) as Hw1. pose proof (proj1 (c16_step_gen s o Hw Hi)) as Hi1.
    destruct (step P c s o) as [s1 x]. cbn [fst] in *.
    specialize (IH s1 Hw1 Hi1). destruct (run P c s1 t) as [s2 xs]. exact IH.
  Qed.

  Theorem c16_reachable s : reachable P c s -> wfp s /\ inv16 s.
  Proof.
    intros [now0 [ops ->]]. split; [apply run_wfp, init_wfp; exact Hn|].
    apply run_inv16; [apply init_wfp; exact Hn | apply init_inv16].
  Qed.
End C16.
