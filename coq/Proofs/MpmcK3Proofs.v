(* Proofs/MpmcK3Proofs.v — Inv1 = InvL /\ InvQ /\ InvA /\ InvR1 /\ InvR2 holds in every reachable
   state (every capacity, thread count, program and schedule: Conc.invariant_lift), and what follows:
   capacity (C03), FIFO and per-producer order (C02), conservation / exactly once / failed
   operations have no effect (C01). *)
From Coq Require Import List NArith Arith Bool Lia Sorted Permutation.
From Fibre Require Import Common.Conc Chan.MpmcK3 Proofs.MpmcK3Base Proofs.MpmcK3Queue Proofs.MpmcK3Res.
Import ListNotations.

Definition Inv1 (cap : nat) (s : st) : Prop := InvL s /\ InvQ cap s /\ InvA s /\ InvR1 s /\ InvR2 s.

Lemma init_pcs th u : pcs (init th) u = Idle \/ pcs (init th) u = Done.
Proof. cbn [init pcs]. destruct (Nat.ltb u (length th)); auto. Qed.

Lemma Inv1_init cap th : Inv1 cap (init th).
Proof.
  split; [apply InvL_init|]. split; [|split; [|split]].
  - constructor; cbn [init qlen q popped accepted pcs length map app]; try reflexivity; try lia.
    intros u. destruct (init_pcs th u) as [E|E]; cbn [init pcs] in E; rewrite E; exact I.
  - constructor; cbn [init accepted pcs pseq]; try (intros; contradiction).
    + intros p U X. exact X.
    + constructor.
    + intros p. constructor.
  - constructor; cbn [init results]; intros; contradiction.
  - constructor; intros p; unfold sent_ok, got; cbn [init results accepted popped of_thread filter map flat_map from_prod app].
    + destruct (init_pcs th p) as [E|E]; rewrite E; reflexivity.
    + destruct (init_pcs th p) as [E|E]; rewrite E; reflexivity.
Qed.

Lemma Inv1_step cap cf s t c s' e : Inv1 cap s -> step cap cf s t c = Some (s', e) -> Inv1 cap s'.
Proof.
  intros (HL & HQ & HA & HR1 & HR2) H. apply step_inv in H. split; [|split; [|split; [|split]]].
  - eapply InvL_step; eassumption.
  - eapply InvQ_step; eassumption.
  - eapply InvA_step; eassumption.
  - eapply InvR1_step; eassumption.
  - eapply InvR2_step; eassumption.
Qed.

Lemma Inv1_reachable cap cf th s : reachable (sys cap cf th) s -> Inv1 cap s.
Proof.
  apply (invariant_lift (sys cap cf th) (Inv1 cap)).
  - apply Inv1_init.
  - intros s0 t c s' e. apply Inv1_step.
Qed.

(* ------------------------------------------------------------------ subsequences *)
Inductive subl {A} : list A -> list A -> Prop :=
| subl_nil : subl [] []
| subl_skip x l1 l2 : subl l1 l2 -> subl l1 (x :: l2)
| subl_keep x l1 l2 : subl l1 l2 -> subl (x :: l1) (x :: l2).

Lemma subl_refl A (l : list A) : subl l l.
Proof. induction l; constructor; assumption. Qed.
Lemma subl_filter A (f : A -> bool) l : subl (filter f l) l.
Proof. induction l as [|a l IH]; cbn; [constructor|]. destruct (f a); constructor; exact IH. Qed.
Lemma subl_map A B (f : A -> B) a b : subl a b -> subl (map f a) (map f b).
Proof. induction 1; cbn; constructor; assumption. Qed.
Lemma subl_filter_mono A (f : A -> bool) a b : subl a b -> subl (filter f a) (filter f b).
Proof.
  induction 1; cbn; [constructor| |]; destruct (f x); try constructor; assumption.
Qed.
Lemma subl_app_l A (a b : list A) : subl a (a ++ b).
Proof.
  induction a as [|x a IH]; cbn.
  - induction b; constructor; assumption.
  - apply subl_keep. exact IH.
Qed.
Lemma subl_trans A (a b c : list A) : subl a b -> subl b c -> subl a c.
Proof.
  intros H1 H2. revert a H1. induction H2; intros a H1.
  - exact H1.
  - constructor. apply IHsubl. exact H1.
  - inversion H1; subst.
    + apply subl_skip. apply IHsubl. assumption.
    + apply subl_keep. apply IHsubl. assumption.
Qed.
Lemma subl_In A (a b : list A) x : subl a b -> In x a -> In x b.
Proof. induction 1; cbn; intros H1; auto. destruct H1; auto. Qed.
Lemma subl_sorted A (R : A -> A -> Prop) a b : subl a b -> StronglySorted R b -> StronglySorted R a.
Proof.
  induction 1; intros Hs.
  - constructor.
  - inversion Hs; subst. apply IHsubl. assumption.
  - inversion Hs; subst. constructor; [apply IHsubl; assumption|].
    rewrite Forall_forall in *. intros y Hy. apply H3. eapply subl_In; eassumption.
Qed.
Lemma subl_NoDup A (a b : list A) : subl a b -> NoDup b -> NoDup a.
Proof.
  induction 1; intros Hn.
  - constructor.
  - inversion Hn; subst. auto.
  - inversion Hn; subst. constructor; [|auto]. intros X. apply H2. eapply subl_In; eassumption.
Qed.

Section Theorems.
  Variables (cap : nat) (cf : cfg) (th : list tprog) (s : st).
  Hypothesis Hr : reachable (sys cap cf th) s.

  Let HI := Inv1_reachable cap cf th s Hr.

  (* ---- C03 *)
  Theorem occupancy : qlen s = length (q s) /\ length (q s) <= cap.
  Proof. destruct HI as (_ & HQ & _). split; [apply (Q_len _ _ HQ)|apply (Q_cap _ _ HQ)]. Qed.

  (* try_send / send_sync see Full only when the ring holds exactly `cap` values in that section *)
  Theorem full_is_exact : forall u k, pcs s u = SUnlock k SFull -> lk s = Some u /\ length (q s) = cap.
  Proof.
    intros u k X. destruct HI as (HL & HQ & _). split.
    - apply (proj1 HL). rewrite X. reflexivity.
    - rewrite <- (Q_len _ _ HQ). pose proof (Q_pc _ _ HQ u) as Y. rewrite X in Y. exact Y.
  Qed.

  (* ---- C02 *)
  Theorem fifo : map snd (popped s) ++ q s = accepted s.
  Proof. destruct HI as (_ & HQ & _). apply (Q_fifo _ _ HQ). Qed.

  Theorem producer_order : forall p, StronglySorted lt (map snd (from_prod p (accepted s))).
  Proof. destruct HI as (_ & _ & HA & _). apply (A_sorted _ HA). Qed.

  Lemma popped_by_sub c : subl (of_thread c (popped s)) (accepted s).
  Proof.
    rewrite <- fifo. eapply subl_trans; [|apply subl_app_l].
    unfold of_thread. apply subl_map. apply subl_filter.
  Qed.

  (* every consumer sees the values of one producer in the order that producer sent them *)
  Theorem consumer_order : forall c p, StronglySorted lt (map snd (from_prod p (of_thread c (popped s)))).
  Proof.
    intros c p. eapply subl_sorted; [|apply (producer_order p)].
    apply subl_map. unfold from_prod. apply subl_filter_mono. apply popped_by_sub.
  Qed.

  (* ---- C01 *)
  Theorem accepted_nodup : NoDup (accepted s).
  Proof. destruct HI as (_ & _ & HA & _). apply (A_nodup _ HA). Qed.

  (* exactly once: no id is popped twice (by the same or by different consumers), and no popped id
     is still in the ring *)
  Theorem popped_once : NoDup (map snd (popped s) ++ q s).
  Proof. rewrite fifo. apply accepted_nodup. Qed.

  (* what a consumer's calls returned (+ the value it holds between the pop and the return) is
     exactly what it popped *)
  Theorem consumer_account : forall c, of_thread c (popped s) = got s c ++ in_hand (pcs s c).
  Proof. destruct HI as (_ & _ & _ & _ & HR). apply (R_got _ HR). Qed.

  (* a producer's accepted ids are exactly its Ok results (+ the one whose call has not returned) *)
  Theorem producer_account :
    forall p, from_prod p (accepted s) = sent_ok s p ++ (if in_flight (pcs s p) then [(p, pseq s p)] else []).
  Proof. destruct HI as (_ & _ & _ & _ & HR). apply (R_sent _ HR). Qed.

  Theorem got_nodup : forall c, NoDup (got s c).
  Proof.
    intros c. assert (H : NoDup (of_thread c (popped s))).
    { eapply subl_NoDup; [apply popped_by_sub|apply accepted_nodup]. }
    rewrite consumer_account in H. clear - H. induction (got s c) as [|a l IH]; [constructor|].
    cbn in H. inversion H; subst. constructor; [|auto]. intros X. apply H2. apply in_app_iff. left. exact X.
  Qed.

  (* every value a consumer returned was accepted (pushed by a producer whose step said so) *)
  Theorem got_accepted : forall c v, In v (got s c) -> In v (accepted s).
  Proof.
    intros c v H. eapply subl_In; [apply (popped_by_sub c)|]. rewrite consumer_account. apply in_app_iff. left. exact H.
  Qed.

  (* failed operations have no effect: an id handed back (Full / Closed) or refused (send Err) never
     entered the ring, hence is never received *)
  Theorem failed_no_effect : forall p r v, In (p, r) (results s) -> In v (res_failed r) -> ~ In v (accepted s).
  Proof. destruct HI as (_ & _ & _ & HR & _). apply (R_failed _ HR). Qed.

  Theorem failed_never_received : forall p r v c, In (p, r) (results s) -> In v (res_failed r) -> ~ In v (got s c).
  Proof. intros p r v c H1 H2 X. eapply failed_no_effect; try eassumption. eapply got_accepted; eassumption. Qed.
End Theorems.
