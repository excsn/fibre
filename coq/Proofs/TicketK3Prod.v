(* Proofs/TicketK3Prod.v — SInv is preserved by the state changes of the producer steps. *)
From Fibre Require Import Common.Base Common.Conc Chan.TicketK3 Proofs.TicketK3Base.
From Coq Require Import ZifyBool ZifyNat ZifyN Arith.

Lemma dataof_tk_other tkf pcf sq tak hp t0 x t :
  t <> t0 -> dataof (updN tkf t0 x) pcf sq tak hp t = dataof tkf pcf sq tak hp t.
Proof. intros H. unfold dataof. rewrite updN_neq by exact H. reflexivity. Qed.

Lemma code_nonzero x : code x <> sEMPTY -> x = TSkip \/ exists v, x = TSet v.
Proof. destruct x; cbn; intros H; try (exfalso; apply H; reflexivity); eauto. Qed.

Section Prod.
Variables cap cc n : N.
Hypothesis Hcc : 0 < cc.
Hypothesis Hn : 0 < n.

(* ------------------------------------------------------------ S3 / C3: g_tail.fetch_add(m) *)
Lemma SInv_claim s u m p :
  SInv cap cc n s -> (forall t, ~ owns (ppc s u) t) -> wval_of (ppc s u) = None ->
  0 < m -> own_lo p = gtail s -> own_hi p = gtail s + m -> wval_of p = None ->
  PInv cap cc n (hpos s) (retired s) (ids s) p ->
  SInv cap cc n (set_ppc_at (set_tk (set_gtail s (gtail s + m)) (claim (tk s) (gtail s) m u)) u p).
Proof.
  intros I Hno Hw0 Hm Hlo Hhi Hw Hp. pose proof I as [A1 A2 A3 A4 A5 A6 B1 B2 B3 P D T Es Ed R C Bd].
  set (g := gtail s) in *.
  assert (Hg : forall t, g <= t -> tk s t = TFree) by (intros t L; apply B1; exact L).
  unfold set_ppc_at. constructor; st_goal; try assumption.
  - lia.
  - intros t. destruct (claim_cases (tk s) g m u t) as [[L ->]|[L ->]]; [split; [discriminate | lia]|].
    rewrite B1. fold g. lia.
  - intros t L. rewrite claim_out by lia. apply B2. exact L.
  - intros t th. destruct (claim_cases (tk s) g m u t) as [[L ->]|[L ->]]; destruct (Nat.eqb_spec th u) as [->|Hth];
      rewrite ?updn_eq, ?updn_neq by exact Hth; unfold owns; rewrite ?Hlo, ?Hhi.
    + split; [lia | reflexivity].
    + rewrite <- (B3 t th), (Hg t) by lia. split; [intros X; inversion X; congruence | discriminate].
    + rewrite B3. split; [intros X; destruct (Hno _ X) | lia].
    + apply B3.
  - apply updn_all; assumption.
  - intros t v. destruct (claim_cases (tk s) g m u t) as [[L ->]|[L ->]]; [discriminate | apply D].
  - (* a claimed ticket was free: its slot is EMPTY / empty before and after *)
    eapply cells_ext; [exact Es|]. intros t _. cbv beta.
    destruct (claim_cases (tk s) g m u t) as [[L ->]|[L ->]]; [rewrite (Hg t) by lia|]; reflexivity.
  - eapply cells_ext; [exact Ed|]. intros t _.
    rewrite (dataof_updn _ _ (pseq s) (pseq s)); try (intros; reflexivity); [|rewrite Hw, Hw0; reflexivity].
    unfold dataof. destruct (claim_cases (tk s) g m u t) as [[L ->]|[L ->]]; [rewrite (Hg t), Hw0 by lia|]; reflexivity.
  - intros t L. destruct (claim_cases (tk s) g m u t) as [[L1 ->]|[L1 ->]]; [|apply R; exact L].
    intros Hc. exfalso. apply Hc. reflexivity.
Qed.

(* ------------------------------------------------------------ E3: id.compare_exchange(cur, cid) succeeds *)
Lemma SInv_install s u k r cur p :
  SInv cap cc n s -> ppc s u = PE3 k r cur -> ids s (ent n (cid_of cc (rcur r))) = cur ->
  p = (if rset r then PW0 k r else PW1 k r) ->
  SInv cap cc n (set_ppc_at (set_ids s (updN (ids s) (ent n (cid_of cc (rcur r))) (cid_of cc (rcur r)))) u p).
Proof.
  intros I Epc Hcur Hp. pose proof I as [A1 A2 A3 A4 A5 A6 B1 B2 B3 P D T Es Ed R C Bd].
  set (t := rcur r) in *. set (c := cid_of cc t) in *. set (j := ent n c) in *.
  assert (Hj : j < n) by apply (ent_lt cc n Hcc Hn).
  pose proof (P u) as Pu. rewrite Epc in Pu. cbn [PInv] in Pu. destruct Pu as [[Pw [Pv [Pc Pb]]] Pcas].
  assert (Ht : tk s t = TOwn u).
  { apply B3. rewrite Epc. unfold owns. cbn [own_lo own_hi]. unfold t, rcur. lia. }
  pose proof (own_ge cap cc n s _ _ I Ht) as Hge.
  assert (Hc : hcid s <= c) by (apply (geo_ge cc Hcc _ (hidx s)); lia).
  assert (Hlt : cur < hcid s) by lia.
  (* no other resident-needing ticket lives in entry j *)
  assert (Hfree : forall t', hpos s <= t' -> ent n (cid_of cc t') = j -> ids s (ent n (cid_of cc t')) = cid_of cc t' -> False).
  { intros t' L Ej Er. rewrite Ej, Hcur in Er. pose proof (geo_ge cc Hcc (hcid s) (hidx s) t') as G. unfold cid_of in Er. lia. }
  assert (Hwp : wval_of p = None).
  { subst p. destruct (rset r) eqn:X; cbn [wval_of]; [reflexivity | rewrite X; reflexivity]. }
  (* the old chunk of entry j is drained, and no slot of the new one is written yet *)
  assert (Hold : forall i, i < cc -> ids s j * cc + i < hpos s).
  { intros i Hi. fold c in Hcur. rewrite Hcur, A1. apply geo_lt; assumption. }
  assert (Hcid : forall i, i < cc -> cid_of cc (c * cc + i) = c) by (intros i Hi; apply geo_div; assumption).
  assert (Hz : forall i, i < cc -> hpos s <= c * cc + i -> code (tk s (c * cc + i)) = sEMPTY).
  { intros i Hi G. destruct (N.eq_dec (code (tk s (c * cc + i))) sEMPTY) as [Z|Z]; [exact Z|].
    exfalso. apply (Hfree (c * cc + i) G); rewrite (Hcid i Hi); [reflexivity | fold j].
    pose proof (R _ G Z) as Rr. rewrite (Hcid i Hi) in Rr. exact Rr. }
  unfold set_ppc_at. constructor; st_goal; try assumption.
  - intros t' th. destruct (Nat.eqb_spec th u) as [->|Hth].
    + rewrite updn_eq. rewrite B3, Epc. subst p. unfold owns. destruct (rset r); reflexivity.
    + rewrite updn_neq by exact Hth. apply B3.
  - apply updn_all.
    + subst p. destruct (rset r) eqn:Ers; cbn [PInv]; unfold RInv, resident; fold t; fold c; fold j;
        rewrite updN_eq; repeat split; auto.
      unfold rset in Ers. apply N.ltb_lt in Ers. exact Ers.
    + intros th. apply (PInv_ids cap cc n _ _ (ids s)); [|apply P].
      intros t0 Ho Hr0. unfold resident in *.
      destruct (N.eqb_spec (ent n (cid_of cc t0)) j) as [Ej|Ej]; [|rewrite updN_neq by exact Ej; exact Hr0].
      exfalso. apply (Hfree t0); try assumption. apply (own_ge _ _ _ _ _ th I). apply B3. exact Ho.
  - intros j' Hj'. unfold updN. destruct (N.eqb_spec j' j) as [->|]; [reflexivity | apply T; exact Hj'].
  - apply (cells_install cc n Hcc Hn); assumption.
  - eapply cells_ext; [apply (cells_install cc n Hcc Hn); [exact Ed | exact Hj | exact Hold |]|].
    2: { intros t0 _. apply (dataof_updn _ _ (pseq s) (pseq s)); try (intros; reflexivity). rewrite Epc, Hwp. reflexivity. }
    intros i Hi G. pose proof (Hz i Hi G) as Z. unfold dataof.
    destruct (tk s (c * cc + i)) as [|th|v|] eqn:Etk; try reflexivity; [|discriminate Z].
    destruct (wval_of (ppc s th)) as [[t0 i0]|] eqn:Ew; [|reflexivity].
    destruct (N.eqb_spec (c * cc + i) t0) as [Et0|]; [|reflexivity].
    exfalso. apply (Hfree (c * cc + i) G); rewrite (Hcid i Hi); [reflexivity | fold j].
    specialize (P th). destruct (ppc s th); try discriminate Ew.
    cbn [wval_of] in Ew. destruct (rset r0); [|discriminate Ew]. injection Ew as Ew1 Ew2.
    cbn [PInv] in P. destruct P as [_ P]. unfold resident in P. rewrite Ew1, <- Et0, (Hcid i Hi) in P. exact P.
  - intros t' L Hz'. destruct (N.eqb_spec (ent n (cid_of cc t')) j) as [Ej|Ej]; [|rewrite updN_neq by exact Ej; apply R; assumption].
    exfalso. apply (Hfree t' L Ej). apply R; assumption.
  - assert (Hh : ids s (ent n (hcid s)) = hcid s -> updN (ids s) j c (ent n (hcid s)) = hcid s).
    { intros X. destruct (N.eqb_spec (ent n (hcid s)) j) as [Ej|Ej]; [|rewrite updN_neq by exact Ej; exact X].
      exfalso. rewrite Ej, Hcur in X. lia. }
    destruct (cpc s); cbn [CInv] in *; try exact Logic.I;
      try match goal with b : bool |- _ => destruct b end; intuition.
Qed.

(* ------------------------------------------------------------ W0: the payload write *)
Lemma SInv_wdata s u k r :
  SInv cap cc n s -> ppc s u = PW0 k r ->
  sdata s (slot_of cc n (rcur r)) = None /\
  SInv cap cc n (set_ppc_at (set_sdata s (updN (sdata s) (slot_of cc n (rcur r)) (Some (itemval s u (kitem k + rw r))))) u (PW1 k r)).
Proof.
  intros I Epc. pose proof I as [A1 A2 A3 A4 A5 A6 B1 B2 B3 P D T Es Ed R C Bd].
  set (t := rcur r) in *.
  pose proof (P u) as Pu. rewrite Epc in Pu. cbn [PInv] in Pu. destruct Pu as [[Pw [Pv [Pc Pb]]] [Pset Pres]].
  fold t in Pres.
  assert (Ht : tk s t = TOwn u).
  { apply B3. rewrite Epc. unfold owns. cbn [own_lo own_hi]. unfold t, rcur. lia. }
  pose proof (own_ge cap cc n s _ _ I Ht) as Hge.
  destruct (own_slot cap cc n Hcc Hn s u t I Ht Pres) as [Hst Hsd]. rewrite Epc in Hsd. cbn [wval_of] in Hsd.
  split; [exact Hsd|].
  assert (Hrs : rset r = true) by (unfold rset; apply N.ltb_lt; exact Pset).
  unfold set_ppc_at. constructor; st_goal; try assumption.
  - intros t' th. destruct (Nat.eqb_spec th u) as [->|Hth].
    + rewrite updn_eq. rewrite B3, Epc. reflexivity.
    + rewrite updn_neq by exact Hth. apply B3.
  - apply updn_all; [|exact P]. cbn [PInv]. unfold RInv, resident. fold t. repeat split; assumption.
  - apply (cells_change cc n Hcc Hn _ _ _ T _ _ _ _ t Ed Hge Pres).
    + rewrite updN_eq. unfold dataof. rewrite Ht, updn_eq. cbn [wval_of]. rewrite Hrs. fold t.
      rewrite N.eqb_refl. reflexivity.
    + intros q Hq. apply updN_neq. exact Hq.
    + intros t' Hne. apply dataof_updn_other with t; [| rewrite Epc; discriminate | exact Hne].
      cbn [wval_of]. rewrite Hrs. intros a i [= <- _]. reflexivity.
Qed.

(* ------------------------------------------------------------ W1: state.store(SET | SKIP) *)
Lemma SInv_publish s u k r p' :
  SInv cap cc n s -> ppc s u = PW1 k r ->
  (forall t, owns p' t <-> rcur r < t < rt r + rm r) -> wval_of p' = None ->
  PInv cap cc n (hpos s) (retired s) (ids s) p' ->
  sstate s (slot_of cc n (rcur r)) = sEMPTY /\
  SInv cap cc n (set_ppc_at (set_tk (set_sstate s (updN (sstate s) (slot_of cc n (rcur r)) (if rset r then sSET else sSKIP)))
                                    (updN (tk s) (rcur r) (if rset r then TSet (itemval s u (kitem k + rw r)) else TSkip))) u p').
Proof.
  intros I Epc Hown Hwp Hp'. pose proof I as [A1 A2 A3 A4 A5 A6 B1 B2 B3 P D T Es Ed R C Bd].
  set (t := rcur r) in *.
  pose proof (P u) as Pu. rewrite Epc in Pu. cbn [PInv] in Pu. destruct Pu as [[Pw [Pv [Pc Pb]]] Pres].
  fold t in Pres.
  assert (Ht : tk s t = TOwn u).
  { apply B3. rewrite Epc. unfold owns. cbn [own_lo own_hi]. unfold t, rcur. lia. }
  pose proof (own_ge cap cc n s _ _ I Ht) as Hge.
  destruct (own_slot cap cc n Hcc Hn s u t I Ht Pres) as [Hst Hsd]. rewrite Epc in Hsd. cbn [wval_of] in Hsd. fold t in Hsd.
  split; [exact Hst|].
  set (x' := if rset r then TSet (itemval s u (kitem k + rw r)) else TSkip).
  assert (Hx' : code x' = (if rset r then sSET else sSKIP)) by (subst x'; destruct (rset r); reflexivity).
  assert (Hnf : forall th, x' <> TOwn th) by (subst x'; destruct (rset r); discriminate).
  unfold set_ppc_at. constructor; st_goal; try assumption.
  - intros t'. destruct (N.eqb_spec t' t) as [->|Hne].
    + rewrite updN_eq. split; [subst x'; destruct (rset r); discriminate|].
      intros L. apply B1 in L. congruence.
    + rewrite updN_neq by exact Hne. apply B1.
  - intros t' L. rewrite updN_neq by lia. apply B2. exact L.
  - intros t' th. destruct (Nat.eqb_spec th u) as [->|Hth].
    + rewrite updn_eq. rewrite Hown. destruct (N.eqb_spec t' t) as [->|Hne].
      * rewrite updN_eq. split; [intros X; destruct (Hnf _ X) | unfold t; lia].
      * rewrite updN_neq by exact Hne. rewrite B3, Epc. unfold owns. cbn [own_lo own_hi]. fold (rcur r). fold t. lia.
    + rewrite updn_neq by exact Hth. destruct (N.eqb_spec t' t) as [->|Hne].
      * rewrite updN_eq. rewrite <- B3, Ht. split; [intros X; destruct (Hnf _ X) | congruence].
      * rewrite updN_neq by exact Hne. apply B3.
  - apply updn_all; assumption.
  - intros t' v. destruct (N.eqb_spec t' t) as [->|Hne].
    + rewrite updN_eq. intros X _. subst x'. destruct (rset r) eqn:Ers; [|discriminate X].
      unfold rset in Ers. apply N.ltb_lt in Ers. unfold t, rcur. lia.
    + rewrite updN_neq by exact Hne. apply D.
  - apply (cells_change cc n Hcc Hn _ _ _ T _ _ _ _ t Es Hge Pres).
    + rewrite !updN_eq. symmetry. exact Hx'.
    + intros q Hq. apply updN_neq. exact Hq.
    + intros t' Hne. cbv beta. rewrite updN_neq by exact Hne. reflexivity.
  - (* the consumer has not taken the payload of t: t is not a SET ticket yet *)
    assert (Hnt : taken (cpc s) && N.eqb t (hpos s) = false).
    { destruct (taken (cpc s)) eqn:Etk; [|reflexivity]. destruct (taken_set cap cc n Hcc Hn s I Etk) as [v Hv].
      destruct (N.eqb_spec t (hpos s)) as [Eh|]; [|reflexivity]. rewrite <- Eh in Hv. congruence. }
    apply (cells_change cc n Hcc Hn _ _ _ T _ _ _ _ t Ed Hge Pres).
    + rewrite Hsd. unfold dataof. rewrite updN_eq. subst x'. unfold itemval.
      destruct (rset r); [rewrite Hnt, N.eqb_refl|]; reflexivity.
    + reflexivity.
    + intros t' Hne. rewrite (dataof_tk_other _ _ _ _ _ _ _ _ Hne).
      apply dataof_updn_other with t; [rewrite Hwp; discriminate | | exact Hne].
      rewrite Epc. cbn [wval_of]. destruct (rset r); [intros a i [= <- _]; reflexivity | discriminate].
  - intros t' L. destruct (N.eqb_spec t' t) as [->|Hne]; [intros _; exact Pres|].
    rewrite updN_neq by exact Hne. apply R. exact L.
  - (* the consumer has read SET or SKIP at the cursor, the slot of t is EMPTY: another slot *)
    assert (Hh : forall q, sstate s q <> sEMPTY ->
                 updN (sstate s) (slot_of cc n t) (if rset r then sSET else sSKIP) q = sstate s q).
    { intros q Hq. apply updN_neq. intros ->. exact (Hq Hst). }
    destruct (cpc s); cbn [CInv] in *; try exact C; [|destruct set];
      (rewrite Hh; [exact C | destruct C as [_ [_ ->]]; discriminate]).
Qed.

(* the next ticket of a run stays resident unless it starts a new chunk *)
Lemma resident_succ idf t :
  N.eqb (idx_of cc (t + 1)) 0 = false -> resident cc n idf t -> resident cc n idf (t + 1).
Proof.
  intros H R. unfold resident, cid_of, idx_of in *. apply N.eqb_neq in H.
  rewrite (geo_succ cc Hcc t H). exact R.
Qed.

End Prod.
