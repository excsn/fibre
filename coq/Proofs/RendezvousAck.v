(* Proofs/RendezvousAck.v — acknowledged sends are delivered (C01/C06), except finding F-31:
   a receive future that was handed a value and is dropped before it is polled destroys the value. *)
From Fibre Require Import Common.Base Chan.Rendezvous Proofs.RendezvousBase Proofs.RendezvousWF
     Proofs.RendezvousProofs.

Definition in_dest (F : list (N * fut)) (v : N) : Prop :=
  exists f r, aget f F = Some r /\ f_side r = Rx /\ f_cell r = Some v.

(* v reached the receiving side: returned to a receiver, or sitting in the dest of a live receive
   future, or destroyed inside a dropped receive future (F-31) *)
Definition delivered (F : list (N * fut)) (E : list ev) (v : N) : Prop :=
  In (ERecv v) E \/ in_dest F v \/ In (EDropDest v) E.

(* The second clause is what makes the first inductive.  A parked sender is acknowledged only at its
   next poll ([T_unreg_ack]), long after the handoff; in between, the fact that its value was
   delivered has to be carried by the future itself: emptied slot or state DONE. *)
Definition AK (F : list (N * fut)) (E : list ev) : Prop :=
  (forall v, In (EAck v) E -> delivered F E v) /\
  (forall f r, aget f F = Some r -> f_side r = Tx -> (f_cell r = None \/ f_st r = DONE) ->
               delivered F E (f_val r)).

(** in_dest under the transformers *)
Lemma in_dest_aupd_keep k g F v :
  (forall r, f_side r = Rx -> f_side (g r) = Rx /\ f_cell (g r) = f_cell r) ->
  in_dest F v -> in_dest (aupd k g F) v.
Proof.
  intros Hg [f [r [Hf [Hs Hc]]]]. deq k f.
  - exists f, (g r). rewrite aget_aupd_eq, Hf. destruct (Hg r Hs) as [A B].
    split; [reflexivity|]. split; [exact A|congruence].
  - exists f, r. rewrite aget_aupd_neq by assumption. auto.
Qed.

Lemma in_dest_disc_all q F v : in_dest F v -> in_dest (disc_all q F) v.
Proof.
  intros [f [r [Hf [Hs Hc]]]]. unfold in_dest. destruct (qhas f q) eqn:Hq.
  - exists f, (fut_disc r). rewrite aget_disc_all, Hq, Hf. split; [reflexivity|]. split; [exact Hs|exact Hc].
  - exists f, r. rewrite aget_disc_all, Hq. auto.
Qed.

Lemma delivered_mono F F' E e v :
  (in_dest F v -> in_dest F' v \/ In (ERecv v) e \/ In (EDropDest v) e) ->
  delivered F E v -> delivered F' (E ++ e) v.
Proof.
  unfold delivered. rewrite !in_app_iff. intros Hd [H|[H|H]]; [tauto| |tauto].
  destruct (Hd H) as [X|[X|X]]; tauto.
Qed.

(* the general preservation step: what was delivered stays delivered, what this step acknowledges
   is delivered, and a send future that now counts as completed either did so before or has its
   value delivered *)
Lemma AK_step F F' E e :
  AK F E ->
  (forall v, in_dest F v -> in_dest F' v \/ In (ERecv v) e \/ In (EDropDest v) e) ->
  (forall v, In (EAck v) e -> delivered F' (E ++ e) v) ->
  (forall f r', aget f F' = Some r' -> f_side r' = Tx -> (f_cell r' = None \/ f_st r' = DONE) ->
     (exists r, aget f F = Some r /\ f_side r = Tx /\ (f_cell r = None \/ f_st r = DONE) /\ f_val r = f_val r')
     \/ delivered F' (E ++ e) (f_val r')) ->
  AK F' (E ++ e).
Proof.
  intros [A B] Hd Ha Hf. split.
  - intros v Hi. apply in_app_iff in Hi. destruct Hi as [Hi|Hi]; [|exact (Ha v Hi)].
    exact (delivered_mono _ _ _ _ _ (Hd v) (A v Hi)).
  - intros f r' Hg Hs Hp. destruct (Hf f r' Hg Hs Hp) as [[r [Hg0 [Hs0 [Hp0 Hv]]]]|D]; [|exact D].
    rewrite <- Hv. exact (delivered_mono _ _ _ _ _ (Hd _) (B f r Hg0 Hs0 Hp0)).
Qed.

Ltac noack := let v := fresh in let X := fresh in intros v X; exfalso; cbn in X; intuition discriminate.

Lemma no_ack_wakes q v : ~ In (EAck v) (wakes_of q).
Proof. induction q as [|p t IH]; cbn; [tauto|]. intros [X|X]; [discriminate|exact (IH X)]. Qed.

Lemma AK_same F E e : AK F E -> (forall v, ~ In (EAck v) e) -> AK F (E ++ e).
Proof.
  intros A Hn. apply (AK_step F); auto; [intros v X; destruct (Hn v X)|].
  intros f r' Hg Hs Hp. left. exists r'. auto.
Qed.

(* one record changes: a dest is kept or its value returned, a completed send was completed before
   or its value is delivered now *)
Lemma AK_aupd F E k g rk e :
  AK F E -> aget k F = Some rk -> f_side (g rk) = f_side rk -> f_val (g rk) = f_val rk ->
  (forall v, f_side rk = Rx -> f_cell rk = Some v -> f_cell (g rk) = Some v \/ In (ERecv v) e) ->
  (forall v, In (EAck v) e -> delivered (aupd k g F) (E ++ e) v) ->
  (f_side rk = Tx -> f_cell (g rk) = None \/ f_st (g rk) = DONE ->
     (f_cell rk = None \/ f_st rk = DONE) \/ delivered (aupd k g F) (E ++ e) (f_val rk)) ->
  AK (aupd k g F) (E ++ e).
Proof.
  intros A Hk Hsd Hv Hd Ha Ht. apply (AK_step F); auto.
  - intros v [f [r [Hf [Hs Hc]]]]. deq k f.
    + rewrite Hk in Hf. inversion Hf; subst r. destruct (Hd v Hs Hc) as [X|X]; [left|tauto].
      exists f, (g rk). rewrite aget_aupd_eq, Hk. repeat split; congruence.
    + left. exists f, r. rewrite aget_aupd_neq by assumption. auto.
  - intros f r' Hf Hs Hp. rewrite aget_aupd in Hf. deq k f; [|left; exists r'; auto].
    rewrite Hk in Hf. inversion Hf; subst r'. rewrite Hsd in Hs. rewrite Hv.
    destruct (Ht Hs Hp) as [X|X]; [left; exists rk; auto|right; exact X].
Qed.

Lemma in_dest_fill g F rg v :
  aget g F = Some rg -> f_side rg = Rx -> in_dest (aupd g (fut_done (Some v)) F) v.
Proof.
  intros Hg Hs. exists g, (fut_done (Some v) rg). rewrite aget_aupd_eq, Hg.
  split; [reflexivity|]. split; [exact Hs|reflexivity].
Qed.

Lemma AK_disc_all F E q : AK F E -> AK (disc_all q F) (E ++ wakes_of q).
Proof.
  intros A. apply (AK_step F); auto.
  - intros v X. left. apply in_dest_disc_all. exact X.
  - intros v X. destruct (no_ack_wakes _ _ X).
  - intros f r' Hg Hs Hp. left. rewrite aget_disc_all in Hg. destruct (qhas f q); [|exists r'; auto].
    destruct (aget f F) as [r|] eqn:Hg0; [|discriminate]. inversion Hg; subst r'.
    exists r. cbn in *. repeat split; auto. destruct Hp as [Hp|Hp]; [left; exact Hp|discriminate].
Qed.

Lemma AK_app F E f rf e :
  AK F E -> aget f F = None -> f_cell rf <> None \/ f_side rf = Rx -> f_st rf = WAITING ->
  (forall v, ~ In (EAck v) e) -> AK (F ++ [(f, rf)]) (E ++ e).
Proof.
  intros A Hx Hnew Hst Hn. apply (AK_step F); auto.
  - intros v [f' [r [Hf [Hs Hc]]]]. left. exists f', r. rewrite aget_app, Hf. auto.
  - intros v X. destruct (Hn v X).
  - intros f' r' Hf Hs Hp. left. rewrite aget_app in Hf. destruct (aget f' F) as [r|] eqn:Hg0.
    + inversion Hf; subst r'. exists r. auto.
    + cbn [aget] in Hf. deq f' f; [|discriminate]. inversion Hf; subst r'.
      destruct Hnew, Hp; congruence.
Qed.

Lemma AK_adel F E f r0 :
  AK F E -> NoDup (map fst F) -> aget f F = Some r0 -> AK (adel f F) (E ++ drop_cell_ev r0).
Proof.
  intros A Hn Hg. apply (AK_step F); auto.
  - intros v [f' [r [Hf [Hs Hc]]]]. deq f f'.
    + right. right. rewrite Hg in Hf. inversion Hf; subst r. unfold drop_cell_ev. rewrite Hc, Hs.
      left. reflexivity.
    + left. exists f', r. rewrite aget_adel_neq by assumption. auto.
  - intros v X. exfalso. unfold drop_cell_ev in X. destruct (f_cell r0); [destruct (f_side r0)|]; cbn in X;
      intuition discriminate.
  - intros f' r' Hf Hs Hp. left. deq f f'.
    + rewrite aget_adel_eq in Hf by exact Hn. discriminate.
    + rewrite aget_adel_neq in Hf by assumption. exists r'. auto.
Qed.

Lemma closes_AK s sd s' r e E : AK (fs s) E -> closes s sd s' r e -> AK (fs s') (E ++ e).
Proof.
  intros A [ ]; cbn [fs set_scnt set_rcnt]; try (apply AK_same; [exact A|noack]); apply AK_disc_all, A.
Qed.

Theorem step_AK c s o s' r e E :
  WF s -> AK (fs s) E -> step c s o = (s', r, e) -> AK (fs s') (E ++ e).
Proof.
  intros W A Hs. apply step_inv in Hs.
  destruct Hs; cbn [fs set_fs set_hs set_rq handoff_to_receiver];
    try (apply AK_same; [exact A|noack]).
  - (* T_send_fail *) apply AK_same; [exact A|]. destruct b; noack.
  - (* T_handoff *)
    destruct (wf_rq _ _ _ _ W g w) as [rg [Hg [Hsd [_ [_ Hc]]]]]; [rewrite Hrq; left; reflexivity|].
    apply AK_aupd with (rk := rg); auto; try congruence.
    intros x X. cbn in X. right. left. replace x with v by (intuition congruence).
    eapply in_dest_fill; eauto.
  - (* T_take *)
    destruct (wf_sq _ _ _ _ W g w) as [rg' [Hg' [Hsd [_ [_ Hv]]]]]; [rewrite Hsq; left; reflexivity|].
    rewrite Hg in Hg'. inversion Hg'; subst rg'.
    apply AK_aupd with (rk := rg); auto; try congruence; [noack|].
    intros _ _. right. left. apply in_or_app. right. right. left. congruence.
  - (* T_close *) exact (closes_AK (mark_closed s h) _ _ _ _ _ A Hk).
  - (* T_droph *) exact (closes_AK (mark_closed s h) _ _ _ _ _ A Hk).
  - (* T_clone_open *) destruct (h_side hd); apply AK_same; try exact A; noack.
  - (* T_mksend *) apply AK_app; [exact A| |left; discriminate|reflexivity|noack].
    unfold ahas in Hn. destruct (aget f (fs s)); [discriminate|reflexivity].
  - (* T_mkrecv *) apply AK_app; [exact A| |right; reflexivity|reflexivity|noack].
    unfold ahas in Hn. destruct (aget f (fs s)); [discriminate|reflexivity].
  - (* T_poll_handoff: the parked receiver's dest is filled without an acknowledgement yet, then
       the slot is emptied and the send acknowledged *)
    destruct (wf_rq _ _ _ _ W g w') as [rg [Hgg [Hsg [_ [_ Hcg]]]]]; [rewrite Hrq; left; reflexivity|].
    assert (Hne : g <> f) by (intros ->; congruence).
    assert (Hv : f_val r0 = v).
    { destruct (wf_fut _ _ _ _ W f r0 Hg) as [Hk _]. rewrite Hsd in Hk. destruct Hk as [[Hk|Hk] _]; congruence. }
    rewrite aupd_comm by exact Hne.
    change [EOffer v; EHand v; EAck v; EWake w'] with ([EOffer v; EHand v] ++ [EAck v; EWake w']).
    rewrite app_assoc.
    assert (D : in_dest (aupd f fut_sent (aupd g (fut_done (Some v)) (fs s))) v).
    { exists g, (fut_done (Some v) rg). rewrite aget_aupd_neq, aget_aupd_eq, Hgg by congruence. auto. }
    apply AK_aupd with (rk := r0); auto; try congruence.
    + apply AK_aupd with (rk := rg); auto; try congruence. noack.
    + rewrite aget_aupd_neq by exact Hne. exact Hg.
    + intros x X. cbn in X. right. left. replace x with v by (intuition congruence). exact D.
    + intros _ _. right. right. left. rewrite Hv. exact D.
  - (* T_park_tx *) apply AK_aupd with (rk := r0); auto; try congruence; [noack|]. cbn. intuition congruence.
  - (* T_park_rx *) apply AK_aupd with (rk := r0); auto; try congruence. noack.
  - (* T_repoll_tx *) apply AK_aupd with (rk := r0); auto; noack.
  - (* T_repoll_rx *) apply AK_aupd with (rk := r0); auto; noack.
  - (* T_unreg *) apply AK_aupd with (rk := r0); auto; noack.
  - (* T_unreg_ack: the acknowledged value was delivered when the sender was fulfilled *)
    apply AK_aupd with (rk := r0); auto. intros x [X|[]]. inversion X; subst x.
    apply (delivered_mono (fs s)); [|apply (proj2 A f r0 Hg Hsd); auto].
    intros [f' [r' [Hf [Hs Hc]]]]. left. exists f', r'. rewrite aget_aupd_neq by congruence. auto.
  - (* T_unreg_val: the value leaves the dest and is returned *)
    apply AK_aupd with (rk := r0); auto; try congruence; [|noack].
    intros x _ X. right. left. congruence.
  - (* T_dropf *) rewrite (drop_fut_state _ _ _ W Hg). apply AK_adel; [exact A|exact (wf_fs _ _ _ _ W)|exact Hg].
Qed.

Theorem run_AK c ops s s' tr E :
  WF s -> AK (fs s) E -> run c s ops = (s', tr) -> AK (fs s') (E ++ evs_of tr).
Proof. apply (run_inv c (fun s E => AK (fs s) E)), step_AK. Qed.

Lemma AK_init : AK [] [].
Proof. split; [intros v []|intros f r H; discriminate]. Qed.

(* C01 / C06, for every configuration and history: a payload whose send was acknowledged (try_send
   or send returned Ok, or the send future resolved Ok) has been returned to a receiver, or sits in
   the dest of a live receive future, or -- finding F-31 -- was destroyed inside a receive future
   that was dropped after the handoff and before its next poll. *)
Theorem rv_acked_delivered_except_F31 c a ops s tr v :
  run c (init a) ops = (s, tr) -> In (EAck v) (evs_of tr) ->
  In (ERecv v) (evs_of tr) \/ in_dest (fs s) v \/ In (EDropDest v) (evs_of tr).
Proof.
  intros Hr Hi. pose proof (run_AK c ops _ _ _ [] (WF_init a) AK_init Hr) as [A _].
  cbn [app] in A. exact (A v Hi).
Qed.

(* where EDropDest comes from: only the Drop of a receive future that completed (DONE, still
   registered) and was not polled since *)
Theorem rv_drop_dest_only_completed_recv c s o s' r e v :
  WF s -> step c s o = (s', r, e) -> In (EDropDest v) e ->
  exists f r0, o = DropF f /\ aget f (fs s) = Some r0 /\ f_side r0 = Rx /\ f_cell r0 = Some v
               /\ f_st r0 = DONE /\ f_reg r0 = true.
Proof.
  intros W Hs Hi. apply step_inv in Hs.
  assert (Q : forall s sd s' r e, closes s sd s' r e -> ~ In (EDropDest v) e).
  { intros s0 sd s1 r1 e1 [ ]; try (intros []); unfold wakes_of; rewrite in_map_iff; intros [p [X _]]; discriminate. }
  destruct Hs; try (exfalso; cbn in Hi; intuition discriminate).
  - (* T_send_fail *) exfalso. destruct b; cbn in Hi; intuition discriminate.
  - (* T_close *) destruct (Q _ _ _ _ _ Hk Hi).
  - (* T_droph *) destruct (Q _ _ _ _ _ Hk Hi).
  - (* T_dropf *)
    unfold drop_cell_ev in Hi. destruct (f_cell r0) as [x|] eqn:Hc; [|destruct Hi].
    destruct (f_side r0) eqn:Hsd; destruct Hi as [Hi|[]]; [discriminate|]. inversion Hi; subst x.
    destruct (wf_fut _ _ _ _ W f r0 Hg) as [Hk _]. rewrite Hsd in Hk. destruct (proj1 Hk v Hc).
    exists f, r0. auto 7.
Qed.

(* the full statement (what C01/C06 ask for: an acknowledged send is never lost by dropping a
   future) is false of the code as it is -- finding F-31 *)
Definition rv_acked_delivered_full (c : cfg) : Prop :=
  forall a ops s tr v, run c (init a) ops = (s, tr) -> In (EAck v) (evs_of tr) ->
    In (ERecv v) (evs_of tr) \/ in_dest (fs s) v.

Definition F31_witness : list op := [MkRecv 10 1; Poll 10 0; TrySend 0 100; DropF 10].

Theorem rv_acked_delivered_refuted_F31 c : ~ rv_acked_delivered_full c.
Proof.
  intros H. destruct c as [m t r x ff y].
  assert (X : exists s tr, run (mkCfg m t r x ff y) (init true) F31_witness = (s, tr)
                           /\ In (EAck 100) (evs_of tr) /\ ~ In (ERecv 100) (evs_of tr) /\ fs s = []).
  { destruct m, ff; eexists; eexists; (split; [vm_compute; reflexivity|]); cbn;
      (split; [tauto|]); (split; [intuition discriminate|reflexivity]). }
  destruct X as [s [tr [Hr [Ha [Hn Hf]]]]].
  destruct (H true _ s tr 100 Hr Ha) as [Y|[f [r0 [Y _]]]]; [exact (Hn Y)|].
  rewrite Hf in Y. discriminate.
Qed.
