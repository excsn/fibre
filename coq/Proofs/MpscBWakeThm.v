(* Proofs/MpscBWakeThm.v — C06 for the bounded-MPSC K2 model: the receive-side invariants W1..W8
   lifted to all histories, and the receive-side theorems. *)
From Fibre Require Import Common.Base Chan.MpscB Chan.MpscBSpec Proofs.MpscBBase Proofs.MpscBInv Proofs.MpscBProofs Proofs.MpscBWake.
From Coq Require Import ZifyBool ZifyNat ZifyN.
Ltac Zify.zify_post_hook ::= Z.div_mod_to_equations.

Definition GW (s : st) : Prop := W1 s /\ W2 s /\ W3 s /\ W4 s /\ W5 s /\ W6 s /\ W7 s /\ W8 s.

Lemma exec_GW s o : GS s -> GW s -> GW (fst (exec s o)).
Proof.
  (* [G] and [V] stay folded while [exec] is evaluated: unfolded, every case split would have to
     look through them *)
  intros G V. destruct o; symex; try exact V.
  all: destruct G as (_&_&FO&RO&_&_); destruct V as (V1&V2&V3&V4&V5&V6&V7&V8).
  all: unfold GW, W1, W2, W3, W4, W5, W6, W7, W8, rpend, spend; cb.
  (* one part per invariant.  Each drops the hypotheses it does not use and unfolds its own only
     (the others must stay folded: [destruct (multi s)] would rewrite inside them); what the
     evaluation found out about [rw s] is an equation in the context, taken over by hand *)
  (* W1 *)
  all: split; [first [assumption |
      clear FO RO V2 V3 V4 V5 V6 V7 V8;
      unfold W1 in V1;
      try match goal with E : rw _ = _ |- _ => rewrite E in V1 end;
      (try (intros o1 w1 Hr; discriminate Hr));
      (intros o1 w1 Hr; somes);
      (repeat match goal with H : _ /\ _ |- _ => destruct H end);
      (repeat match goal with H : is_nil _ = true |- _ => apply is_nil_true in H; subst end);
      (cbn [app] in *; deqnil);
      (try (destruct (V1 _ _ Hr) as [A B]));
      (repeat match goal with
       | H : (_ =? _) = false |- _ => apply N.eqb_neq in H
       | H : (_ =? _) = true |- _ => apply N.eqb_eq in H
       end);
      (try (split; [congruence | lia]));
      (try (split; [congruence | congruence]));
      (match goal with A : q ?s = [], H : q ?s = ?l ++ ?r |- _ =>
         rewrite A in H; symmetry in H; apply app_eq_nil in H; destruct H end);
      (split; congruence)]|].
  (* W2 *)
  all: split; [first [assumption |
      clear V3 V6 V7 V8;
      unfold W2, rpend in V2;
      try match goal with E : rw _ = _ |- _ => rewrite E in V2 end;
      (wl_mono);
      (intros f1 w1 c1 (fr1 & A1 & K1 & P1); ag; somes; cbn [fh fk fpend is_recv_kind] in *; somes; try discriminate);
      (try w2leaf V2);
      (somes);
      (try (left; reflexivity));
      (try (left; assumption));
      (try (right; right; reflexivity));
      (try (split; [lia | left; reflexivity]));
      (try solve [no_fut_on_rx FO RO]);
      (try (bools; solve [no_fut_on_rx FO RO]));
      (try (right; right;
            match goal with |- multi ?s0 = true => destruct (multi s0) eqn:M; [reflexivity|exfalso] end;
            match goal with
            | NE : ?f1 <> ?f, A1 : aget ?f1 (fs _) = Some ?fr1, A : aget ?f (fs _) = Some ?f0,
              K1 : is_recv_kind (fk ?fr1) = true, E : fk ?f0 = _ |- _ =>
                apply NE; apply (V4 M f1 f fr1 f0 A1 A K1); rewrite E; reflexivity
            end));
      (try (right; left; rewrite ?N.eqb_refl; lia))]|].
  (* W3 *)
  all: split; [first [assumption |
      clear FO V1 V2 V4 V6 V7;
      unfold W3, spend in V3;
      try match goal with E : rw _ = _ |- _ => rewrite E in V3 end;
      (wl_mono);
      (intros h1 w1 c1 (r1 & A1 & P1); ag; somes; cbn [with_closed with_async with_reg hpend] in *; try discriminate);
      (try w3leaf V3);
      (somes);
      (try (left; reflexivity));
      (try (left; assumption));
      (try (right; right; reflexivity));
      (try (split; [lia | left; reflexivity]));
      (try (right; left; rewrite ?N.eqb_refl; lia));
      (bools; kinds);
      (try match goal with
       | A1 : aget ?h1 (hs _) = Some ?r1, P1 : hpend ?r1 = Some _ |- _ =>
           let HR := fresh "HR" in let T1 := fresh "T" in
           assert (HR : hreg r1 = true) by (apply (V8 _ _ A1); rewrite P1; discriminate);
           destruct (proj2 (V8 _ _ A1) HR) as [T1 _]
       end);
      (try (exfalso; match goal with
       | NE : ?h1 <> ?h, A1 : aget ?h1 (hs _) = Some ?r1, T1 : htx ?r1 = false,
         A : aget ?h (hs _) = Some ?r, T : htx ?r = false |- _ =>
           apply NE; rewrite (RO _ _ A1 T1), (RO _ _ A T); reflexivity
       end));
      (try (right; right;
            match goal with |- multi ?s0 = true => destruct (multi s0) eqn:M; [reflexivity|exfalso] end;
            match goal with
            | A : aget ?f (fs _) = Some ?f0, K : is_recv_kind (fk ?f0) = true,
              A1 : aget ?h1 (hs _) = Some ?r1, HR : hreg ?r1 = true |- _ =>
                rewrite (V5 M f f0 h1 r1 A K A1) in HR; discriminate HR
            end))]|].
  (* W4 *)
  all: split; [first [assumption |
      clear FO RO V1 V2 V3 V5 V6 V7 V8;
      unfold W4 in V4;
      try match goal with E : rw _ = _ |- _ => rewrite E in V4 end;
      (intros M f1 f2 fr1 fr2 A1 A2 K1 K2; ag; somes; cbn [fh fk fpend is_recv_kind] in *; try discriminate);
      (try reflexivity);
      (kinds);
      (try (eapply (V4 M); eauto; fail));
      (try (symmetry; eapply (V4 M); eauto; fail));
      (bools);
      (try match goal with
       | E : existsb _ (fs ?s0) = false, A : aget _ (fs ?s0) = Some ?fr, K : is_recv_kind (fk ?fr) = true |- _ =>
           rewrite (existsb_recv_false _ _ _ E A) in K; discriminate K
       end)]|].
  (* W5 *)
  all: split; [first [assumption |
      clear V1 V2 V3 V4 V6 V7;
      unfold W5 in V5;
      try match goal with E : rw _ = _ |- _ => rewrite E in V5 end;
      (intros M f1 fr1 h1 r1 A1 K1 G1; ag; somes; cbn [fh fk fpend is_recv_kind] in *; try discriminate);
      (kinds);
      (cbn [with_closed with_async with_reg hreg]; try reflexivity);
      (try (eapply (V5 M); eauto; fail));
      (bools);
      (try solve [no_fut_on_rx FO RO]);
      (destruct (hreg r1) eqn:HR; [exfalso|reflexivity]);
      (destruct (V8 _ _ G1) as [_ Y]; destruct (Y HR) as [T1 _]);
      (pose proof (RO _ _ G1 T1); subst;
       match goal with A : aget _ (hs _) = Some ?r, T : htx ?r = false |- _ =>
         pose proof (RO _ _ A T); subst; somes; congruence end)]|].
  (* W6 *)
  all: split; [first [assumption |
      clear FO RO V1 V2 V3 V4 V5 V7 V8;
      unfold W6 in V6;
      try match goal with E : rw _ = _ |- _ => rewrite E in V6 end;
      (intros f1 w1 Hr; somes);
      (try (destruct (V6 _ _ Hr) as (fr1 & A1 & G1)));
      (ag; somes);
      (try (eexists; split; [eassumption || reflexivity|]; cbn [fk reg_of]; try assumption; reflexivity));
      (repeat match goal with E : fk _ = _ |- _ => rewrite E in * end; cbn [reg_of] in *; try discriminate);
      (try (eexists; split; [reflexivity|]; cbn [fk reg_of]; congruence))]|].
  (* W7 *)
  all: split; [first [assumption |
      clear FO RO V1 V2 V3 V4 V5 V6;
      unfold W7 in V7;
      try match goal with E : rw _ = _ |- _ => rewrite E in V7 end;
      (intros h1 w1 Hr; somes);
      (try (destruct (V7 _ _ Hr) as (r1 & A1 & G1)));
      (ag; somes);
      (try (eexists; split; [eassumption || reflexivity|]; cbn [with_closed with_async with_reg hreg]; try assumption; reflexivity));
      (try match goal with A : aget ?h (hs _) = Some ?r, G : hreg ?r = true |- _ =>
         destruct (V8 _ _ A) as [_ Y]; destruct (Y G) end);
      (bools; try congruence);
      (exfalso; repeat match goal with
       | H : htx _ = _ |- _ => rewrite H in *; clear H
       | H : hasync _ = _ |- _ => rewrite H in *; clear H
       | H : hreg _ = _ |- _ => rewrite H in *; clear H
       end; cbn [andb negb orb] in *; discriminate)]|].
  (* W8 *)
  all: first [assumption |
      clear FO RO V1 V2 V3 V4 V5 V6 V7;
      unfold W8 in V8;
      try match goal with E : rw _ = _ |- _ => rewrite E in V8 end;
      (intros h1 r1 A1; ag; somes; try (apply (V8 _ _ A1)));
      (cbn [with_closed with_async with_reg hpend hreg htx]; try (split; intros; congruence));
      (try match goal with A : aget _ (hs _) = Some _ |- _ =>
         solve [destruct (V8 _ _ A) as [X Y]; split; [auto|]; try (intros Z; destruct (Y Z)); split; auto] end);
      (bools; split; auto)].
Qed.

Lemma init_GW a cp f3 fc : GW (init a cp f3 fc).
Proof.
  unfold GW, W1, W2, W3, W4, W5, W6, W7, W8, rpend, spend, init. cb.
  split; [intros; discriminate|].
  split; [intros f w c (fr&A&_); discriminate A|].
  split.
  { intros h w c (r&A&P). cbn [aget] in A.
    destruct (h =? 0); [inversion A; subst; discriminate P|].
    destruct (h =? 1); [inversion A; subst; discriminate P | discriminate A]. }
  split; [intros _ f1 f2 fr1 fr2 A; discriminate A|].
  split; [intros _ f fr h r A; discriminate A|].
  split; [intros; discriminate|].
  split; [intros; discriminate|].
  intros h r A. cbn [aget] in A.
  destruct (h =? 0); [inversion A; subst; cbn; split; intros; congruence|].
  destruct (h =? 1); [inversion A; subst; cbn; split; intros; congruence | discriminate A].
Qed.

Lemma reach_GW : forall s, reach s -> GW s.
Proof.
  apply (reach_ind' GW).
  - apply init_GW.
  - intros s0 o R H. rewrite step_fst. apply exec_GW; [apply (reach_GS s0 R) | exact H].
Qed.

(** C06, receive side: a pending receive future (single-consumer usage: no second receive-side
    waiter was ever outstanding) whose channel became non-empty or disconnected has been woken *)
Theorem recv_wake s f w c :
  reach s -> multi s = false -> rpend s f w c -> (q s <> [] \/ scount s = 0) -> c < wk s w.
Proof.
  intros R M P Rdy. destruct (reach_GW s R) as (V1&V2&_).
  destruct (V2 f w c P) as [_ [X|[X|X]]]; [|exact X|congruence].
  destruct (V1 _ _ X) as [A B]. destruct Rdy; contradiction.
Qed.

Theorem stream_wake s h w c :
  reach s -> multi s = false -> spend s h w c -> (q s <> [] \/ scount s = 0) -> c < wk s w.
Proof.
  intros R M P Rdy. destruct (reach_GW s R) as (V1&_&V3&_).
  destruct (V3 h w c P) as [_ [X|[X|X]]]; [|exact X|congruence].
  destruct (V1 _ _ X) as [A B]. destruct Rdy; contradiction.
Qed.

(** "would be ready" is exactly: own handle closed, or something buffered, or no sender left *)
Theorem poll_recv_pending_iff s f w fr r reg :
  aget f (fs s) = Some fr -> aget (fh fr) (hs s) = Some r -> fk fr = FRecv reg ->
  (snd (exec s (Poll f w)) = RPending <-> hclosed r = false /\ q s = [] /\ scount s <> 0).
Proof.
  intros A B K. cbn [exec]. unfold do_poll. rewrite A, B, K.
  destruct (hclosed r); [split; [discriminate | intros (X&_); discriminate]|].
  unfold poll_recv_core, deq1. destruct (q s) as [|v t] eqn:E.
  - pose proof (flush_frame s) as F. unfold deq_frame in F.
    destruct (N.eqb_spec (scount (flush s)) 0) as [Z|Z]; rewrite F in Z; cbn [scount] in Z; cb.
    + split; [discriminate | intros (_&_&X); contradiction].
    + split; auto.
  - cbn [fst snd]. split; [discriminate | intros (_&X&_); discriminate].
Qed.

(** no registration ever points at a future that is gone (or that is not registered) *)
Theorem no_dangling s f w : reach s -> rw s = Some (OF f, w) ->
  exists fr, aget f (fs s) = Some fr /\ reg_of (fk fr) = true.
Proof. intros R. destruct (reach_GW s R) as (_&_&_&_&_&V6&_). apply V6. Qed.

