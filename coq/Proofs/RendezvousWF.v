(* Proofs/RendezvousWF.v — every step of the rendezvous model preserves the structural
   invariant WF (Proofs/RendezvousBase.v), for every configuration. *)
From Fibre Require Import Common.Base Chan.Rendezvous Proofs.RendezvousBase.

Lemma in_fst_exists {A} f (q : list (N * A)) : In f (map fst q) -> exists w, In (f, w) q.
Proof.
  intros H. apply in_map_iff in H. destruct H as [[f' w] [E Hi]]. cbn in E. subst. exists w. exact Hi.
Qed.

Lemma qhas_app f q q' : qhas f (q ++ q') = qhas f q || qhas f q'.
Proof.
  unfold qhas, ahas. rewrite aget_app. destruct (aget f q); reflexivity.
Qed.

Lemma qhas_cons_neq f g w q : f <> g -> qhas f ((g, w) :: q) = qhas f q.
Proof. intros Hn. unfold qhas, ahas. cbn [aget]. deq f g; [congruence | reflexivity]. Qed.

Lemma qhas_qdel_neq f g q : f <> g -> qhas f (qdel g q) = qhas f q.
Proof. intros Hn. unfold qhas, ahas, qdel. rewrite aget_adel_neq by congruence. reflexivity. Qed.

Lemma qhas_qrefresh f g w q : qhas f (qrefresh g w q) = qhas f q.
Proof.
  unfold qhas, ahas, qrefresh. rewrite aget_aupd. deq g f; [|reflexivity].
  destruct (aget f q); reflexivity.
Qed.


(** what WF says of a queue record (the bodies of sq_ok and rq_ok) *)
Definition parked_tx (r : fut) : Prop :=
  f_side r = Tx /\ f_reg r = true /\ f_st r = WAITING /\ f_cell r = Some (f_val r).
Definition parked_rx (r : fut) : Prop :=
  f_side r = Rx /\ f_reg r = true /\ f_st r = WAITING /\ f_cell r = None.

Section Facts.
Variables (H : list (N * handle)) (F : list (N * fut)) (SQ RQ : list (N * N)).
Hypothesis W : WFc H F SQ RQ.

Lemma sq_member f : qhas f SQ = true -> exists r, aget f F = Some r /\ parked_tx r.
Proof.
  intros Hq. apply qhas_true in Hq. apply in_fst_exists in Hq. destruct Hq as [w Hi].
  exact (wf_sq _ _ _ _ W f w Hi).
Qed.

Lemma rq_member f : qhas f RQ = true -> exists r, aget f F = Some r /\ parked_rx r.
Proof.
  intros Hq. apply qhas_true in Hq. apply in_fst_exists in Hq. destruct Hq as [w Hi].
  exact (wf_rq _ _ _ _ W f w Hi).
Qed.

Lemma not_in_sq f r : aget f F = Some r -> (f_reg r = false \/ f_st r <> WAITING \/ f_side r = Rx) ->
  qhas f SQ = false.
Proof.
  intros Hg Hc. destruct (qhas f SQ) eqn:E; [|reflexivity].
  destruct (sq_member f E) as [r' [Hg' [Hs [Hr [Hst Hcell]]]]].
  rewrite Hg in Hg'. inversion Hg'; subst r'.
  destruct Hc as [Hc|[Hc|Hc]]; congruence.
Qed.

Lemma not_in_rq f r : aget f F = Some r -> (f_reg r = false \/ f_st r <> WAITING \/ f_side r = Tx) ->
  qhas f RQ = false.
Proof.
  intros Hg Hc. destruct (qhas f RQ) eqn:E; [|reflexivity].
  destruct (rq_member f E) as [r' [Hg' [Hs [Hr [Hst Hcell]]]]].
  rewrite Hg in Hg'. inversion Hg'; subst r'.
  destruct Hc as [Hc|[Hc|Hc]]; congruence.
Qed.
End Facts.

Lemma qhas_keys f (q q' : list (N * N)) : map fst q' = map fst q -> qhas f q' = qhas f q.
Proof.
  intros Hk. destruct (qhas f q) eqn:X.
  - apply qhas_true. rewrite Hk. apply qhas_true. exact X.
  - apply qhas_false. rewrite Hk. apply qhas_false. exact X.
Qed.

Lemma fut_ok_mono H SQ SQ' f r :
  fut_ok H SQ f r -> (qhas f SQ = true -> qhas f SQ' = true) -> fut_ok H SQ' f r.
Proof.
  unfold fut_ok. intros [Hk Hh] Hq. split; [|exact Hh].
  destruct (f_side r); [|exact Hk].
  destruct Hk as [Hc Hr]. split; [exact Hc|]. intros A B. apply Hq. apply Hr; assumption.
Qed.

Lemma WF_hs H H' F SQ RQ :
  WFc H F SQ RQ -> NoDup (map fst H') ->
  (forall f r, aget f F = Some r -> forall hd, aget (f_h r) H = Some hd ->
               exists hd', aget (f_h r) H' = Some hd' /\ h_side hd' = h_side hd) ->
  WFc H' F SQ RQ.
Proof.
  intros W Hn Hp. destruct W as [A B C D E G I J].
  constructor; try assumption.
  intros f r Hg. destruct (J f r Hg) as [Hk [hd [Hh Hs]]]. split; [exact Hk|].
  destruct (Hp f r Hg hd Hh) as [hd' [Hh' Hs']]. exists hd'. split; [exact Hh'|congruence].
Qed.

(** futures and queues change.  [ch] marks the futures the transformation touches: the others keep
    their record and their place in the sender queue and do not enter the receiver store; for the
    touched ones the three clauses of WF about a single future are shown anew.  Every transformer
    below is an instance. *)
Lemma WF_frame H F F' SQ SQ' RQ RQ' (ch : N -> bool) :
  WFc H F SQ RQ ->
  NoDup (map fst F') -> NoDup (map fst SQ') -> NoDup (map fst RQ') -> SQ' = [] \/ RQ' = [] ->
  (forall f, ch f = false ->
     aget f F' = aget f F /\ qhas f SQ' = qhas f SQ /\ (qhas f RQ' = true -> qhas f RQ = true)) ->
  (forall f, ch f = true ->
     (qhas f SQ' = true -> exists r, aget f F' = Some r /\ parked_tx r) /\
     (qhas f RQ' = true -> exists r, aget f F' = Some r /\ parked_rx r) /\
     (forall r, aget f F' = Some r -> fut_ok H SQ' f r)) ->
  WFc H F' SQ' RQ'.
Proof.
  intros W A' C' D' I' U T. pose proof W as [A B C D E G I J].
  constructor; try assumption.
  - intros f w Hi. apply qhas_In in Hi. destruct (ch f) eqn:Hc; [exact (proj1 (T f Hc) Hi)|].
    destruct (U f Hc) as [Ua [Us _]]. rewrite Us in Hi. rewrite Ua. exact (sq_member _ _ _ _ W f Hi).
  - intros f w Hi. apply qhas_In in Hi. destruct (ch f) eqn:Hc; [exact (proj1 (proj2 (T f Hc)) Hi)|].
    destruct (U f Hc) as [Ua [_ Ur]]. rewrite Ua. exact (rq_member _ _ _ _ W f (Ur Hi)).
  - intros f r Hg. destruct (ch f) eqn:Hc; [exact (proj2 (proj2 (T f Hc)) r Hg)|].
    destruct (U f Hc) as [Ua [Us _]]. rewrite Ua in Hg. eapply fut_ok_mono; [exact (J f r Hg)|].
    rewrite Us. auto.
Qed.

(** fulfill_receiver: hand v to the parked receiver at the head of the store *)
Lemma WF_handoff H F SQ g w rest v :
  WFc H F SQ ((g, w) :: rest) ->
  WFc H (aupd g (fut_done (Some v)) F) SQ rest.
Proof.
  intros W. pose proof W as [A B C D E G I J].
  assert (HSQ : SQ = []) by (destruct I as [I|I]; [exact I|discriminate]). subst SQ.
  inversion D as [|x l Hnot Dn]; subst.
  destruct (G g w (or_introl eq_refl)) as [r0 [Hg0 [Hs0 [Hr0 _]]]].
  apply (WF_frame _ _ _ _ _ _ _ (N.eqb g) W); auto; [rewrite keys_aupd; exact A|..]; intros f Hc.
  - apply N.eqb_neq in Hc. rewrite aget_aupd_neq, qhas_cons_neq by congruence. auto.
  - apply N.eqb_eq in Hc. subst f. split; [discriminate|]. split.
    + intros X. apply qhas_true in X. contradiction.
    + intros r Hg. rewrite aget_aupd_eq, Hg0 in Hg. inversion Hg; subst r.
      unfold fut_ok. cbn [fut_done f_side f_cell f_st f_reg f_h]. rewrite Hs0.
      split; [split; [intros v' _; split; [reflexivity|exact Hr0] | intros _ _ X; discriminate]|].
      destruct (J g r0 Hg0) as [_ Hh]. rewrite Hs0 in Hh. exact Hh.
Qed.

(** fulfill_sender: take the payload of the parked sender at the head of sender_waiters *)
Lemma WF_take H F g w rest RQ :
  WFc H F ((g, w) :: rest) RQ ->
  WFc H (aupd g (fut_done None) F) rest RQ.
Proof.
  intros W. pose proof W as [A B C D E G I J].
  inversion C as [|x l Hnot Cn]; subst.
  destruct (E g w (or_introl eq_refl)) as [r0 [Hg0 [Hs0 _]]].
  apply (WF_frame _ _ _ _ _ _ _ (N.eqb g) W); auto;
    [rewrite keys_aupd; exact A|destruct I; [discriminate|auto]|..]; intros f Hc.
  - apply N.eqb_neq in Hc. rewrite aget_aupd_neq, qhas_cons_neq by congruence. auto.
  - apply N.eqb_eq in Hc. subst f. split; [|split].
    + intros X. apply qhas_true in X. contradiction.
    + intros X. rewrite (not_in_rq _ _ _ _ W g r0 Hg0) in X by auto. discriminate.
    + intros r Hg. rewrite aget_aupd_eq, Hg0 in Hg. inversion Hg; subst r.
      unfold fut_ok. cbn [fut_done f_side f_cell f_st f_reg f_h]. rewrite Hs0.
      split; [split; [left; reflexivity | intros _ Hx; discriminate]|].
      destruct (J g r0 Hg0) as [_ Hh]. rewrite Hs0 in Hh. exact Hh.
Qed.

(** the last sender went away: every parked receiver is disconnected *)
Lemma WF_disc_receivers H F SQ RQ :
  WFc H F SQ RQ -> WFc H (disc_all RQ F) SQ [].
Proof.
  intros W. pose proof W as [A B C D E G I J].
  apply (WF_frame _ _ _ _ _ _ _ (fun f => qhas f RQ) W); auto;
    [rewrite keys_disc_all; exact A|constructor|..]; intros f Hc.
  - rewrite aget_disc_all, Hc. split; [reflexivity|split; [reflexivity|discriminate]].
  - destruct (rq_member _ _ _ _ W f Hc) as [r0 [Hg0 [Hs0 [_ [_ Hc0]]]]]. split; [|split; [discriminate|]].
    + intros X. rewrite (not_in_sq _ _ _ _ W f r0 Hg0) in X by auto. discriminate.
    + intros r Hg. rewrite aget_disc_all, Hc, Hg0 in Hg. inversion Hg; subst r.
      destruct (J f r0 Hg0) as [_ Hh]. unfold fut_ok. cbn [fut_disc f_side f_cell f_st f_reg f_h].
      rewrite Hs0 in *. split; [split; [intros v Hv; congruence | intros _ X; discriminate]|exact Hh].
Qed.

(** the last receiver went away: every parked sender is disconnected *)
Lemma WF_disc_senders H F SQ RQ :
  WFc H F SQ RQ -> WFc H (disc_all SQ F) [] RQ.
Proof.
  intros W. pose proof W as [A B C D E G I J].
  apply (WF_frame _ _ _ _ _ _ _ (fun f => qhas f SQ) W); auto;
    [rewrite keys_disc_all; exact A|constructor|..]; intros f Hc.
  - rewrite aget_disc_all, Hc. auto.
  - destruct (sq_member _ _ _ _ W f Hc) as [r0 [Hg0 [Hs0 [_ [_ Hc0]]]]]. split; [discriminate|split].
    + intros X. rewrite (not_in_rq _ _ _ _ W f r0 Hg0) in X by auto. discriminate.
    + intros r Hg. rewrite aget_disc_all, Hc, Hg0 in Hg. inversion Hg; subst r.
      destruct (J f r0 Hg0) as [_ Hh]. unfold fut_ok. cbn [fut_disc f_side f_cell f_st f_reg f_h f_val].
      rewrite Hs0 in *. split; [split; [right; exact Hc0 | intros _ Hx; discriminate]|exact Hh].
Qed.

(** poll_send parks *)
Lemma WF_park_send H F SQ f w r0 :
  WFc H F SQ [] -> aget f F = Some r0 -> f_side r0 = Tx -> f_reg r0 = false ->
  f_cell r0 <> None ->
  WFc H (aupd f fut_park F) (SQ ++ [(f, w)]) [].
Proof.
  intros W Hg0 Hs0 Hr0 Hc0. pose proof W as [A B C D E G I J].
  assert (Hq : qhas f SQ = false) by (eapply not_in_sq; [exact W|exact Hg0|left; exact Hr0]).
  assert (Hnew : qhas f [(f, w)] = true) by (unfold qhas, ahas; cbn [aget]; rewrite N.eqb_refl; reflexivity).
  destruct (J f r0 Hg0) as [Hk Hh]. rewrite Hs0 in Hk, Hh.
  assert (Hcell : f_cell r0 = Some (f_val r0)) by (destruct Hk as [[Hk|Hk] _]; congruence).
  apply (WF_frame _ _ _ _ _ _ _ (N.eqb f) W); auto; [rewrite keys_aupd; exact A| |intros f' Hc..].
  - rewrite map_app. apply NoDup_snoc; [exact C|]. apply qhas_false. exact Hq.
  - apply N.eqb_neq in Hc. rewrite aget_aupd_neq, qhas_app, (qhas_cons_neq f' f), orb_false_r by congruence. auto.
  - apply N.eqb_eq in Hc. subst f'. rewrite aget_aupd_eq, Hg0.
    split; [intros _; exists (fut_park r0); repeat split; assumption|split; [discriminate|]].
    intros r Hg. inversion Hg; subst r. unfold fut_ok. cbn [fut_park f_side f_cell f_st f_reg f_h f_val].
    rewrite Hs0. split; [split; [right; exact Hcell|]|exact Hh]. intros _ _. rewrite qhas_app, Hnew. apply orb_true_r.
Qed.

(** poll_recv parks (deque: push_back; single slot: overwrite) *)
Lemma WF_park_recv c H F RQ f w r0 :
  WFc H F [] RQ -> aget f F = Some r0 -> f_side r0 = Rx -> f_reg r0 = false ->
  WFc H (aupd f fut_park F) [] (push_receiver c f w RQ).
Proof.
  intros W Hg0 Hs0 Hr0. pose proof W as [A B C D E G I J].
  assert (Hq : qhas f RQ = false) by (eapply not_in_rq; [exact W|exact Hg0|left; exact Hr0]).
  destruct (J f r0 Hg0) as [Hk Hh]. rewrite Hs0 in Hk, Hh.
  assert (Hcell : f_cell r0 = None).
  { destruct (f_cell r0) as [v|]; [|reflexivity]. destruct (proj1 Hk v eq_refl). congruence. }
  apply (WF_frame _ _ _ _ _ _ _ (N.eqb f) W); auto; [rewrite keys_aupd; exact A| |intros f' Hc..].
  - unfold push_receiver. destruct (multi_rx c); [|repeat constructor; intros []].
    rewrite map_app. apply NoDup_snoc; [exact D|]. apply qhas_false. exact Hq.
  - apply N.eqb_neq in Hc. rewrite aget_aupd_neq by congruence. repeat split.
    unfold push_receiver. destruct (multi_rx c); [rewrite qhas_app|]; rewrite (qhas_cons_neq f' f) by congruence;
      [rewrite orb_false_r; auto|discriminate].
  - apply N.eqb_eq in Hc. subst f'. rewrite aget_aupd_eq, Hg0.
    split; [discriminate|split; [intros _; exists (fut_park r0); repeat split; assumption|]].
    intros r Hg. inversion Hg; subst r. unfold fut_ok. cbn [fut_park f_side f_cell f_st f_reg f_h f_val].
    rewrite Hs0. split; [split; [intros v Hv; congruence | intros _ X; discriminate]|exact Hh].
Qed.

(** a spurious poll: the ghost woken flag is cleared and the waker in the record replaced *)
Lemma WF_repoll H F SQ SQ' RQ RQ' f :
  WFc H F SQ RQ -> map fst SQ' = map fst SQ -> map fst RQ' = map fst RQ ->
  WFc H (aupd f fut_repoll F) SQ' RQ'.
Proof.
  intros W Ks Kr. pose proof W as [A B C D E G I J].
  assert (X : forall f' r', aget f' (aupd f fut_repoll F) = Some r' ->
              exists r, aget f' F = Some r /\ f_side r' = f_side r /\ f_reg r' = f_reg r /\ f_st r' = f_st r
                        /\ f_cell r' = f_cell r /\ f_val r' = f_val r /\ f_h r' = f_h r).
  { intros f' r' Hg. rewrite aget_aupd in Hg. deq f f'; [|exists r'; auto 8].
    destruct (aget f' F) as [r|]; [|discriminate]. inversion Hg. exists r. auto 8. }
  apply (WF_frame _ _ _ _ _ _ _ (fun _ => true) W); try discriminate; try (rewrite ?keys_aupd; congruence).
  - destruct I as [->| ->]; [left|right]; eapply map_eq_nil; eassumption.
  - intros f' _. rewrite (qhas_keys f' _ _ Ks), (qhas_keys f' _ _ Kr). split; [|split].
    + intros Hq. destruct (sq_member _ _ _ _ W f' Hq) as [r [Hg P]].
      exists (if N.eqb f f' then fut_repoll r else r). rewrite aget_aupd, Hg. destruct (N.eqb f f'); auto.
    + intros Hq. destruct (rq_member _ _ _ _ W f' Hq) as [r [Hg P]].
      exists (if N.eqb f f' then fut_repoll r else r). rewrite aget_aupd, Hg. destruct (N.eqb f f'); auto.
    + intros r' Hg. destruct (X f' r' Hg) as [r [Hg0 [a1 [a2 [a3 [a4 [a5 a6]]]]]]].
      pose proof (J f' r Hg0) as K. unfold fut_ok in *. rewrite a1, a2, a3, a4, a5, a6, (qhas_keys f' _ _ Ks). exact K.
Qed.

Lemma WF_aupd_unqueued H F SQ RQ f g r0 :
  WFc H F SQ RQ -> aget f F = Some r0 -> qhas f SQ = false -> qhas f RQ = false ->
  fut_ok H SQ f (g r0) -> WFc H (aupd f g F) SQ RQ.
Proof.
  intros W Hg0 Hq1 Hq2 Hok. pose proof W as [A B C D E G I J].
  apply (WF_frame _ _ _ _ _ _ _ (N.eqb f) W); auto; [rewrite keys_aupd; exact A|..]; intros f' Hc.
  - apply N.eqb_neq in Hc. rewrite aget_aupd_neq by congruence. auto.
  - apply N.eqb_eq in Hc. subst f'. rewrite Hq1, Hq2, aget_aupd_eq, Hg0.
    split; [discriminate|split; [discriminate|]]. intros r Hg. inversion Hg; subst r. exact Hok.
Qed.

(* poll completes on the registered path *)
Lemma WF_unreg H F SQ RQ f r0 c :
  WFc H F SQ RQ -> aget f F = Some r0 ->
  qhas f SQ = false -> qhas f RQ = false ->
  (f_side r0 = Tx -> c = f_cell r0) ->
  (f_side r0 = Rx -> c = None \/ (c = f_cell r0 /\ f_st r0 <> DONE)) ->
  WFc H (aupd f (fut_unreg c) F) SQ RQ.
Proof.
  intros W Hg0 Hq1 Hq2 Hc1 Hc2. apply (WF_aupd_unqueued _ _ _ _ _ _ r0); auto.
  destruct (wf_fut _ _ _ _ W f r0 Hg0) as [Hk Hh].
  unfold fut_ok. cbn [fut_unreg f_side f_cell f_st f_reg f_h f_val]. split; [|exact Hh].
  destruct (f_side r0) eqn:Hs0.
  + rewrite (Hc1 eq_refl). destruct Hk as [Hk _]. split; [exact Hk|]. intros X; discriminate.
  + destruct Hk as [Hk Hk2]. destruct (Hc2 eq_refl) as [->|[-> Hnd]].
    * split; [intros v Hv; discriminate | intros X; discriminate].
    * split; [intros v Hv; destruct (Hk v Hv) as [X _]; congruence | intros X; discriminate].
Qed.

(* fresh poll_send hands off: slot.take() *)
Lemma WF_sent H F SQ RQ f r0 :
  WFc H F SQ RQ -> aget f F = Some r0 -> f_side r0 = Tx -> f_reg r0 = false ->
  WFc H (aupd f fut_sent F) SQ RQ.
Proof.
  intros W Hg0 Hs0 Hr0. apply (WF_aupd_unqueued _ _ _ _ _ _ r0); auto.
  - eapply not_in_sq; [exact W|exact Hg0|left; exact Hr0].
  - eapply not_in_rq; [exact W|exact Hg0|left; exact Hr0].
  - destruct (wf_fut _ _ _ _ W f r0 Hg0) as [Hk Hh].
    unfold fut_ok. cbn [fut_sent f_side f_cell f_st f_reg f_h f_val]. split; [|exact Hh].
    rewrite Hs0. split; [left; reflexivity|]. intros X; congruence.
Qed.

(** Drop of a future: its record, if any, leaves the queues *)
Lemma WF_drop H F SQ RQ f :
  WFc H F SQ RQ -> WFc H (adel f F) (qdel f SQ) (qdel f RQ).
Proof.
  intros W. pose proof W as [A B C D E G I J].
  apply (WF_frame _ _ _ _ _ _ _ (N.eqb f) W); try (apply keys_adel_nodup; assumption).
  - destruct I as [->| ->]; [left|right]; reflexivity.
  - intros f' Hc. apply N.eqb_neq in Hc. rewrite aget_adel_neq, !qhas_qdel_neq by congruence. auto.
  - intros f' Hc. apply N.eqb_eq in Hc. subst f'. rewrite aget_adel_eq by exact A.
    split; [|split; [|discriminate]]; intros X; apply qhas_true in X;
      [destruct (keys_adel_notin _ _ C X)|destruct (keys_adel_notin _ _ D X)].
Qed.

Ltac wfsimp := unfold WF in *; cbn [hs fs sq rq scnt rcnt set_hs set_fs set_sq set_rq set_scnt set_rcnt
                                    handoff_to_receiver mark_closed] in *.

(* a future is recorded in its own side's queue only, and only while it is registered and WAITING *)
Lemma unqueued s f r0 :
  WF s -> aget f (fs s) = Some r0 ->
  (f_reg r0 = true -> f_st r0 = WAITING -> qhas f (match f_side r0 with Tx => sq s | Rx => rq s end) = false) ->
  qhas f (sq s) = false /\ qhas f (rq s) = false.
Proof.
  intros W Hg Hq.
  pose proof (not_in_sq _ _ _ _ W f r0 Hg) as S. pose proof (not_in_rq _ _ _ _ W f r0 Hg) as R.
  destruct (f_reg r0); [|split; [apply S|apply R]; left; reflexivity].
  destruct (f_st r0); try (split; [apply S|apply R]; right; left; discriminate).
  destruct (f_side r0); split; auto.
Qed.

(* so cancel_remove has nothing to do in the other cases *)
Lemma drop_fut_state s f r0 :
  WF s -> aget f (fs s) = Some r0 ->
  fst (fst (drop_fut s f r0))
  = mkS (hs s) (adel f (fs s)) (qdel f (sq s)) (qdel f (rq s)) (scnt s) (rcnt s).
Proof.
  intros W Hg. unfold drop_fut, cancel_cas.
  assert (Q : forall q, qhas f q = false -> qdel f q = q).
  { intros q Hq. apply adel_absent. unfold qhas, ahas in Hq. destruct (aget f q); [discriminate|reflexivity]. }
  destruct (f_reg r0 && is_waiting (f_st r0)) eqn:Hc; cbn [fst].
  - unfold cancel_remove.
    destruct (f_side r0) eqn:Hsd; cbn [fs sq rq hs scnt rcnt set_fs set_sq set_rq]; rewrite adel_aupd.
    + rewrite (Q (rq s)); [reflexivity|]. exact (not_in_rq _ _ _ _ W f r0 Hg (or_intror (or_intror Hsd))).
    + rewrite (Q (sq s)); [reflexivity|]. exact (not_in_sq _ _ _ _ W f r0 Hg (or_intror (or_intror Hsd))).
  - destruct (unqueued s f r0 W Hg) as [Q1 Q2]; [|unfold set_fs; rewrite (Q _ Q1), (Q _ Q2); reflexivity].
    intros Hr Hst. rewrite Hr, Hst in Hc. discriminate.
Qed.

Lemma WF_hs_aupd s h g :
  WF s -> (forall x, h_side (g x) = h_side x) -> WF (set_hs s (aupd h g (hs s))).
Proof.
  intros W Hg. wfsimp. eapply WF_hs; [exact W| |].
  - rewrite keys_aupd. exact (wf_hs _ _ _ _ W).
  - intros f r _ hd Hh. rewrite aget_aupd. deq h (f_h r).
    + rewrite Hh. exists (g hd). split; [reflexivity|apply Hg].
    + exists hd. split; [exact Hh|reflexivity].
Qed.

Lemma WF_hs_app s x : WF s -> ahas (fst x) (hs s) = false -> WF (set_hs s (hs s ++ [x])).
Proof.
  intros W Hx. wfsimp. eapply WF_hs; [exact W| |].
  - rewrite map_app. apply NoDup_snoc; [exact (wf_hs _ _ _ _ W)|]. apply ahas_false. exact Hx.
  - intros f r0 _ hd0 Hh0. exists hd0. split; [|reflexivity]. rewrite aget_app, Hh0. reflexivity.
Qed.

Lemma borrowed_false s h f r :
  borrowed s h = false -> aget f (fs s) = Some r -> f_h r <> h.
Proof.
  unfold borrowed. intros Hb Hg He. apply aget_Some_In in Hg.
  assert (X : existsb (fun p => N.eqb (f_h (snd p)) h) (fs s) = true).
  { apply existsb_exists. exists (f, r). split; [exact Hg|]. cbn. apply N.eqb_eq. exact He. }
  congruence.
Qed.

Lemma WF_hs_adel s h :
  WF s -> (forall f r, aget f (fs s) = Some r -> f_h r <> h) -> WF (set_hs s (adel h (hs s))).
Proof.
  intros W Hb. wfsimp. eapply WF_hs; [exact W| |].
  - apply keys_adel_nodup. exact (wf_hs _ _ _ _ W).
  - intros f r0 Hg hd0 Hh0. exists hd0. split; [|reflexivity].
    rewrite aget_adel_neq; [exact Hh0|]. intros Hx. exact (Hb f r0 Hg (eq_sym Hx)).
Qed.

Lemma closes_WF s sd s' r e : WF s -> closes s sd s' r e -> WF s'.
Proof.
  intros W [ ]; wfsimp; try exact W; [apply WF_disc_receivers|apply WF_disc_senders]; exact W.
Qed.

(* drop_sender / drop_receiver change no key and no future's handle *)
Lemma closes_keys s sd s' r e :
  closes s sd s' r e ->
  map fst (hs s') = map fst (hs s)
  /\ forall f r0, aget f (fs s') = Some r0 -> exists r1, aget f (fs s) = Some r1 /\ f_h r1 = f_h r0.
Proof.
  assert (X : forall q f r0 F, aget f (disc_all q F) = Some r0 ->
              exists r1, aget f F = Some r1 /\ f_h r1 = f_h r0).
  { intros q f r0 F Hg. rewrite aget_disc_all in Hg. destruct (qhas f q); [|eauto].
    destruct (aget f F) as [r1|]; [|discriminate]. inversion Hg. eauto. }
  intros [ ]; (split; [reflexivity|]); cbn [fs]; eauto.
Qed.

Lemma h_live_side_Some s h sd hd :
  h_live_side s h sd = Some hd -> aget h (hs s) = Some hd /\ h_side hd = sd.
Proof.
  unfold h_live_side. destruct (aget h (hs s)) as [x|]; [|discriminate].
  destruct (h_side x) eqn:E; destruct sd; intros X; inversion X; subst; split; congruence.
Qed.

Lemma WF_mk s f r0 :
  WF s -> ahas f (fs s) = false ->
  (exists hd, aget (f_h r0) (hs s) = Some hd /\ h_side hd = f_side r0) ->
  f_reg r0 = false ->
  match f_side r0 with Tx => f_cell r0 = Some (f_val r0) | Rx => f_cell r0 = None end ->
  WF (set_fs s (fs s ++ [(f, r0)])).
Proof.
  intros W Hf Hh Hr Hc. wfsimp. pose proof W as [A B C D E G I J].
  assert (Hn : aget f (fs s) = None) by (unfold ahas in Hf; destruct (aget f (fs s)); [discriminate|reflexivity]).
  apply (WF_frame _ _ _ _ _ _ _ (N.eqb f) W); auto.
  - rewrite map_app. apply NoDup_snoc; [exact A|]. apply aget_None_key. exact Hn.
  - intros f' Hc'. apply N.eqb_neq in Hc'. rewrite aget_app. cbn [aget].
    destruct (aget f' (fs s)); [|destruct (N.eqb_spec f' f); [congruence|]]; auto.
  - intros f' Hc'. apply N.eqb_eq in Hc'. subst f'. rewrite aget_app, Hn. cbn [aget]. rewrite N.eqb_refl.
    split; [|split].
    + intros X. destruct (sq_member _ _ _ _ W f X) as [r [Y _]]. congruence.
    + intros X. destruct (rq_member _ _ _ _ W f X) as [r [Y _]]. congruence.
    + intros r Hg. inversion Hg; subst r. unfold fut_ok. split; [|exact Hh]. destruct (f_side r0).
      * split; [right; exact Hc|]. intros Y; congruence.
      * split; [intros v Hv; congruence | intros Y; congruence].
Qed.

Theorem step_WF c s o s' r e : WF s -> step c s o = (s', r, e) -> WF s'.
Proof.
  intros W Hs. apply step_inv in Hs. destruct Hs; try exact W.
  - (* T_handoff *) wfsimp. rewrite Hrq in W. exact (WF_handoff _ _ _ _ _ _ v W).
  - (* T_take *) wfsimp. rewrite Hsq in W. exact (WF_take _ _ _ _ _ _ W).
  - (* T_timeout *) wfsimp. destruct (multi_rx c); [exact W|].
    destruct W as [A B C D E G I J]. constructor; try assumption; [constructor|intros f w []|right; reflexivity].
  - (* T_close *) refine (closes_WF _ _ _ _ _ _ Hk). apply WF_hs_aupd; [exact W|reflexivity].
  - (* T_droph_closed *) apply WF_hs_adel; [exact W|]. intros f r. apply borrowed_false. exact Hb.
  - (* T_droph *)
    assert (W1 : WF s1) by (refine (closes_WF _ _ _ _ _ _ Hk); apply WF_hs_aupd; [exact W|reflexivity]).
    apply WF_hs_adel; [exact W1|]. intros f r1 Hg1.
    destruct (proj2 (closes_keys _ _ _ _ _ Hk) f r1 Hg1) as [r2 [Hg2 <-]].
    exact (borrowed_false _ _ _ _ Hb Hg2).
  - (* T_clone_closed *) apply WF_hs_app; assumption.
  - (* T_clone_open *) destruct (h_side hd); apply (WF_hs_app s (h', _)); assumption.
  - (* T_conv *) apply WF_hs_aupd; [exact W|reflexivity].
  - (* T_mksend *) apply h_live_side_Some in Hl. apply WF_mk; cbn; auto. exists hd. exact Hl.
  - (* T_mkrecv *) apply h_live_side_Some in Hl. apply WF_mk; cbn; auto. exists hd. exact Hl.
  - (* T_poll_handoff *) wfsimp. rewrite Hrq in W. apply WF_handoff with (w := w'). eapply WF_sent; eauto.
  - (* T_park_tx *) wfsimp. rewrite Hrq in W |- *. eapply WF_park_send; eauto. congruence.
  - (* T_park_rx *) wfsimp. rewrite Hsq in W |- *. eapply WF_park_recv; eauto.
  - (* T_repoll_tx *) wfsimp. apply (WF_repoll _ _ _ _ _ _ _ W); [apply keys_aupd|reflexivity].
  - (* T_repoll_rx *) wfsimp. apply (WF_repoll _ _ _ _ _ _ _ W); [reflexivity|apply keys_aupd].
  - (* T_unreg *) destruct (unqueued s f r0 W Hg (fun _ => Hq)) as [Q1 Q2]. wfsimp.
    eapply WF_unreg; eauto.
  - (* T_unreg_ack *) destruct (unqueued s f r0 W Hg) as [Q1 Q2]; [congruence|]. wfsimp.
    eapply WF_unreg; eauto; congruence.
  - (* T_unreg_val *) destruct (unqueued s f r0 W Hg) as [Q1 Q2]; [congruence|]. wfsimp.
    eapply WF_unreg; eauto; congruence.
  - (* T_dropf *) rewrite (drop_fut_state _ _ _ W Hg). wfsimp. apply WF_drop, W.
Qed.

Theorem run_WF c ops : forall s s' tr, WF s -> run c s ops = (s', tr) -> WF s'.
Proof.
  induction ops as [|o t IH]; intros s s' tr W Hr; cbn [run] in Hr.
  - inversion Hr; subst. exact W.
  - destruct (step c s o) as [[s1 r1] e1] eqn:Hs.
    destruct (run c s1 t) as [s2 tr2] eqn:Hr2. inversion Hr; subst.
    eapply IH; [|exact Hr2]. eapply step_WF; eauto.
Qed.
