(* Proofs/SnapshotProofs.v — restore (snapshot c): same live key -> (value, cost)
   mapping, current_cost = sum of the restored costs, TTL lifetimes carried
   over exactly; the TTI lifetime is not (refuted clause). *)
From Fibre Require Import Common.Base Cache.PolicySpec Cache.PolicyLru Cache.Iter Cache.Snapshot
     Proofs.IterProofs.
From Coq Require Import ZifyBool ZifyNat ZifyN.

Lemma sumN_app a b : sumN (a ++ b) = sumN a + sumN b.
Proof. induction a as [|x t IH]; cbn [app sumN]; [lia|rewrite IH; lia]. Qed.

Lemma sumN_perm a b : Permutation a b -> sumN a = sumN b.
Proof. induction 1; cbn [sumN]; lia. Qed.

Lemma nth_map_seq {A} (F : nat -> A) (n j : nat) (d : A) :
  (j < n)%nat -> nth j (map F (seq 0 n)) d = F j.
Proof.
  intros H. rewrite (nth_indep _ d (F 0%nat)) by (rewrite map_length, seq_length; exact H).
  rewrite map_nth. rewrite seq_nth by exact H. reflexivity.
Qed.

Lemma shard_idx_lt n k : (0 < n)%nat -> (shard_idx n k < n)%nat.
Proof.
  intros H. unfold shard_idx.
  assert (k mod N.of_nat n < N.of_nat n) by (apply N.mod_lt; lia). lia.
Qed.

(* keys of distinct shards are distinct: no key twice in the whole map *)
Lemma NoDup_concat_idx (g : N -> nat) : forall (l : list (list entry)) (off : nat),
  (forall j, (j < length l)%nat ->
     NoDup (map ekey (nth j l [])) /\ forall e, In e (nth j l []) -> g (ekey e) = (off + j)%nat) ->
  NoDup (map ekey (concat l)).
Proof.
  induction l as [|a t IH]; intros off H; cbn [concat map]; [constructor|].
  rewrite map_app. apply NoDup_app_intro.
  - apply (H 0%nat). cbn [length]. lia.
  - apply (IH (S off)). intros j Hj. specialize (H (S j)). cbn [length nth] in H.
    destruct H as [H1 H2]; [lia|]. split; [exact H1|]. intros e He. rewrite (H2 e He). lia.
  - intros k Hk Hk2.
    apply in_map_iff in Hk. destruct Hk as [e [Hek He]].
    apply in_map_iff in Hk2. destruct Hk2 as [e2 [Hek2 He2]].
    apply in_concat in He2. destruct He2 as [sh [Hsh He2]].
    destruct (In_nth t sh [] Hsh) as [j [Hj Hn]].
    destruct (H 0%nat) as [_ H0]; [cbn [length]; lia|]. cbn [nth] in H0.
    destruct (H (S j)) as [_ HS]; [cbn [length]; lia|]. cbn [nth] in HS. rewrite Hn in HS.
    specialize (H0 e He). specialize (HS e2 He2). rewrite Hek in H0. rewrite Hek2 in HS. lia.
Qed.

Lemma wf_NoDup_concat shards : wf_from 0 shards -> NoDup (map ekey (concat shards)).
Proof.
  intros H. apply (NoDup_concat_idx (shard_idx (length shards)) shards 0%nat).
  intros j Hj. destruct (H j) as [H1 H2]; [lia|]. split; [exact H1|exact H2].
Qed.

Lemma upsert_absent e m : ~ In (ekey e) (map ekey m) -> upsert e m = (m ++ [e], None).
Proof.
  induction m as [|h t IH]; cbn [upsert map app]; intros H; [reflexivity|].
  destruct (N.eqb_spec (ekey h) (ekey e)) as [Hk|Hk]; [exfalso; apply H; left; exact Hk|].
  rewrite IH by (intros Hi; apply H; right; exact Hi). reflexivity.
Qed.

Lemma fold_upsert_NoDup : forall l acc,
  NoDup (map ekey (acc ++ l)) ->
  fold_left (fun m e => fst (upsert e m)) l acc = acc ++ l.
Proof.
  induction l as [|e t IH]; intros acc H; cbn [fold_left]; [rewrite app_nil_r; reflexivity|].
  rewrite upsert_absent.
  - cbn [fst]. rewrite IH; rewrite <- app_assoc; [reflexivity|exact H].
  - rewrite map_app in H. cbn [map] in H. apply NoDup_remove_2 in H.
    intros Hi. apply H. apply in_or_app. left. exact Hi.
Qed.

Lemma restore_shard_eq n i es :
  NoDup (map ekey es) ->
  restore_shard n i es = filter (fun e => Nat.eqb (shard_idx n (ekey e)) i) es.
Proof.
  intros H. unfold restore_shard. rewrite fold_upsert_NoDup; [reflexivity|].
  cbn [app]. apply NoDup_map_filter. exact H.
Qed.

Definition kvc (e : entry) : N * N * N := (ekey e, eval e, ecost e).

Definition wf (c : cache) : Prop := (0 < length (c_shs c))%nat /\ wf_from 0 (maps c).

(* TTL lifetime left at time t (None = no TTL) *)
Definition ttl_left (t : N) (e : entry) : option N :=
  if N.eqb (eexp e) 0 then None else Some (eexp e - t).

(* lifetime left at time t, all causes: TTL and idle timeout (None = unlimited) *)
Definition omin (a b : option N) : option N :=
  match a, b with
  | None, x => x
  | x, None => x
  | Some x, Some y => Some (N.min x y)
  end.

Definition life_left (tti : option N) (t : N) (e : entry) : option N :=
  omin (ttl_left t e) (match tti with Some d => Some (ela e + d - t) | None => None end).

(* a <= b with None = infinity *)
Definition ole (a b : option N) : Prop :=
  match a, b with
  | _, None => True
  | None, Some _ => False
  | Some x, Some y => x <= y
  end.

Lemma insert_by_key_perm p l : Permutation (insert_by_key p l) (p :: l).
Proof.
  induction l as [|h t IH]; cbn [insert_by_key]; [apply Permutation_refl|].
  destruct (N.leb (pkey p) (pkey h)); [apply Permutation_refl|].
  eapply Permutation_trans; [apply perm_skip; exact IH|apply perm_swap].
Qed.

Lemma sort_by_key_perm l : Permutation (sort_by_key l) l.
Proof.
  induction l as [|h t IH]; cbn [sort_by_key fold_right]; [constructor|].
  eapply Permutation_trans; [apply insert_by_key_perm|]. constructor. exact IH.
Qed.

(* [ps] is the snapshot's entry list in any order: a serialized snapshot is a bag
   of entries (the D1 harness sorts it by key, a plain round trip keeps it) *)
Section Restore.
  Variable c : cache.
  Variable ps : list pentry.
  Variable now' : N.
  Variable ttl' tti' : option N.
  Hypothesis Hwf : wf c.
  Hypothesis Hperm : Permutation ps (s_entries (snapshot c)).

  Let L := filter (live (c_tti c) (c_now c)) (concat (maps c)).
  Let conv (e : entry) : entry := entry_of_p now' tti' (pentry_of (c_now c) e).
  Let es := map (entry_of_p now' tti') ps.
  Let c' := restore (mkSnap ps (c_cap c) (length (c_shs c))) now' ttl' tti'.
  Let n := length (c_shs c).

  Lemma conv_key e : ekey (conv e) = ekey e. Proof. reflexivity. Qed.
  Lemma conv_kvc e : kvc (conv e) = kvc e. Proof. reflexivity. Qed.

  Lemma L_NoDup : NoDup (map ekey L).
  Proof. apply NoDup_map_filter. apply wf_NoDup_concat. apply Hwf. Qed.

  Lemma es_perm : Permutation es (map conv L).
  Proof.
    unfold es. eapply Permutation_trans; [apply Permutation_map; exact Hperm|].
    unfold snapshot. cbn [s_entries]. fold (maps c). fold L. rewrite map_map. apply Permutation_refl.
  Qed.

  Lemma es_NoDup : NoDup (map ekey es).
  Proof.
    eapply Permutation_NoDup; [apply Permutation_sym; apply Permutation_map; exact es_perm|].
    rewrite map_map. rewrite (map_ext _ ekey) by (intros; apply conv_key). exact L_NoDup.
  Qed.

  (* the restored shards: map, policy, empty buffer *)
  Lemma restore_shs :
    c_shs c' = map (fun i => mkSh (filter (fun e => Nat.eqb (shard_idx n (ekey e)) i) es)
                                  (restore_policy (c_cap c) n i es) []) (seq 0 n).
  Proof.
    unfold c', restore. cbn [c_shs s_entries s_shards s_cap]. fold es. fold n.
    apply map_ext. intros i. rewrite restore_shard_eq by exact es_NoDup. reflexivity.
  Qed.

  Lemma restore_maps :
    maps c' = map (fun i => filter (fun e => Nat.eqb (shard_idx n (ekey e)) i) es) (seq 0 n).
  Proof. unfold maps. rewrite restore_shs, map_map. reflexivity. Qed.

  Lemma restore_len : length (c_shs c') = n.
  Proof. rewrite restore_shs, map_length, seq_length. reflexivity. Qed.

  Lemma restore_wf : wf c'.
  Proof.
    destruct Hwf as [Hn _]. split; [rewrite restore_len; exact Hn|].
    intros j Hj. unfold maps in Hj. rewrite map_length, restore_len in Hj.
    assert (Hlen : length (maps c') = n) by (unfold maps; rewrite map_length; apply restore_len).
    rewrite Hlen. rewrite restore_maps. rewrite nth_map_seq by lia. split.
    - apply NoDup_map_filter. exact es_NoDup.
    - intros e He. apply filter_In in He. destruct He as [_ He]. apply Nat.eqb_eq in He. exact He.
  Qed.

  Lemma restore_concat_es : Permutation (concat (maps c')) es.
  Proof.
    destruct Hwf as [Hn _]. fold n in Hn.
    apply NoDup_Permutation.
    - apply (NoDup_map_inv ekey). apply wf_NoDup_concat. apply restore_wf.
    - apply (NoDup_map_inv ekey). exact es_NoDup.
    - intros e. rewrite restore_maps. split.
      + intros H. apply in_concat in H. destruct H as [sh [Hsh He]].
        apply in_map_iff in Hsh. destruct Hsh as [i [<- _]]. apply filter_In in He. apply He.
      + intros H. apply in_concat. exists (filter (fun e0 => Nat.eqb (shard_idx n (ekey e0)) (shard_idx n (ekey e))) es).
        split.
        * apply in_map_iff. exists (shard_idx n (ekey e)). split; [reflexivity|].
          apply in_seq. pose proof (shard_idx_lt n (ekey e) Hn). lia.
        * apply filter_In. split; [exact H|apply Nat.eqb_refl].
  Qed.

  Lemma restore_concat_perm : Permutation (concat (maps c')) (map conv L).
  Proof. eapply Permutation_trans; [exact restore_concat_es|exact es_perm]. Qed.

  (* same key -> (value, cost) mapping as the live part of the original *)
  Theorem restore_mapping :
    Permutation (map kvc (concat (maps c'))) (map kvc L).
  Proof.
    eapply Permutation_trans; [apply Permutation_map; apply restore_concat_perm|].
    rewrite map_map. rewrite (map_ext _ kvc) by (intros; apply conv_kvc). apply Permutation_refl.
  Qed.

  Lemma restored_origin e' : In e' (concat (maps c')) -> exists e, In e L /\ e' = conv e.
  Proof.
    intros H. apply (Permutation_in _ restore_concat_perm) in H.
    apply in_map_iff in H. destruct H as [e [He Hi]]. exists e. split; [exact Hi|symmetry; exact He].
  Qed.

  (* every restored entry is live at the moment of the restore *)
  Theorem restore_all_live :
    tti' <> Some 0 -> forall e', In e' (concat (maps c')) -> live tti' now' e' = true.
  Proof.
    intros Ht e' H. destruct (restored_origin e' H) as [e [He ->]].
    unfold L in He. apply filter_In in He. destruct He as [_ Hl].
    unfold live, is_expired in *. unfold conv, entry_of_p, pentry_of. cbn [eexp ela pttl].
    destruct (N.eqb_spec (eexp e) 0) as [Hz|Hz].
    - destruct tti' as [d|]; [|reflexivity]. assert (d <> 0) by congruence. lia.
    - destruct (N.leb_spec (c_now c) (eexp e)) as [Hle|Hgt].
      + destruct tti' as [d|]; [assert (d <> 0) by congruence|]; destruct (c_tti c); lia.
      + destruct (c_tti c); lia.
  Qed.

  (* metrics.current_cost of the restored cache = sum of the costs now resident *)
  Theorem restore_cost :
    c_cost c' = sumN (map ecost (concat (maps c'))) /\ c_cost c' = sumN (map ecost L).
  Proof.
    assert (H2 : c_cost c' = sumN (map ecost L)).
    { unfold c', restore. cbn [c_cost s_entries].
      rewrite (sumN_perm _ _ (Permutation_map pcost Hperm)).
      unfold snapshot. cbn [s_entries]. fold (maps c). fold L. rewrite map_map. reflexivity. }
    split; [|exact H2]. rewrite H2.
    rewrite (sumN_perm _ _ (Permutation_map ecost restore_concat_perm)).
    rewrite map_map. reflexivity.
  Qed.

  (* the TTL lifetime left is carried over exactly *)
  Theorem restore_ttl e : In e L -> ttl_left now' (conv e) = ttl_left (c_now c) e.
  Proof.
    intros He. unfold L in He. apply filter_In in He. destruct He as [_ Hl].
    unfold live, is_expired in Hl. unfold ttl_left, conv, entry_of_p, pentry_of. cbn [eexp pttl].
    destruct (N.eqb_spec (eexp e) 0) as [Hz|Hz]; [reflexivity|].
    destruct (N.leb_spec (c_now c) (eexp e)) as [Hle|Hgt].
    - destruct (N.eqb_spec (now' + (eexp e - c_now c)) 0) as [H0|H0].
      + destruct (c_tti c); lia.
      + f_equal. lia.
    - destruct (c_tti c); lia.
  Qed.

  (* without an idle timeout in the original, no restored lifetime is longer *)
  Theorem restore_life_no_tti e :
    c_tti c = None -> In e L -> ole (life_left tti' now' (conv e)) (life_left (c_tti c) (c_now c) e).
  Proof.
    intros Hn He. unfold life_left. rewrite (restore_ttl e He), Hn.
    destruct (ttl_left (c_now c) e) as [x|]; destruct tti' as [d|]; cbn [omin ole]; try exact I; lia.
  Qed.

  (* ... whatever time_to_live / time_to_idle the restoring builder has: every entry of the
     restored cache comes from a live entry of the original with the same key, value and
     cost, and has exactly that entry's TTL lifetime left (none if it had none) *)
  Theorem restore_ttl_any_builder e' :
    In e' (concat (maps c')) ->
    exists e, In e L /\ kvc e' = kvc e /\ ttl_left now' e' = ttl_left (c_now c) e.
  Proof.
    intros H. destruct (restored_origin e' H) as [e [He ->]]. exists e.
    split; [exact He|]. split; [apply conv_kvc|apply restore_ttl; exact He].
  Qed.

  Theorem restore_cap : c_cap c' = c_cap c.
  Proof. reflexivity. Qed.
End Restore.
