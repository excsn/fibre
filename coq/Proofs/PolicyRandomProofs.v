(* Proofs/PolicyRandomProofs.v — the full contract for RandomP, for every RNG
   (every state type, every choice function, every seed). *)
From Fibre Require Import Common.Base Cache.PolicySpec Cache.PolicySieve Cache.PolicyRandom
     Proofs.PolicyCommon.

Section RandomProofs.
  Variable rs : Type.
  Variable choose : rs -> list N -> nat * rs.
  Variable r0 : rs.

  (* whatever the RNG answers, the victim is a current item and exactly it is removed *)
  Lemma rnd_one_some (st : rnd rs) v st' :
    NoDup (keys (fst st)) -> rnd_one rs choose st = Some (v, st') ->
    Permutation (fst st) (ekc v :: fst st').
  Proof.
    unfold rnd_one. destruct st as [items r]. cbn [fst].
    intros Hnd. destruct items as [|d t] eqn:Ei; [discriminate|]. rewrite <- Ei in *.
    destruct (choose r (keys items)) as [i r'].
    destruct (nth (Nat.modulo i (length items)) items d) as [k c] eqn:En.
    intros H. inversion H; subst v st'. cbn [fst ekc].
    assert (Hin : In (k, c) items).
    { rewrite <- En. apply nth_In. apply Nat.mod_upper_bound. rewrite Ei. cbn [length]. lia. }
    apply Permutation_sym. apply perm_rm_cons; [exact Hnd|].
    apply NoDup_lookup; assumption.
  Qed.

  Lemma rnd_one_none (st : rnd rs) : rnd_one rs choose st = None -> fst st = [].
  Proof.
    unfold rnd_one. destruct st as [items r]. cbn [fst].
    destruct items as [|d t]; [reflexivity|].
    destruct (choose r (keys (d :: t))) as [i r'].
    destruct (nth (Nat.modulo i (length (d :: t))) (d :: t) d) as [k c]. discriminate.
  Qed.

  Lemma rnd_step_ok st cl : NoDup (keys (fst st)) ->
    let '(st', o) := rnd_step rs choose st cl in
    step_ok admit_full (fst st) cl o (fst st').
  Proof.
    intros H. destruct st as [items r]. cbn [fst] in H.
    destruct cl as [k c|k c|k|n|]; cbn [rnd_step step_ok step_okG access_keep fst].
    - apply Permutation_refl.
    - apply Permutation_refl.
    - apply Permutation_refl.
    - destruct (evict_loop (rnd_one rs choose) (length items) n 0 (items, r) []) as [[st' vs] f] eqn:E.
      exact (evict_loop_ok _ fst rnd_one_some rnd_one_none _ _ (items, r) _ _ _ H (le_n _) E).
    - reflexivity.
  Qed.

  Theorem random_contract : contract admit_full (RandomP rs choose r0).
  Proof.
    apply contractG_lift_nodup.
    - exact access_keep_NoDup.
    - exact admit_full_NoDup.
    - constructor.
    - exact rnd_step_ok.
  Qed.
End RandomProofs.

(* the replay instance used by the D1 driver is one of the instances quantified over *)
Corollary random_replay_contract choices : contract admit_full (RandomReplayP choices).
Proof. apply random_contract. Qed.
