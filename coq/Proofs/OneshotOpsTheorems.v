(* Proofs/OneshotOpsTheorems.v — property theorems of the K2 oneshot model, derived from `OInv`
   (Proofs/OneshotOpsProofs.v); all histories, every cfg unless stated. *)
From Coq Require Import List Arith ZArith Bool Lia Permutation.
From Fibre Require Import Chan.OneshotOps Proofs.OneshotOpsProofs.
Import ListNotations.
Open Scope nat_scope.

Definition oreach (cf : ocfg) (ops : list oop) : ost := fst (orun cf oinit ops).
Definition ores_of (x : ost * oout) : ores := fst (snd x).

Lemma oinv_init cf : OInv cf oinit.
Proof.
  constructor; cbn; intros; try discriminate; try congruence; auto.
  all: try (unfold wf_h; cbn; split; [constructor; [intros []|constructor] | intros h [E|[]]; subst; lia]).
  all: try (match goal with |- context [?x <? 0] => destruct (Nat.ltb_spec x 0); [lia|reflexivity] end).
Qed.

Lemma ostep_fst cf s o : fst (ostep cf s o) = fst (oexec cf (set_oev [] s) o).
Proof. unfold ostep. destruct (oexec cf (set_oev [] s) o). reflexivity. Qed.
Lemma ostep_res cf s o : ores_of (ostep cf s o) = snd (oexec cf (set_oev [] s) o).
Proof. unfold ostep, ores_of. destruct (oexec cf (set_oev [] s) o). reflexivity. Qed.

Lemma orun_cons cf s o r : fst (orun cf s (o :: r)) = fst (orun cf (fst (ostep cf s o)) r).
Proof. cbn [orun]. destruct (ostep cf s o) as [s1 x]. cbn [fst]. destruct (orun cf s1 r). reflexivity. Qed.

Lemma orun_preserves cf (P : ost -> Prop) :
  (forall s o, P s -> P (fst (ostep cf s o))) -> forall ops s, P s -> P (fst (orun cf s ops)).
Proof. intros HP. induction ops as [|o r IH]; intros s H; [exact H|]. rewrite orun_cons. apply IH, HP, H. Qed.

Lemma oinv_step cf s o : OInv cf s -> OInv cf (fst (ostep cf s o)).
Proof. intros H. rewrite ostep_fst. apply oinv_exec. constructor; apply H. Qed.

Lemma oinv_run cf ops s : OInv cf s -> OInv cf (fst (orun cf s ops)).
Proof. apply orun_preserves, oinv_step. Qed.

Lemma oreach_inv cf ops : OInv cf (oreach cf ops).
Proof. apply oinv_run, oinv_init. Qed.

Lemma oconservation_inv cf s : OInv cf s ->
  Permutation (orecv s ++ sent_val (ostate s) ++ oret s ++ odrop s) (seq 0 (onext s)).
Proof.
  intros H. apply (Permutation_count_occ Nat.eq_dec). intros x.
  pose proof (i_cons _ _ H x) as E. rewrite <- ocnt_seq in E. unfold ocnt in E.
  rewrite !count_occ_app. lia.
Qed.

(* C01 / C09: no id is lost, duplicated or received twice; once every handle is gone each id was received,
   handed back or dropped, exactly once *)
Theorem oneshot_received_once cf ops :
  let s := oreach cf ops in
  NoDup (orecv s) /\ (orecv s = [] \/ orecv s = oacc s) /\ length (oacc s) <= 1.
Proof.
  intros s. pose proof (oreach_inv cf ops : OInv cf s) as H. split; [|split; [apply (i_recv _ _ H) | apply (i_acc_len _ _ H)]].
  apply (NoDup_count_occ Nat.eq_dec). intros x. pose proof (i_cons _ _ H x) as E. unfold ocnt in E.
  destruct (x <? onext s); lia.
Qed.

Theorem oneshot_teardown cf s : OInv cf s ->
  snd_h s = [] -> rcv s = RcvGone ->
  sent_val (ostate s) = [] /\ futs s = [] /\
  Permutation (orecv s ++ oret s ++ odrop s) (seq 0 (onext s)) /\ NoDup (orecv s ++ oret s ++ odrop s).
Proof.
  intros H Hs Hr. pose proof (i_rdrop _ _ H) as Hd. rewrite Hr in Hd.
  assert (Hv : sent_val (ostate s) = []) by (destruct (i_rd_state _ _ H Hd) as [E|E]; rewrite E; reflexivity).
  assert (Hf : futs s = []).
  { destruct (futs s) eqn:E; [reflexivity|]. destruct (i_futs _ _ H) as [c Hc]; [rewrite E; discriminate | congruence]. }
  pose proof (oconservation_inv cf s H) as P. rewrite Hv in P.
  repeat split; auto. apply (Permutation_NoDup (Permutation_sym P)), seq_NoDup.
Qed.

(* C03: only the first send ever succeeds *)
Theorem oneshot_send_ok_iff cf s h :
  ores_of (ostep cf s (OSend h)) = OOk <->
  (find_h h (snd_h s) = Some false /\ rdrop s = false /\ ostate s = OEmpty).
Proof.
  rewrite ostep_res. cbn [oexec]. unfold do_osend. cbn.
  destruct (find_h h (snd_h s)) as [[|]|], (rdrop s), (ostate s); cbn;
    (split; [intros E | intros (A & B & C)]; (discriminate || auto)).
Qed.

(* case analysis of one operation: which operation, then every scrutinee of its definition, innermost first *)
Ltac osplit1 :=
  match goal with
  | |- context [match ?x with _ => _ end] =>
      match x with
      | context [match _ with _ => _ end] => fail 1
      | _ => destruct x eqn:?
      end
  end.
Ltac ocases o :=
  destruct o; cbn [oexec];
  unfold do_osend, do_oclose_s, do_oclone, do_odrop_s, do_oobs_s, do_otry_recv, core_try_recv, do_oclose_r,
    do_odrop_r, do_oobs_r, do_omk, do_opoll, do_odropfut;
  repeat osplit1.

(* the state never returns to STATE_EMPTY *)
Lemma dec_senders_nonempty cf s : ostate s <> OEmpty -> ostate (dec_senders cf s) <> OEmpty.
Proof.
  unfold dec_senders. destruct (ocount s =? 1)%Z; [|trivial].
  destruct (ostate s) eqn:Es, (rdrop s), (fix_taken_wake cf); cbn; rewrite ?Es; trivial; discriminate.
Qed.
Lemma oshared_drop_nonempty s : ostate s <> OEmpty -> ostate (oshared_drop_if s) <> OEmpty.
Proof. unfold oshared_drop_if. destruct (snd_h s), (rcv s), (ostate s); trivial; discriminate. Qed.
Lemma close_int_nonempty s : ostate (close_int_rcv s) <> OEmpty.
Proof. unfold close_int_rcv. destruct (ostate s) eqn:Es; cbn; rewrite ?Es; discriminate. Qed.

Lemma ostep_nonempty cf s o : ostate s <> OEmpty -> ostate (fst (ostep cf s o)) <> OEmpty.
Proof.
  rewrite ostep_fst. change (ostate s) with (ostate (set_oev [] s)). generalize (set_oev [] s). clear s.
  (* under the three helpers the new state is s, a stack of setters over s, or the receiver closing *)
  intros s N. ocases o; cbn [fst];
    repeat first [apply oshared_drop_nonempty | apply dec_senders_nonempty | apply close_int_nonempty];
    try exact N; cbn; try congruence; rewrite close_int_set_rcv; apply close_int_nonempty.
Qed.

Lemma osend_ok_nonempty cf s h :
  ores_of (ostep cf s (OSend h)) = OOk -> ostate (fst (ostep cf s (OSend h))) <> OEmpty.
Proof.
  intros H. apply oneshot_send_ok_iff in H. destruct H as (Hf & Hr & Es).
  rewrite ostep_fst. cbn [oexec]. unfold do_osend. cbn. rewrite Hf, Hr, Es.
  apply oshared_drop_nonempty, dec_senders_nonempty. discriminate.
Qed.

Lemma orun_app cf a b : forall s, fst (orun cf s (a ++ b)) = fst (orun cf (fst (orun cf s a)) b).
Proof. induction a as [|o r IH]; intros s; [reflexivity|]. cbn [app]. rewrite !orun_cons. apply IH. Qed.

Theorem oneshot_only_first_send cf ops1 h1 ops2 h2 :
  ores_of (ostep cf (oreach cf ops1) (OSend h1)) = OOk ->
  ores_of (ostep cf (oreach cf (ops1 ++ OSend h1 :: ops2)) (OSend h2)) <> OOk.
Proof.
  intros H1 H2. apply oneshot_send_ok_iff in H2. destruct H2 as (_ & _ & E). revert E.
  unfold oreach. rewrite orun_app, orun_cons.
  apply (orun_preserves cf _ (ostep_nonempty cf)), (osend_ok_nonempty cf _ h1 H1).
Qed.

(* C04: the disconnect protocol -- no value after Disconnected, every accepted value before it, sends after the
   receiver left fail, clones do not affect each other, closed handles reject *)
Definition o_is_val (r : ores) : bool := match r with OVal _ => true | _ => false end.

(* a value is handed out only to a receiver that is alive and has not closed itself, from STATE_SENT *)
Lemma oexec_val cf s o v : snd (oexec cf s o) = OVal v -> rcv s = RcvLive false /\ ostate s = OSent v.
Proof.
  ocases o; cbn [snd]; try discriminate; intros E; injection E as <-; auto.
Qed.

(* Disconnected is reported to a closed receiver, in STATE_CLOSED, or when no open sender is left and there is
   nothing to take *)
Lemma oexec_disc cf s o : snd (oexec cf s o) = ODisc ->
  rcv s = RcvLive true \/ ostate s = OClosed \/ (ocount s =? 0)%Z = true /\ (ostate s = OEmpty \/ ostate s = OTaken).
Proof.
  ocases o; cbn [snd]; try discriminate; auto.
Qed.

(* a receiver that was told Disconnected never obtains a value afterwards *)
Theorem oneshot_no_value_after_disc cf s o :
  OInv cf s -> o_disc s = true -> o_is_val (ores_of (ostep cf s o)) = false.
Proof.
  intros H Hd.
  rewrite ostep_res. destruct (snd (oexec cf (set_oev [] s) o)) eqn:E; try reflexivity.
  apply oexec_val in E. cbn in E. destruct E as [Er Es].
  destruct (i_disc _ _ H Hd) as [D|[D|D]]; [rewrite Er in D; discriminate | congruence | congruence].
Qed.

(* Disconnected is reported (to a receiver that did not close itself) only when nothing accepted is
   outstanding: every accepted value has been received *)
Theorem oneshot_value_before_disc cf s o :
  OInv cf s -> rcv s = RcvLive false -> ores_of (ostep cf s o) = ODisc -> oacc s = orecv s.
Proof.
  intros H Hr E. rewrite ostep_res in E. apply oexec_disc in E. cbn in E.
  destruct E as [E|[E|[Ec [E|E]]]].
  - congruence.
  - destruct (i_recv _ _ H) as [X|X]; rewrite X; [apply (i_closed _ _ H E) | reflexivity].
  - destruct (i_zero _ _ H (proj1 (Z.eqb_eq _ _) Ec) E).
  - symmetry. apply (i_taken _ _ H E). rewrite (i_rdrop _ _ H), Hr. reflexivity.
Qed.

Lemma oacc_shared_drop s : oacc (oshared_drop_if s) = oacc s.
Proof. unfold oshared_drop_if. destruct (snd_h s), (rcv s); reflexivity. Qed.
Lemma oacc_dec_senders cf s : oacc (dec_senders cf s) = oacc s.
Proof. unfold dec_senders. destruct (ocount s =? 1)%Z, (ostate s), (rdrop s), (fix_taken_wake cf); reflexivity. Qed.

(* a send through a handle that closed itself, or after the receiver left, fails with Closed(value) and accepts nothing *)
Lemma osend_closed cf s h c : find_h h (snd_h s) = Some c -> c = true \/ rdrop s = true ->
  snd (do_osend cf h s) = OClosedV (onext s) /\ oacc (fst (do_osend cf h s)) = oacc s.
Proof.
  intros Hf Hc. unfold do_osend. rewrite Hf. cbv zeta.
  destruct c; [|destruct Hc as [Hc|Hc]; [discriminate|rewrite Hc]]; cbn [fst snd]; (split; [reflexivity|]);
    rewrite oacc_shared_drop, ?oacc_dec_senders; reflexivity.
Qed.

(* after the receiver was closed or dropped every send fails with Closed(value) and accepts nothing *)
Theorem oneshot_send_after_receiver_left cf s h c :
  rdrop s = true -> find_h h (snd_h s) = Some c ->
  ores_of (ostep cf s (OSend h)) = OClosedV (onext s) /\
  oacc (fst (ostep cf s (OSend h))) = oacc s.
Proof.
  intros Hr Hf. rewrite ostep_res, ostep_fst. exact (osend_closed cf (set_oev [] s) h c Hf (or_intror Hr)).
Qed.

(* closing or dropping one sender clone while another open clone exists changes nothing for the others:
   the channel state is untouched, and the other handle is still there and open *)
Lemma find_other h h' l : h <> h' ->
  find_h h' (remove_h h l) = find_h h' l /\ find_h h' (set_closed_h h l) = find_h h' l.
Proof.
  intros Hn. induction l as [|[x c] t IH]; cbn; [auto|].
  destruct (Nat.eqb_spec x h) as [->|_]; cbn; [destruct (Nat.eqb_spec h h') | destruct (x =? h')]; tauto.
Qed.

Theorem oneshot_clone_isolation cf s h h' (o : oop) :
  OInv cf s -> h <> h' ->
  find_h h (snd_h s) = Some false -> find_h h' (snd_h s) = Some false ->
  o = OCloseS h \/ o = ODropS h ->
  ostate (fst (ostep cf s o)) = ostate s /\ rdrop (fst (ostep cf s o)) = rdrop s /\
  find_h h' (snd_h (fst (ostep cf s o))) = Some false.
Proof.
  intros H Hn Hh Hh' Ho. destruct (find_other h h' (snd_h s) Hn) as [Fr Fc]. rewrite Hh' in Fr, Fc.
  (* h' is still open once h is out of the table, so h was not the last open handle *)
  assert (Hne : (ocount s =? 1)%Z = false).
  { apply Z.eqb_neq. pose proof (opencnt_find_open _ _ Fr) as X.
    rewrite (proj1 (opencnt_upd h _ _ (proj1 (i_wf _ _ H)) Hh)), <- (i_cnt _ _ H) in X. lia. }
  rewrite ostep_fst. destruct Ho; subst o; cbn [oexec].
  - unfold do_oclose_s. cbn. rewrite Hh. unfold dec_senders. cbn. rewrite Hne. cbn. auto.
  - unfold do_odrop_s. cbn. rewrite Hh. unfold dec_senders. cbn. rewrite Hne.
    unfold oshared_drop_if. cbn. destruct (remove_h h (snd_h s)); [discriminate Fr|]. auto.
Qed.

(* a handle that was itself closed rejects further operations; close is idempotent *)
Theorem oneshot_closed_handle_rejects cf s :
  (forall h, find_h h (snd_h s) = Some true ->
     ores_of (ostep cf s (OSend h)) = OClosedV (onext s) /\
     oacc (fst (ostep cf s (OSend h))) = oacc s /\
     ores_of (ostep cf s (OCloseS h)) = OCloseErr) /\
  (rcv s = RcvLive true ->
     ores_of (ostep cf s OTryRecv) = ODisc /\ ores_of (ostep cf s OCloseR) = OCloseErr /\
     forall f w, mem_f f (futs s) = true -> ores_of (ostep cf s (OPoll f w)) = ODisc).
Proof.
  split.
  - intros h Hf. rewrite !ostep_res, ostep_fst. cbn [oexec].
    destruct (osend_closed cf (set_oev [] s) h true Hf (or_introl eq_refl)) as [A B].
    repeat split; [exact A | exact B |]. unfold do_oclose_s. cbn. rewrite Hf. reflexivity.
  - intros Hr. rewrite !ostep_res. cbn [oexec]. unfold do_otry_recv, do_oclose_r. cbn. rewrite Hr.
    repeat split. intros f w Hm. rewrite ostep_res. cbn [oexec]. unfold do_opoll. cbn. rewrite Hm, Hr. reflexivity.
Qed.

(* C06: wake-up of a Pending receive future, and cancellation *)
(* the most recent Pending poll is woken as soon as its own re-poll would resolve; on the code as it is
   this needs "the value has not been taken yet" (F-34-oneshot), on the repaired code it is unconditional.
   A receiver that closed itself is excluded. *)
Theorem oneshot_wake_inv cf s f w0 :
  OInv cf s -> o_pend s = Some (f, w0) -> rcv s = RcvLive false ->
  (fix_taken_wake cf = true \/ ostate s <> OTaken) ->
  (exists w, ores_of (ostep cf s (OPoll f w)) <> OPending) -> o_woken s = true.
Proof.
  intros H Hp Hr Hx [w Hq].
  destruct (o_woken s) eqn:Ew; [reflexivity|exfalso].
  destruct (i_wake _ _ H _ _ Hp Ew Hr) as (Hwk & Hst).
  pose proof (i_pend _ _ H _ _ Hp) as Hm.
  apply Hq. rewrite ostep_res. cbn [oexec]. unfold do_opoll. cbn. rewrite Hm, Hr. cbn.
  destruct Hst as [[E N]|[E N]]; rewrite E.
  - replace (ocount s =? 0)%Z with false by (symmetry; apply Z.eqb_neq; exact N). reflexivity.
  - destruct Hx as [Hx|Hx]; [|congruence].
    replace (ocount s =? 0)%Z with false by (symmetry; apply Z.eqb_neq; exact (N Hx)). reflexivity.
Qed.

Definition C06_oneshot_wake (cf : ocfg) : Prop :=
  forall ops f w0, let s := oreach cf ops in
  o_pend s = Some (f, w0) -> rcv s = RcvLive false ->
  (exists w, ores_of (ostep cf s (OPoll f w)) <> OPending) -> o_woken s = true.

Theorem oneshot_fixed_wake : C06_oneshot_wake ocfg_fixed.
Proof.
  intros ops f w0 s Hp Hr. exact (oneshot_wake_inv ocfg_fixed s f w0 (oreach_inv _ ops) Hp Hr (or_introl eq_refl)).
Qed.

(* F-34-oneshot: clone; send; try_recv takes the value; a second recv() future polls Pending (a sender
   clone is alive); the last sender leaves: no wake, although the future would resolve Disconnected *)
Theorem oneshot_repo_wake_refuted_F34 : ~ C06_oneshot_wake ocfg_repo.
Proof.
  intros H.
  specialize (H [OClone 0; OSend 0; OTryRecv; OMkRecv 1; OPoll 1 5; ODropS 1] 1 5 eq_refl eq_refl).
  assert (X : exists w, ores_of (ostep ocfg_repo
              (oreach ocfg_repo [OClone 0; OSend 0; OTryRecv; OMkRecv 1; OPoll 1 5; ODropS 1]) (OPoll 1 w)) <> OPending)
    by (exists 5; vm_compute; discriminate).
  specialize (H X). vm_compute in H. discriminate H.
Qed.

(* dropping a future is harmless: nothing but the future table and the ghost bookkeeping changes
   (ReceiveFuture has no Drop impl; the AtomicWaker keeps a clone of the waker, not a pointer to the future) *)
Theorem oneshot_drop_future_harmless cf s f :
  let s' := fst (ostep cf s (ODropFut f)) in
  ostate s' = ostate s /\ rdrop s' = rdrop s /\ ocount s' = ocount s /\ wk s' = wk s /\
  snd_h s' = snd_h s /\ rcv s' = rcv s /\
  oacc s' = oacc s /\ orecv s' = orecv s /\ oret s' = oret s /\ odrop s' = odrop s.
Proof.
  cbn zeta. rewrite ostep_fst. cbn [oexec]. unfold do_odropfut. cbn.
  destruct (mem_f f (futs s)); repeat split.
Qed.
