(* Proofs/HRwProofs.v — the C10 theorems for HybridRwLock (all thread counts, programs, schedules). *)
From Coq Require Import List NArith Arith Bool Lia.
From Fibre Require Import Common.Conc Sync.HMutex Sync.HRwLock Proofs.HMutexBase Proofs.HRwBase Proofs.HRwGuard.
Import ListNotations.

Definition RInv s := RInvA s /\ RInvB s /\ RInvD s.

Lemma RInv_init progs : RInv (rwinit progs).
Proof.
  unfold RInv. split; [|split].
  - unfold RInvA. cbn. repeat split; try tauto; try discriminate. constructor.
  - unfold RInvB. split; intro u; cbn; intro X; discriminate X.
  - unfold RInvD. cbn. split; intros _ u; [intros []|intros b []].
Qed.

Lemma RInv_step s t c s' e : RInv s -> rwstep s t c = Some (s', e) -> RInv s'.
Proof.
  intros (A & B & D) H. split; [|split].
  - eapply RInvA_step; eassumption.
  - eapply RInvB_step; eassumption.
  - eapply RInvD_step; eassumption.
Qed.

Theorem RInv_reachable progs s : reachable (rwsys progs) s -> RInv s.
Proof.
  apply (invariant_lift (rwsys progs) RInv).
  - apply RInv_init.
  - intros s0 t c s' e. apply RInv_step.
Qed.

Theorem rw_excl progs s :
  reachable (rwsys progs) s ->
  (wl s = true -> rd s = 0%N /\ rholders s = [] /\ exists h, wholders s = [h])
  /\ (wl s = false -> wholders s = [])
  /\ rd s = N.of_nat (length (rholders s)) /\ NoDup (rholders s)
  /\ (forall u, In u (wholders s) <-> holdsk WR (rpcs s u) = true)
  /\ (forall u, In u (rholders s) <-> holdsk RD (rpcs s u) = true)
  /\ (forall t u k, holdsk WR (rpcs s t) = true -> holdsk k (rpcs s u) = true -> t = u).
Proof.
  intros R. destruct (RInv_reachable _ _ R) as ((A1 & A2 & A3 & A4 & A5 & A6) & _).
  repeat apply conj; try assumption.
  - intros X. destruct (A5 X) as [Y Z]. rewrite A4, Z. repeat split. exact Y.
  - intros t u k Ht Hu. apply A1 in Ht.
    destruct (wl s) eqn:EW; [|rewrite (A6 eq_refl) in Ht; destruct Ht].
    destruct (A5 eq_refl) as [[h Hh] HR]. rewrite Hh in Ht. destruct Ht as [<-|[]].
    destruct k.
    + apply A2 in Hu. rewrite HR in Hu. destruct Hu.
    + apply A1 in Hu. rewrite Hh in Hu. destruct Hu as [<-|[]]. reflexivity.
Qed.

Corollary rw_critical_sections progs s t u k :
  reachable (rwsys progs) s -> rpcs s t = RCS WR -> rpcs s u = RCS k -> t = u.
Proof.
  intros R Ht Hu. destruct (rw_excl _ _ R) as (_ & _ & _ & _ & _ & _ & X).
  apply (X t u k); [rewrite Ht|rewrite Hu]; cbn; destruct k; reflexivity.
Qed.

Lemma rem1_length_le t l : length (rem1 t l) <= length l.
Proof.
  induction l as [|x r IH]; cbn [rem1 length]; [lia|]. destruct (Nat.eqb x t); cbn [length]; lia.
Qed.

(* A step that creates a read guard saw the word without WRITE_LOCKED and WITHOUT WRITER_PENDING;
   so (RInvD) every writer node linked at that moment belongs to a writer that has linked itself
   but not yet executed its fetch_or(WRITER_PENDING): from that fetch_or until the writer is
   unlinked no new reader acquires — by try_acquire_read, try_read, or the queue-section CAS. *)
Theorem rw_writer_gate progs s t c s' e :
  reachable (rwsys progs) s -> rwstep s t c = Some (s', e) ->
  length (rholders s') = S (length (rholders s)) ->
  wl s = false /\ wp s = false
  /\ forall u, In (u, true) (rqueue s) -> exists q, rpcs s u = RQFor q /\ rkind_q q = WR.
Proof.
  intros R H HL. destruct (RInv_reachable _ _ R) as (_ & _ & [D1 _]).
  assert (X : wl s = false /\ wp s = false).
  { rstep_cases H; rsimpl_goal; rewrite ?rflush_rholders in HL; rsimpl_in HL; try (exfalso; lia);
      try (exfalso; pose proof (rem1_length_le t (rholders s)); lia).
    all: match goal with E : ?X = true |- _ =>
           match X with context [negb (wl ?s0) && negb (wp ?s0)] =>
             destruct (wl s0); [cbn in E; discriminate E|]; destruct (wp s0); [cbn in E; discriminate E|]; split; reflexivity
           end
         end. }
  destruct X as [X1 X2]. repeat split; try assumption. apply D1. exact X2.
Qed.

(* the gate is up whenever a queued writer is past its fetch_or *)
Corollary rw_gate_up progs s u :
  reachable (rwsys progs) s -> In (u, true) (rqueue s) -> (forall q, rpcs s u <> RQFor q) -> wp s = true.
Proof.
  intros R Hu Hq. destruct (RInv_reachable _ _ R) as (_ & _ & [D1 _]).
  destruct (wp s) eqn:EW; [reflexivity|]. destruct (D1 eq_refl u Hu) as [q [Q _]]. exfalso. exact (Hq q Q).
Qed.

Definition rtry_pc (p : rpc) : bool :=
  match p with RTALoad (RATry _) | RTACas (RATry _) _ _ _ => true | _ => false end.

Definition rstate_access (e : mev) : Prop :=
  match e with EvLoad VState _ _ | EvCas VState _ _ _ _ _ _ => True | _ => False end.

Theorem rw_try_nonblocking s t c :
  rtry_pc (rpcs s t) = true ->
  exists s' e, rwstep s t c = Some (s', e) /\ rstate_access e /\
    match rpcs s t with
    | RTALoad (RATry k) => (exists a b d, rpcs s' t = RTACas (RATry k) a b d) \/ rpcs s' t = RIdle
    | RTACas (RATry k) _ _ _ => rpcs s' t = RCS k \/ rpcs s' t = RIdle
    | _ => False
    end.
Proof.
  intros H. unfold rwstep. destruct (rpcs s t) eqn:Epc; try discriminate H; destruct a; try discriminate H.
  (* a load or a CAS of the state word; either way the next pc is read off the step *)
  all: unfold rdo_taload, ta_fail, after_acq_a, rret; cbn [rkind_a]; destruct k; cbn [andb];
    match goal with |- context [if ?b then _ else _] => destruct b end;
    (eexists; eexists; split; [reflexivity|]; split; [exact I|]; cbn; rewrite upd_eq; eauto 6).
Qed.

(* A release that leaves the lock completely free (write unlock, or the LAST read unlock) while a
   node is linked whose owner is past its fetch_or continues into wake_waiters.  (This is only the
   initiation half of "wake owed"; that the wake reaches a waiter that can use it is
   HRwLive.rw_wake_in_flight / rw_woken_has_token / rw_wake_owed.) *)
Theorem rw_release_wakes progs s t k c u b :
  reachable (rwsys progs) s -> rpcs s t = RURel k ->
  (k = WR \/ rd s = 1%N) ->
  In (u, b) (rqueue s) -> (forall q, rpcs s u <> RQFor q) ->
  exists s' e, rwstep s t c = Some (s', e) /\ rpcs s' t = RLLSwap RLWake.
Proof.
  intros R Epc Hk Hu Hq. destruct (RInv_reachable _ _ R) as (_ & _ & [_ D2]).
  assert (HH : hq s = true).
  { destruct (hq s) eqn:EH; [reflexivity|]. destruct (D2 eq_refl u b Hu) as [q Q]. exfalso. exact (Hq q Q). }
  unfold rwstep. rewrite Epc. unfold rret. destruct k.
  - destruct Hk as [X|X]; [discriminate X|]. rewrite X, HH. cbn.
    eexists; eexists; split; [reflexivity|]. cbn. apply upd_eq.
  - rewrite HH. eexists; eexists; split; [reflexivity|]. cbn. apply upd_eq.
Qed.

Theorem rw_cancel_forwards_wake s t c :
  rpcs s t = RDLoad -> rnwk s t = true ->
  exists s' e, rwstep s t c = Some (s', e) /\ rpcs s' t = RLLSwap RLWake /\ rfut s' t = None.
Proof.
  intros Epc Hn. unfold rwstep. rewrite Epc, Hn. unfold rret.
  eexists; eexists; split; [reflexivity|]. cbn. rewrite !upd_eq. split; reflexivity.
Qed.
