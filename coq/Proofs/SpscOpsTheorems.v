(* Property theorems of the K2 SPSC model, derived from the invariant `Inv`
   (Proofs/SpscOpsProofs.v).  Everything is quantified over ALL op histories (`reach cf c k ops`) or over
   all states satisfying the invariant. *)
From Coq Require Import List Arith ZArith Bool Lia Permutation.
From Fibre Require Import Common.Lists Chan.SpscOps Proofs.SpscOpsProofs.
Import ListNotations.
Open Scope nat_scope.

Definition reach (cf : cfg) (c : nat) (k : kind) (ops : list op) : st := fst (run cf (init c k) ops).
Definition res_of (x : st * out) : res := fst (snd x).

Lemma reach_inv cf c k ops : Inv (reach cf c k ops).
Proof. apply inv_run, inv_init. Qed.

Lemma res_step cf s o : res_of (step cf s o) = snd (exec cf (set_ev [] s) o).
Proof. unfold step, res_of. destruct (exec cf (set_ev [] s) o). reflexivity. Qed.

(* C01 / C09: conservation *)
Definition places (s : st) : list nat :=
  received s ++ q s ++ held s ++ returned s ++ dropped s ++ drained s.

Lemma cnt_places x s : cnt x (places s) = tot x s.
Proof. unfold places, tot. rewrite !cnt_app. lia. Qed.

Lemma conservation_inv s : Inv s -> Permutation (places s) (seq 0 (next s)).
Proof.
  intros (HD & _). apply (Permutation_count_occ Nat.eq_dec). intros x.
  change (cnt x (places s) = cnt x (seq 0 (next s))).
  rewrite cnt_places, (d_cons _ HD), cnt_seq, Nat.add_0_l.
  replace (0 <=? x) with true by (symmetry; apply Nat.leb_le; lia). reflexivity.
Qed.

Lemma nodup_places s : Inv s -> NoDup (places s).
Proof.
  intros H. apply (Permutation_NoDup (l := seq 0 (next s))).
  - symmetry. apply conservation_inv, H.
  - apply seq_NoDup.
Qed.


Theorem spsc_conservation cf c k ops :
  let s := reach cf c k ops in
  Permutation (received s ++ q s ++ held s ++ returned s ++ dropped s ++ drained s) (seq 0 (next s)).
Proof. apply conservation_inv, reach_inv. Qed.

Theorem spsc_received_once cf c k ops :
  let s := reach cf c k ops in
  NoDup (received s) /\ incl (received s) (accepted s) /\ accepted s = received s ++ q s ++ drained s.
Proof.
  cbn. pose proof (reach_inv cf c k ops) as H. set (s := reach cf c k ops) in *.
  pose proof (nodup_places s H) as Hn. destruct H as (HD & _).
  split; [|split].
  - unfold places in Hn. apply NoDup_app_l in Hn. exact Hn.
  - rewrite (d_fifo _ HD). intros x Hx. apply in_or_app. left. exact Hx.
  - apply (d_fifo _ HD).
Qed.

(* every teardown order: once both handles are gone nothing is buffered or held, and every id ever
   allocated is in exactly one of received / handed back / dropped by an op / drained by Ring::drop *)
Theorem spsc_teardown cf c k ops :
  let s := reach cf c k ops in
  sh s = HGone -> rh s = HGone ->
  q s = [] /\ sf s = None /\ rf s = None /\
  Permutation (received s ++ returned s ++ dropped s ++ drained s) (seq 0 (next s)) /\
  NoDup (received s ++ returned s ++ dropped s ++ drained s).
Proof.
  cbn. pose proof (reach_inv cf c k ops) as H. set (s := reach cf c k ops) in *.
  intros Hs Hr. pose proof (conservation_inv s H) as Hp. pose proof (nodup_places s H) as Hn.
  destruct H as (HD & _).
  assert (Hq : q s = []) by (apply (d_dead _ HD); unfold alive; rewrite Hs, Hr; reflexivity).
  assert (Hf : sf s = None).
  { destruct (sf s) eqn:E; [|reflexivity]. destruct (d_sf _ HD) as [c0 Hc]; [rewrite E; discriminate|congruence]. }
  assert (Hg : rf s = None).
  { destruct (rf s) eqn:E; [|reflexivity]. destruct (d_rf _ HD) as [c0 Hc]; [rewrite E; discriminate|congruence]. }
  unfold places, held in *. rewrite Hq, Hf in *. cbn [app] in *.
  repeat split; auto.
Qed.

(* C01 / C02 / C03: what one op does to the channel data *)
Definition failed (r : res) : bool :=
  match r with
  | RFull _ | RClosedV _ | RClosed | REmpty | RDisc | RTimeout | RNone | RCloseErr | RMutClosed _
  | RTryBatchErr 0 _ _ | RBatchErr 0 _ | RGone | RBusy | RNA | RNoFut | RWouldBlock => true
  | _ => false
  end.

Definition vals_of (r : res) : list nat :=
  match r with RVal v => [v] | RVals vs => vs | _ => [] end.

Lemma failed_vals r : failed r = true -> vals_of r = [].
Proof. destruct r; try discriminate; reflexivity. Qed.

(* the fields the FIFO specification speaks of *)
Definition data (s : st) := (accepted s, received s, drained s, q s, cap s).

(* from s to s': `pushed` went to the back of the queue, `popped` left it at the front, and `dr` is what
   Ring::drop took out of it *)
Record Eff (pushed popped dr : list nat) (s s' : st) : Prop := {
  e_acc : accepted s' = accepted s ++ pushed;
  e_rcv : received s' = received s ++ popped;
  e_drn : drained s' = drained s ++ dr;
  e_q : q s ++ pushed = popped ++ q s' ++ dr;
  e_cap : cap s' = cap s
}.

Lemma eff_same s s' : data s' = data s -> Eff [] [] [] s s'.
Proof. intros [= A R D Q C]. constructor; rewrite ?A, ?R, ?D, ?Q, ?C, ?app_nil_r; reflexivity. Qed.

Lemma eff_push ids s s' : data s' = data (push ids s) -> Eff ids [] [] s s'.
Proof. intros [= A R D Q C]. constructor; rewrite ?A, ?R, ?D, ?Q, ?C, ?app_nil_r; reflexivity. Qed.

Lemma eff_pop k l s s' : q s = l -> data s' = data (pop k s) -> Eff [] (firstn k l) [] s s'.
Proof.
  intros <- [= A R D Q C]. constructor; rewrite ?A, ?R, ?D, ?Q, ?C, ?app_nil_r; try reflexivity.
  symmetry. apply firstn_skipn.
Qed.

(* dropping a handle: if (b) the other one is gone already, the ring is drained *)
Lemma eff_drain (b : bool) s s' :
  (accepted s', received s', cap s') = (accepted s, received s, cap s) ->
  drained s' = drained s ++ (if b then q s else []) -> q s' = (if b then [] else q s) ->
  Eff [] [] (if b then q s else []) s s'.
Proof.
  intros [= A R C] D Q. constructor; rewrite ?A, ?R, ?D, ?Q, ?C, ?app_nil_r; try reflexivity.
  destruct b; rewrite ?app_nil_r; reflexivity.
Qed.

Definition exec_eff (s : st) (p : st * res) : Prop :=
  exists pushed dr, Eff pushed (vals_of (snd p)) dr s (fst p) /\
    (failed (snd p) = true -> pushed = []) /\
    (failed (snd p) = true \/ alive (fst p) = true -> dr = []).

(* computed before it is compared, as in same_view *)
Ltac same_data := unfold data; unf_prims; cbn; hrw; reflexivity.

(* Every branch of every op has one of the four effects above on the data; which one is found by trying
   them in turn.  The values an op returns are what it popped, and a failing op pushes and drains nothing. *)
Lemma exec_data cf s o : exec_eff s (exec cf s o).
Proof.
  destruct o; cbn [exec]; unf_ops; cbn.
  all: repeat (split1; cbn).
  all: try (exists [], []; split; [apply eff_same; same_data | split; reflexivity]).
  all: try (eexists _, []; split; [apply eff_push; same_data | split; [try discriminate | reflexivity]]).
  all: try (exists [], []; split; [eapply eff_pop; [eassumption | same_data] | split; reflexivity]).
  all: try (exists [], []; split; [eapply (eff_pop 1 (_ :: _)); [eassumption | same_data] | split; reflexivity]).
  (* TrySendBatch with too little room: it fails iff nothing at all was written *)
  1: cbn [snd]; destruct (Nat.min _ _); [intros _; apply firstn_O | discriminate].
  (* DropS, DropR *)
  all: eexists [], _; split;
       [first [apply (eff_drain (is_gone (rh s))); same_data | apply (eff_drain (is_gone (sh s))); same_data]
       | split; [discriminate|]].
  all: intros [H|H]; [discriminate H|]; revert H; unfold alive; unf_prims; cbn.
  all: destruct (rh s), (sh s); try discriminate; reflexivity.
Qed.

Lemma step_data cf s o : exec_eff s (fst (step cf s o), res_of (step cf s o)).
Proof.
  rewrite fst_step, res_step. destruct (exec_data cf (set_ev [] s) o) as (p & d & [A R D Q C] & F & L).
  exists p, d. split; [constructor; assumption | split; assumption].
Qed.

Theorem spsc_failed_no_effect cf s o :
  failed (res_of (step cf s o)) = true ->
  q (fst (step cf s o)) = q s /\ accepted (fst (step cf s o)) = accepted s /\
  received (fst (step cf s o)) = received s.
Proof.
  intros F. destruct (step_data cf s o) as (pushed & dr & [A R _ Q _] & P & D). cbn [fst snd] in *.
  rewrite (P F) in *. rewrite (D (or_introl F)), (failed_vals _ F), !app_nil_r in *. auto.
Qed.

(* forward simulation to the FIFO specification: the values an op returns are the front of the queue,
   the values it accepts go to the back, in order *)
Theorem spsc_step_fifo cf s o :
  Inv s -> alive (fst (step cf s o)) = true ->
  exists pushed,
    accepted (fst (step cf s o)) = accepted s ++ pushed /\
    q s ++ pushed = vals_of (res_of (step cf s o)) ++ q (fst (step cf s o)).
Proof.
  intros _ Hal. destruct (step_data cf s o) as (pushed & dr & [A _ _ Q _] & _ & D). cbn [fst snd] in *.
  rewrite (D (or_intror Hal)), app_nil_r in Q. exists pushed. auto.
Qed.

Fixpoint all_vals (outs : list out) : list nat :=
  match outs with [] => [] | (r, _) :: t => vals_of r ++ all_vals t end.

(* the ghost `received` is exactly what the receive forms output *)
Lemma run_received cf ops : forall s,
  received (fst (run cf s ops)) = received s ++ all_vals (snd (run cf s ops)).
Proof.
  induction ops as [|o r IH]; intros s; cbn [run].
  - cbn. rewrite app_nil_r. reflexivity.
  - destruct (step_data cf s o) as (_ & _ & [_ Hr _ _ _] & _). unfold res_of in Hr.
    destruct (step cf s o) as [s1 [r1 e1]] eqn:E1. specialize (IH s1).
    destruct (run cf s1 r) as [s2 xs] eqn:E2. cbn in *. rewrite IH, Hr, <- app_assoc. reflexivity.
Qed.

(* the values returned by all receive operations of a history, in order, are a prefix of the ids in the
   order their sends were accepted; what is missing is exactly what is still buffered (or was drained
   by Ring::drop after both handles were gone) *)
Theorem spsc_fifo cf c k ops :
  let s := reach cf c k ops in
  accepted s = all_vals (snd (run cf (init c k) ops)) ++ q s ++ drained s.
Proof.
  cbn. pose proof (reach_inv cf c k ops) as (HD & _). unfold reach in *.
  rewrite (d_fifo _ HD), run_received. reflexivity.
Qed.

(* C03: capacity *)
Lemma cap_run cf ops s : cap (fst (run cf s ops)) = cap s.
Proof.
  apply (run_preserves cf (fun s' => cap s' = cap s)); [|reflexivity].
  intros s1 o <-. destruct (step_data cf s1 o) as (_ & _ & [_ _ _ _ Hk] & _). exact Hk.
Qed.

(* never more than the requested (logical) capacity, whatever the physical ring size *)
Theorem spsc_len_le_cap cf c k ops :
  let s := reach cf c k ops in length (q s) <= c.
Proof.
  cbn. pose proof (reach_inv cf c k ops) as (HD & _). pose proof (d_len _ HD) as H.
  unfold reach in *. rewrite cap_run in H. exact H.
Qed.

(* try_send on a live, un-borrowed handle succeeds exactly when the channel is neither full nor closed *)
Theorem spsc_try_send_iff cf s k c :
  sh s = HLive k c -> sf s = None ->
  (res_of (step cf s TrySend) = ROk <-> (length (q s) < cap s /\ c = false /\ cdrop s = false)).
Proof.
  intros Hs Hf. unfold step, res_of. cbn [exec]. unfold do_try_send, gate_s. cbn. rewrite Hs, Hf.
  destruct c, (cdrop s) eqn:Ec; cbn; try (split; [discriminate | intros (_ & A & B); discriminate]).
  destruct (length (q s) <? cap s) eqn:E; cbn; b2p.
  - split; auto.
  - split; [discriminate | intros (A & _); lia].
Qed.

Theorem spsc_try_send_effect cf s :
  let '(s', (r, _)) := step cf s TrySend in
  match r with
  | ROk => q s' = q s ++ [next s] /\ accepted s' = accepted s ++ [next s]
  | RFull v | RClosedV v => v = next s /\ q s' = q s /\ accepted s' = accepted s /\ returned s' = returned s ++ [v]
  | _ => s' = set_ev [] s
  end.
Proof.
  unfold step. cbn [exec]. unfold do_try_send, gate_s. cbn.
  repeat (split1; cbn); unf_prims; cbn; auto.
Qed.

Theorem spsc_observers cf s k c :
  sh s = HLive k c -> sf s = None ->
  res_of (step cf s ObsS) =
    RObs (length (q s)) (length (q s) =? 0) (cap s <=? length (q s)) (c || cdrop s) (cap s).
Proof.
  intros Hs Hf. unfold step, res_of. cbn [exec]. unfold do_obs_s, gate_s. cbn. rewrite Hs, Hf. reflexivity.
Qed.

(* batch sends: what was sent and what was handed back are the input, in order *)
Theorem spsc_try_send_batch_effect cf s n :
  let '(s', (r, _)) := step cf s (TrySendBatch n) in
  match r with
  | ROkN m => m = n /\ q s' = q s ++ seq (next s) n /\ accepted s' = accepted s ++ seq (next s) n
  | RTryBatchErr sent unsent _ =>
      exists done, done ++ unsent = seq (next s) n /\ length done = sent /\
                   q s' = q s ++ done /\ accepted s' = accepted s ++ done /\ returned s' = returned s ++ unsent
  | _ => s' = set_ev [] s
  end.
Proof.
  unfold step. cbn [exec]. unfold do_try_send_batch, gate_s, free. cbn.
  repeat (split1; cbn); unf_prims; cbn; auto; b2p.
  - repeat split; rewrite ?app_nil_r; reflexivity.
  - exists []. cbn. repeat split; rewrite ?app_nil_r; reflexivity.
  - match goal with H : Nat.min _ _ = _ |- _ => rewrite H end. rewrite firstn_all2 by (rewrite seq_length; lia). auto.
  - eexists. repeat split; [apply firstn_skipn | rewrite firstn_length, seq_length; lia].
Qed.

Theorem spsc_pending_send_means_full cf c k ops w :
  let s := reach cf c k ops in
  s_pend s = Some w -> s_woken s = false -> length (q s) = cap s.
Proof.
  intros s Hp Hw. destruct (reach_inv cf c k ops) as (_ & _ & HS & _).
  exact (proj1 (proj2 (s_spw _ HS _ Hp Hw))).
Qed.

(* C06: wake-ups and cancellation *)
Definition is_ready (r : res) : bool :=
  match r with RPending | RBusy | RGone | RNA | RNoFut => false | _ => true end.

(* sender side: a future whose last poll returned Pending and that could now complete has been woken *)
Theorem spsc_wake_sender_inv cf s :
  Inv s -> forall w0, s_pend s = Some w0 ->
  (exists w, is_ready (res_of (step cf s (PollS w))) = true) -> s_woken s = true.
Proof.
  intros (HD & HK & HS & HR) w0 Hp [w Hr].
  destruct (s_woken s) eqn:Ew; [reflexivity|exfalso].
  destruct (s_sp _ HS _ Hp) as (f & k & Hf & Hne & Hh).
  destruct (s_spw _ HS _ Hp Ew) as (Hpw & Hlen & Hcd).
  revert Hr. unfold step, res_of. cbn [exec]. unfold do_poll_s, free. cbn. rewrite Hh, Hf, Hcd. cbn.
  destruct f as [v|rest sent|items sent]; cbn in *.
  - replace (length (q s) <? cap s) with false by (symmetry; apply Nat.ltb_ge; lia). cbn. discriminate.
  - destruct rest as [|a rest]; [congruence|].
    replace (cap s - length (q s)) with 0 by lia. rewrite Nat.min_0_r. cbn. discriminate.
  - destruct items as [|a items]; [congruence|].
    replace (cap s - length (q s)) with 0 by lia. rewrite Nat.min_0_r. cbn. discriminate.
Qed.

Definition closed_of (h : hst) : bool := match h with HLive _ c => c | HGone => false end.

(* receiver side (recv / recv_batch futures and Stream::poll_next); the obligation belongs to the most
   recent Pending poll on the receiver (`r_pend`), and a receiver that closed itself is excluded *)
Theorem spsc_wake_receiver_inv cf s :
  Inv s -> forall o w0, r_pend s = Some (o, w0) -> closed_of (rh s) = false ->
  (exists w, is_ready (res_of (step cf s (match o with OFut => PollR w | OStream => StreamNext w end))) = true) ->
  r_woken s = true.
Proof.
  intros (HD & HK & HS & HR) o w0 Hp Hcl [w Hr].
  destruct (r_woken s) eqn:Ew; [reflexivity|exfalso].
  destruct (r_pw _ HR _ _ Hp Ew) as (Hcw & Hq & Hsc & Hb).
  revert Hr. unfold step, res_of. destruct o; cbn [exec].
  - destruct (r_pf _ HR _ Hp) as (f & k & Hf & Hh & Hm).
    unfold do_poll_r, senders_alive. cbn. rewrite Hh, Hf, Hq. cbn.
    replace (scount s =? 0)%Z with false by (symmetry; apply Z.eqb_neq; exact Hsc). cbn.
    destruct f as [|m]; cbn; [discriminate|].
    destruct m as [|m]; [exfalso; apply (Hm 0); reflexivity|].
    rewrite (Hb eq_refl _ _ Hf). cbn. discriminate.
  - pose proof (r_ps _ HR _ Hp) as Hreg. destruct (r_rreg _ HR Hreg) as [c Hh].
    unfold do_stream_next, gate_r, senders_alive. cbn. rewrite Hh in *. cbn in Hcl. subst c.
    destruct (rf s); cbn; [discriminate|]. rewrite Hq. cbn.
    replace (scount s =? 0)%Z with false by (symmetry; apply Z.eqb_neq; exact Hsc). cbn. discriminate.
Qed.

(* no registration outlives its future (no dangling pointer to a dropped future): a waker in a slot
   belongs to a live registered future or to the live async receiver's Stream registration *)
Theorem spsc_no_dangling_inv s :
  Inv s ->
  (forall w, pw s = Some w -> s_pend s = Some w /\ exists f, sf s = Some (f, true)) /\
  (forall w, cw s = Some w ->
     (exists f, rf s = Some (f, true)) \/ (rreg s = true /\ exists c, rh s = HLive KAsync c)).
Proof.
  intros (HD & HK & HS & HR). split.
  - intros w Hw. pose proof (s_pw _ HS _ Hw) as Hp. split; [exact Hp|].
    destruct (s_sp _ HS _ Hp) as (f & k & Hf & _). eauto.
  - intros w Hw. destruct (r_cw _ HR _ Hw) as [H|H]; [left; exact H|right].
    split; [exact H | apply (r_rreg _ HR H)].
Qed.

(* dropping a future leaves no registration of that side's futures behind *)
Theorem spsc_drop_future_unregisters cf s :
  Inv s ->
  pw (fst (step cf s DropFutS)) = None /\
  (forall w, cw (fst (step cf s DropFutR)) = Some w -> rreg s = true).
Proof.
  intros (HD & HK & HS & HR). unfold step. cbn [exec]. unfold do_dropfut_s, do_dropfut_r. cbn. split.
  - destruct (sf s) as [[f reg]|] eqn:Ef; cbn.
    + destruct f; unf_prims; cbn; destruct reg; auto;
        destruct (pw s) eqn:Ep; auto; pose proof (s_pw _ HS _ Ep) as Hp;
        destruct (s_sp _ HS _ Hp) as (f' & k & Hf & _); congruence.
    + destruct (pw s) eqn:Ep; auto. pose proof (s_pw _ HS _ Ep) as Hp.
      destruct (s_sp _ HS _ Hp) as (f' & k & Hf & _); congruence.
  - intros w. destruct (rf s) as [[f reg]|] eqn:Ef; unf_prims; cbn.
    + destruct reg; [discriminate|]. intros Hw.
      destruct (r_cw _ HR _ Hw) as [[f' Hf]|H]; [congruence|exact H].
    + intros Hw. destruct (r_cw _ HR _ Hw) as [[f' Hf]|H]; [congruence|exact H].
Qed.

(* C04 (clauses that hold for every cfg) *)
Definition is_recv_op (o : op) : bool :=
  match o with
  | TryRecv | Recv | RecvTimeout | TryRecvBatch _ | RecvBatch _ | PollR _ | StreamNext _ => true
  | _ => false
  end.
Definition is_send_op (o : op) : bool :=
  match o with
  | TrySend | Send | TrySendBatch _ | SendBatch _ | TrySendBatchMut _ | SendBatchMut _ => true
  | _ => false
  end.
Definition is_disc (r : res) : bool := match r with RDisc | RNone => true | _ => false end.

(* a receiver that did not close itself is told Disconnected only after it has received every accepted id *)
Theorem spsc_drain_before_disc cf s o k :
  Inv s -> rh s = HLive k false -> is_recv_op o = true ->
  is_disc (res_of (step cf s o)) = true -> accepted s = received s.
Proof.
  intros (HD & _) Hh Ho. pose proof (d_fifo _ HD) as F.
  assert (Hdr : drained s = []) by (apply (d_alive _ HD); unfold alive; rewrite Hh; destruct (sh s); reflexivity).
  rewrite Hdr, app_nil_r in F.
  unfold step, res_of. destruct o; try discriminate Ho; cbn [exec]; unf_ops; cbn; rewrite Hh; cbn;
    repeat (split1; cbn); try discriminate; intros _;
    repeat match goal with H : q _ = [] |- _ => rewrite H in F end; rewrite ?app_nil_r in F; exact F.
Qed.

(* what "rejected" means for a send form: nothing is accepted, the queue is untouched, and the result is a
   Closed-class error (or the op was not executed at all / an empty batch) *)
Definition closed_class (r : res) : bool :=
  match r with
  | RClosedV _ | RClosed | RTryBatchErr _ _ true | RBatchErr _ _ | RMutClosed _
  | RGone | RBusy | RNA | RNoFut => true
  | ROkN 0 | RMutOk _ [] => true          (* empty batch / already completed batch future *)
  | _ => false
  end.

(* a send form is refused when the receiver is closed or gone and, once the sync send_batch tests the
   handle's own flag like the other forms (fix_f03), when the sender handle is closed or gone *)
Lemma send_closed cf s o :
  is_send_op o = true ->
  cdrop s = true \/ fix_f03 cf = true /\ (forall k, sh s <> HLive k false) ->
  closed_class (snd (exec cf s o)) = true /\
  accepted (fst (exec cf s o)) = accepted s /\ q (fst (exec cf s o)) = q s.
Proof.
  intros Ho H.
  destruct o; try discriminate Ho; cbn [exec]; unf_ops; cbn;
    destruct (sh s) as [|k c]; cbn; auto; destruct (sf s); cbn; auto.
  all: assert (Hc : (fix_f03 cf && c) || cdrop s = true /\ c || cdrop s = true)
         by (destruct H as [->|[-> H]];
             [rewrite !orb_true_r; auto | destruct c; [auto | destruct (H k eq_refl)]]).
  all: destruct Hc as [H1 H2]; rewrite ?H1, ?H2; repeat (split1; cbn); unf_prims; cbn; auto.
Qed.

(* after the receiver was closed or dropped every send form fails with Closed and accepts nothing *)
Theorem spsc_send_after_receiver_left cf s o :
  cdrop s = true -> is_send_op o = true ->
  closed_class (res_of (step cf s o)) = true /\
  accepted (fst (step cf s o)) = accepted s /\ q (fst (step cf s o)) = q s.
Proof.
  intros Hc Ho. rewrite fst_step, res_step. apply (send_closed cf (set_ev [] s) o Ho). left. exact Hc.
Qed.

(* a send future polled after the receiver left resolves at once, accepts nothing more, and reports Closed
   (or Ok for a batch that had already been written completely / was empty) *)
Theorem spsc_poll_after_receiver_left cf s w :
  cdrop s = true ->
  (closed_class (res_of (step cf s (PollS w))) = true \/ exists n, res_of (step cf s (PollS w)) = ROkN n) /\
  accepted (fst (step cf s (PollS w))) = accepted s /\ q (fst (step cf s (PollS w))) = q s.
Proof.
  intros Hc. unfold step, res_of. cbn [exec]; unf_ops; cbn; rewrite ?Hc, ?orb_true_r; cbn;
    repeat (split1; cbn; rewrite ?Hc, ?orb_true_r; cbn); unf_prims; cbn; eauto.
Qed.

(* ... and the values come back: try_send returns its value, batches their whole input *)
Theorem spsc_closed_hands_back cf s :
  cdrop s = true -> forall k c, sh s = HLive k c -> sf s = None ->
  res_of (step cf s TrySend) = RClosedV (next s) /\
  (forall n, n <> 0 -> res_of (step cf s (TrySendBatch n)) = RTryBatchErr 0 (seq (next s) n) true) /\
  (forall n, n <> 0 -> res_of (step cf s (TrySendBatchMut n)) = RMutClosed (seq (next s) n)).
Proof.
  intros Hc k c Hs Hf. unfold step, res_of. cbn [exec]. unf_ops. cbn. rewrite Hs, Hf, Hc, orb_true_r. cbn.
  repeat split; intros n Hn; destruct n; try congruence; reflexivity.
Qed.

(* cdrop is exactly "the receiver endpoint was closed or dropped"; pdrop likewise *)
Theorem spsc_flags_inv s :
  Inv s -> cdrop s = r_ever s || is_gone (rh s) /\ pdrop s = s_ever s || is_gone (sh s).
Proof. intros (_ & HK & _). split; [apply (k_cdrop _ HK) | apply (k_pdrop _ HK)]. Qed.

(** * The repaired code (cfg_fixed): the full C04 statement *)
Record InvF (s : st) : Prop := {
  f_s : forall k c, sh s = HLive k c -> c = s_ever s;
  f_r : forall k c, rh s = HLive k c -> c = r_ever s;
  f_sc : scount s = if s_ever s || is_gone (sh s) then 0%Z else 1%Z;
  f_disc : rdisc s = true -> (r_ever s || is_gone (rh s)) = true \/ (q s = [] /\ scount s = 0%Z)
}.

(* One clause of InvF in one branch that touches a handle, a count, rdisc or the queue: bring in what InvF
   says of the handles at hand (Hfs, Hfr) and of an earlier Disconnected (Hdisc), split the conditions the
   branch left open, and close by computation, lia (f_sc, with k_pdrop in the context) or the side of f_disc
   that the branch establishes. *)
Ltac ffin Hfs Hfr Hdisc :=
  intros; kinds; unfold alive, senders_alive in *; unf_prims; cbn in *;
  try match goal with H : sh _ = HLive _ _ |- _ => first [pose proof (Hfs _ _ H) | pose proof (Hfs _ _ eq_refl)] end;
  try match goal with H : rh _ = HLive _ _ |- _ => first [pose proof (Hfr _ _ H) | pose proof (Hfr _ _ eq_refl)] end;
  try match goal with H : rdisc _ = true |- _ =>
        let X := fresh in pose proof (Hdisc H) as X; destruct X as [?|[? ?]] end;
  hrw; cbn in *;
  repeat (split1; cbn in * ); hyps_ifs; orbs; cbn in *;
  repeat match goal with H : HLive _ _ = HLive _ _ |- _ => inversion H; clear H; subst end;
  subst; cbn in *; rewrite ?andb_true_r, ?andb_false_r, ?orb_false_r, ?orb_true_r in *;
  try discriminate; try congruence;
  b2p; z2p; subst; cbn in *;
  try discriminate; try congruence; try lia; auto;
  try solve [eapply Hfs; first [reflexivity | eassumption]];
  try solve [eapply Hfr; first [reflexivity | eassumption]];
  try solve [left; first [reflexivity | assumption | rewrite ?orb_true_r; reflexivity]];
  try solve [right; split; first [reflexivity | assumption | lia | congruence]];
  try solve [left; match goal with H : _ \/ _ |- _ => destruct H as [E|E]; rewrite E; rewrite ?orb_true_r; reflexivity end].

Definition viewF (s : st) := (sh s, rh s, s_ever s, r_ever s, (scount s, rdisc s, q s)).

Lemma invf_view s s' : viewF s' = viewF s -> InvF s -> InvF s'.
Proof.
  intros [= A B C D E F G] [H1 H2 H3 H4].
  constructor; rewrite ?A, ?B, ?C, ?D, ?E, ?F, ?G; assumption.
Qed.

Lemma invf_exec s o : Inv s -> InvF s -> InvF (fst (exec cfg_fixed s o)).
Proof.
  intros (HD & HK & HS & HR) HF.
  pose proof (k_pdrop _ HK) as Hpdrop.
  exec_cases o.
  all: try (apply (invf_view s); [same_view viewF | assumption]).
  all: destruct HF as [Hfs Hfr Hsc Hdisc].
  all: unf_prims; cbn.
  all: constructor; cbn; try assumption.
  all: ffin Hfs Hfr Hdisc.
Qed.

Lemma invf_init c k : InvF (init c k).
Proof. constructor; cbn; intros; try congruence; auto. Qed.

Lemma invf_set_ev e s : InvF s -> InvF (set_ev e s).
Proof. intros [A B C D]. constructor; cbn; assumption. Qed.

Lemma invf_step s o : Inv s -> InvF s -> InvF (fst (step cfg_fixed s o)).
Proof.
  intros H HF. rewrite fst_step. apply invf_exec; [apply inv_set_ev; exact H | apply invf_set_ev; exact HF].
Qed.

Lemma invf_run ops s : Inv s -> InvF s -> InvF (fst (run cfg_fixed s ops)).
Proof.
  intros H HF. apply (run_preserves cfg_fixed (fun s => Inv s /\ InvF s)); [|split; assumption].
  intros s1 o [H1 HF1]. split; [apply inv_step | apply invf_step]; assumption.
Qed.

Lemma reach_invf c k ops : InvF (reach cfg_fixed c k ops).
Proof. apply invf_run; [apply inv_init | apply invf_init]. Qed.

Definition no_value (r : res) : bool :=
  match r with RVal _ => false | RVals (_ :: _) => false | _ => true end.

(* The four C04 clauses that the code as it is violates, as statements about an arbitrary cfg *)
Definition C04_closed_sender_rejects (cf : cfg) : Prop :=
  forall c k ops o, let s := reach cf c k ops in
  s_ever s = true -> is_send_op o = true ->
  closed_class (res_of (step cf s o)) = true /\ accepted (fst (step cf s o)) = accepted s.
Definition C04_closed_receiver_rejects (cf : cfg) : Prop :=
  forall c k ops o, let s := reach cf c k ops in
  r_ever s = true -> no_value (res_of (step cf s o)) = true /\ received (fst (step cf s o)) = received s.
Definition C04_close_idempotent (cf : cfg) : Prop :=
  forall c k ops, let s := reach cf c k ops in
  (s_ever s = true -> res_of (step cf s CloseS) <> ROk) /\
  (r_ever s = true -> res_of (step cf s CloseR) <> ROk).
Definition C04_disc_when_drained (cf : cfg) : Prop :=
  forall c k ops kk, let s := reach cf c k ops in
  s_ever s || is_gone (sh s) = true -> q s = [] -> rh s = HLive kk false -> rf s = None ->
  res_of (step cf s TryRecv) = RDisc.
Definition C04_no_value_after_disc (cf : cfg) : Prop :=
  forall c k ops o, let s := reach cf c k ops in
  rdisc s = true -> no_value (res_of (step cf s o)) = true.
Definition C04_full (cf : cfg) : Prop :=
  C04_closed_sender_rejects cf /\ C04_closed_receiver_rejects cf /\ C04_close_idempotent cf /\
  C04_disc_when_drained cf /\ C04_no_value_after_disc cf.

Lemma fixed_closed_sender_rejects : C04_closed_sender_rejects cfg_fixed.
Proof.
  intros c k ops o s He Ho. subst s. rewrite fst_step, res_step.
  destruct (send_closed cfg_fixed (set_ev [] (reach cfg_fixed c k ops)) o Ho) as (A & B & _); [right|auto].
  split; [reflexivity|]. intros kk Hh. pose proof (f_s _ (reach_invf c k ops) _ _ Hh). congruence.
Qed.

(* an op returns a value only through a live, open receiver handle and from a non-empty queue *)
Lemma value_needs cf s o :
  no_value (snd (exec cf s o)) = false -> exists k, rh s = HLive k false /\ q s <> [].
Proof.
  exec_cases o; try discriminate; intros _; eexists; (split; [first [eassumption | reflexivity] | congruence]).
Qed.

Lemma no_value_vals r : no_value r = true -> vals_of r = [].
Proof. destruct r as [| | |[|]| | | | | | | | | | | | | | | | | | | |]; try reflexivity; discriminate. Qed.

Lemma no_value_step cf s o :
  (forall k, rh s = HLive k false -> q s = []) ->
  no_value (res_of (step cf s o)) = true /\ received (fst (step cf s o)) = received s.
Proof.
  intros H. assert (N : no_value (res_of (step cf s o)) = true).
  { destruct (no_value _) eqn:E; [reflexivity|]. rewrite res_step in E.
    destruct (value_needs cf (set_ev [] s) o E) as (k & Hh & Hq). destruct (Hq (H k Hh)). }
  split; [exact N|]. destruct (step_data cf s o) as (_ & _ & [_ R _ _ _] & _). cbn [fst snd] in R.
  rewrite R, (no_value_vals _ N). apply app_nil_r.
Qed.

Lemma fixed_closed_receiver_rejects : C04_closed_receiver_rejects cfg_fixed.
Proof.
  intros c k ops o s He. subst s. apply no_value_step. intros kk Hh.
  pose proof (f_r _ (reach_invf c k ops) _ _ Hh). congruence.
Qed.

Lemma fixed_close_idempotent : C04_close_idempotent cfg_fixed.
Proof.
  intros c k ops s. subst s.
  pose proof (reach_invf c k ops) as HF. set (s := reach cfg_fixed c k ops) in *.
  unfold step, res_of. cbn [exec]. unf_ops. cbn. split; intros He.
  - destruct (sh s) eqn:Es; cbn; try discriminate. rewrite <- (f_s _ HF _ _ Es) in He. subst.
    destruct (sf s); cbn; discriminate.
  - destruct (rh s) eqn:Es; cbn; try discriminate. rewrite <- (f_r _ HF _ _ Es) in He. subst.
    destruct (rf s); cbn; discriminate.
Qed.

Lemma fixed_disc_when_drained : C04_disc_when_drained cfg_fixed.
Proof.
  intros c k ops kk s He Hq Hr Hf. subst s.
  pose proof (reach_invf c k ops) as HF. set (s := reach cfg_fixed c k ops) in *.
  unfold step, res_of. cbn [exec]. unfold do_recv1, gate_r, senders_alive. cbn.
  rewrite Hr, Hf, Hq. cbn. rewrite (f_sc _ HF), He. reflexivity.
Qed.

Lemma fixed_no_value_after_disc : C04_no_value_after_disc cfg_fixed.
Proof.
  intros c k ops o s Hd. subst s. apply no_value_step. intros kk Hh.
  pose proof (reach_invf c k ops) as HF. destruct (f_disc _ HF Hd) as [Hc|[Hq _]]; [|exact Hq].
  rewrite Hh, <- (f_r _ HF _ _ Hh) in Hc. discriminate Hc.
Qed.

Theorem spsc_fixed_C04_full : C04_full cfg_fixed.
Proof.
  exact (conj fixed_closed_sender_rejects (conj fixed_closed_receiver_rejects (conj fixed_close_idempotent
          (conj fixed_disc_when_drained fixed_no_value_after_disc)))).
Qed.

(** * The code as it is (cfg_repo): refutations by explicit witnesses, and what holds instead *)

(* F-03-spsc: tx.close(); tx.send_batch(vec![a,b]) is accepted *)
Theorem spsc_repo_closed_sender_rejects_refuted_F03 : ~ C04_closed_sender_rejects cfg_repo.
Proof.
  intros H. specialize (H 2 KSync [CloseS] (SendBatch 2) eq_refl eq_refl).
  vm_compute in H. destruct H as [H _]. discriminate H.
Qed.

(* ... and it is the send_batch guard alone that is missing: with the conversions repaired but not the
   guard the clause is still false, with the guard but not the conversions it is still false (F-07) *)
Theorem spsc_closed_sender_rejects_needs_f03 :
  ~ C04_closed_sender_rejects {| fix_f03 := false; fix_conv := true |}.
Proof.
  intros H. specialize (H 2 KSync [CloseS] (SendBatch 2) eq_refl eq_refl).
  vm_compute in H. destruct H as [H _]. discriminate H.
Qed.

(* F-07-spsc: tx.close(); let tx = tx.to_async(); tx.try_send(v) is accepted *)
Theorem spsc_repo_closed_sender_rejects_refuted_F07 :
  ~ C04_closed_sender_rejects {| fix_f03 := true; fix_conv := false |}.
Proof.
  intros H. specialize (H 2 KSync [CloseS; ConvS] TrySend eq_refl eq_refl).
  vm_compute in H. destruct H as [H _]. discriminate H.
Qed.

(* F-07-spsc: rx.close(); rx.to_async().try_recv() returns a buffered value *)
Theorem spsc_repo_closed_receiver_rejects_refuted_F07 : ~ C04_closed_receiver_rejects cfg_repo.
Proof.
  intros H. specialize (H 2 KSync [TrySend; CloseR; ConvR] TryRecv eq_refl).
  vm_compute in H. destruct H as [H _]. discriminate H.
Qed.

(* F-07-spsc: close(); to_async(); close() returns Ok a second time (and decrements the count again) *)
Theorem spsc_repo_close_idempotent_refuted_F07 : ~ C04_close_idempotent cfg_repo.
Proof.
  intros H. destruct (H 2 KSync [CloseS; ConvS]) as [H1 _]. apply H1; reflexivity.
Qed.

(* F-07-spsc: after close(); to_async(); drop the sender count is -1 (usize::MAX): the receiver never sees
   Disconnected although every sender is gone and the channel is drained *)
Theorem spsc_repo_disc_when_drained_refuted_F07 : ~ C04_disc_when_drained cfg_repo.
Proof.
  intros H. specialize (H 2 KSync [CloseS; ConvS; DropS] KSync eq_refl eq_refl eq_refl eq_refl).
  vm_compute in H. discriminate H.
Qed.

(* F-03-spsc: a closed sender's send_batch is accepted, so a value arrives after the receiver was told
   Disconnected *)
Theorem spsc_repo_no_value_after_disc_refuted_F03 : ~ C04_no_value_after_disc cfg_repo.
Proof.
  intros H. specialize (H 2 KSync [CloseS; TryRecv; SendBatch 1] TryRecv eq_refl).
  vm_compute in H. discriminate H.
Qed.

Theorem spsc_repo_C04_full_refuted : ~ C04_full cfg_repo.
Proof. intros (H & _). exact (spsc_repo_closed_sender_rejects_refuted_F03 H). Qed.

(* What holds of the code as it is: on every history that never (F-03) calls the sync send_batch on a
   sender whose own closed flag is set and never (F-07) converts a handle whose closed flag is set, the
   code behaves exactly like the repaired code - so the full C04 theorem applies to it. *)
Definition trigger (s : st) (o : op) : bool :=
  match o with
  | SendBatch _ => match sh s with HLive _ true => true | _ => false end
  | ConvS => match sh s with HLive _ true => true | _ => false end
  | ConvR => match rh s with HLive _ true => true | _ => false end
  | _ => false
  end.

Fixpoint trig_free (s : st) (ops : list op) : Prop :=
  match ops with
  | [] => True
  | o :: r => trigger s o = false /\ trig_free (fst (step cfg_fixed s o)) r
  end.

Lemma exec_same cf s o : trigger s o = false -> exec cf s o = exec cfg_fixed s o.
Proof.
  destruct o; cbn [exec trigger]; try reflexivity; intros H.
  - unfold do_send_batch, gate_s. destruct (sh s) as [|k c]; [reflexivity|]. destruct c; [discriminate|].
    rewrite !andb_false_r. reflexivity.
  - unfold do_conv_s, gate_s. destruct (sh s) as [|k c]; [reflexivity|]. destruct c; [discriminate|].
    destruct (fix_conv cf); reflexivity.
  - unfold do_conv_r, gate_r. destruct (rh s) as [|k c]; [reflexivity|]. destruct c; [discriminate|].
    destruct (fix_conv cf); reflexivity.
Qed.

Lemma trigger_ev e s o : trigger (set_ev e s) o = trigger s o.
Proof. destruct o; reflexivity. Qed.

Lemma run_same cf ops : forall s, trig_free s ops -> run cf s ops = run cfg_fixed s ops.
Proof.
  induction ops as [|o r IH]; intros s H; cbn [run]; [reflexivity|].
  destruct H as [H1 H2].
  assert (E : step cf s o = step cfg_fixed s o).
  { unfold step. rewrite (exec_same cf (set_ev [] s) o); [reflexivity|]. rewrite trigger_ev. exact H1. }
  rewrite E. destruct (step cfg_fixed s o) as [s1 x]. cbn in H2. rewrite (IH s1 H2). reflexivity.
Qed.

(* C06, strict per-poll form for Stream::poll_next, and its refutation (F-33-spsc) *)
Definition C06_stream_strict (cf : cfg) : Prop :=
  forall c k ops w0, let s := reach cf c k ops in
  st_pend s = Some w0 -> closed_of (rh s) = false ->
  (exists w, is_ready (res_of (step cf s (StreamNext w))) = true) -> st_woken s = true.

(* poll_next(w1) Pending; a recv() future polled with w2 replaces the registration, its drop clears it;
   a send then wakes nobody although poll_next would now return a value *)
Theorem spsc_stream_strict_refuted_F33 cf : ~ C06_stream_strict cf.
Proof.
  intros H.
  specialize (H 2 KAsync [StreamNext 1; MkRecv; PollR 2; DropFutR; TrySend] 1).
  assert (E : reach cf 2 KAsync [StreamNext 1; MkRecv; PollR 2; DropFutR; TrySend]
              = reach cfg_repo 2 KAsync [StreamNext 1; MkRecv; PollR 2; DropFutR; TrySend]).
  { unfold reach. rewrite (run_same cf), (run_same cfg_repo); [reflexivity| |]; cbn; auto 10. }
  cbn zeta in H. rewrite E in H.
  assert (X : st_woken (reach cfg_repo 2 KAsync [StreamNext 1; MkRecv; PollR 2; DropFutR; TrySend]) = true).
  { apply H; [reflexivity | reflexivity |]. exists 0.
    unfold step. rewrite (exec_same cf), <- (exec_same cfg_repo) by reflexivity. reflexivity. }
  vm_compute in X. discriminate X.
Qed.
