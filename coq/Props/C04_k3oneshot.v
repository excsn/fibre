(* Props/C04_k3oneshot.v — pinned statements: C04 for oneshot (disconnect protocol), K3 model, every
   number N of sender clones, all programs and all schedules. *)
From Coq Require Import List.
From Fibre Require Import Common.Conc Chan.OneshotK3 Proofs.OneshotK3Base Proofs.OneshotK3Life
  Proofs.OneshotK3Slot Proofs.OneshotK3Vals Proofs.OneshotK3Disc.
Import ListNotations.

(* every cfg: Disconnected is reported on the open receiver handle only after the LAST sender left
   (every sender thread is past its fetch_sub): dropping one of several clones disconnects nothing *)
Theorem C04_k3oneshot_disc_after_last_sender :
  forall C n sprog rp sch,
  let s := fst (run (sys C n sprog rp) (init n rp) sch) in
  dseen s = true -> cnt s = 0 /\ forall t, inr n t -> pre_fsub (spc s t) = false.
Proof.
  intros C n sprog rp sch s. apply (k3_disc_after_last_sender C n sprog rp). exists sch. reflexivity.
Qed.

(* every cfg: the state machine is CLOSED only once one side is entirely gone *)
Theorem C04_k3oneshot_closed_side_gone :
  forall C n sprog rp sch,
  let s := fst (run (sys C n sprog rp) (init n rp) sch) in
  cs s = Closed -> cnt s = 0 \/ rd s = true.
Proof.
  intros C n sprog rp sch s. apply (d_k1 _ _ (proj2 (Inv2_reachable C n sprog rp s (ex_intro _ sch eq_refl)))).
Qed.

(* every cfg: a send answers Closed(value) only after the receiver was closed / dropped, and channel
   code destroys a value only after that *)
Theorem C04_k3oneshot_closed_err_receiver_gone :
  forall C n sprog rp sch t,
  let s := fst (run (sys C n sprog rp) (init n rp) sch) in
  In (t, SClosedE) (slog s) -> rd s = true.
Proof.
  intros C n sprog rp sch t s. apply (d_e1 _ _ (proj2 (Inv2_reachable C n sprog rp s (ex_intro _ sch eq_refl)))).
Qed.

Theorem C04_k3oneshot_drop_only_after_receiver_gone :
  forall C n sprog rp sch,
  let s := fst (run (sys C n sprog rp) (init n rp) sch) in
  drops s <> [] -> rd s = true.
Proof.
  intros C n sprog rp sch s. apply (d_dr _ _ (proj2 (Inv2_reachable C n sprog rp s (ex_intro _ sch eq_refl)))).
Qed.

(* repaired code (F-36): Disconnected only once everything ever written has been returned to the
   receiver and the state machine is terminal (TAKEN / CLOSED: no send can succeed any more) *)
Theorem C04_k3oneshot_disc_drained :
  forall C n sprog rp sch, fixA C = true ->
  let s := fst (run (sys C n sprog rp) (init n rp) sch) in
  dseen s = true -> wrote s = returned s /\ (cs s = Taken \/ cs s = Closed) /\ incl (oks s) (returned s).
Proof.
  intros C n sprog rp sch F s. apply (k3_disc_drained C n sprog rp); [exists sch; reflexivity|exact F].
Qed.

(* repaired code: a receiver that observed Disconnected never obtains a value afterwards *)
Theorem C04_k3oneshot_no_value_after_disc :
  forall C n sprog rp sch, fixA C = true ->
  let s := fst (run (sys C n sprog rp) (init n rp) sch) in
  nvad false (rlog s) = true.
Proof.
  intros C n sprog rp sch F s. exact (d_nv _ _ (proj2 (Inv2_reachable C n sprog rp s (ex_intro _ sch eq_refl))) F).
Qed.

(* the code before the repair: F-36-oneshot (Disconnected while a sent value is pending; a value after
   Disconnected) *)
Theorem C04_k3oneshot_disc_refuted_cfg0 :
  ~ (forall n sprog rp s, reachable (sys cfg0 n sprog rp) s ->
       nvad false (rlog s) = true /\ (dseen s = true -> incl (oks s) (returned s))).
Proof. exact k3_disc_full_refuted_cfg0. Qed.

Example C04_k3oneshot_ex_f36 :
  rlog st_f36 = [RDisc; RVal 1] /\ oks st_f36 = [1] /\ slog st_f36 = [(1, SOk)] /\ nvad false (rlog st_f36) = false.
Proof. exact f36_witness. Qed.
