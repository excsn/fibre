(* Props/C06_spsc.v — pinned theorems: C06 (async wake-ups, cancellation) for the bounded SPSC channel. *)
From Coq Require Import List Arith Bool.
From Fibre Require Import Chan.SpscOps Proofs.SpscOpsProofs Proofs.SpscOpsTheorems.
Import ListNotations.
Open Scope nat_scope.

(* after every history: a send / send_batch / send_batch_mut future whose last poll returned Pending and
   that could now complete (`would_be_ready` = the model's own poll is Ready) has been woken since *)
Theorem C06_spsc_wake_sender : forall cf c k ops w0,
  let s := reach cf c k ops in
  s_pend s = Some w0 ->
  (exists w, is_ready (res_of (step cf s (PollS w))) = true) -> s_woken s = true.
Proof. exact (fun cf c k ops => spsc_wake_sender_inv cf _ (reach_inv cf c k ops)). Qed.

(* same for recv / recv_batch / recv_batch_mut futures and Stream::poll_next; the obligation follows the
   most recent Pending poll on the receiver; a receiver that closed itself is excluded *)
Theorem C06_spsc_wake_receiver : forall cf c k ops o w0,
  let s := reach cf c k ops in
  r_pend s = Some (o, w0) -> closed_of (rh s) = false ->
  (exists w, is_ready (res_of (step cf s (match o with OFut => PollR w | OStream => StreamNext w end))) = true) ->
  r_woken s = true.
Proof. exact (fun cf c k ops => spsc_wake_receiver_inv cf _ (reach_inv cf c k ops)). Qed.

(* no_dangling: a waker in a waiter slot belongs to a live registered future (or to the live async
   receiver's Stream registration), and the sender slot holds the waker of the pending poll *)
Theorem C06_spsc_no_dangling : forall cf c k ops,
  let s := reach cf c k ops in
  (forall w, pw s = Some w -> s_pend s = Some w /\ exists f, sf s = Some (f, true)) /\
  (forall w, cw s = Some w ->
     (exists f, rf s = Some (f, true)) \/ (rreg s = true /\ exists c, rh s = HLive KAsync c)).
Proof. exact (fun cf c k ops => spsc_no_dangling_inv _ (reach_inv cf c k ops)). Qed.

(* dropping a future clears its registration ... *)
Theorem C06_spsc_drop_future_unregisters : forall cf s,
  Inv s ->
  pw (fst (step cf s DropFutS)) = None /\
  (forall w, cw (fst (step cf s DropFutR)) = Some w -> rreg s = true).
Proof. exact spsc_drop_future_unregisters. Qed.

(* ... and, like every other op, preserves the invariant: conservation of ids, FIFO order, capacity *)
Theorem C06_spsc_cancel_preserves_invariant : forall cf s o, Inv s -> Inv (fst (step cf s o)).
Proof. exact inv_step. Qed.

(* SPSC has one waiter slot per side, so "a consumed wake is passed on to another waiter" is vacuous. *)

(* strict per-poll form for Stream::poll_next: refuted (F-33-spsc) for the code as it is and for the
   repaired code; what holds instead is C06_spsc_wake_receiver with owner OStream *)
Theorem C06_spsc_stream_strict_refuted_F33 : forall cf, ~ C06_stream_strict cf.
Proof. exact spsc_stream_strict_refuted_F33. Qed.

Theorem C06_spsc_stream_except_F33 : forall cf c k ops w0,
  let s := reach cf c k ops in
  r_pend s = Some (OStream, w0) -> closed_of (rh s) = false ->
  (exists w, is_ready (res_of (step cf s (StreamNext w))) = true) -> r_woken s = true.
Proof. exact (fun cf c k ops => spsc_wake_receiver_inv cf _ (reach_inv cf c k ops) OStream). Qed.

(* non-vacuity: two pending futures, each woken by the op that enables it; a cancelled send future
   drops its value and leaves no registration *)
Example C06_spsc_example :
  run_case cfg_repo 1 KAsync
    [MkRecv; PollR 1; TrySend; PollR 1; TrySend; MkSend; PollS 2; TryRecv; PollS 2; MkSend; PollS 3; DropFutS; TryRecv]
  = [(ROk, []); (RPending, []); (ROk, [EWake 1]); (RVal 0, []); (ROk, []); (ROk, []); (RPending, []);
     (RVal 1, [EWake 2]); (ROk, []); (ROk, []); (RPending, []); (ROk, [EDrop 3]); (RVal 2, []);
     (RNoFut, []); (RNoFut, []); (ROk, []); (ROk, [])].
Proof. vm_compute. reflexivity. Qed.
