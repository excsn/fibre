(* Props/C06_oneshot.v — pinned theorems: C06 (async wake-up, cancellation) for fibre::oneshot.
   The AtomicWaker is one slot: the obligation follows the most recent Pending poll.
   ocfg_repo = the code as it is; ocfg_fixed = with the one-line repair of F-34-oneshot. *)
From Coq Require Import List Arith.
From Fibre Require Import Chan.OneshotOps Proofs.OneshotOpsProofs Proofs.OneshotOpsTheorems.
Import ListNotations.
Open Scope nat_scope.

Theorem C06_oneshot_wake_fixed : C06_oneshot_wake ocfg_fixed.
Proof. exact oneshot_fixed_wake. Qed.

Theorem C06_oneshot_wake_refuted_F34 : ~ C06_oneshot_wake ocfg_repo.
Proof. exact oneshot_repo_wake_refuted_F34. Qed.

Theorem C06_oneshot_wake_except_F34 : forall ops f w0,
  let s := oreach ocfg_repo ops in
  o_pend s = Some (f, w0) -> rcv s = RcvLive false -> ostate s <> OTaken ->
  (exists w, ores_of (ostep ocfg_repo s (OPoll f w)) <> OPending) -> o_woken s = true.
Proof.
  exact (fun ops f w0 Hp Hr Ht => oneshot_wake_inv ocfg_repo _ f w0 (oreach_inv _ ops) Hp Hr (or_intror Ht)).
Qed.

Theorem C06_oneshot_drop_future_harmless : forall cf s f,
  let s' := fst (ostep cf s (ODropFut f)) in
  ostate s' = ostate s /\ rdrop s' = rdrop s /\ ocount s' = ocount s /\ wk s' = wk s /\
  snd_h s' = snd_h s /\ rcv s' = rcv s /\
  oacc s' = oacc s /\ orecv s' = orecv s /\ oret s' = oret s /\ odrop s' = odrop s.
Proof. exact oneshot_drop_future_harmless. Qed.

Example C06_oneshot_example :
  orun_case ocfg_repo [OMkRecv 0; OPoll 0 7; OClone 0; ODropS 0; OSend 1; OPoll 0 7]
  = [(OOk, []); (OPending, []); (OOk, []); (OOk, []); (OOk, [OWake 7]); (OVal 0, []); (OOk, [])].
Proof. vm_compute. reflexivity. Qed.

Example C06_oneshot_example_F34_fixed :
  orun_case ocfg_fixed [OClone 0; OSend 0; OTryRecv; OMkRecv 1; OPoll 1 5; ODropS 1; OPoll 1 5]
  = [(OOk, []); (OOk, []); (OVal 0, []); (OOk, []); (OPending, []); (OOk, [OWake 5]); (ODisc, []); (OOk, [])].
Proof. vm_compute. reflexivity. Qed.
