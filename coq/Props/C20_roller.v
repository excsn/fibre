(* Props/C20_roller.v — pinned theorems for the rolling-file half of property C20
   ("the rolling file appender never loses, duplicates, reorders or tears a record across a size- or
   time-triggered roll, with or without compression, never clobbers an existing rolled file, and
   retains at most the configured number of rolled files, always the newest").
   Model: Log/Roller.v (faithful to /repo/logging/src/roller.rs, tied by D1 engine `roller`).
   Only statements, `exact`, Examples. *)
From Fibre Require Import Common.Base Log.Roller Proofs.RollerProofs.

(* ---- (a) no loss / duplication / reordering.
   `logical st` = rolled files read in ascending (period, sequence) order, then the active file
   (disk part, then BufWriter part).  With a clock that never goes backwards it is a suffix of the
   written stream, and the whole stream when retention is unlimited — for every policy (size limit,
   retention, compression, granularity) and every sequence of writes, empty writes, flushes and
   restarts.  This is the `_except_` form: see C20_roller_stream_refuted_backward_clock. *)
Theorem C20_roller_stream_except_backward_clock : forall pol fs p0 ops,
  monotone pol p0 ops ->
  exists lost, written ops = lost ++ logical (run pol fs p0 ops)
               /\ (p_max_retained pol = None -> lost = []).
Proof. exact run_stream. Qed.

(* the full statement (no hypothesis on the clock) is false of the faithful model:
   finding F-roller-clock, replayed on the implementation by ./check *)
Theorem C20_roller_stream_refuted_backward_clock : ~ stream_full.
Proof. exact stream_refuted_backward_clock. Qed.

(* ... but even with an arbitrary clock nothing is lost or duplicated while retention is unlimited *)
Theorem C20_roller_no_loss_no_dup_any_clock : forall pol fs p0 ops,
  p_max_retained pol = None -> Permutation (written ops) (all_records (run pol fs p0 ops)).
Proof. exact run_perm. Qed.

(* the order used by `logical`: the directory never holds two rolled files with the same
   (period, sequence) — plain or compressed — and `rolled` lists them strictly newest first *)
Theorem C20_roller_names_unique_sorted : forall pol st,
  reach pol st -> descK (map key (rolled st)) /\ NoDup (map key (rolled st)).
Proof.
  intros pol st H. pose proof (inv_sorted _ _ (reach_inv pol st H)) as Hs.
  split; [exact Hs | apply descK_NoDup; exact Hs].
Qed.

Theorem C20_roller_run_reachable : forall pol fs p0 ops, reach pol (run pol fs p0 ops).
Proof. exact run_reach. Qed.

(* ---- (b) no tear: a roll happens only between writes.  One write call = optional time roll,
   then the WHOLE record is appended to the then-current file (after everything already in it),
   then optionally that file — the record being its last — is rolled. *)
Theorem C20_roller_write_atomic : forall pol st p r,
  reach pol st -> posrec r ->
  exists st1, (st1 = st \/ st1 = roll pol st p) /\
    let st2 := append st1 r in
    adisk st2 ++ abuf st2 = adisk st1 ++ abuf st1 ++ [r] /\
    rdata (roll_file st2) = adisk st1 ++ abuf st1 ++ [r] /\
    (write pol st p r = st2 \/ write pol st p r = roll pol st2 p).
Proof. exact write_atomic. Qed.

(* the size rule: current_size is the true size; between API calls the active file is empty or
   below the limit; no rolled file had reached the limit before its last record (a file is rolled by
   the very write that reaches the limit, so it overshoots by less than one record) *)
Theorem C20_roller_size_rule : forall pol fs p0 ops,
  let st := run pol fs p0 ops in
  cur_size st = bytes (adisk st ++ abuf st) /\
  (forall m, p_max_size pol = Some m -> cur_size st = 0 \/ cur_size st < m) /\
  (forall m f i r, p_max_size pol = Some m -> In f (rolled st) -> rdata f = i ++ [r] ->
                   bytes i = 0 \/ bytes i < m).
Proof.
  intros pol fs p0 ops. destruct (run_size pol fs p0 ops) as [A B C]. split; [exact A|]. split; [exact B|].
  intros m f i r Em Hf Ed. exact (C m f Em Hf i r Ed).
Qed.

(* ---- (c) never clobbers.  In EVERY state (reachable or not) the name a roll renames the active
   file onto is absent from the directory, plain and compressed, so the rename replaces nothing;
   and in every reachable state the files handed to cleanup have pairwise distinct
   (period, sequence), so compress_file's target `<name><compressed suffix>` does not exist either. *)
Theorem C20_roller_never_clobbers : forall st,
  (forall f, In f (rolled st) -> key f <> key (roll_file st)) /\
  fs_remove (roll_file st) (rolled st) = rolled st.
Proof. intros st. split; [apply roll_file_fresh | apply roll_no_clobber]. Qed.

Theorem C20_roller_compress_never_clobbers : forall pol st,
  reach pol st -> NoDup (map key (insert_desc (roll_file st) (rolled st))).
Proof.
  intros pol st H. apply descK_NoDup. apply insert_desc_sorted.
  - exact (inv_sorted _ _ (reach_inv pol st H)).
  - apply roll_file_fresh_keys.
Qed.

(* ---- (d) retention.  At most max_retained rolled files exist, and every rolled file deleted so far
   (ghost field `gone`) is older than every file still there: the retained ones are the newest. *)
Theorem C20_roller_retention : forall pol st m,
  reach pol st -> p_max_retained pol = Some m ->
  (length (rolled st) <= N.to_nat m)%nat /\
  (forall k f, In k (gone st) -> In f (rolled st) -> klt k (key f)).
Proof.
  intros pol st m H Em. pose proof (reach_inv pol st H) as I. split.
  - exact (inv_count _ _ I m Em).
  - exact (inv_gone _ _ I).
Qed.

(* `gone` is complete: a roll keeps every file (same period, sequence, content) or records it in
   `gone`; nothing else removes rolled files; with unlimited retention nothing is ever deleted *)
Theorem C20_roller_deleted_only_by_retention : forall pol st now g,
  g = roll_file st \/ In g (rolled st) ->
  (exists f, In f (rolled (roll pol st now)) /\ key f = key g /\ rdata f = rdata g)
  \/ In (key g) (gone (roll pol st now)).
Proof. exact roll_accounts. Qed.

Theorem C20_roller_unlimited_never_deletes : forall pol st,
  reach pol st -> p_max_retained pol = None -> gone st = [].
Proof.
  intros pol st H En. destruct (inv_full _ _ (reach_inv pol st H)) as [E|(m & Em & _)]; congruence.
Qed.

Theorem C20_roller_other_steps_keep_files : forall pol st r p,
  rolled (flush st) = rolled st /\ rolled (append st r) = rolled st /\
  rolled (restart pol st p) = rolled st.
Proof.
  intros pol st r p. split; [reflexivity|]. split; [apply append_frame|reflexivity].
Qed.

(* ---- foreign files.  `fs` = files in the directory that are not named "<prefix>.<period>.<seq>...":
   rolled files of a sibling appender whose prefix extends this one, unrelated files.  Every theorem
   above holds with any `fs` present (they quantify over it).  No step ever touches them, and the
   roller's own behaviour (sequence numbers, retention, compression, contents) is the same whatever
   foreign files exist.  (/repo before commit 95e064e violated this: F-roller-prefix, fixed.) *)
Theorem C20_roller_foreign_untouched : forall pol fs p0 ops,
  foreign (run pol fs p0 ops) = fs /\
  (forall fs', run pol fs' p0 ops = with_foreign (run pol fs p0 ops) fs').
Proof. exact run_foreign. Qed.

Theorem C20_roller_foreign_untouched_step : forall pol st o, foreign (step pol st o) = foreign st.
Proof. exact step_foreign. Qed.

(* ---- non-vacuity *)
(* size rolls 1,2 in minute 0, a time roll (sequence continues with 3), compression of all but the
   newest rolled file, retention of 3: the oldest file is deleted, the rest reads back in order *)
Example C20_roller_example_run :
  let pol := mkPolicy false (Some 10) (Some 3) (Some 1) in
  let ops := [Write 0 (1, 12); Write 0 (2, 12); Write 0 (3, 4); Write 1 (4, 12); Restart 1; Write 2 (5, 3); Flush] in
  let fs := [(0, [(900, 5)]); (1, [(901, 5)])] in
  monotone pol 0 ops /\
  run pol fs 0 ops = mkState [mkFile 1 2 false []; mkFile 1 1 true [(4, 12)]; mkFile 0 3 true [(3, 4)]]
                             [(5, 3)] [] 3 2 [(0, 2); (0, 1)] fs /\
  logical (run pol fs 0 ops) = [(3, 4); (4, 12); (5, 3)].
Proof. vm_compute. repeat split; discriminate. Qed.

(* the witness of the refutation, as replayed on the implementation:
   "daily 6 1 - app .log _ 5 0 w 3 0 1 7 w 3 0 2 7 f" *)
Example C20_roller_example_backward_clock :
  run clock_witness_pol [] 5 clock_witness_ops = mkState [mkFile 5 1 false [(1, 7)]] [] [] 0 3 [(3, 1)] []
  /\ ~ monotone clock_witness_pol 5 clock_witness_ops.
Proof. split; [exact clock_witness_state|]. vm_compute. intros [H _]. apply H. reflexivity. Qed.

Example C20_roller_example_backward_clock_reorder :
  logical (run (mkPolicy false (Some 6) None None) [] 5 clock_witness_ops) = [(2, 7); (1, 7)].
Proof. exact clock_witness_reorder. Qed.
