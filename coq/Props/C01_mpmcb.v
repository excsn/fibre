(* Props/C01_mpmcb.v — pinned theorems for property C01 (exactly-once delivery, failed operations have
   no effect) on the K2 model of the bounded MPMC channel (Chan/MpmcB.v).
   All statements quantify over every capacity, handle kind, repair-switch setting and op history. *)
From Fibre Require Import Common.Base Chan.MpmcB Proofs.MpmcBBase Proofs.MpmcBInv Proofs.MpmcBStep Proofs.MpmcBProofs.

(* every payload id ever created is in exactly one place: received, buffered, held by a live
   SendFuture, handed back in an error, or destroyed; nothing is received twice; nothing is received
   that was not accepted *)
Theorem C01_mpmcb_conservation : forall c a f os,
  let s := state_after c a f os in
  Permutation (recvd s ++ q s ++ cell_ids s ++ back s ++ dropped s) (ids (next s))
  /\ NoDup (recvd s) /\ NoDup (acc s) /\ incl (recvd s) (acc s).
Proof. exact mpmcb_conservation. Qed.

(* try_send / send: Ok appends exactly the call's payload; Full / Closed leave queue, accepted and
   received lists untouched and hand back (try_send) or destroy (send, whose error carries no value)
   exactly the call's payload *)
Theorem C01_mpmcb_send_results : forall c a f os h,
  let s := state_after c a f os in
  send_spec false s h (fst (step s (TrySend h))) (snd (step s (TrySend h)))
  /\ send_spec true s h (fst (step s (Send h))) (snd (step s (Send h))).
Proof.
  intros c a f os h. split; [apply try_send_spec | apply send_blocking_spec]; apply Inv_reachable.
Qed.

(* try_recv / recv / recv_timeout: a value is the head of the queue and moves to the received list;
   Empty / Timeout / Disconnected consume nothing *)
Theorem C01_mpmcb_recv_results : forall c a f os h,
  let s := state_after c a f os in
  recv_spec KTry s h (fst (step s (TryRecv h))) (snd (step s (TryRecv h)))
  /\ recv_spec KBlock s h (fst (step s (Recv h))) (snd (step s (Recv h)))
  /\ recv_spec KTimed s h (fst (step s (RecvTimeout h))) (snd (step s (RecvTimeout h))).
Proof.
  intros c a f os h. split; [|split]; [apply try_recv_spec | apply recv_blocking_spec | apply recv_timeout_spec].
Qed.

(* one poll of a future: the queue is untouched, or its head is popped into the received list, or
   (send future) one id is appended; every other step (clone/close/drop/convert/observe/create/drop of
   a future) never appends *)
Theorem C01_mpmcb_poll_and_others : forall c a f os,
  let s := state_after c a f os in
  (forall fid w, poll_eff s fid (fst (step s (Poll fid w))))
  /\ (forall o, pushing o = false -> np s (fst (step s o))).
Proof. intros c a f os. split; [intros; apply poll_structural | intros; apply np_step; assumption]. Qed.

(* batch forms: try_send_batch / try_send_batch_mut accept a prefix of the input, in order, and hand
   back (error / caller's vector) exactly the remaining suffix; try_recv_batch / try_recv_batch_mut
   return a prefix of the queue (min(max, len) items, never an empty batch for max > 0) *)
Theorem C01_mpmcb_batch_results : forall c a f os inplace h n,
  let s := state_after c a f os in
  batch_send_spec inplace s h n (fst (step s (TrySendBatch inplace h n))) (snd (step s (TrySendBatch inplace h n)))
  /\ batch_recv_spec inplace s h n (fst (step s (TryRecvBatch inplace h n))) (snd (step s (TryRecvBatch inplace h n))).
Proof.
  intros c a f os inplace h n. split; [apply try_send_batch_spec, Inv_reachable | apply try_recv_batch_spec].
Qed.

Example C01_mpmcb_example_batch :
  map o_res (snd (run (init 2 false no_fixes)
     [TrySendBatch false 0 3; TryRecvBatch false 1 5; TrySendBatch true 0 0; TryRecvBatch true 1 0;
      TryRecvBatch false 1 2; TrySendBatch true 0 3; TryRecvBatch true 1 1; Close 1; TrySendBatch false 0 2]))
  = [RBErr 2 false [2]; RVals [0; 1]; RMOk 0 []; RNVals []; REmpty; RMOk 2 [5]; RNVals [3]; ROk; RBErr 0 true [6; 7]].
Proof. vm_compute. reflexivity. Qed.

(* non-vacuity: a history with a failed try_send (Full), a parked and a cancelled SendFuture, a steal *)
Example C01_mpmcb_example :
  let r := run (init 1 true no_fixes)
               [TrySend 0; TrySend 0; MkSend 10 0; Poll 10 7; MkSend 11 0; DropF 11; TryRecv 1; Poll 10 7; TryRecv 1] in
  map o_res (snd r) = [ROk; RFull 1; ROk; RPending; ROk; ROk; RVal 0; RReadyOk; RVal 2]
  /\ recvd (fst r) = [0; 2] /\ back (fst r) = [1] /\ dropped (fst r) = [3] /\ q (fst r) = [].
Proof. vm_compute. repeat split; reflexivity. Qed.
