(* Props/C06_k3oneshot.v — pinned statements: C06 for the oneshot recv future driven by a block_on
   executor (woken when a send lands or the last sender leaves), K3 model, every N >= 1, all programs
   and all schedules.  Liveness is stated as safety: no reachable state in which nobody can step has a
   parked receiver. *)
From Coq Require Import List.
From Fibre Require Import Common.Conc Chan.OneshotK3 Proofs.OneshotK3Base Proofs.OneshotK3Life
  Proofs.OneshotK3Slot Proofs.OneshotK3Vals Proofs.OneshotK3Wake Proofs.OneshotK3Examples.
Import ListNotations.

(* repaired code (F-37): once every sender thread has finished the receiver is not parked *)
Theorem C06_k3oneshot_no_lost_wake :
  forall C n sprog rp sch, 1 <= n -> fixB C = true ->
  let s := fst (run (sys C n sprog rp) (init n rp) sch) in
  (forall t, inr n t -> spc s t = SDone) -> ~ (rpc s = BPark /\ token s = false).
Proof.
  intros C n sprog rp sch Hn F s D [P T].
  destruct (LW_reachable C n sprog Hn rp s (ex_intro _ sch eq_refl)) as [L W].
  exact (parked_not_final C n s F L W D P T).
Qed.

(* repaired code: a state in which no thread can take a step is a final state *)
Theorem C06_k3oneshot_deadlock_free :
  forall C n sprog rp sch, 1 <= n -> fixB C = true ->
  let s := fst (run (sys C n sprog rp) (init n rp) sch) in
  quiescent (sys C n sprog rp) s -> all_done n s.
Proof.
  intros C n sprog rp sch Hn F s. apply (k3_deadlock_free C n sprog Hn rp); [exists sch; reflexivity|exact F].
Qed.

(* the code before the repair: F-37-oneshot (lost wake after the value was taken) *)
Theorem C06_k3oneshot_lost_wake_refuted :
  ~ (forall n sprog rp s, 1 <= n -> reachable (sys (mkCfg false false) n sprog rp) s ->
       quiescent (sys (mkCfg false false) n sprog rp) s -> all_done n s).
Proof. exact k3_deadlock_free_refuted_cfg0. Qed.

Example C06_k3oneshot_ex_f37 :
  rpc st_f37 = BPark /\ token st_f37 = false /\ spc st_f37 1 = SDone /\ spc st_f37 2 = SDone /\
  rlog st_f37 = [RFVal 1] /\ cnt st_f37 = 0 /\ cs st_f37 = Taken.
Proof. exact f37_witness. Qed.

(* the receiver really parks (registration intact, no token) and is woken by the send *)
Example C06_k3oneshot_ex_parked :
  rpc st_park = BPark /\ token st_park = false /\ wk st_park = Some 1 /\ woken st_park = false.
Proof. exact ex_parked. Qed.

Example C06_k3oneshot_ex_woken :
  rpc st_pw = RDone /\ spc st_pw 1 = SDone /\ rlog st_pw = [RFVal 1] /\ slog st_pw = [(1, SOk)] /\
  drops st_pw = [] /\ slot st_pw = None /\ cs st_pw = Taken.
Proof. exact ex_woken. Qed.
