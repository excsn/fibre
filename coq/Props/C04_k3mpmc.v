(* Props/C04_k3mpmc.v — pinned statements: C04 (straggler / disconnect protocol) for the K3' model
   of the bounded MPMC channel's sync paths: any number of threads, every program, every schedule. *)
From Coq Require Import List Arith.
From Fibre Require Import Common.Conc Chan.MpmcK3 Proofs.MpmcK3Base Proofs.MpmcK3Life Proofs.MpmcK3Examples.
Import ListNotations.

(* sender_count / receiver_count = the number of producer / consumer threads whose handle has not
   yet been closed under the lock (for every thread count) *)
Theorem C04_k3mpmc_counts :
  forall cap cf th sch,
  let s := fst (run (sys cap cf th) (init th) sch) in
  scnt s = cnt (alive_p s) (length th) /\ rcnt s = cnt (alive_c s) (length th).
Proof. intros cap cf th sch s. apply (counts cap cf th s). exists sch. reflexivity. Qed.

(* with the F-08 repair (re-drain after a close wake-up): a receiver is told Disconnected only
   from a critical section in which the ring was empty and sender_count = 0 (`discbad` is the
   ghost that records a Disconnected answer given in any other state) *)
Theorem C04_k3mpmc_disconnected_is_justified :
  forall cap cf th sch, redrain_on_close cf = true ->
  let s := fst (run (sys cap cf th) (init th) sch) in
  discbad s = false /\
  (forall u k, pcs s u = RUnlock k RDisc -> lk s = Some u /\ q s = [] /\ scnt s = 0) /\
  (forall u tm, pcs s u = RRegUnlock tm GoClosed -> lk s = Some u /\ q s = [] /\ scnt s = 0).
Proof.
  intros cap cf th sch Hcf s. apply (disconnected_is_justified cap cf th s); [|exact Hcf]. exists sch. reflexivity.
Qed.

(* ... and such a state is final: no continuation of the schedule ever puts a value into the ring
   again, so no receiver obtains a value after a (justified) Disconnected *)
Theorem C04_k3mpmc_disconnected_is_final :
  forall cap cf th sch sch',
  let s := fst (run (sys cap cf th) (init th) sch) in
  q s = [] -> scnt s = 0 ->
  let s' := fst (run (sys cap cf th) s sch') in q s' = [] /\ scnt s' = 0.
Proof.
  intros cap cf th sch sch' s Hq Hs. apply (disconnected_is_final cap cf th s); [|exact Hq|exact Hs]. exists sch. reflexivity.
Qed.

(* regression witness (F-08, /repo commit ed6cbe3): with the re-drain switched off the statement
   fails - a receiver woken by the last sender's close answers Disconnected while the value handed
   to the other receiver is still buffered *)
Theorem C04_k3mpmc_refuted_without_redrain :
  ~ (forall cap th sch, discbad (fst (run (sys cap (mkCfg true false) th) (init th) sch)) = false).
Proof.
  intros H. pose proof (proj1 w08_without_redrain) as X.
  rewrite (H 1 w08_th w08_sch : discbad (w08 (mkCfg true false)) = false) in X. discriminate X.
Qed.

Example C04_k3mpmc_ex_with_redrain : discbad (w08 cfg_fixed) = false.
Proof. exact w08_with_redrain. Qed.
