(* Props/C10.v — pinned statements for property C10, HybridMutex part.
   Model: Sync/HMutex.v (one step per traced atomic event of channels/src/sync/mutex.rs and
   wait_queue.rs; sequentially consistent semantics; any number of threads (tids are nat), any
   program per thread, any schedule incl. any finite spin / poll-attempt budgets).
   "Eventually acquires under fair scheduling" is NOT proved; C10_wake_owed /
   C10_mutex_deadlock_free are its safety core (no reachable quiescent state has a waiter). *)
From Coq Require Import List NArith Arith Bool.
From Fibre Require Import Common.Conc Sync.HMutex Proofs.HMutexBase Proofs.HMutexGuard
     Proofs.HMutexQueue Proofs.HMutexWake Proofs.HMutexProofs.
Import ListNotations.

(* Guard accounting: the LOCKED bit is set iff exactly one thread holds a guard; the holders are
   exactly the threads between a successful CAS and their unlock fetch_and; never two of them. *)
Theorem C10_mutex_excl : forall progs s,
  reachable (sys progs) s ->
  (locked s = true <-> exists h, holders s = [h])
  /\ (locked s = false <-> holders s = [])
  /\ (forall u, In u (holders s) <-> holds (pcs s u) = true)
  /\ (forall t u, holds (pcs s t) = true -> holds (pcs s u) = true -> t = u).
Proof. exact mutex_excl. Qed.

Theorem C10_mutex_critical_section : forall progs s t u,
  reachable (sys progs) s -> pcs s t = CS -> pcs s u = CS -> t = u.
Proof. exact critical_section_excl. Qed.

(* try_lock never blocks: in ANY state a thread inside try_lock is enabled under every choice, its
   step is a load/CAS of the state word (no park, yield, spin, list lock), and the call returns
   after at most two of its own steps. *)
Theorem C10_try_nonblocking : forall s t c,
  try_pc (pcs s t) = true ->
  exists s' e, mstep s t c = Some (s', e) /\ state_access e /\
    match pcs s t with
    | TALoad ATry => (exists sq, pcs s' t = TACas ATry sq) \/ pcs s' t = Idle
    | _ => pcs s' t = CS \/ pcs s' t = Idle
    end.
Proof. exact try_lock_nonblocking. Qed.

(* Wake owed (safety core of "acquirers eventually acquire" and of "dropping a pending future
   does not lose the wake-up owed to the next waiter"): a reachable state in which no thread can
   take a step has the lock free, the wait list empty and nobody parked... *)
Theorem C10_wake_owed : forall progs s,
  reachable (sys progs) s -> quiescent (sys progs) s ->
  locked s = false /\ queue s = [] /\ holders s = [] /\ llock s = None
  /\ forall t, pcs s t <> Park /\ pcs s t <> BPark.
Proof. exact mutex_wake_owed. Qed.

(* ... indeed every thread has finished its program and dropped its future (deadlock freedom) *)
Theorem C10_mutex_deadlock_free : forall progs s,
  reachable (sys progs) s -> quiescent (sys progs) s ->
  forall t, pcs s t = Idle /\ fut s t = None.
Proof. exact mutex_deadlock_free. Qed.

(* Wait-list well-formedness: no node is linked twice, and the owner of every linked node is alive
   (inside lock_slow, or owning an un-dropped future): a future drop leaves no dangling node. *)
Theorem C10_list_wf : forall progs s,
  reachable (sys progs) s ->
  NoDup (queue s) /\ forall u, In u (queue s) -> insync (pcs s u) = true \/ fut s u <> None.
Proof. exact mutex_list_wf. Qed.

(* A cancelled future whose node was already WOKEN passes the wake on (its drop runs wake_next). *)
Theorem C10_cancel_forwards_wake : forall s t c,
  pcs s t = DLoad -> nwk s t = true ->
  exists s' e, mstep s t c = Some (s', e) /\ pcs s' t = LLSwap LWake /\ fut s' t = None.
Proof. exact cancel_forwards_wake. Qed.

(* ---- non-vacuity *)
Definition rep (n : nat) (x : nat * mch) := repeat x n.

(* two blocking lockers: thread 1 really parks (disabled, linked, lock held) and is then woken by
   thread 0's unlock -> wake_next; both finish *)
Definition progs2 (t : nat) : list op := match t with 0 => [OLock] | 1 => [OLock] | _ => [] end.
Definition sch_park := rep 2 (0, ChGo) ++ rep 9 (1, ChGo).
Definition sch_wake := sch_park ++ rep 6 (0, ChGo) ++ rep 9 (1, ChGo).

Example C10_ex_parks :
  let s := fst (run (sys progs2) (minit progs2) sch_park) in
  pcs s 1 = Park /\ mstep s 1 ChGo = None /\ queue s = [1] /\ locked s = true /\ holders s = [0].
Proof. vm_compute. repeat split. Qed.

Example C10_ex_woken :
  let s := fst (run (sys progs2) (minit progs2) sch_wake) in
  pcs s 0 = Idle /\ pcs s 1 = Idle /\ queue s = [] /\ locked s = false /\ hasq s = false
  /\ results s = [(0, RL); (1, RL)]
  /\ quiescent (sys progs2) s.
Proof.
  cbv zeta. repeat apply conj; [vm_compute; reflexivity .. | ].
  intros [|[|t]] c; vm_compute; reflexivity.
Qed.

(* holder 0; thread 1 polls a lock future once (Pending, queue head) and cancels it AFTER it was
   WOKEN by the unlock; thread 2 blocks in lock_async behind it.  The drop forwards the wake and
   thread 2 acquires. *)
Definition progs3 (t : nat) : list op :=
  match t with 0 => [OLock] | 1 => [OPoll; ODropFut] | 2 => [OAsync] | _ => [] end.
Definition sch_queued := rep 2 (0, ChGo) ++ rep 7 (1, ChGo) ++ rep 7 (2, ChGo) ++ rep 5 (0, ChGo).
Definition sch_cancel := sch_queued ++ rep 8 (1, ChGo) ++ rep 8 (2, ChGo).

Example C10_ex_woken_future_pending :
  let s := fst (run (sys progs3) (minit progs3) sch_queued) in
  locked s = false /\ queue s = [1; 2] /\ nwk s 1 = true /\ pcs s 1 = Idle /\ fut s 1 = Some false
  /\ pcs s 2 = BPark /\ mstep s 2 ChGo = None.
Proof. vm_compute. repeat split. Qed.

Example C10_ex_cancel_forwards :
  let s := fst (run (sys progs3) (minit progs3) sch_cancel) in
  pcs s 0 = Idle /\ pcs s 1 = Idle /\ pcs s 2 = Idle /\ queue s = [] /\ locked s = false
  /\ fut s 1 = None /\ fut s 2 = None
  /\ results s = [(0, RL); (1, RP false); (2, RA)].
Proof. vm_compute. repeat split. Qed.
