(* Props/C12.v — pinned theorems for property C12 (no expired entry is ever
   served; an unexpired entry of an unbounded cache is not reported missing).
   The stale-while-revalidate sentence (fetch_with) belongs to C15's engine.
   Only statements, `exact`, examples. *)
From Fibre Require Import Common.Base Cache.PolicySpec Cache.PolicyLru Cache.AMap
     Cache.CacheOps Cache.CacheSpec Proofs.CacheCoreProofs Proofs.CacheStepProofs Proofs.CacheC12Proofs.

(** * first sentence: whatever a read path hands out is unexpired *)

(* FULL statement ([C12_served_live], CacheSpec.v), for the code with the F-15
   and F-33 patches: every policy, configuration, state and operation *)
Theorem C12_seq : forall (P : policy) (c : cfg),
  0 < c_shards c -> fix_f15 (c_fix c) = true -> fix_f33 (c_fix c) = true ->
  C12_served_live P c.
Proof.
  intros P c Hn H15 H33 s o k v Hs. apply (c12_served_gen P c Hn s o k v Hs); intros _; assumption.
Qed.

(* the code as found refutes it: entry() is Occupied on an expired entry (F-15),
   and compute_val hands the closure an expired value (F-33) *)
Theorem C12_seq_refuted_F15 : ~ C12_served_live LruP (c12_cfg no_fixes).
Proof. exact c12_served_refuted_F15. Qed.

Theorem C12_seq_refuted_F15_or_insert : ~ C12_served_live LruP (c12_cfg no_fixes).
Proof. exact c12_served_refuted_F15_or_insert. Qed.

Theorem C12_seq_refuted_F33 : ~ C12_served_live LruP (c12_cfg no_fixes).
Proof. exact c12_served_refuted_F33. Qed.

(* what holds of the code as found: every read path except entry() and compute *)
Theorem C12_seq_except_F15_F33 : forall (P : policy) (c : cfg) (s : state P) (o : op) (k v : N),
  0 < c_shards c ->
  served P c s o k v -> is_entry_op o = false -> is_compute_op o = false ->
  exists e, find P c s k = Some e /\ e_val e = v /\ live c (st_now P s) e.
Proof.
  intros P c s o k v Hn Hs He Hc. apply (c12_served_gen P c Hn s o k v Hs); intros Hx; congruence.
Qed.

(* where the deadlines come from: TTL counted from insertion (global or per insert),
   idle timer started at insertion *)
Theorem C12_deadline_set : forall (P : policy) (c : cfg) (s : state P) (k v cost : N),
  0 < c_shards c ->
  (exists h, find P c (do_insert P c s k v cost) k
             = Some (mkE v cost (ttl_exp c (st_now P s)) (la0 P c s) h (st_eid P s)))
  /\ (forall d, exists h, find P c (do_insert_ttl P c s k v cost d) k
                          = Some (mkE v cost (st_now P s + d) (la0 P c s) h (st_eid P s)))
  /\ (occupied P c s k = None ->
      find P c (fst (do_or_insert P c s k v cost)) k
      = Some (mkE v cost (ttl_exp c (st_now P s)) (la0 P c s) None (st_eid P s))).
Proof. intros P c s k v cost Hn. exact (c12_deadline_set P c Hn s k v cost). Qed.

(* ... and that nothing but an overwrite changes them; the idle timer moves only
   to `now`, only by get/fetch/multiget hitting a live entry (peek, entry and
   compute do not refresh) *)
Theorem C12_deadline_frame : forall (P : policy) (c : cfg) (s : state P) (o : op) (k : N) (e e' : entry),
  0 < c_shards c ->
  wfp P c s -> find P c s k = Some e -> silent o k = false ->
  find P c (fst (step P c s o)) k = Some e' ->
  e_id e' = e_id e /\ e_exp e' = e_exp e /\ e_cost e' = e_cost e
  /\ (e_la e' = e_la e \/ (e_la e' = st_now P s /\ live c (st_now P s) e /\ refreshes o k = true)).
Proof. intros P c s o k e e' Hn Hw Hf Hsil. exact (proj1 (c12_keep P c Hn s o k e Hw Hf Hsil) e'). Qed.

(** * second sentence: an unexpired entry of an unbounded cache is not reported missing *)

(* FULL statement ([C12_present]) for the code with the F-16 patch *)
Theorem C12_present_fixed : forall (P : policy) (c : cfg),
  0 < c_shards c -> fix_f16 (c_fix c) = true -> C12_present P c.
Proof. intros P c Hn Hf. exact (c12_present P c Hn Hf). Qed.

(* the code as found refutes it: the timer wheel advances one tick per
   maintenance call and TTL cleanup removes by key hash without re-checking
   expiry (F-16) *)
Theorem C12_present_refuted_F16 : ~ C12_present LruP (c12_cfg no_fixes).
Proof. exact c12_present_refuted_F16. Qed.

(* what holds of the code as found: every operation other than the maintenance passes *)
Theorem C12_present_except_F16 : forall (P : policy) (c : cfg) (s : state P) (o : op) (k : N) (e : entry),
  0 < c_shards c ->
  wfp P c s -> find P c s k = Some e -> removes o k = false -> silent o k = false -> is_maint o = false ->
  exists e', find P c (fst (step P c s o)) k = Some e' /\ e_id e' = e_id e /\ e_exp e' = e_exp e.
Proof. intros P c s o k e Hn Hw Hf Hrm Hsil Hm. exact (c12_kept P c Hn s o k e Hw Hf Hrm Hsil (or_introl Hm)). Qed.

(* and a resident live entry is returned by every read path *)
Theorem C12_live_is_served : forall (P : policy) (c : cfg) (s : state P) (k : N) (e : entry),
  0 < c_shards c ->
  find P c s k = Some e -> live c (st_now P s) e ->
  (forall hit, snd (do_read P c hit s k) = Some (e_val e))
  /\ snd (do_read_direct P c s k) = Some (e_val e)
  /\ occupied P c s k = Some e
  /\ computable P c s k = Some e
  /\ (forall ks, In k ks -> In k (map fst (snd (do_multiget_gen P (do_read P c true) s ks []))))
  /\ (forall ks, In k ks -> In k (map fst (snd (do_multiget_gen P (do_read_direct P c) s ks [])))).
Proof. intros P c s k e Hn. exact (c12_live_is_served P c Hn s k e). Qed.

(* every reachable state is well formed, so the hypotheses above are satisfiable *)
Theorem C12_reachable_wfp : forall (P : policy) (c : cfg) (s : state P),
  0 < c_shards c -> reachable P c s -> wfp P c s.
Proof. intros P c s Hn. exact (reachable_wfp P c Hn s). Qed.

(* non-vacuity: boundary instants with TTL 5 and TTI 3 (get refreshes, peek does not) *)
Definition c12_ex_cfg : cfg := mkCfg 2 U64_MAX (Some 5) (Some 3) 60 1 false true false false all_fixes.
Example C12_example :
  snd (run LruP c12_ex_cfg (init LruP 1000)
           [OInsert 1 100 1; OAdvance 2; OPeek 1; OAdvance 1; OPeek 1;          (* idle 3: expired *)
            OInsert 2 101 1; OAdvance 2; OGet 2; OAdvance 2; OGet 2;            (* refreshed at +2: live at +4 *)
            OAdvance 1; OGet 2; OEntryGet 2; OComputeVal 2 FKeep])              (* TTL 5 reached *)
  = [RUnit; RUnit; ROpt (Some 100); RUnit; ROpt None;
     RUnit; RUnit; ROpt (Some 101); RUnit; ROpt (Some 101);
     RUnit; ROpt None; ROpt None; ROpt None].
Proof. vm_compute. reflexivity. Qed.
