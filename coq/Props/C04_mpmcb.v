(* Props/C04_mpmcb.v — pinned theorems for property C04 (disconnect protocol) on the bounded MPMC K2
   model.  The model is faithful to /repo: clauses that the code violates are refuted on the model with
   the repairs off ([no_fixes]), proved outside the recorded event ("_except_", the event is a ghost
   taint of the history), and proved outright for the model with the repair switched on ("_fixed"). *)
From Fibre Require Import Common.Base Chan.MpmcB Proofs.MpmcBBase Proofs.MpmcBInv Proofs.MpmcBStep Proofs.MpmcBProofs.

(** receivers drain before Disconnected: a receive form on an open handle reports Disconnected only
    when the buffer is empty and the sender count is 0; a value is always the head of the queue
    (C01_mpmcb_recv_results has the same statement with all result cases) *)
Theorem C04_mpmcb_recv_disc_drained : forall c a f os h x,
  let s := state_after c a f os in
  getH h s = Some x -> h_live x = true -> h_tx x = false -> h_closed x = false ->
  o_res (snd (step s (TryRecv h))) = RDisc -> q s = [] /\ sc s = 0.
Proof.
  intros c a f os h x. cbv zeta. intros Hg Hl Htx Hc Ho.
  pose proof (try_recv_spec (state_after c a f os) h x Hg Hl Htx (fun E => match E eq_refl with end)) as P.
  rewrite Ho in P. destruct P as (_ & [P|P]); [congruence | exact P].
Qed.

(** the counts the code keeps are the numbers of open handles (so: dropping/closing one clone
    disconnects nothing while another is open; after the last one the count is 0) — F-07 *)
Theorem C04_mpmcb_counts_except_F07 : forall c a f os,
  let s := state_after c a f os in
  t07 (tn s) = false ->
  sc s = N.of_nat (cnt open_tx (hs s)) /\ rc s = N.of_nat (cnt open_rx (hs s)).
Proof. exact P_counts. Qed.

Theorem C04_mpmcb_counts_refuted_F07 : ~ counts_exact no_fixes.
Proof. exact counts_refuted_F07. Qed.

Theorem C04_mpmcb_counts_fixed : forall f, fx07 f = true -> counts_exact f.
Proof. exact counts_fixed. Qed.

Theorem C04_mpmcb_open_clone_keeps_connected : forall c a f os h x,
  let s := state_after c a f os in
  t07 (tn s) = false -> getH h s = Some x -> h_live x = true -> h_closed x = false ->
  if h_tx x then sc s <> 0 else rc s <> 0.
Proof.
  intros c a f os h x. cbv zeta. intros T Hg Hl Hc. destruct (h_tx x) eqn:E.
  - eapply open_tx_alive; eauto. apply Inv_reachable.
  - eapply open_rx_alive; eauto. apply Inv_reachable.
Qed.

(** after the last receiver is gone every send form fails and hands the value back
    (C01_mpmcb_send_results: rc = 0 gives Closed(value) / Closed) *)
Theorem C04_mpmcb_send_after_last_rx : forall c a f os h x,
  let s := state_after c a f os in
  getH h s = Some x -> h_live x = true -> h_tx x = true -> rc s = 0 ->
  exists v, o_res (snd (step s (TrySend h))) = RClosedV v /\ v = next s
            /\ unchanged_data s (fst (step s (TrySend h))).
Proof.
  intros c a f os h x. cbv zeta. intros Hg Hl Htx Hrc.
  pose proof (try_send_spec _ h (Inv_reachable c a f os) x Hg Hl Htx (fun E => match Bool.diff_false_true E with end)) as P.
  destruct (o_res (snd (step (state_after c a f os) (TrySend h)))); try contradiction.
  - destruct P as (_ & P & _). contradiction.
  - destruct P as (_ & _ & _ & P & _). contradiction.
  - destruct P as (_ & P1 & _ & P2 & _). exists v. auto.
  - destruct P as (P & _). discriminate.
  - destruct P as (P & _). discriminate.
Qed.

(** close is idempotent: Ok once, then CloseError; it never panics outside F-07 *)
Theorem C04_mpmcb_close : forall c a f os h,
  let s := state_after c a f os in
  close_spec s h (fst (step s (Close h))) (snd (step s (Close h))).
Proof. intros c a f os h. apply close_step_spec, Inv_reachable. Qed.

(** a closed handle rejects further operations: try_send / send / try_recv / recv by
    C01_mpmcb_send_results / C01_mpmcb_recv_results (Ok and Full need h_closed = false, a value or
    Empty need h_closed = false); recv_timeout — F-03 *)
Theorem C04_mpmcb_rt_closed_except_F03 : forall c a f os h x,
  let s := state_after c a f os in
  getH h s = Some x -> h_live x = true -> h_tx x = false -> h_async x = false -> h_closed x = true ->
  o_res (snd (step s (RecvTimeout h))) = RDisc \/ t03 (tn (fst (step s (RecvTimeout h)))) = true.
Proof. exact rt_closed_except_F03. Qed.

Theorem C04_mpmcb_rt_closed_refuted_F03 : ~ rt_closed_rejects no_fixes.
Proof. exact rt_closed_refuted_F03. Qed.

Theorem C04_mpmcb_rt_closed_fixed : forall f, fx03 f = true -> rt_closed_rejects f.
Proof. exact rt_closed_fixed. Qed.

(** ... and the futures of a closed handle — F-03f *)
Theorem C04_mpmcb_poll_closed_except_F03f : forall c a f os fid w x,
  let s := state_after c a f os in
  getF fid s = Some x -> f_live x = true -> f_done x = false -> handle_closed (f_h x) s = true ->
  o_res (snd (step s (Poll fid w))) = (if f_recv x then RReadyDisc else RReadyClosed)
  \/ t03f (tn (fst (step s (Poll fid w)))) = true.
Proof. exact poll_closed_except_F03f. Qed.

Theorem C04_mpmcb_poll_closed_refuted_F03f : ~ poll_closed_rejects no_fixes.
Proof. exact poll_closed_refuted_F03f. Qed.

Theorem C04_mpmcb_poll_closed_fixed : forall f, fx03f f = true -> poll_closed_rejects f.
Proof. exact poll_closed_fixed. Qed.

(** a receiver that has observed Disconnected (no sender counted, buffer drained) never obtains a
    value afterwards: that state is stable under every step — F-33, F-07, F-03f *)
Theorem C04_mpmcb_disc_final_except : forall c a f os o,
  let s := state_after c a f os in
  sc s = 0 -> q s = [] ->
  let s' := fst (step s o) in
  t07 (tn s') = false -> t33 (tn s') = false -> t03f (tn s') = false ->
  sc s' = 0 /\ q s' = [] /\ recvd s' = recvd s.
Proof. exact disc_final_except. Qed.

Theorem C04_mpmcb_disc_final_refuted_F33 : ~ disc_is_final no_fixes.
Proof. exact disc_final_refuted_F33. Qed.

Theorem C04_mpmcb_disc_final_refuted_F03f : ~ disc_is_final no_fixes.
Proof. exact disc_final_refuted_F03f. Qed.

Theorem C04_mpmcb_disc_final_refuted_F07 : ~ disc_is_final no_fixes.
Proof. exact disc_final_refuted_F07. Qed.

Theorem C04_mpmcb_disc_final_fixed : forall f,
  fx07 f = true -> fx33 f = true -> fx03f f = true -> disc_is_final f.
Proof. exact disc_final_fixed. Qed.

(** a future reports Disconnected only after the buffer is drained — F-08 *)
Theorem C04_mpmcb_future_disc_except_F08 : forall c a f os fid w x,
  let s := state_after c a f os in
  getF fid s = Some x -> f_live x = true -> f_done x = false -> f_recv x = true ->
  handle_closed (f_h x) s = false ->
  o_res (snd (step s (Poll fid w))) = RReadyDisc ->
  q s = [] \/ (fx08 f = false /\ t08 (tn (fst (step s (Poll fid w)))) = true).
Proof. exact future_disc_except_F08. Qed.

Theorem C04_mpmcb_future_disc_refuted_F08 : ~ future_disc_drained no_fixes.
Proof. exact future_disc_refuted_F08. Qed.

Theorem C04_mpmcb_future_disc_fixed : forall f, fx08 f = true -> future_disc_drained f.
Proof. exact future_disc_fixed. Qed.

(** with every repair on, no recorded event can occur in any history *)
Theorem C04_mpmcb_all_fixed_clean : forall c a os,
  let s := state_after c a all_fixes os in
  t03 (tn s) = false /\ t03f (tn s) = false /\ t06 (tn s) = false /\ t07 (tn s) = false /\
  t08 (tn s) = false /\ t12 (tn s) = false /\ t33 (tn s) = false.
Proof. exact all_fixed_clean. Qed.

(* non-vacuity: a lifecycle history (clone, close, drain, Disconnected, double close, drop) *)
Example C04_mpmcb_example :
  map o_res (snd (run (init 2 false no_fixes)
     [Clone 0 2; TrySend 0; Close 0; TrySend 0; TrySend 2; Close 2; Close 2; TryRecv 1; TryRecv 1; TryRecv 1;
      DropH 1; TrySend 2]))
  = [ROk; ROk; ROk; RClosedV 1; ROk; ROk; RCloseErr; RVal 0; RVal 2; RDisc; ROk; RClosedV 3].
Proof. vm_compute. reflexivity. Qed.

(* the same F-07 history on the faithful and on the repaired model *)
Example C04_mpmcb_example_F07 :
  map o_res (snd (run (init 2 false no_fixes) [Clone 0 2; Close 0; Convert 0 3; DropH 3; TryRecv 1; TrySend 2; DropH 2]))
  = [ROk; ROk; ROk; ROk; RDisc; ROk; RPanic]
  /\ map o_res (snd (run (init 2 false all_fixes) [Clone 0 2; Close 0; Convert 0 3; DropH 3; TryRecv 1; TrySend 2; DropH 2]))
  = [ROk; ROk; ROk; ROk; REmpty; ROk; ROk].
Proof. vm_compute. split; reflexivity. Qed.
