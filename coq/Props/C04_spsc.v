(* Props/C04_spsc.v — pinned theorems: C04 (disconnect protocol) for the bounded SPSC channel (K2 model).
   The SPSC handles cannot be cloned, so the clause "closing one of several clones changes nothing for
   the others" is vacuous here.  Two confirmed defects of the code as it is make four clauses false:
     F-03-spsc  sync `send_batch` does not test the handle's own `closed` flag;
     F-07-spsc  `to_sync`/`to_async` build the new handle with `closed = false`.
   cfg_repo = the code as it is, cfg_fixed = both one-line repairs applied (docs/spsc.md). *)
From Coq Require Import List Arith Bool.
From Fibre Require Import Chan.SpscOps Proofs.SpscOpsProofs Proofs.SpscOpsTheorems.
Import ListNotations.
Open Scope nat_scope.

(* ---- clauses that hold for the code as it is AND for the repaired code *)
(* a receiver that did not close itself sees Disconnected only after every accepted id was received *)
Theorem C04_spsc_drain_before_disconnected : forall cf s o k,
  Inv s -> rh s = HLive k false -> is_recv_op o = true ->
  is_disc (res_of (step cf s o)) = true -> accepted s = received s.
Proof. exact spsc_drain_before_disc. Qed.

(* after the receiver was closed or dropped every send form fails with Closed and accepts nothing *)
Theorem C04_spsc_send_after_receiver_left : forall cf s o,
  cdrop s = true -> is_send_op o = true ->
  closed_class (res_of (step cf s o)) = true /\
  accepted (fst (step cf s o)) = accepted s /\ q (fst (step cf s o)) = q s.
Proof. exact spsc_send_after_receiver_left. Qed.

Theorem C04_spsc_poll_after_receiver_left : forall cf s w,
  cdrop s = true ->
  (closed_class (res_of (step cf s (PollS w))) = true \/ exists n, res_of (step cf s (PollS w)) = ROkN n) /\
  accepted (fst (step cf s (PollS w))) = accepted s /\ q (fst (step cf s (PollS w))) = q s.
Proof. exact spsc_poll_after_receiver_left. Qed.

(* ... handing the value back wherever the error type carries it *)
Theorem C04_spsc_closed_hands_back : forall cf s,
  cdrop s = true -> forall k c, sh s = HLive k c -> sf s = None ->
  res_of (step cf s TrySend) = RClosedV (next s) /\
  (forall n, n <> 0 -> res_of (step cf s (TrySendBatch n)) = RTryBatchErr 0 (seq (next s) n) true) /\
  (forall n, n <> 0 -> res_of (step cf s (TrySendBatchMut n)) = RMutClosed (seq (next s) n)).
Proof. exact spsc_closed_hands_back. Qed.

(* consumer_dropped / producer_dropped are exactly "that endpoint was closed or dropped" *)
Theorem C04_spsc_flags : forall cf c k ops,
  let s := reach cf c k ops in
  cdrop s = r_ever s || is_gone (rh s) /\ pdrop s = s_ever s || is_gone (sh s).
Proof. exact (fun cf c k ops => spsc_flags_inv _ (reach_inv cf c k ops)). Qed.

(* ---- the full statement: closed handles reject every form, close is idempotent, Disconnected is
   reported once drained, no value after Disconnected *)
Theorem C04_spsc_full_fixed : C04_full cfg_fixed.
Proof. exact spsc_fixed_C04_full. Qed.

(* ---- refuted on the code as it is, by explicit witnesses (replayed on the implementation by the check) *)
Theorem C04_spsc_full_refuted_repo : ~ C04_full cfg_repo.
Proof. exact spsc_repo_C04_full_refuted. Qed.

Theorem C04_spsc_closed_sender_rejects_refuted_F03 : ~ C04_closed_sender_rejects cfg_repo.
Proof. exact spsc_repo_closed_sender_rejects_refuted_F03. Qed.

Theorem C04_spsc_closed_sender_rejects_refuted_F07 :
  ~ C04_closed_sender_rejects {| fix_f03 := true; fix_conv := false |}.
Proof. exact spsc_repo_closed_sender_rejects_refuted_F07. Qed.

Theorem C04_spsc_closed_sender_rejects_needs_F03_fix :
  ~ C04_closed_sender_rejects {| fix_f03 := false; fix_conv := true |}.
Proof. exact spsc_closed_sender_rejects_needs_f03. Qed.

Theorem C04_spsc_closed_receiver_rejects_refuted_F07 : ~ C04_closed_receiver_rejects cfg_repo.
Proof. exact spsc_repo_closed_receiver_rejects_refuted_F07. Qed.

Theorem C04_spsc_close_idempotent_refuted_F07 : ~ C04_close_idempotent cfg_repo.
Proof. exact spsc_repo_close_idempotent_refuted_F07. Qed.

Theorem C04_spsc_disc_when_drained_refuted_F07 : ~ C04_disc_when_drained cfg_repo.
Proof. exact spsc_repo_disc_when_drained_refuted_F07. Qed.

Theorem C04_spsc_no_value_after_disc_refuted_F03 : ~ C04_no_value_after_disc cfg_repo.
Proof. exact spsc_repo_no_value_after_disc_refuted_F03. Qed.

(* ---- what holds of the code as it is: on every history that never calls sync send_batch on a
   self-closed sender (F-03) and never converts a self-closed handle (F-07) it behaves exactly like the
   repaired code, to which C04_spsc_full_fixed applies *)
Theorem C04_spsc_except_F03_F07 : forall c k ops,
  trig_free (init c k) ops ->
  run cfg_repo (init c k) ops = run cfg_fixed (init c k) ops.
Proof. exact (fun c k ops => run_same cfg_repo ops (init c k)). Qed.

(* non-vacuity *)
Example C04_spsc_example_drain_then_disc :
  map fst (run_case cfg_repo 2 KSync [TrySend; TrySend; DropS; TryRecv; TryRecv; TryRecv; TrySend])
  = [ROk; ROk; ROk; RVal 0; RVal 1; RDisc; RGone; RNoFut; RNoFut; RGone; ROk].
Proof. vm_compute. reflexivity. Qed.

Example C04_spsc_example_trig_free :
  trig_free (init 2 KSync) [TrySend; ConvS; CloseS; TrySend; TrySendBatchMut 2; CloseS; TryRecv; ConvR; TryRecv; CloseR].
Proof. vm_compute. repeat split; reflexivity. Qed.

Example C04_spsc_example_F03_witness :
  map fst (run_case cfg_repo 2 KSync [CloseS; SendBatch 2; TryRecv; TryRecv; TryRecv])
  = [ROk; ROkN 2; RVal 0; RVal 1; RDisc; RNoFut; RNoFut; ROk; ROk].
Proof. vm_compute. reflexivity. Qed.

Example C04_spsc_example_F03_fixed :
  map fst (run_case cfg_fixed 2 KSync [CloseS; SendBatch 2; TryRecv; TryRecv; TryRecv])
  = [ROk; RBatchErr 0 [0; 1]; RDisc; RDisc; RDisc; RNoFut; RNoFut; ROk; ROk].
Proof. vm_compute. reflexivity. Qed.
