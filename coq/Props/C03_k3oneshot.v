(* Props/C03_k3oneshot.v — pinned statements: C03 for oneshot (only the first send ever succeeds),
   K3 model, every cfg, every number N of sender clones, all programs and all schedules. *)
From Coq Require Import List.
From Fibre Require Import Common.Conc Chan.OneshotK3 Proofs.OneshotK3Base Proofs.OneshotK3Life
  Proofs.OneshotK3Slot Proofs.OneshotK3Vals Proofs.OneshotK3Examples.
Import ListNotations.

(* at most one sender is inside the EMPTY->WRITING critical section, and state = WRITING iff one is *)
Theorem C03_k3oneshot_one_writer :
  forall C n sprog rp sch t u,
  let s := fst (run (sys C n sprog rp) (init n rp) sch) in
  writer (spc s t) = true -> writer (spc s u) = true -> t = u.
Proof.
  intros C n sprog rp sch t u s. apply (l_wu _ _ (proj1 (Inv1_reachable C n sprog rp s (ex_intro _ sch eq_refl)))).
Qed.

Theorem C03_k3oneshot_writing_iff_writer :
  forall C n sprog rp sch,
  let s := fst (run (sys C n sprog rp) (init n rp) sch) in
  cs s = Writing <-> exists t, inr n t /\ writer (spc s t) = true.
Proof.
  intros C n sprog rp sch s. apply (k3_writing_iff_writer C n sprog rp). exists sch. reflexivity.
Qed.

(* at most one value is ever written into the slot *)
Theorem C03_k3oneshot_one_value :
  forall C n sprog rp sch,
  let s := fst (run (sys C n sprog rp) (init n rp) sch) in
  length (wrote s) <= 1.
Proof.
  intros C n sprog rp sch s. apply (g_len _ _ _ (proj2 (proj2 (Inv1_reachable C n sprog rp s (ex_intro _ sch eq_refl))))).
Qed.

(* at most one send reports Ok, and it is the send whose value was written *)
Theorem C03_k3oneshot_one_ok :
  forall C n sprog rp sch,
  let s := fst (run (sys C n sprog rp) (init n rp) sch) in
  length (oks s) <= 1 /\ incl (oks s) (wrote s).
Proof.
  intros C n sprog rp sch s. apply (k3_one_ok C n sprog rp). exists sch. reflexivity.
Qed.

Example C03_k3oneshot_ex :
  oks st_race = [1] /\ back st_race = [2; 3] /\ wrote st_race = [1] /\ rlog st_race = [REmpty; RVal 1] /\
  rpc st_race = RDone.
Proof. exact ex_race. Qed.
