(* Props/C05_k3spsc.v — pinned statements: C05 (no lost wakeup, safety form) for the K3 SPSC model:
   register -> SeqCst fence -> re-check -> park   versus   publish -> SeqCst fence -> read the
   waiters gate -> wake_one, including the `notified` handshake, `unregister`, stale park tokens,
   spurious park returns, and the drop_sender / drop_receiver wake-ups.
   Partial with respect to the property text: "eventually under fair scheduling" is not stated;
   what is proved is that no reachable state is stuck. *)
From Fibre Require Import Common.Base Common.Conc Chan.SpscK3 Proofs.SpscK3Proofs Proofs.SpscK3Values
  Proofs.SpscK3Examples.

(* quiescent_ns: no thread can take a step (spurious park returns aside).
   Then a parked consumer faces an empty ring and a live sender; a parked producer faces a full
   ring and a live receiver. *)
Theorem C05_k3spsc_no_lost_wakeup :
  forall cap phys pp cp sch, 0 < cap -> cap <= phys ->
  let s := fst (run (sys cap phys pp cp) (init pp cp) sch) in
  quiescent_ns cap phys s ->
  (consumer_parked s -> head s = tail s /\ scount s <> 0) /\
  (producer_parked s -> tail s = head s + cap /\ cdropped s = false).
Proof.
  intros cap phys pp cp sch Hc Hp s. apply (no_lost_wakeup cap phys Hc Hp pp cp). exists sch. reflexivity.
Qed.

(* consequently nobody is ever parked in a quiescent state: the only states of any schedule in
   which no thread can move are the final ones (both programs finished, both handles dropped) *)
Theorem C05_k3spsc_deadlock_free :
  forall cap phys pp cp sch, 0 < cap -> cap <= phys ->
  let s := fst (run (sys cap phys pp cp) (init pp cp) sch) in
  quiescent_ns cap phys s -> ppc s = PDone /\ cpc s = CDone.
Proof.
  intros cap phys pp cp sch Hc Hp s. apply (deadlock_free cap phys Hc Hp pp cp). exists sch. reflexivity.
Qed.

(* the waker's store through the registered `notified` pointer always targets the stack frame of a
   receive call that is still registered (it cannot have returned: it needs the cell's mutex) *)
Theorem C05_k3spsc_notified_store_live :
  forall cap phys pp cp sch, 0 < cap -> cap <= phys ->
  let s := fst (run (sys cap phys pp cp) (init pp cp) sch) in
  (p_taking (ppc s) = true -> c_reg (cpc s) || c_unreg0 (cpc s) = true) /\
  (c_taking (cpc s) = true -> p_reg (ppc s) || p_unreg0 (ppc s) = true).
Proof.
  intros cap phys pp cp sch Hc Hp s. apply (notified_store_live cap phys Hc Hp pp cp). exists sch. reflexivity.
Qed.

(* non-vacuity: a schedule that really parks (registered, gate = 1), is really woken through the
   notified flag + token while the producer then blocks on the full ring, and completes *)
Example C05_k3spsc_ex_parks : consumer_parked ex_s1 /\ cw_slot ex_s1 = true /\ recv_w ex_s1 = 1.
Proof. exact ex_parks. Qed.
Example C05_k3spsc_ex_woken : tok_c ex_s2 = true /\ c_notif ex_s2 = true /\ producer_parked ex_s2 /\ tail ex_s2 = 1.
Proof. exact ex_wakes_and_blocks. Qed.
Example C05_k3spsc_ex_completes :
  ppc ex_s3 = PDone /\ cpc ex_s3 = CDone /\ cresults ex_s3 = [RVal 1; RVal 2; RVal 3] /\
  presults ex_s3 = [POk 1; POk 2; POk 3] /\ tail ex_s3 = 3 /\ quiescent_ns 1 2 ex_s3.
Proof. exact ex_completes. Qed.
