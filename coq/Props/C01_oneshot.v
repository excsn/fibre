(* Props/C01_oneshot.v — pinned theorems: C01 for fibre::oneshot (K2 model Chan/OneshotOps.v). *)
From Coq Require Import List Arith Permutation.
From Fibre Require Import Chan.OneshotOps Proofs.OneshotOpsProofs Proofs.OneshotOpsTheorems.
Import ListNotations.
Open Scope nat_scope.

(* every id is in exactly one place: received, in the slot (STATE_SENT), handed back, dropped *)
Theorem C01_oneshot_conservation : forall cf ops,
  let s := oreach cf ops in
  Permutation (orecv s ++ sent_val (ostate s) ++ oret s ++ odrop s) (seq 0 (onext s)).
Proof. exact (fun cf ops => oconservation_inv cf _ (oreach_inv cf ops)). Qed.

(* received at most once, only the accepted value, at most one value is ever accepted *)
Theorem C01_oneshot_received_once : forall cf ops,
  let s := oreach cf ops in
  NoDup (orecv s) /\ (orecv s = [] \/ orecv s = oacc s) /\ length (oacc s) <= 1.
Proof. exact oneshot_received_once. Qed.

(* a failed send hands its value back and accepts nothing (receiver gone; the other failure, Sent, is
   characterised by C03_oneshot_send_ok_iff) *)
Theorem C01_oneshot_failed_send_hands_back : forall cf s h c,
  rdrop s = true -> find_h h (snd_h s) = Some c ->
  ores_of (ostep cf s (OSend h)) = OClosedV (onext s) /\ oacc (fst (ostep cf s (OSend h))) = oacc s.
Proof. exact oneshot_send_after_receiver_left. Qed.

Example C01_oneshot_example :
  map fst (orun_case ocfg_repo [OClone 0; OSend 0; OSend 1; OTryRecv; OTryRecv])
  = [OOk; OOk; OSentV 1; OVal 0; OEmptyR; OOk].
Proof. vm_compute. reflexivity. Qed.
