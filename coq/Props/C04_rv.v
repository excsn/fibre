(* Props/C04_rv.v — pinned theorems of property C04 (disconnect protocol) for the rendezvous
   channels (engine rv).  The shipped wrappers break it in three ways, each with a refuted/except
   pair and a proposed repair (docs/rv.md) selected by a switch of the model:
     F-07  to_sync/to_async build the new handle with closed=false (fix_conv)
     F-34  clone of a closed handle is an open handle and increments the count (fix_clone)
     F-35  SendFuture/RecvFuture never look at the handle's closed flag (fix_fut) *)
From Fibre Require Import Common.Base Chan.Rendezvous Proofs.RendezvousBase Proofs.RendezvousWF
     Proofs.RendezvousProofs Proofs.RendezvousLife.

(** the counters are the numbers of open handles, and nothing panics *)
Theorem C04_rv_counts_exact_fixed : forall c, fix_conv c = true -> rv_counts_exact_full c.
Proof. exact rv_counts_exact_fixed. Qed.

Theorem C04_rv_counts_exact_refuted_F07 : forall c, fix_conv c = false -> ~ rv_counts_exact_full c.
Proof. exact rv_counts_exact_refuted_F07. Qed.

Theorem C04_rv_counts_exact_except_F07 : forall c a ops s tr,
  run_sat conv_ok c (init a) ops -> run c (init a) ops = (s, tr) ->
  CE s /\ (forall o r e, In (o, r, e) tr -> r <> OPanic).
Proof. exact rv_counts_exact_except_F07. Qed.

(** with exact counters (any state satisfying WF and CE): *)
(* Disconnected is reported on an open receiver exactly when no sender handle is open and no send is
   pending; a pending send is always delivered first *)
Theorem C04_rv_disconnected_iff : forall c s, WF s -> CE s -> forall k hd h s' r e,
  h_live_side s h Rx = Some hd -> h_closed hd = false ->
  core_recv c k s = (s', r, e) ->
  (r = ODisc <-> nopen Tx (hs s) = 0 /\ sq s = []) /\
  (sq s <> [] -> exists v, r = OVal v).
Proof. intros c s W C k hd h s' r e _ _. exact (rv_disc_iff c s W C k s' r e). Qed.

(* after the last receiver is gone every send form fails and the value comes back (try_send) or is
   destroyed by the failing call (blocking send: SendError carries no value) *)
Theorem C04_rv_send_after_last_receiver : forall c s, CE s -> forall h hd v,
  h_live_side s h Tx = Some hd -> nopen Rx (hs s) = 0 ->
  step c s (TrySend h v) = (s, OClosedV v, [EIntro v; EBack v])
  /\ (h_async hd = false -> step c s (Send h v) = (s, OClosed, [EIntro v; EDropArg v])).
Proof. exact rv_send_after_last_rx. Qed.

Theorem C04_rv_poll_send_after_last_receiver : forall c s f w r0 v,
  CE s -> nopen Rx (hs s) = 0 ->
  aget f (fs s) = Some r0 -> f_side r0 = Tx -> f_reg r0 = false -> f_cell r0 = Some v ->
  step c s (Poll f w) = (s, OReadyClosed, []).
Proof. exact rv_poll_send_after_last_rx. Qed.

Theorem C04_rv_try_send_closed_iff : forall c s, WF s -> CE s -> forall h hd v s' r e,
  h_live_side s h Tx = Some hd -> h_closed hd = false ->
  step c s (TrySend h v) = (s', r, e) ->
  (r = OClosedV v <-> nopen Rx (hs s) = 0).
Proof. intros c s _. exact (rv_try_send_closed_iff c s). Qed.

(* closing or dropping one of several open clones changes nothing for anybody else *)
Theorem C04_rv_clone_isolation : forall s, CE s -> forall h hd s' r e,
  aget h (hs s) = Some hd -> h_closed hd = false -> 2 <= nopen (h_side hd) (hs s) ->
  do_close s h hd = (s', r, e) ->
  r = OOk /\ e = [] /\ fs s' = fs s /\ sq s' = sq s /\ rq s' = rq s
  /\ hs s' = aupd h h_close (hs s).
Proof. exact rv_clone_isolation. Qed.

(** every operation on a handle whose close() returned Ok fails; the second close is CloseError *)
Theorem C04_rv_closed_handle_fails : forall c s h hd,
  aget h (hs s) = Some hd -> h_closed hd = true ->
  (forall v s' r e, step c s (TrySend h v) = (s', r, e) -> r = OClosedV v \/ r = ONa) /\
  (forall v s' r e, step c s (Send h v) = (s', r, e) -> r = OClosed \/ r = ONa) /\
  (forall s' r e, step c s (TryRecv h) = (s', r, e) -> r = ODisc \/ r = ONa) /\
  (forall s' r e, step c s (Recv h) = (s', r, e) -> r = ODisc \/ r = ONa) /\
  (forall s' r e, step c s (RecvTimeout0 h) = (s', r, e) -> r = ODisc \/ r = ONa) /\
  (forall s' r e, step c s (Close h) = (s', r, e) -> r = OCloseErr /\ s' = s) /\
  (fix_fut c = true -> forall f w r0 s' r e,
     aget f (fs s) = Some r0 -> f_h r0 = h -> f_reg r0 = false ->
     step c s (Poll f w) = (s', r, e) ->
     s' = s /\ match f_side r0 with
               | Tx => r = OReadyClosed \/ (f_cell r0 = None /\ r = OReadyOk)
               | Rx => r = OReadyDisc
               end).
Proof. exact rv_closed_handle_fails. Qed.

Theorem C04_rv_closed_future_fails_refuted_F35 : forall c,
  fix_fut c = false -> ~ rv_closed_future_fails_full c.
Proof. exact rv_closed_future_fails_refuted_F35. Qed.

(** once no sender is open and no send is pending nothing is ever handed over again (so: after
    Disconnected, never a new value) *)
Theorem C04_rv_dead_sticky_fixed : forall c,
  fix_conv c = true -> fix_fut c = true -> fix_clone c = true -> rv_dead_sticky_full c.
Proof. exact rv_dead_sticky_fixed. Qed.

Theorem C04_rv_dead_sticky_refuted_F35 : forall c, fix_fut c = false -> ~ rv_dead_sticky_full c.
Proof. exact rv_dead_sticky_refuted_F35. Qed.

Theorem C04_rv_dead_sticky_refuted_F34 : forall c,
  fix_clone c = false -> tx_clone c = true -> ~ rv_dead_sticky_full c.
Proof. exact rv_dead_sticky_refuted_F34. Qed.

Theorem C04_rv_dead_sticky_except_F07_F34_F35 : forall c a ops1 s1 tr1 ops2 s2 tr2,
  run_sat conv_ok c (init a) ops1 -> run c (init a) ops1 = (s1, tr1) -> dead s1 ->
  run_sat op_ok c s1 ops2 -> run c s1 ops2 = (s2, tr2) ->
  dead s2 /\ (forall v, ~ In (EHand v) (evs_of tr2))
  /\ (forall o r e, In (o, r, e) tr2 -> forall v, r <> OVal v).
Proof. exact rv_dead_sticky_except. Qed.

(* the hypotheses of the except-theorems are satisfiable on histories that do convert, clone and
   poll -- just not on a closed handle *)
Example C04_rv_except_example :
  run_sat op_ok mpmc_cfg (init false)
    [Clone 0 2; Conv 0; Conv 1; MkRecv 10 1; Poll 10 0; MkSend 11 0 100; Poll 11 1; Close 0; Conv 2;
     Close 2; Poll 10 0; Clone 1 3; DropH 1]
  /\ snd (fst (step mpmc_cfg (fst (run mpmc_cfg (init false)
        [Clone 0 2; Conv 0; Conv 1; MkRecv 10 1; Poll 10 0; MkSend 11 0 100; Poll 11 1; Close 0; Conv 2;
         Close 2; Poll 10 0; Clone 1 3; DropH 1])) (TryRecv 3))) = ODisc.
Proof.
  vm_compute. repeat split; auto;
    right; intros x Hx Hr; inversion Hx; subst; try discriminate; reflexivity.
Qed.

(* non-vacuity: two sender clones, one closes (invisible), the other still hands off; after the last
   one closes the parked receiver is woken with Disconnected and try_send on the closed handle fails *)
Example C04_rv_example :
  map (fun t => (snd (fst t), snd t))
      (snd (run (fixed mpmc_cfg) (init true)
             [Clone 0 2; MkRecv 10 1; Poll 10 7; Close 0; TrySend 2 100; Poll 10 7; Poll 10 7;
              Close 2; Poll 10 7; TrySend 2 101; Close 2]))
  = [(ONone, []); (ONone, []); (OPending, []); (OOk, []);
     (OOk, [EIntro 100; EOffer 100; EHand 100; EAck 100; EWake 7]); (OReadyVal 100, [ERecv 100]);
     (OPending, []); (OOk, [EWake 7]); (OReadyDisc, []); (OClosedV 101, [EIntro 101; EBack 101]);
     (OCloseErr, [])].
Proof. vm_compute. reflexivity. Qed.
