(* Props/C09_oneshot.v — pinned theorems: C09 (value dropped exactly once) for fibre::oneshot. *)
From Coq Require Import List Arith Permutation.
From Fibre Require Import Chan.OneshotOps Proofs.OneshotOpsProofs Proofs.OneshotOpsTheorems.
Import ListNotations.
Open Scope nat_scope.

Theorem C09_oneshot_one_place : forall cf ops,
  let s := oreach cf ops in
  Permutation (orecv s ++ sent_val (ostate s) ++ oret s ++ odrop s) (seq 0 (onext s)).
Proof. exact (fun cf ops => oconservation_inv cf _ (oreach_inv cf ops)). Qed.

(* every teardown order: once every sender handle and the receiver are gone the slot is empty and each id is
   exactly one of received / handed back / dropped (by receiver close-or-drop, the last sender, or the
   shared state's Drop) *)
Theorem C09_oneshot_teardown : forall cf ops,
  let s := oreach cf ops in
  snd_h s = [] -> rcv s = RcvGone ->
  sent_val (ostate s) = [] /\ futs s = [] /\
  Permutation (orecv s ++ oret s ++ odrop s) (seq 0 (onext s)) /\ NoDup (orecv s ++ oret s ++ odrop s).
Proof. exact (fun cf ops => oneshot_teardown cf _ (oreach_inv cf ops)). Qed.

(* the value is dropped by the receiver's close, by its drop, or handed to it: one example per path *)
Example C09_oneshot_example_close : orun_case ocfg_repo [OSend 0; OCloseR]
  = [(OOk, []); (OOk, [ODrop 0]); (OOk, [])].
Proof. vm_compute. reflexivity. Qed.
Example C09_oneshot_example_drop : orun_case ocfg_repo [OClone 0; OSend 0; ODropR; OSend 1]
  = [(OOk, []); (OOk, []); (OOk, [ODrop 0]); (OClosedV 1, []); (OGone, [])].
Proof. vm_compute. reflexivity. Qed.
