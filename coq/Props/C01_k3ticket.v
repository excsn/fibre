(* Props/C01_k3ticket.v — pinned statements: C01 (exactly-once delivery, failed operations have no
   effect) for the K3 model of the bounded MPSC ticket protocol (mpsc::bounded_v3), for every
   capacity, chunk size, table size, cadence, number of producers, programs and schedule. *)
From Fibre Require Import Common.Base Common.Conc Chan.TicketK3 Proofs.TicketK3Base Proofs.TicketK3Values
  Proofs.TicketK3Theorems Proofs.TicketK3Examples.

(* conservation: the accepted payloads (SET tickets, in ticket order) are exactly the ones the
   consumer has taken followed by the ones still buffered; nothing is lost, nothing invented *)
Theorem C01_k3ticket_conservation :
  forall cap cc n kk np pp cp sch, 0 < cc -> 0 < n ->
  let s := fst (Conc.run (sys cap cc n kk np pp cp) (init np pp cp) sch) in
  accepted s = received s ++ vals_in s (rpos s) (gtail s).
Proof.
  intros cap cc n kk np pp cp sch Hcc Hn s. apply (accepted_is_received_then_buffered cap cc n kk np Hcc Hn pp cp). exists sch. reflexivity.
Qed.

(* exactly once: no payload is taken twice, no payload is accepted twice *)
Theorem C01_k3ticket_no_duplicate :
  forall cap cc n kk np pp cp sch, 0 < cc -> 0 < n ->
  let s := fst (Conc.run (sys cap cc n kk np pp cp) (init np pp cp) sch) in
  NoDup (received s) /\ NoDup (accepted s).
Proof.
  intros cap cc n kk np pp cp sch Hcc Hn s.
  assert (Hr : reachable (sys cap cc n kk np pp cp) s) by (exists sch; reflexivity).
  split; [exact (received_nodup cap cc n kk np Hcc Hn pp cp s Hr) | exact (accepted_nodup cap cc n kk np Hcc Hn pp cp s Hr)].
Qed.

(* API level: what the receive calls returned (+ the payloads in the consumer's hand) is what was taken *)
Theorem C01_k3ticket_got_is_received :
  forall cap cc n kk np pp cp sch, 0 < cc -> 0 < n ->
  let s := fst (Conc.run (sys cap cc n kk np pp cp) (init np pp cp) sch) in
  got s ++ chand s = received s.
Proof.
  intros cap cc n kk np pp cp sch Hcc Hn s. apply (got_is_received cap cc n kk np Hcc Hn pp cp). exists sch. reflexivity.
Qed.

(* API level: a try_send that returned Ok put its payload into the channel; every payload in the
   channel belongs to such a call, or to one whose SET store is done and that is about to return Ok *)
Theorem C01_k3ticket_sent_ok_accepted :
  forall cap cc n kk np pp cp sch th v, 0 < cc -> 0 < n ->
  let s := fst (Conc.run (sys cap cc n kk np pp cp) (init np pp cp) sch) in
  In v (sent_ok s th) -> In v (accepted s).
Proof.
  intros cap cc n kk np pp cp sch th v Hcc Hn s. apply (sent_ok_is_accepted cap cc n kk np Hcc Hn pp cp). exists sch. reflexivity.
Qed.

Theorem C01_k3ticket_accepted_sent_or_in_flight :
  forall cap cc n kk np pp cp sch th k, 0 < cc -> 0 < n ->
  let s := fst (Conc.run (sys cap cc n kk np pp cp) (init np pp cp) sch) in
  In (th, k) (accepted s) -> In (th, k) (sent_ok s th) \/ (pseq s th < k <= pseq s th + done_of (ppc s th)).
Proof.
  intros cap cc n kk np pp cp sch th k Hcc Hn s. apply (accepted_is_sent_or_in_flight cap cc n kk np Hcc Hn pp cp). exists sch. reflexivity.
Qed.

Theorem C01_k3ticket_in_flight_accepted :
  forall cap cc n kk np pp cp sch th i, 0 < cc -> 0 < n ->
  let s := fst (Conc.run (sys cap cc n kk np pp cp) (init np pp cp) sch) in
  i < done_of (ppc s th) -> In (th, pseq s th + 1 + i) (accepted s).
Proof.
  intros cap cc n kk np pp cp sch th i Hcc Hn s. apply (in_flight_is_accepted cap cc n kk np Hcc Hn pp cp). exists sch. reflexivity.
Qed.

(* a try_send / an item of a try_send_batch that was answered Full (or Closed) was handed back and
   left no SET in the channel *)
Theorem C01_k3ticket_failed_send_no_effect :
  forall cap cc n kk np pp cp sch th v, 0 < cc -> 0 < n ->
  let s := fst (Conc.run (sys cap cc n kk np pp cp) (init np pp cp) sch) in
  In v (failed s th) -> ~ In v (accepted s).
Proof.
  intros cap cc n kk np pp cp sch th v Hcc Hn s. apply (failed_send_no_effect cap cc n kk np Hcc Hn pp cp). exists sch. reflexivity.
Qed.

(* every call of a producer returns one result carrying its own op number *)
Theorem C01_k3ticket_results_are_own_ops :
  forall cap cc n kk np pp cp sch th r, 0 < cc -> 0 < n ->
  let s := fst (Conc.run (sys cap cc n kk np pp cp) (init np pp cp) sch) in
  In r (presl s th) ->
  exists k, 1 <= k <= pseq s th /\ (r = POk (th, k) \/ r = PFull (th, k) \/ r = PClosed (th, k)).
Proof.
  intros cap cc n kk np pp cp sch th r Hcc Hn s. apply (results_are_own_ops cap cc n kk np Hcc Hn pp cp). exists sch. reflexivity.
Qed.

(* a SKIP tombstone never carries a payload *)
Theorem C01_k3ticket_skip_has_no_payload :
  forall cap cc n kk np pp cp sch j i, 0 < cc -> 0 < n ->
  let s := fst (Conc.run (sys cap cc n kk np pp cp) (init np pp cp) sch) in
  j < n -> i < cc -> sstate s (j * cc + i) = sSKIP -> sdata s (j * cc + i) = None.
Proof.
  intros cap cc n kk np pp cp sch j i Hcc Hn s. apply (skip_has_no_payload cap cc n kk np Hcc Hn pp cp). exists sch. reflexivity.
Qed.

Example C01_k3ticket_ex :
  presl ex_s 0 = [POk (0%nat, 1); PFull (0%nat, 2); POk (0%nat, 3); POk (0%nat, 4); PFull (0%nat, 5)] /\
  presl ex_s 1 = [PFull (1%nat, 1); PFull (1%nat, 2); POk (1%nat, 3); PClosed (1%nat, 4); PClosed (1%nat, 5)] /\
  got ex_s = [(0%nat, 1); (0%nat, 3); (1%nat, 3)] /\
  ppc ex_s 0 = PDone /\ ppc ex_s 1 = PDone /\ cpc ex_s = CDone.
Proof. exact ex_results. Qed.

Example C01_k3ticket_ex_batch :
  presl exb_s 0 = [POk (0%nat, 1); POk (0%nat, 2); PFull (0%nat, 3); PFull (0%nat, 4); PFull (0%nat, 5);
                   POk (0%nat, 6); POk (0%nat, 7)] /\
  cresl exb_s = [REmpty; RVal (0%nat, 1); RVal (0%nat, 2); REmpty; REmpty; RVal (0%nat, 6); RVal (0%nat, 7); RDisc; RDisc; RDisc] /\
  tk exb_s 2 = TSkip /\ tk exb_s 3 = TSkip /\ ids exb_s 0 = 2 /\ bad exb_s = false.
Proof. destruct exb_results as (H1 & _ & H3 & _ & _ & H6 & H7 & _ & _ & _ & _ & _ & H13 & H14 & _). exact (conj H1 (conj H3 (conj H6 (conj H7 (conj H13 H14))))). Qed.
