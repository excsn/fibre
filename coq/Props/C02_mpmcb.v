(* Props/C02_mpmcb.v — pinned theorems for property C02 (FIFO order) on the bounded MPMC K2 model. *)
From Fibre Require Import Common.Base Chan.MpmcB Proofs.MpmcBBase Proofs.MpmcBInv Proofs.MpmcBStep Proofs.MpmcBProofs.

(* forward simulation to the FIFO spec: in every history, the ids accepted so far, in acceptance
   order, are exactly the ids received so far, in receive order, followed by the buffer content *)
Theorem C02_mpmcb_fifo : forall c a f os,
  let s := state_after c a f os in acc s = recvd s ++ q s.
Proof. exact mpmcb_fifo. Qed.

(* every successful receive form returns the head of the queue (handles: see C01_mpmcb_recv_results;
   futures: ) and every successful send appends at the tail *)
Theorem C02_mpmcb_future_recv_head : forall fid w x s,
  let r := poll_recv fid w x s in
  match snd r with
  | RReadyVal v => q s = v :: q (fst r) /\ recvd (fst r) = recvd s ++ [v]
  | RReadyDisc => q (fst r) = q s /\ recvd (fst r) = recvd s /\
                  ((q s = [] /\ sc s = 0) \/ (fx08 (fx s) = false /\ (q s <> [] -> t08 (tn (fst r)) = true)))
  | RPending => q (fst r) = q s /\ recvd (fst r) = recvd s /\ q s = [] /\ sc s <> 0
  | _ => False
  end.
Proof. intros fid w x s. apply (poll_recv_shape fid w x s). Qed.

Theorem C02_mpmcb_future_send_tail : forall fid w x s,
  let r := poll_send fid w x s in
  sc (fst r) = sc s /\ recvd (fst r) = recvd s /\ (q (fst r) = q s \/ exists v, q (fst r) = q s ++ [v]).
Proof. intros fid w x s. apply poll_send_shape. Qed.

(* non-vacuity: wrap-around on a non-power-of-two capacity, two senders, a future in between *)
Example C02_mpmcb_example :
  let r := run (init 3 true no_fixes)
               [Clone 0 2; TrySend 0; TrySend 2; TrySend 0; TryRecv 1; TrySend 2; MkRecv 10 1; Poll 10 5;
                TryRecv 1; TryRecv 1; TrySend 0; TryRecv 1] in
  recvd (fst r) = [0; 1; 2; 3; 4] /\ acc (fst r) = [0; 1; 2; 3; 4] /\ q (fst r) = [].
Proof. vm_compute. repeat split; reflexivity. Qed.
