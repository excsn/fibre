(* Props/C13.v — pinned theorems for property C13 (capacity is enforced and
   current_cost matches residency), sequential (K2) part.
   Only statements, `exact`, examples. *)
From Fibre Require Import Common.Base Cache.PolicySpec Cache.PolicyLru Cache.AMap
     Cache.CacheOps Cache.CacheSpec Proofs.CacheCoreProofs Proofs.CacheStepProofs Proofs.CacheC13Proofs.

(** * current_cost = cost of the resident entries, after every sequential operation *)

(* [st_cc] is metrics.current_cost as a mathematical integer (the u64 is st_cc mod
   2^64: the code's fetch_sub wraps); [resident_cost] sums the cost of every entry
   of every shard map. *)

(* FULL statement [C13_cost_full] for every policy and operation sequence, when
   capacity cleanup's accounting is exact: with the F-18 patch (subtract the cost
   of the entries actually removed), or on an unbounded cache *)
Theorem C13_cost_fixed : forall (P : policy) (c : cfg),
  0 < c_shards c -> exact_cost c -> C13_cost_full P c.
Proof. intros P c Hn Hx now0 ops. exact (c13_cost P c Hn now0 ops Hx). Qed.

(* the code as found refutes it, four ways (stale event, Fifo old cost, partial drain, dropped event) *)
Theorem C13_cost_refuted_F28 : ~ C13_cost_full LruP (c13_cfg 3).
Proof. exact c13_cost_refuted_F28. Qed.

Theorem C13_cost_refuted_F29 : ~ C13_cost_full FifoP (c13_cfg 10).
Proof. exact c13_cost_refuted_F29. Qed.

Theorem C13_cost_refuted_F34 : ~ C13_cost_full LruP (c13_cfg 4).
Proof. exact c13_cost_refuted_F34. Qed.

Theorem C13_cost_refuted_lossy : ~ C13_cost_full LruP (c13_cfg_intro 4).
Proof. exact c13_cost_refuted_lossy. Qed.

(* what holds of the code as found: no operation other than a maintenance pass
   (capacity cleanup) moves current_cost away from the resident cost; clear resets both *)
Theorem C13_cost_except : forall (P : policy) (c : cfg) (s : state P) (o : op),
  0 < c_shards c -> wfp P c s -> is_maint o = false ->
  drift P c (fst (step P c s o)) = (match o with OClear => 0 | _ => drift P c s end)%Z.
Proof.
  intros P c s o Hn Hw Hm.
  destruct o; try (apply (c13_step P c Hn); [exact Hw | right; exact Hm | discriminate]). apply c13_clear. exact Hn.
Qed.

(** * capacity after maintenance *)

(* The run-level statement [C13_capacity_full]: after run_maintenance, with every
   Write event drained and none ever dropped, resident cost <= capacity.  The code
   as found refutes it (the policy tracks a key that is no longer resident, F-28;
   Fifo believes an old cost, F-29): *)
Theorem C13_capacity_refuted_F28 : ~ C13_capacity_full LruP (c13_cfg 3).
Proof. exact c13_capacity_refuted_F28. Qed.

Theorem C13_capacity_refuted_F29 : ~ C13_capacity_full FifoP (c13_cfg 10).
Proof. exact c13_capacity_refuted_F29. Qed.

(* What is proved: capacity cleanup on a shard whose policy is IN SYNC with its map
   (tracks exactly the resident entries at their costs — the precise content of
   "every write event reached the policy", and of F-28/F-29 being absent), for any
   policy satisfying C14's evict clause: the accounting stays exact, the shard
   stays in sync, and afterwards the cache is within capacity or this shard is
   empty.  (With one shard: within capacity.)  Holds with or without the patches. *)
Theorem C13_capacity_shard : forall (P : policy) (c : cfg) (s : state P) (i : N),
  0 < c_shards c -> wfp P c s -> i < c_shards c ->
  st_cc P s = resident_cost P c s -> (resident_cost P c s < Z.of_N U64)%Z ->
  in_sync P s i -> evict_ok_at P s i ->
  let s' := cleanup_cap P c i s in
  st_cc P s' = resident_cost P c s'
  /\ in_sync P s' i
  /\ (forall j, j <> i -> smap P s' j = smap P s j)
  /\ ((resident_cost P c s' <= Z.of_N (c_cap c))%Z \/ smap P s' i = []).
Proof. intros P c s i Hn. exact (c13_capacity_shard P c Hn s i). Qed.

(* the evict clause holds at every in-sync state of the recency-list policies *)
Theorem C13_Lru_evict_ok : forall (c : cfg) (s : state LruP) (i : N), in_sync LruP s i -> evict_ok_at LruP s i.
Proof. exact lru_evict_ok_at. Qed.

Theorem C13_Fifo_evict_ok : forall (c : cfg) (s : state FifoP) (i : N), in_sync FifoP s i -> evict_ok_at FifoP s i.
Proof. exact fifo_evict_ok_at. Qed.

(* non-vacuity of the capacity lemma: three inserts, one pass; the shard is in sync
   before capacity cleanup, and within capacity after *)
Definition c13_cap_cfg : cfg := mkCfg 1 3 None None 60 1 false true false false no_fixes.
Definition c13_cap_s : state LruP :=
  perform LruP c13_cap_cfg 0 COOP_LIMIT []
          (state_after LruP c13_cap_cfg 1000 [OInsert 1 100 2; OInsert 2 101 2; OInsert 3 102 1]).
Example C13_capacity_example :
  in_sync LruP c13_cap_s 0
  /\ resident_cost LruP c13_cap_cfg c13_cap_s = 5%Z
  /\ resident_cost LruP c13_cap_cfg (cleanup_cap LruP c13_cap_cfg 0 c13_cap_s) = 3%Z.
Proof.
  split; [|split; vm_compute; reflexivity].
  split; [vm_compute; repeat constructor; cbn; intuition discriminate|].
  intros k. vm_compute.
  destruct k as [|[[p|p|]|[p|p|]|]]; reflexivity.
Qed.

(* non-vacuity: overwrites with new costs, removal, capacity eviction, an item larger than capacity *)
Definition c13_ex_cfg : cfg := mkCfg 2 3 None None 60 1 false true false false all_fixes.
Example C13_example :
  let s := state_after LruP c13_ex_cfg 1000
             [OInsert 1 100 1; OInsert 1 101 2; OInsert 2 102 2; ORemove 2; OMaint [];
              OInsert 3 103 4; OInsert 4 104 1; OMaint []; OInsert 5 105 1] in
  (st_cc LruP s, resident_cost LruP c13_ex_cfg s) = (1%Z, 1%Z).
Proof. vm_compute. reflexivity. Qed.
