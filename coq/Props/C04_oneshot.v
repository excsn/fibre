(* Props/C04_oneshot.v — pinned theorems: C04 (disconnect protocol) for fibre::oneshot. *)
From Coq Require Import List Arith.
From Fibre Require Import Chan.OneshotOps Proofs.OneshotOpsProofs Proofs.OneshotOpsTheorems.
Import ListNotations.
Open Scope nat_scope.

Theorem C04_oneshot_no_value_after_disc : forall cf ops o,
  let s := oreach cf ops in o_disc s = true -> o_is_val (ores_of (ostep cf s o)) = false.
Proof. exact (fun cf ops o => oneshot_no_value_after_disc cf _ o (oreach_inv cf ops)). Qed.

Theorem C04_oneshot_value_before_disc : forall cf s o,
  OInv cf s -> rcv s = RcvLive false -> ores_of (ostep cf s o) = ODisc -> oacc s = orecv s.
Proof. exact oneshot_value_before_disc. Qed.

Theorem C04_oneshot_send_after_receiver_left : forall cf s h c,
  rdrop s = true -> find_h h (snd_h s) = Some c ->
  ores_of (ostep cf s (OSend h)) = OClosedV (onext s) /\ oacc (fst (ostep cf s (OSend h))) = oacc s.
Proof. exact oneshot_send_after_receiver_left. Qed.

Theorem C04_oneshot_rdrop_is_receiver_left : forall cf ops,
  rdrop (oreach cf ops) = rcv_closed (rcv (oreach cf ops)).
Proof. exact (fun cf ops => i_rdrop _ _ (oreach_inv cf ops)). Qed.

(* closing / dropping one of several open clones disconnects nothing *)
Theorem C04_oneshot_clone_isolation : forall cf s h h' (o : oop),
  OInv cf s -> h <> h' ->
  find_h h (snd_h s) = Some false -> find_h h' (snd_h s) = Some false ->
  o = OCloseS h \/ o = ODropS h ->
  ostate (fst (ostep cf s o)) = ostate s /\ rdrop (fst (ostep cf s o)) = rdrop s /\
  find_h h' (snd_h (fst (ostep cf s o))) = Some false.
Proof. exact oneshot_clone_isolation. Qed.

Theorem C04_oneshot_closed_handle_rejects : forall cf s,
  (forall h, find_h h (snd_h s) = Some true ->
     ores_of (ostep cf s (OSend h)) = OClosedV (onext s) /\
     oacc (fst (ostep cf s (OSend h))) = oacc s /\
     ores_of (ostep cf s (OCloseS h)) = OCloseErr) /\
  (rcv s = RcvLive true ->
     ores_of (ostep cf s OTryRecv) = ODisc /\ ores_of (ostep cf s OCloseR) = OCloseErr /\
     forall f w, mem_f f (futs s) = true -> ores_of (ostep cf s (OPoll f w)) = ODisc).
Proof. exact oneshot_closed_handle_rejects. Qed.

Theorem C04_oneshot_inv_reachable : forall cf ops, OInv cf (oreach cf ops).
Proof. exact oreach_inv. Qed.

Example C04_oneshot_example :
  map fst (orun_case ocfg_repo [OClone 0; OCloseS 0; OCloseS 0; OTryRecv; OSend 0; ODropS 1; OTryRecv; OTryRecv])
  = [OOk; OOk; OCloseErr; OEmptyR; OClosedV 0; OOk; ODisc; ODisc; OOk].
Proof. vm_compute. reflexivity. Qed.
