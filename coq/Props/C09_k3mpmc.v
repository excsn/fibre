(* Props/C09_k3mpmc.v — pinned statements: C09 (record liveness) for the K3' model of the bounded MPMC
   channel's sync paths, repaired configuration: a waiter-queue entry never points to a finished
   frame, so the wake CAS of a lock holder never touches a dead `done_flag` (`bad = false`); with
   the F-02 repair no unreachable!() either.  Every capacity, thread count, program, schedule. *)
From Coq Require Import List Arith.
From Fibre Require Import Common.Conc Chan.MpmcK3 Proofs.MpmcK3Base Proofs.MpmcK3Wake4 Proofs.MpmcK3Examples.
Import ListNotations.

Theorem C09_k3mpmc_no_bad :
  forall cap cf th sch, rearm_after_steal cf = true -> redrain_on_close cf = true ->
  let s := fst (run (sys cap cf th) (init th) sch) in bad s = false.
Proof. intros cap cf th sch H1 H2 s. apply (no_bad cap cf th s H1 H2). exists sch. reflexivity. Qed.

(* every linked record (u, g) is the CURRENT done_flag (generation g) of thread u, whose stack frame
   holding it is alive; nobody is linked twice *)
Theorem C09_k3mpmc_linked_records_live :
  forall cap cf th sch, rearm_after_steal cf = true -> redrain_on_close cf = true ->
  let s := fst (run (sys cap cf th) (init th) sch) in
  (forall u g, In (u, g) (wr s) -> g = gen s u /\ in_frame (pcs s u) = true) /\
  (forall u g, In (u, g) (ws s) -> g = gen s u /\ in_frame (pcs s u) = true) /\
  NoDup (map fst (wr s)) /\ NoDup (map fst (ws s)).
Proof. intros cap cf th sch H1 H2 s. apply (linked_records_live cap cf th s H1 H2). exists sch. reflexivity. Qed.

(* regression witness (F-02): without re-arming the deadline path of the old recv_timeout reaches
   unreachable!() (modelled as bad := true) *)
Theorem C09_k3mpmc_refuted_without_rearm :
  ~ (forall cap th sch, bad (fst (run (sys cap (mkCfg false true) th) (init th) sch)) = false).
Proof.
  intros H. pose proof (proj1 w02_panics_without_rearm) as X.
  rewrite (H 1 w02p_th w02p_sch : bad (w02p (mkCfg false true)) = false) in X. discriminate X.
Qed.

Example C09_k3mpmc_ex_clean : bad ex_s3 = false /\ discbad ex_s3 = false /\ q ex_s3 = [].
Proof. destruct ex_completes as (_ & A & B & C & _). auto. Qed.
