(* Common/Lists.v — NoDup under append, filter and map: the few facts several engines need that the
   standard library (8.16) does not state.  Opens no scope, so the nat-based K3 proofs can import it. *)
From Coq Require Import List.
Import ListNotations.

Lemma NoDup_app_l {A} (a b : list A) : NoDup (a ++ b) -> NoDup a.
Proof.
  induction a as [|x a IH]; cbn [app]; intros H; [constructor|].
  inversion H as [|? ? Hx Hn]; subst. constructor; [|exact (IH Hn)].
  intros Hi. apply Hx, in_or_app. left. exact Hi.
Qed.

Lemma NoDup_app_r {A} (a b : list A) : NoDup (a ++ b) -> NoDup b.
Proof.
  induction a as [|x a IH]; cbn [app]; intros H; [exact H|].
  inversion H; subst. auto.
Qed.

Lemma NoDup_app_intro {A} (a b : list A) :
  NoDup a -> NoDup b -> (forall x, In x a -> ~ In x b) -> NoDup (a ++ b).
Proof.
  induction a as [|x a IH]; cbn [app]; intros Ha Hb Hd; [exact Hb|].
  inversion Ha as [|? ? Hx Hn]; subst. constructor.
  - intros Hi. apply in_app_or in Hi. destruct Hi as [Hi|Hi]; [exact (Hx Hi)|].
    exact (Hd x (or_introl eq_refl) Hi).
  - apply IH; [exact Hn | exact Hb |]. intros y Hy. apply Hd. right. exact Hy.
Qed.

Lemma NoDup_snoc {A} (l : list A) x : NoDup l -> ~ In x l -> NoDup (l ++ [x]).
Proof.
  intros Hl Hx. apply NoDup_app_intro; [exact Hl | constructor; [intros []|constructor] |].
  intros y Hy [<-|[]]. exact (Hx Hy).
Qed.

Lemma NoDup_map_filter {A B} (f : A -> B) (p : A -> bool) l :
  NoDup (map f l) -> NoDup (map f (filter p l)).
Proof.
  induction l as [|a l IH]; cbn [map filter]; intros H; [constructor|].
  inversion H as [|? ? Ha Hn]; subst. destruct (p a); [|exact (IH Hn)].
  cbn [map]. constructor; [|exact (IH Hn)].
  intros Hi. apply Ha. apply in_map_iff in Hi. destruct Hi as (y & E & Hy).
  apply filter_In in Hy. apply in_map_iff. exists y. tauto.
Qed.
