(* Common/Base.v — shared list / N helpers of the models and their proofs.
   Stdlib only.  No axioms. *)
From Coq Require Export List NArith ZArith Lia Bool Permutation.
From Fibre Require Export Common.Lists.
From Coq Require Import ZifyBool ZifyNat ZifyN.
Export ListNotations.
Open Scope N_scope.

Arguments N.add : simpl never.
Arguments N.sub : simpl never.
Arguments N.mul : simpl never.
Arguments N.eqb : simpl never.
Arguments N.ltb : simpl never.
Arguments N.leb : simpl never.

(** key/cost association lists *)
Definition kc := (N * N)%type.

Definition keys (l : list kc) : list N := map fst l.

Fixpoint total (l : list kc) : N :=
  match l with [] => 0 | (_, c) :: t => c + total t end.

Fixpoint lookup (k : N) (l : list kc) : option N :=
  match l with
  | [] => None
  | (k', c) :: t => if N.eqb k k' then Some c else lookup k t
  end.

Fixpoint rm (k : N) (l : list kc) : list kc :=
  match l with
  | [] => []
  | (k', c) :: t => if N.eqb k k' then rm k t else (k', c) :: rm k t
  end.

Definition mem (k : N) (l : list N) : bool := existsb (N.eqb k) l.

Definition cost_of (l : list kc) (k : N) : N :=
  match lookup k l with Some c => c | None => 0 end.

Fixpoint sumN (l : list N) : N :=
  match l with [] => 0 | x :: t => x + sumN t end.

Definition without (vs : list N) (l : list kc) : list kc :=
  filter (fun p => negb (mem (fst p) vs)) l.

(** basic facts *)
Lemma mem_In k l : mem k l = true <-> In k l.
Proof.
  unfold mem. rewrite existsb_exists. split.
  - intros [x [Hx He]]. apply N.eqb_eq in He. subst. exact Hx.
  - intros H. exists k. split; [exact H | apply N.eqb_refl].
Qed.

Lemma mem_false_In k l : mem k l = false <-> ~ In k l.
Proof.
  rewrite <- mem_In. destruct (mem k l); split; intros H.
  - discriminate.
  - exfalso. apply H. reflexivity.
  - intros H2. discriminate.
  - reflexivity.
Qed.

Lemma lookup_In k l c : lookup k l = Some c -> In (k, c) l.
Proof.
  induction l as [|[k' c'] t IH]; cbn [lookup]; intros H; [discriminate|].
  destruct (N.eqb_spec k k') as [->|Hn].
  - inversion H; subst. left. reflexivity.
  - right. apply IH. exact H.
Qed.

Lemma lookup_None k l : lookup k l = None <-> ~ In k (keys l).
Proof.
  induction l as [|[k' c'] t IH]; cbn [lookup keys map fst].
  - split; auto.
  - destruct (N.eqb_spec k k') as [->|Hn].
    + split; [discriminate | intros H; exfalso; apply H; left; reflexivity].
    + rewrite IH. unfold keys. split.
      * intros H [He|Hi]; [congruence | auto].
      * intros H Hi. apply H. right. exact Hi.
Qed.

Lemma lookup_Some_keys k l c : lookup k l = Some c -> In k (keys l).
Proof.
  intros H. destruct (in_dec N.eq_dec k (keys l)) as [Hi|Hn]; [exact Hi|].
  apply lookup_None in Hn. congruence.
Qed.

Lemma In_keys_lookup k l : In k (keys l) -> exists c, lookup k l = Some c.
Proof.
  intros H. destruct (lookup k l) eqn:E; [eauto|].
  apply lookup_None in E. contradiction.
Qed.

Lemma NoDup_lookup k c l : NoDup (keys l) -> In (k, c) l -> lookup k l = Some c.
Proof.
  induction l as [|[k' c'] t IH]; cbn [lookup keys map fst]; intros Hnd Hin; [contradiction|].
  inversion Hnd as [|? ? Hni Hnd']; subst.
  destruct Hin as [He|Hin].
  - inversion He; subst. rewrite N.eqb_refl. reflexivity.
  - destruct (N.eqb_spec k k') as [->|Hn].
    + exfalso. apply Hni. change (In k' (keys t)). unfold keys.
      apply in_map_iff. exists (k', c). auto.
    + apply IH; assumption.
Qed.

Lemma rm_keys_subset k l x : In x (keys (rm k l)) -> In x (keys l) /\ x <> k.
Proof.
  induction l as [|[k' c'] t IH]; cbn [rm keys map fst]; intros H; [contradiction|].
  destruct (N.eqb_spec k k') as [->|Hn].
  - destruct (IH H) as [A B]. split; [right; exact A | exact B].
  - cbn [keys map fst] in H. destruct H as [He|Hi].
    + subst. split; [left; reflexivity | congruence].
    + destruct (IH Hi) as [A B]. split; [right; exact A | exact B].
Qed.

Lemma rm_keys_keep k l x : In x (keys l) -> x <> k -> In x (keys (rm k l)).
Proof.
  induction l as [|[k' c'] t IH]; cbn [rm keys map fst]; intros H Hne; [contradiction|].
  destruct (N.eqb_spec k k') as [->|Hn].
  - destruct H as [He|Hi]; [congruence | apply IH; assumption].
  - cbn [keys map fst]. destruct H as [He|Hi]; [left; exact He | right; apply IH; assumption].
Qed.

Lemma rm_not_in k l : ~ In k (keys (rm k l)).
Proof. intros H. apply rm_keys_subset in H. destruct H. congruence. Qed.

Lemma rm_NoDup k l : NoDup (keys l) -> NoDup (keys (rm k l)).
Proof.
  induction l as [|[k' c'] t IH]; cbn [rm keys map fst]; intros H; [constructor|].
  inversion H as [|? ? Hni Hnd]; subst.
  destruct (N.eqb_spec k k') as [->|Hn]; [apply IH; exact Hnd|].
  cbn [keys map fst]. constructor; [|apply IH; exact Hnd].
  intros Hi. apply rm_keys_subset in Hi. destruct Hi. contradiction.
Qed.

Lemma rm_id k l : ~ In k (keys l) -> rm k l = l.
Proof.
  induction l as [|[k' c'] t IH]; cbn [rm keys map fst]; intros H; [reflexivity|].
  destruct (N.eqb_spec k k') as [->|Hn]; [exfalso; apply H; left; reflexivity|].
  f_equal. apply IH. intros Hi. apply H. right. exact Hi.
Qed.

Lemma lookup_rm_same k l : lookup k (rm k l) = None.
Proof. apply lookup_None. apply rm_not_in. Qed.

Lemma lookup_rm_other k x l : x <> k -> lookup x (rm k l) = lookup x l.
Proof.
  intros Hne. induction l as [|[k' c'] t IH]; cbn [rm lookup]; [reflexivity|].
  destruct (N.eqb_spec k k') as [->|Hn].
  - destruct (N.eqb_spec x k'); [congruence | exact IH].
  - cbn [lookup]. destruct (N.eqb_spec x k'); [reflexivity | exact IH].
Qed.

Lemma total_app a b : total (a ++ b) = total a + total b.
Proof. induction a as [|[k c] t IH]; cbn [app total]; lia. Qed.

Lemma total_rm k l : NoDup (keys l) -> total (rm k l) + cost_of l k = total l.
Proof.
  unfold cost_of.
  induction l as [|[k' c'] t IH]; cbn [rm total lookup keys map fst]; intros H; [reflexivity|].
  inversion H as [|? ? Hni Hnd]; subst.
  destruct (N.eqb_spec k k') as [->|Hn].
  - rewrite rm_id by exact Hni. lia.
  - cbn [total]. specialize (IH Hnd). lia.
Qed.

Lemma total_perm a b : Permutation a b -> total a = total b.
Proof.
  induction 1 as [| [k c] l l' _ IH | [k c] [k' c'] l | l l' l'' _ IH1 _ IH2];
    cbn [total]; lia.
Qed.

Lemma keys_perm a b : Permutation a b -> Permutation (keys a) (keys b).
Proof. apply Permutation_map. Qed.

Lemma NoDup_keys_perm a b : Permutation a b -> NoDup (keys a) -> NoDup (keys b).
Proof. intros P H. eapply Permutation_NoDup; [apply keys_perm; exact P | exact H]. Qed.

Lemma lookup_perm a b k : NoDup (keys a) -> Permutation a b -> lookup k a = lookup k b.
Proof.
  intros Hnd P.
  assert (Hnd' : NoDup (keys b)) by (eapply NoDup_keys_perm; eauto).
  destruct (lookup k a) eqn:Ea.
  - symmetry. apply NoDup_lookup; [exact Hnd'|].
    eapply Permutation_in; [exact P | apply lookup_In; exact Ea].
  - symmetry. apply lookup_None. apply lookup_None in Ea. intros Hi. apply Ea.
    eapply Permutation_in; [apply Permutation_sym, keys_perm; exact P | exact Hi].
Qed.

Lemma keys_app a b : keys (a ++ b) = keys a ++ keys b.
Proof. apply map_app. Qed.

Lemma keys_rev a : keys (rev a) = rev (keys a).
Proof. apply map_rev. Qed.

Lemma total_rev a : total (rev a) = total a.
Proof. apply total_perm. apply Permutation_sym, Permutation_rev. Qed.

Lemma without_nil l : without [] l = l.
Proof.
  unfold without. induction l as [|p t IH]; cbn [filter mem existsb negb]; [reflexivity|].
  f_equal. exact IH.
Qed.

Lemma rm_filter k l : rm k l = filter (fun p => negb (N.eqb k (fst p))) l.
Proof.
  induction l as [|[k' c'] t IH]; cbn [rm filter fst]; [reflexivity|].
  destruct (N.eqb k k'); cbn [negb]; rewrite IH; reflexivity.
Qed.
